(* C18 - open types (ANY DEFINED BY) resolve by governing value and round-trip.  Statements only.

   Model/OpenType.v: enc_open = the SEQUENCE/SET encoders' open-type wrapping (as repaired by
   fixes/F50.diff, fixes/F51.diff); dec_open = decode followed by the decoder's second pass.
   The codec round trip itself is a premise here ([roundtrips c defMode chunk T], the statement of the
   round-trip properties C01/C02 for one type); F01 is the class where that premise is false. *)
From PV Require Import Base.Bytes Model.Types Model.Enc Model.Dec Model.OpenType Proofs.OpenType Proofs.OpenTypeWitness.
From PV Require Import Model.OpenTypeDef Proofs.OpenTypeDef.
From PV Require Import Model.OpenTypeMap Proofs.OpenTypeMap.
From PV Require Import Model.TableTypes Gen.Tables Proofs.RoundTrip1 Proofs.RoundTrip3b Proofs.RoundTrip3e Proofs.RoundTripModesC Proofs.RoundTripModes Proofs.RoundTripModes3 Proofs.OpenTypeRT.
Local Open Scope N_scope.

(* ---- with resolution off, or an unmapped governing value, the member holds exactly the complete
        encoding of the inner value (for a mandatory member: encode c defMode chunk Ti xi; for an
        OPTIONAL one under CER/DER the encoding made with the member's own options) ---- *)
Theorem C18_raw_is_complete_encoding :
  forall c defm ck T fs gi oi p ft pg gT vs g Ti xi ce dflt override dot wire,
  rec_fields T = Some fs -> nth_error fs oi = Some (p, ft) -> nth_error fs gi = Some (pg, gT) ->
  is_any ft = true -> not_def p -> not_def pg -> gi <> oi -> (oi < length vs)%nat ->
  nth gi vs None = Some g -> gov_ok gT g = true ->
  concrete_encoder c T = Ok ce -> sorts_members (fst ce) = false -> holds_blob ft Ti = false ->
  roundtrips c defm ck T ->
  enc_open c defm ck T oi (VRec vs) true [(Ti, xi)] = Ok wire ->
  ((dot = false /\ override = []) \/ resolve_type override dflt g = None) ->
  exists mo chunk vs' fv,
    member_opts c defm ck T p = Ok mo /\ enc c Ti mo xi = Ok chunk /\
    (is_opt p = false -> encode c defm ck Ti xi = Ok chunk) /\
    dec_open c T gi oi dflt override dot wire = Ok (DV T (VRec vs'), []) /\
    nth oi vs' None = Some fv /\ octets_of fv = Some chunk.
Proof. exact raw_is_complete_encoding. Qed.
Print Assumptions C18_raw_is_complete_encoding.

(* ---- with resolution on and the governing value mapped to Ti, the member comes back as the inner
        value decoded as Ti ---- *)
Theorem C18_resolved :
  forall c defm ck T fs gi oi p ft pg gT vs g Ti xi ce dflt override dot wire chunk,
  rec_fields T = Some fs -> nth_error fs oi = Some (p, ft) -> nth_error fs gi = Some (pg, gT) ->
  is_any ft = true -> not_def p -> is_opt p = false -> not_def pg -> gi <> oi -> (oi < length vs)%nat ->
  nth gi vs None = Some g -> gov_ok gT g = true ->
  concrete_encoder c T = Ok ce -> sorts_members (fst ce) = false -> holds_blob ft Ti = false ->
  roundtrips c defm ck T -> roundtrips c defm ck Ti ->
  enc_open c defm ck T oi (VRec vs) true [(Ti, xi)] = Ok wire ->
  encode c defm ck Ti xi = Ok chunk -> no_eoo_prefix chunk = true ->
  (dot = true \/ override <> []) -> resolve_type override dflt g = Some Ti ->
  exists w vs',
    dec_open c T gi oi dflt override dot wire
      = Ok (DV (subst_field T oi Ti) (VRec (set_nth oi (Some w) vs')), []) /\
    aval_eqb (abs Ti w) (abs Ti xi) = true.
Proof. exact resolved. Qed.
Print Assumptions C18_resolved.

(* ---- a caller-supplied map entry wins over the default map, whatever that says, and switches
        resolution on even without decodeOpenTypes ---- *)
Theorem C18_override_wins :
  forall c defm ck T fs gi oi p ft pg gT vs g Ti xi ce dflt override dot wire chunk,
  rec_fields T = Some fs -> nth_error fs oi = Some (p, ft) -> nth_error fs gi = Some (pg, gT) ->
  is_any ft = true -> not_def p -> is_opt p = false -> not_def pg -> gi <> oi -> (oi < length vs)%nat ->
  nth gi vs None = Some g -> gov_ok gT g = true ->
  concrete_encoder c T = Ok ce -> sorts_members (fst ce) = false -> holds_blob ft Ti = false ->
  roundtrips c defm ck T -> roundtrips c defm ck Ti ->
  enc_open c defm ck T oi (VRec vs) true [(Ti, xi)] = Ok wire ->
  encode c defm ck Ti xi = Ok chunk -> no_eoo_prefix chunk = true ->
  omap_find g override = Some Ti ->
  exists w vs',
    dec_open c T gi oi dflt override dot wire
      = Ok (DV (subst_field T oi Ti) (VRec (set_nth oi (Some w) vs')), []) /\
    aval_eqb (abs Ti w) (abs Ti xi) = true.
Proof. exact override_wins_resolved. Qed.
Print Assumptions C18_override_wins.

Theorem C18_override_lookup : forall override dflt g E,
  omap_find g override = Some E -> resolve_type override dflt g = Some E.
Proof. exact override_wins. Qed.
Print Assumptions C18_override_lookup.

(* ---- the same on the wire: any bytes whose plain decoding reads like the record with the wrapped
        chunk in the open member (this covers CER/DER SETs, whose members enc_open re-orders, and
        OPTIONAL members) ---- *)
Theorem C18_raw_on_wire :
  forall c T fs gi oi p ft gT pg,
  rec_fields T = Some fs -> nth_error fs oi = Some (p, ft) -> nth_error fs gi = Some (pg, gT) ->
  is_any ft = true -> not_def p -> not_def pg ->
  forall vs g chunk, nth gi vs None = Some g -> gov_ok gT g = true -> gi <> oi -> (oi < length vs)%nat ->
  forall dflt override dot wire v',
  decode c (Some T) wire = Ok (DV T v', []) ->
  aval_eqb (abs T v') (abs T (VRec (set_nth oi (Some (VAny chunk)) vs))) = true ->
  resolve_type override dflt g = None ->
  exists vs' fv, dec_open c T gi oi dflt override dot wire = Ok (DV T (VRec vs'), [])
                 /\ nth oi vs' None = Some fv /\ octets_of fv = Some chunk.
Proof. exact raw_when_unmapped. Qed.
Print Assumptions C18_raw_on_wire.

Theorem C18_resolved_on_wire :
  forall c T fs gi oi p ft gT pg,
  rec_fields T = Some fs -> nth_error fs oi = Some (p, ft) -> nth_error fs gi = Some (pg, gT) ->
  is_any ft = true -> not_def p -> not_def pg ->
  forall vs g chunk, nth gi vs None = Some g -> gov_ok gT g = true -> gi <> oi -> (oi < length vs)%nat ->
  forall dflt override dot wire v',
  decode c (Some T) wire = Ok (DV T v', []) ->
  aval_eqb (abs T v') (abs T (VRec (set_nth oi (Some (VAny chunk)) vs))) = true ->
  forall E w, (dot = true \/ override <> []) -> resolve_type override dflt g = Some E ->
  no_eoo_prefix chunk = true -> decode c (Some E) chunk = Ok (DV E w, []) ->
  exists vs', dec_open c T gi oi dflt override dot wire
              = Ok (DV (subst_field T oi E) (VRec (set_nth oi (Some w) vs')), [])
              /\ v' = VRec vs'.
Proof. exact resolved_when_mapped. Qed.
Print Assumptions C18_resolved_on_wire.

(* ---- SEQUENCE OF / SET OF ANY members: every element ---- *)
Theorem C18_raw_list :
  forall c defm ck T fs gi oi p ft t pg gT vs g inners dflt override dot wire,
  rec_fields T = Some fs -> nth_error fs oi = Some (p, ft) -> nth_error fs gi = Some (pg, gT) ->
  list_elem ft = Some t -> is_any t = true -> not_def p -> not_def pg -> gi <> oi -> (oi < length vs)%nat ->
  nth gi vs None = Some g -> gov_ok gT g = true ->
  Forall (fun i => holds_blob t (fst i) = false) inners ->
  roundtrips c defm ck T ->
  enc_open c defm ck T oi (VRec vs) true inners = Ok wire ->
  ((dot = false /\ override = []) \/ resolve_type override dflt g = None) ->
  exists vs' ys,
    dec_open c T gi oi dflt override dot wire = Ok (DV T (VRec vs'), []) /\
    nth oi vs' None = Some (VList ys) /\ length ys = length inners /\
    Forall (fun y => exists Ti xi ch, In (Ti, xi) inners /\ encode c defm ck Ti xi = Ok ch /\ octets_of y = Some ch) ys.
Proof. exact raw_list_is_complete_encodings. Qed.
Print Assumptions C18_raw_list.

Theorem C18_resolved_list :
  forall c defm ck T fs gi oi p ft t pg gT vs g E xs dflt override dot wire,
  rec_fields T = Some fs -> nth_error fs oi = Some (p, ft) -> nth_error fs gi = Some (pg, gT) ->
  list_elem ft = Some t -> is_any t = true -> not_def p -> not_def pg -> gi <> oi -> (oi < length vs)%nat ->
  nth gi vs None = Some g -> gov_ok gT g = true ->
  holds_blob t E = false ->
  roundtrips c defm ck T -> roundtrips c defm ck E ->
  enc_open c defm ck T oi (VRec vs) true (map (fun x => (E, x)) xs) = Ok wire ->
  (forall x ch, In x xs -> encode c defm ck E x = Ok ch -> no_eoo_prefix ch = true) ->
  (dot = true \/ override <> []) -> resolve_type override dflt g = Some E ->
  exists vs' ws,
    dec_open c T gi oi dflt override dot wire
      = Ok (DV (subst_field T oi (retype_list ft E)) (VRec (set_nth oi (Some (VList ws)) vs')), []) /\
    length ws = length xs /\
    Forall (fun w => exists x, In x xs /\ aval_eqb (abs E w) (abs E x) = true) ws.
Proof. exact resolved_list_elements. Qed.
Print Assumptions C18_resolved_list.

(* ---- allowEoo, which the indefinite-length second pass sets, is immaterial for octets that do not
        start with the end-of-octets marker ---- *)
Theorem C18_allow_eoo_immaterial : forall c allow sp b,
  no_eoo_prefix b = true -> decode_eoo c allow sp b = decode c sp b.
Proof. exact decode_eoo_any. Qed.
Print Assumptions C18_allow_eoo_immaterial.

(* ---- refuted classes ---- *)

(* F01 (open, pinned by the suite): [1] EXPLICIT INTEGER as the inner type in indefinite mode - the
   round-trip premise is false ... *)
Theorem C18_roundtrip_premise_refuted_F01 : ~ roundtrips BER false 0 (TExp (mkTag Ctx true 1) TInt).
Proof. exact f01_inner_roundtrip_fails. Qed.
Print Assumptions C18_roundtrip_premise_refuted_F01.

(* ... and the property fails: the record ends at the stray 00 00, two octets are left over *)
Theorem C18_resolved_refuted_F01 :
  exists wire, enc_open BER false 0 T1 1 (VRec [Some (VInt 5); None]) true [(Tx, VInt 5)] = Ok wire
  /\ f01_top Tx = true
  /\ (exists d, dec_open BER T1 0 1 m7 [] true wire = Ok (d, [0;0]))
  /\ (exists vs', dec_open BER T1 0 1 m7 [] false wire = Ok (DV T1 (VRec vs'), [0;0])
                 /\ nth 1 vs' None = Some (VAny [161;3;2;1;5])
                 /\ encode BER false 0 Tx (VInt 5) = Ok [161;3;2;1;5;0;0]).
Proof. exact f01_open_record. Qed.
Print Assumptions C18_resolved_refuted_F01.

(* F50, the encoder before fixes/F50.diff: a typed value carrying the tags of the wrapping ANY was
   emitted unwrapped - the member holds the contents octets only and resolution fails *)
Theorem C18_unwrapped_refuted_F50 :
  f50_class (TExp (mkTag Ctx true 3) TAny) Ti50 = true
  /\ encode BER true 0 Ti50 (VInt 5) = Ok [131;1;5]
  /\ encode BER true 0 T50_unwrapped (VRec [Some (VInt 6); Some (VInt 5)]) = Ok [48;6;2;1;6;131;1;5]
  /\ dec_open BER T50 0 1 [(VInt 6, Ti50)] [] false [48;6;2;1;6;131;1;5]
     = Ok (DV T50 (VRec [Some (VInt 6); Some (VAny [5])]), [])
  /\ dec_open BER T50 0 1 [(VInt 6, Ti50)] [] true [48;6;2;1;6;131;1;5] = Err EEndOfStream.
Proof. exact f50_unrepaired_refuted. Qed.
Print Assumptions C18_unwrapped_refuted_F50.

(* F51, the CER/DER SET encoder before fixes/F51.diff: elements of an open SEQUENCE OF [3] ANY member
   were emitted unwrapped - the record cannot be decoded *)
Theorem C18_unwrapped_refuted_F51 :
  encode DER true 0 T51_unwrapped (VRec [Some (VInt 2); Some (VList [VOcts [97]])]) = Ok [49;8;2;1;2;48;3;4;1;97]
  /\ dec_open DER T51 0 1 [(VInt 2, TOcts)] [] false [49;8;2;1;2;48;3;4;1;97] = Err EMalformed.
Proof. exact f51_unrepaired_refuted. Qed.
Print Assumptions C18_unwrapped_refuted_F51.

(* ---- non-vacuity ---- *)

Example C18_example_integer_keyed :
  enc_open BER true 0 T1 1 (VRec [Some (VInt 1); None]) true [(TInt, VInt 12)] = Ok [48;6;2;1;1;2;1;12]
  /\ encode BER true 0 TInt (VInt 12) = Ok [2;1;12]
  /\ dec_open BER T1 0 1 m1 [] true [48;6;2;1;1;2;1;12]
     = Ok (DV (TSeq [(Req, TInt); (Req, TInt)]) (VRec [Some (VInt 1); Some (VInt 12)]), [])
  /\ dec_open BER T1 0 1 m1 [] false [48;6;2;1;1;2;1;12]
     = Ok (DV T1 (VRec [Some (VInt 1); Some (VAny [2;1;12])]), []).
Proof. exact ex_int_keyed. Qed.
Print Assumptions C18_example_integer_keyed.

Example C18_example_unmapped :
  resolve_type [] m1 (VInt 3) = None
  /\ dec_open BER T1 0 1 m1 [] true [48;6;2;1;3;2;1;12]
     = Ok (DV T1 (VRec [Some (VInt 3); Some (VAny [2;1;12])]), []).
Proof. exact ex_unmapped. Qed.
Print Assumptions C18_example_unmapped.

Example C18_example_override :
  resolve_type [(VInt 1, TOcts)] m1 (VInt 1) = Some TOcts
  /\ enc_open BER true 0 T1 1 (VRec [Some (VInt 1); None]) true [(TOcts, VOcts [12])] = Ok [48;6;2;1;1;4;1;12]
  /\ dec_open BER T1 0 1 m1 [(VInt 1, TOcts)] false [48;6;2;1;1;4;1;12]
     = Ok (DV (TSeq [(Req, TInt); (Req, TOcts)]) (VRec [Some (VInt 1); Some (VOcts [12])]), []).
Proof. exact ex_override. Qed.
Print Assumptions C18_example_override.

Example C18_example_oid_keyed_explicit_constructed_cer :
  enc_open CER true 0 T2 0 (VRec [None; Some (VOid [1;3;6;1;2])]) true [(Tin2, VRec [Some (VInt 5); Some (VBool true)])] = Ok wire2
  /\ encode CER true 0 Tin2 (VRec [Some (VInt 5); Some (VBool true)]) = Ok [48;128;2;1;5;1;1;255;0;0]
  /\ dec_open CER T2 1 0 m2 [] true wire2
     = Ok (DV (TSeq [(Req, Tin2); (Req, TOid)]) (VRec [Some (VRec [Some (VInt 5); Some (VBool true)]); Some (VOid [1;3;6;1;2])]), [])
  /\ dec_open CER T2 1 0 m2 [] false wire2
     = Ok (DV T2 (VRec [Some (VAny [48;128;2;1;5;1;1;255;0;0]); Some (VOid [1;3;6;1;2])]), []).
Proof. exact ex_oid_keyed_cer. Qed.
Print Assumptions C18_example_oid_keyed_explicit_constructed_cer.

Example C18_example_set_of_implicit_der :
  enc_open DER true 0 T5 1 (VRec [Some (VInt 1); None]) true [(TInt, VInt 256); (TInt, VInt 1)]
    = Ok [48;16;2;1;1;49;11;131;3;2;1;1;131;4;2;2;1;0]
  /\ dec_open DER T5 0 1 m1 [] true [48;16;2;1;1;49;11;131;3;2;1;1;131;4;2;2;1;0]
     = Ok (DV (TSeq [(Req, TInt); (Req, TSetOf TInt)]) (VRec [Some (VInt 1); Some (VList [VInt 1; VInt 256])]), []).
Proof. exact ex_set_of_der. Qed.
Print Assumptions C18_example_set_of_implicit_der.

Example C18_example_sorted_set_der :
  enc_open DER true 0 T6 1 (VRec [Some (VInt 1); None]) true [(TBool, VBool true)] = Ok [49;8;163;3;1;1;255;2;1;1]
  /\ encode DER true 0 T6 (VRec [Some (VInt 1); Some (VAny [1;1;255])]) = Ok [49;8;2;1;1;163;3;1;1;255]
  /\ dec_open DER T6 0 1 [(VInt 1, TBool)] [] true [49;8;163;3;1;1;255;2;1;1]
     = Ok (DV (TSet [(Req, TInt); (Req, TBool)]) (VRec [Some (VInt 1); Some (VBool true)]), []).
Proof. exact ex_sorted_set_der. Qed.
Print Assumptions C18_example_sorted_set_der.

Example C18_example_premises_hold :
  rec_fields T1 = Some [(Req, TInt); (Req, TAny)] /\ is_any TAny = true /\ gov_ok TInt (VInt 1) = true
  /\ holds_blob TAny TInt = false /\ no_eoo_prefix [2;1;12] = true
  /\ (exists ce, concrete_encoder BER T1 = Ok ce /\ sorts_members (fst ce) = false).
Proof. exact ex_premises. Qed.
Print Assumptions C18_example_premises_hold.

Example C18_example_repaired_F50_F51 :
  (enc_open BER true 0 T50 1 (VRec [Some (VInt 6); None]) true [(Ti50, VInt 5)] = Ok [48;8;2;1;6;163;3;131;1;5]
   /\ dec_open BER T50 0 1 [(VInt 6, Ti50)] [] true [48;8;2;1;6;163;3;131;1;5]
      = Ok (DV (TSeq [(Req, TInt); (Req, Ti50)]) (VRec [Some (VInt 6); Some (VInt 5)]), []))
  /\ (enc_open DER true 0 T51 1 (VRec [Some (VInt 2); None]) true [(TOcts, VOcts [97])] = Ok [49;10;2;1;2;48;5;163;3;4;1;97]
      /\ dec_open DER T51 0 1 [(VInt 2, TOcts)] [] true [49;10;2;1;2;48;5;163;3;4;1;97]
         = Ok (DV (TSet [(Req, TInt); (Req, TSeqOf TOcts)]) (VRec [Some (VInt 2); Some (VList [VOcts [97]])]), [])).
Proof. split; [exact (conj (proj1 (proj2 f50_repaired)) (proj1 (proj2 (proj2 f50_repaired)))) | exact f51_repaired]. Qed.
Print Assumptions C18_example_repaired_F50_F51.

(* ---- governing member declared DEFAULT or OPTIONAL (Model/OpenTypeDef.v: dec_open_d, the decoder the
        harness compares with).  The theorems above speak of a governing member that was decoded; there
        the extended second pass is the same function ---- *)
Theorem C18_governing_present_unchanged : forall c allow T fs gi oi dflt override vs g,
  nth gi vs None = Some g ->
  second_pass_d c allow T fs gi oi dflt override vs = second_pass c allow T fs gi oi dflt override vs.
Proof. exact second_pass_d_present. Qed.
Print Assumptions C18_governing_present_unchanged.

(* a DEFAULT governing member whose value equals the default is not in the encoding (no codec emits it):
   the open member is resolved exactly as in the record that holds the default explicitly *)
Theorem C18_defaulted_governing_as_explicit : forall c allow T fs gi oi dflt override vs p ft fv d gT,
  nth_error fs oi = Some (p, ft) -> nth oi vs None = Some fv ->
  nth_error fs gi = Some (Def d, gT) -> nth gi vs None = None ->
  second_pass_d c allow T fs gi oi dflt override vs
  = second_pass c allow T fs gi oi dflt override (set_nth gi (Some d) vs).
Proof. exact second_pass_d_defaulted. Qed.
Print Assumptions C18_defaulted_governing_as_explicit.

(* the value the decoder resolves by is the governing value of the specification (explicit, else the default) *)
Theorem C18_governing_value_is_effective : forall fs gi vs pg gT g,
  nth_error fs gi = Some (pg, gT) -> gov_value fs gi vs = Ok g -> effective_gov pg (nth gi vs None) = Some g.
Proof. exact gov_value_is_effective. Qed.
Print Assumptions C18_governing_value_is_effective.

(* an OPTIONAL governing member left out: there is no governing value; the decoder raises once resolution is on *)
Theorem C18_no_governing_value : forall c allow T fs gi oi dflt override vs p ft fv gT,
  nth_error fs oi = Some (p, ft) -> nth oi vs None = Some fv ->
  nth_error fs gi = Some (Opt, gT) -> nth gi vs None = None ->
  second_pass_d c allow T fs gi oi dflt override vs = Err EMalformed.
Proof. exact second_pass_d_no_governing_value. Qed.
Print Assumptions C18_no_governing_value.

Example C18_example_defaulted_governing :
  enc_open BER true 0 TD1 1 (VRec [Some (VInt 1); None]) true [(Pt, pt)] = Ok [48;8;48;6;2;1;3;2;1;252]
  /\ enc_open BER true 0 TD1 1 (VRec [None; None]) true [(Pt, pt)] = Ok [48;8;48;6;2;1;3;2;1;252]
  /\ expected_type (Def (VInt 1)) None md [] true = Some Pt
  /\ dec_open_d BER TD1 0 1 md [] true [48;8;48;6;2;1;3;2;1;252]
     = Ok (DV (TSeq [(Def (VInt 1), TInt); (Req, Pt)]) (VRec [Some (VInt 1); Some pt]), [])
  /\ dec_open_d BER TD1 0 1 md [] false [48;8;48;6;2;1;3;2;1;252]
     = Ok (DV TD1 (VRec [None; Some (VAny [48;6;2;1;3;2;1;252])]), []).
Proof. exact ex_defaulted_ber. Qed.
Print Assumptions C18_example_defaulted_governing.

Example C18_example_defaulted_governing_set_of_der :
  enc_open DER true 0 TD2 1 (VRec [Some (VInt 1); None]) true [(Pt, pt)] = Ok [49;12;49;10;163;8;48;6;2;1;3;2;1;252]
  /\ dec_open_d DER TD2 0 1 md [] true [49;12;49;10;163;8;48;6;2;1;3;2;1;252]
     = Ok (DV (TSet [(Def (VInt 1), TInt); (Req, TSetOf Pt)]) (VRec [Some (VInt 1); Some (VList [pt])]), []).
Proof. exact ex_defaulted_set_of_der. Qed.
Print Assumptions C18_example_defaulted_governing_set_of_der.

(* ---- the declared type map is the caller's dict itself, consulted as it is at decode time
        (Model/OpenTypeMap.v: map_now m0 history; the harness hands the decoder model that map) ---- *)

(* whatever the dict held when the type was defined - nothing, in the usual schema module - a value
   registered afterwards resolves, and one removed afterwards does not *)
Theorem C18_registered_later_resolves : forall m0 ops g t, gov_eqb g g = true ->
  resolve_type [] (map_now m0 (ops ++ [MSet g t])) g = Some t.
Proof. exact registered_later_resolves. Qed.
Print Assumptions C18_registered_later_resolves.

Theorem C18_removed_later_unmapped : forall m0 ops g,
  resolve_type [] (map_now m0 (ops ++ [MDel g])) g = None.
Proof. exact removed_later_unmapped. Qed.
Print Assumptions C18_removed_later_unmapped.

(* a write concerns its own key only *)
Theorem C18_write_leaves_other_keys : forall m g t g', gov_eqb g' g = false ->
  omap_find g' (map_step m (MSet g t)) = omap_find g' m /\ omap_find g' (map_step m (MDel g)) = omap_find g' m.
Proof. intros m g t g' H. split; [exact (find_after_set_other m g t g' H) | exact (find_after_del_other m g g' H)]. Qed.
Print Assumptions C18_write_leaves_other_keys.

(* OpenType objects made over one dict at different moments show the same content *)
Theorem C18_views_agree : forall m0 h1 h2 h1' h2', h1 ++ h2 = h1' ++ h2' -> view_of m0 h1 h2 = view_of m0 h1' h2'.
Proof. exact views_agree. Qed.
Print Assumptions C18_views_agree.

Example C18_example_defined_empty_then_filled :
  dec_open_live BER TL1 0 1 [] [MSet (VInt 3) Pt] [] true [48;11;2;1;3;48;6;2;1;3;2;1;252]
    = Ok (DV (TSeq [(Req, TInt); (Req, Pt)]) (VRec [Some (VInt 3); Some pt]), [])
  /\ dec_open_live BER TL1 0 1 [] [] [] true [48;11;2;1;3;48;6;2;1;3;2;1;252]
    = Ok (DV TL1 (VRec [Some (VInt 3); Some (VAny [48;6;2;1;3;2;1;252])]), [])
  /\ dec_open_live DER TL2 0 1 [] [MSet (VInt 5) TNull; MSet (VInt 3) Pt] [] true [49;15;2;1;3;49;10;163;8;48;6;2;1;3;2;1;252]
    = Ok (DV (TSet [(Req, TInt); (Req, TSetOf Pt)]) (VRec [Some (VInt 3); Some (VList [pt])]), []).
Proof. exact ex_defined_empty_then_filled. Qed.
Print Assumptions C18_example_defined_empty_then_filled.

Example C18_example_replaced_and_removed :
  dec_open_live BER TL1 0 1 [(VInt 3, TOcts)] [MSet (VInt 3) Pt] [] true [48;11;2;1;3;48;6;2;1;3;2;1;252]
    = Ok (DV (TSeq [(Req, TInt); (Req, Pt)]) (VRec [Some (VInt 3); Some pt]), [])
  /\ dec_open_live BER TL1 0 1 [(VInt 3, Pt)] [MDel (VInt 3)] [] true [48;11;2;1;3;48;6;2;1;3;2;1;252]
    = Ok (DV TL1 (VRec [Some (VInt 3); Some (VAny [48;6;2;1;3;2;1;252])]), []).
Proof. exact ex_replaced_and_removed. Qed.
Print Assumptions C18_example_replaced_and_removed.

(* ---- unconditional: without the premise [roundtrips] on the record ---- *)

(* For every record type of the universe holding an open member (a tagged or untagged ANY governed by an
   INTEGER/OID member), every governing value, every mapped inner type of the universe and every inner
   value, every mode (mode_ok: definite with any decoder, or any stable mode with the BER/CER decoders):
   encoding the record with the typed inner value and decoding it with resolution on (or a caller's
   override map) returns - read against the type whose open member has the mapped type - the record
   that was sent with the typed inner value in the open member.  hole_val: the other members are
   values of the universe; inner_kept: finding F24 does not swallow an empty inner value of an OPTIONAL
   open member under CER/DER; inner_definite / anys_ok / no_f01: the conditions of the indefinite-mode
   round trip. *)
Theorem C18_open_resolved_record : forall (ce cd : codec) (d : bool) (k : N) (srt : bool),
  mode_ok ce cd d k ->
  forall (T : ty) (fs : list (presence * ty)) (gi oi : nat) (p : presence) (ft : ty) (pg : presence) (gT : ty),
  RoundTrip3b.stage3_ty srt ce T = true ->
  (d = false -> RoundTripModes.no_f01 T = true) ->
  rec_fields T = Some fs ->
  nth_error fs oi = Some (p, ft) ->
  nth_error fs gi = Some (pg, gT) ->
  is_any ft = true ->
  OpenType.not_def p -> OpenType.not_def pg -> gi <> oi ->
  keeps_order ce T \/ ce = DER ->
  forall (vs : list (option val)) (g : val),
  hole_val ce cd d T oi vs = true ->
  nth gi vs None = Some g ->
  OpenType.gov_ok gT g = true ->
  forall (Ti : ty) (xi : val),
  RoundTrip3b.stage3_ty srt ce Ti = true ->
  RoundTrip3b.stage3_val ce cd Ti xi = true ->
  holds_blob ft Ti = false ->
  inner_kept ce p Ti xi ->
  (d = false -> inner_definite ce d k Ti xi) ->
  forall wire : bytes,
  enc_open ce d k T oi (VRec vs) true [(Ti, xi)] = Ok wire ->
  (N.of_nat (length wire) <= index_max)%N ->
  (d = false -> RoundTripModes.no_f01 Ti = true) ->
  (d = false -> RoundTripModes3.anys_ok Ti xi = true) ->
  forall (dflt : omap) (override : list (val * ty)) (dot : bool),
  dot = true \/ override <> [] ->
  resolve_type override dflt g = Some Ti ->
  exists rv : val,
    dec_open cd T gi oi dflt override dot wire = Ok (DV (subst_field T oi Ti) rv, []) /\
    RoundTrip3e.aeq (abs (subst_field T oi Ti) rv) (abs (subst_field T oi Ti) (VRec (set_nth oi (Some xi) vs))) /\
    (srt = false -> abs (subst_field T oi Ti) rv = abs (subst_field T oi Ti) (VRec (set_nth oi (Some xi) vs))).
Proof. exact open_resolved_record. Qed.
Print Assumptions C18_open_resolved_record.

(* with resolution off and no override, or an unmapped governing value: the member holds exactly the
   complete encoding of the inner value, and everything else in the record is as it was sent *)
Theorem C18_open_raw : forall (ce cd : codec) (d : bool) (k : N) (srt : bool),
  mode_ok ce cd d k ->
  forall (T : ty) (fs : list (presence * ty)) (gi oi : nat) (p : presence) (ft : ty) (pg : presence) (gT : ty),
  RoundTrip3b.stage3_ty srt ce T = true ->
  (d = false -> RoundTripModes.no_f01 T = true) ->
  rec_fields T = Some fs ->
  nth_error fs oi = Some (p, ft) ->
  nth_error fs gi = Some (pg, gT) ->
  is_any ft = true ->
  OpenType.not_def p -> OpenType.not_def pg -> gi <> oi ->
  keeps_order ce T \/ ce = DER ->
  forall (vs : list (option val)) (g : val),
  hole_val ce cd d T oi vs = true ->
  nth gi vs None = Some g ->
  OpenType.gov_ok gT g = true ->
  forall (Ti : ty) (xi : val),
  RoundTrip3b.stage3_ty srt ce Ti = true ->
  RoundTrip3b.stage3_val ce cd Ti xi = true ->
  holds_blob ft Ti = false ->
  inner_kept ce p Ti xi ->
  (d = false -> inner_definite ce d k Ti xi) ->
  forall wire : bytes,
  enc_open ce d k T oi (VRec vs) true [(Ti, xi)] = Ok wire ->
  (N.of_nat (length wire) <= index_max)%N ->
  forall (dflt : omap) (override : list (val * ty)) (dot : bool),
  dot = false /\ override = [] \/ resolve_type override dflt g = None ->
  exists (chunk : bytes) (vs' : list (option val)) (fv : val),
    encode ce d k Ti xi = Ok chunk /\
    dec_open cd T gi oi dflt override dot wire = Ok (DV T (VRec vs'), []) /\
    nth oi vs' None = Some fv /\
    octets_of fv = Some chunk /\
    RoundTrip3e.aeq (abs T (VRec vs')) (abs T (VRec (set_nth oi (Some (VAny chunk)) vs))) /\
    (srt = false -> abs T (VRec vs') = abs T (VRec (set_nth oi (Some (VAny chunk)) vs))).
Proof. exact open_raw. Qed.
Print Assumptions C18_open_raw.

(* non-vacuity: Proofs/OpenTypeRT.v, Examples open_resolved_record_nonvacuous_A .. F (DER->BER with an OID key, untagged
   ANY under BER with a caller's override, CER->BER, a SET OF ANY inside a DER SET, a defaulted governing member, a sorted DER SET) *)
