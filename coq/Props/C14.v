(* C14 - Constraints mean what set theory says and cannot be bypassed.
   Only statements closed by [exact]; proofs live in Proofs/Constraint*.v, the evaluator as coded
   in Model/Constraint.v, the set-theoretic reading in Spec/SetTheory.v. *)
From PV Require Import Model.Constraint Spec.SetTheory
  Proofs.ConstraintInd Proofs.ConstraintDenote Proofs.ConstraintSubtype Proofs.ConstraintInitializer.
Local Open Scope Z_scope.

(* A well-formed constraint expression of any depth, applied to a value it is applicable to,
   admits exactly the values in its set-theoretic denotation ... *)
Theorem C14_denotation : forall c idx x,
  wf c = true -> typed c idx x = true -> (ceval c idx x = Pass <-> denote c idx x).
Proof. exact ceval_iff_denote. Qed.
Print Assumptions C14_denotation.

(* ... rejects every other value with ValueConstraintError ... *)
Theorem C14_rejection : forall c idx x,
  wf c = true -> typed c idx x = true -> ~ denote c idx x -> ceval c idx x = Fail.
Proof. exact ceval_rejects_cleanly. Qed.
Print Assumptions C14_rejection.

(* ... and never raises a built-in exception. *)
Theorem C14_no_crash : forall c idx x k,
  wf c = true -> typed c idx x = true -> ceval c idx x <> Crash k.
Proof. exact ceval_no_crash. Qed.
Print Assumptions C14_no_crash.

Example C14_denotation_nonvacuous :
  let c := CAnd [COr [CRange 0 10; CSingle [SInt 20; SInt 30]];
                 CExcl [CSingle [SInt 5]; CRange 7 8];
                 CContained [CRange (-100) 100] [] []] in
  wf c = true
  /\ typed c None (VS (SInt 5)) = true /\ ceval c None (VS (SInt 5)) = Fail
  /\ typed c None (VS (SInt 6)) = true /\ ceval c None (VS (SInt 6)) = Pass
  /\ ceval c None (VS (SInt 30)) = Pass /\ ceval c None (VS (SInt 8)) = Fail
  /\ (let w := CWith [(SText [97%N], CAnd [CPresent; CSize 1 2]); (SText [98%N], CAbsent)] in
      let r := VMap [(SText [97%N], SBytes [1%N; 2%N])] in
      wf w = true /\ typed w None r = true /\ ceval w None r = Pass
      /\ ceval w None (VMap [(SText [97%N], SBytes [1%N; 2%N; 3%N])]) = Fail
      /\ ceval w None (VMap [(SText [97%N], SBytes [1%N]); (SText [98%N], SInt 0)]) = Fail)
  /\ (let a := CAnd [CAlpha [SText [97%N]; SText [98%N]]; CSize 1 3] in
      wf a = true /\ typed a None (VS (SText [97%N; 98%N])) = true
      /\ ceval a None (VS (SText [97%N; 98%N])) = Pass
      /\ ceval a None (VS (SText [97%N; 99%N])) = Fail
      /\ ceval a None (VS (SText [97%N; 97%N; 97%N; 97%N])) = Fail).
Proof. vm_compute. repeat split. Qed.

(* A type derived by adding constraints (any number of subtype() steps, any tagging) admits a
   subset of its parent's values ... *)
Theorem C14_subset : forall parent child,
  derives_any parent child -> forall x, admits child x -> admits parent x.
Proof. exact derived_subset. Qed.
Print Assumptions C14_subset.

(* ... also as far as the evaluator itself goes (no applicability hypothesis) ... *)
Theorem C14_subset_evaluated : forall s new idx x,
  ceval (sp_constr (sp_add s new)) idx x = Pass -> ceval (sp_constr s) idx x = Pass.
Proof. exact step_accepts_subset. Qed.
Print Assumptions C14_subset_evaluated.

(* ... and (code as repaired by fixes/F14.diff) is recognised by every ancestor as its subtype,
   with and without explicit tags, so that its values can be assigned where the ancestor is
   expected. *)
Theorem C14_recognised : forall parent child,
  derives parent child -> type_is_super true true parent child = true.
Proof. exact derived_recognised. Qed.
Print Assumptions C14_recognised.

Theorem C14_assignable : forall parent child, derives parent child -> assignable parent child = true.
Proof. exact derived_assignable. Qed.
Print Assumptions C14_assignable.

(* Finding F14: ConstraintsIntersection.__add__ as it was before the repair flattens the operands
   and records nothing, and a constrained parent does not recognise its own derivation. *)
Theorem C14_recognised_unrepaired_refuted :
  exists p new, truthy (sp_constr p) = true /\ wf new = true
                /\ spec_is_super p (sp_add_unrepaired p new) = false
                /\ spec_is_super p (sp_add p new) = true.
Proof. exact unrepaired_not_recognised. Qed.
Print Assumptions C14_recognised_unrepaired_refuted.

Example C14_derivation_nonvacuous :
  let T0 := mkSType [mkTag Univ false 2] (spec_of [CRange 0 100]) in
  let T1 := mkSType [mkTag Univ false 2] (sp_add (st_spec T0) (CRange 10 50)) in
  let T2 := mkSType [mkTag Univ false 2; mkTag Ctx true 3]
                    (sp_add (st_spec T1) (CSingle [SInt 20; SInt 30])) in
  subtype_step T0 NoTag (Some (CRange 10 50)) = Ok T1
  /\ subtype_step T1 (ExplicitTag (mkTag Ctx false 3)) (Some (CSingle [SInt 20; SInt 30])) = Ok T2
  /\ derives T0 T2
  /\ type_is_super true true T0 T2 = true /\ type_is_super true true T1 T2 = true
  /\ type_is_super true true T2 T0 = false
  /\ construct T2 (SInt 20) = Ok (SInt 20) /\ construct T2 (SInt 40) = Err EConstraint
  /\ construct T0 (SInt 40) = Ok (SInt 40).
Proof.
  intros T0 T1 T2.
  assert (H1: subtype_step T0 NoTag (Some (CRange 10 50)) = Ok T1) by reflexivity.
  assert (H2: subtype_step T1 (ExplicitTag (mkTag Ctx false 3)) (Some (CSingle [SInt 20; SInt 30]))
              = Ok T2) by reflexivity.
  split; [exact H1|]. split; [exact H2|]. split.
  - eapply derives_step; [eapply derives_step; [apply derives_refl|left; reflexivity|exact H1]
                         |right; eexists; reflexivity|exact H2].
  - vm_compute. repeat split.
Qed.

(* No value-producing operation of the scalar types gets round the constraints: clone, subtype,
   arithmetic, slicing, concatenation, repetition, shifts all end in the constructor of the result
   type, so they return an error or a value that type's constraints accepted (for subtype: also
   the parent's). *)
Theorem C14_no_bypass :
  (forall T v, checked_by T (op_clone T v))
  /\ (forall T s v, checked_by (mkSType (st_tags T) s) (op_clone_spec T s v))
  /\ (forall T tg new v,
        match subtype_step T tg new with
        | Ok T' => checked_by T' (op_subtype T tg new v) /\ checked_by T (op_subtype T tg new v)
        | Err _ => exists e, op_subtype T tg new v = Err e
        end)
  /\ (forall T op refl a b, checked_by T (op_int T op refl a b))
  /\ (forall T op a, checked_by T (op_int_unary T op a))
  /\ (forall T op s, checked_by T (op_seq T op s))
  /\ (forall T op s, checked_by T (op_bits T op s)).
Proof. exact operations_checked. Qed.
Print Assumptions C14_no_bypass.

Theorem C14_no_bypass_denotation : forall T payload v,
  wf (sp_constr (st_spec T)) = true -> typed (sp_constr (st_spec T)) None (VS v) = true ->
  produce T payload = Ok v -> admits T (VS v).
Proof. exact produced_in_denotation. Qed.
Print Assumptions C14_no_bypass_denotation.

Example C14_no_bypass_nonvacuous :
  let T := mkSType [mkTag Univ false 2] (spec_of [CRange 0 10]) in
  let S := mkSType [mkTag Univ false 4] (spec_of [CSize 1 3]) in
  op_int T IAdd false 7 3 = Ok (SInt 10) /\ op_int T IAdd false 7 4 = Err EConstraint
  /\ op_int T ISub true 7 3 = Err EConstraint /\ op_int_unary T INeg 1 = Err EConstraint
  /\ op_int T IFloorDiv false 7 0 = Err EUnmodelled
  /\ op_seq S (QConcat [3%N] false) (SBytes [1%N; 2%N]) = Ok (SBytes [1%N; 2%N; 3%N])
  /\ op_seq S (QConcat [3%N; 4%N] true) (SBytes [1%N; 2%N]) = Err EConstraint
  /\ op_seq S (QSlice (Some 1) (Some (-1)) None) (SBytes [1%N; 2%N; 3%N]) = Ok (SBytes [2%N])
  /\ op_seq S (QSlice (Some 2) (Some 1) None) (SBytes [1%N; 2%N; 3%N]) = Err EConstraint
  /\ op_seq S (QRepeat 2) (SBytes [1%N; 2%N]) = Err EConstraint
  /\ op_bits S (BLsh 2) (SBits 1 1) = Ok (SBits 3 4) /\ op_bits S (BLsh 3) (SBits 1 1) = Err EConstraint.
Proof. vm_compute. repeat split. Qed.

(* Encoders refuse constructed values that violate their constraints, and (code as repaired by
   fixes/F14d.diff) reading the value beforehand does not change that verdict. *)
Theorem C14_encoder_verdict_stable : forall spec r,
  encoder_admits spec (read_all r) = encoder_admits spec r.
Proof. exact encoder_verdict_stable. Qed.
Print Assumptions C14_encoder_verdict_stable.

(* Finding F14d: before the repair, isInconsistent took a component that had been read but never
   assigned for a present one: a refused record is accepted after a read. *)
Theorem C14_read_bypass_unrepaired_refuted :
  exists spec r,
    encoder_admits_unrepaired spec r = Fail
    /\ encoder_admits_unrepaired spec (read_all r) = Pass
    /\ encoder_admits spec (read_all r) = Fail.
Proof. exact unrepaired_read_bypasses. Qed.
Print Assumptions C14_read_bypass_unrepaired_refuted.

(* Where the implementation leaves the denotation (each one replayed on the implementation by
   harness/props/c14.py):
   - an empty operand / value list means "no constraint" to pyasn1 and the empty set to set theory
     (outside [wf]; not an expression ASN.1 can write); *)
Theorem C14_empty_list_refuted :
  ceval (COr []) None (VS (SInt 5)) = Pass /\ ~ denote (COr []) None (VS (SInt 5))
  /\ ceval (CSingle []) None (VS (SInt 5)) = Pass /\ ~ denote (CSingle []) None (VS (SInt 5)).
Proof. exact empty_list_is_no_constraint. Qed.
Print Assumptions C14_empty_list_refuted.

(* - finding F14c: ContainedSubtypeConstraint with a plain value among its operands; *)
Theorem C14_contained_plain_refuted :
  exists c x, wf c = true /\ denote c None x /\ ceval c None x = Crash AttributeError.
Proof. exact contained_plain_value_crashes. Qed.
Print Assumptions C14_contained_plain_refuted.

(* - finding F14b: a value range applied to a payload that is not an int (REAL's tuple; the witness
     is the tuple of an OBJECT IDENTIFIER). *)
Theorem C14_range_on_tuple_refuted :
  ceval (CRange 0 10) None (VS (SOid [1%N; 3%N])) = Crash TypeError.
Proof. exact range_on_tuple_crashes. Qed.
Print Assumptions C14_range_on_tuple_refuted.

(* no bypass through a value object used as initializer: whatever type produced the payload, the
   receiving type's constructor checks it, so the result lies in the receiving type's denotation *)
Theorem C14_initializer_object_checked : forall S T v x,
  construct S v = Ok x -> checked_by T (op_clone T x) /\ checked_by T (construct T x).
Proof. exact initializer_object_checked. Qed.
Print Assumptions C14_initializer_object_checked.

Theorem C14_initializer_object_in_denotation : forall S T v x y,
  construct S v = Ok x -> op_clone T x = Ok y ->
  wf (sp_constr (st_spec T)) = true -> typed (sp_constr (st_spec T)) None (VS y) = true ->
  admits T (VS y).
Proof. exact initializer_object_in_denotation. Qed.
Print Assumptions C14_initializer_object_in_denotation.

(* why a shortcut "skip the check when isSuperTypeOf holds" would be a bypass: isSuperTypeOf is not
   inclusion of value sets *)
Theorem C14_is_super_is_not_inclusion :
  (exists P Q v,
     spec_is_super (st_spec P) (st_spec Q) = true
     /\ construct Q v = Ok v /\ construct P v = Err EConstraint)
  /\ (exists P Q v,
        spec_is_super (st_spec P) (st_spec Q) = true /\ spec_is_super (st_spec Q) (st_spec P) = true
        /\ construct Q v = Ok v /\ construct P v = Err EConstraint).
Proof. exact is_super_is_not_inclusion. Qed.
Print Assumptions C14_is_super_is_not_inclusion.
