(* C04 - DER/CER bytes depend only on the abstract value, not on how it was built.
   Only statements closed by [exact]; proofs in Proofs/ContainerCodecSort.v (on the encoder model
   Model/Enc.v) and Proofs/ContainerCodec.v (on the container model Model/Container.v).

   What is proved.  (1) In the encoder model the only places where the order of the members could
   show are the two canonical sorts; both are invariant under permutation of their input provided
   members that the sort key cannot separate are identical (true of real members: TLV encodings are
   prefix-free, sibling tags of a SET are distinct); without that proviso the stable sort keeps the
   input order ([_refuted] witnesses).  A value of the encoder model (VRec: one slot per declared
   component) has no assignment order left in it, so "any order of assigning components" is a
   statement about the container objects: (2) in the container model the DER of an object is a
   function of its abstract content for every state reachable by a well-formed history - insertion
   order, explicit or implicit DEFAULT, clone, interleaved reads are all histories.
   PARTIAL: re-encoding a decoded DER/CER encoding (der (decode e) = e) and "decoded from any BER
   form" are checked on the implementation by the harness only; the theorem over Model/Dec.v is not
   attempted here.  SET OF members added in another order are covered by (1) on the encoder model;
   (2) for SET OF compares histories reaching the same list. *)
From Coq Require Import Sorting.Permutation.
From PV Require Import Spec.ListSpec Model.Types Model.TableTypes Model.Enc Proofs.ContainerCodecDefs Proofs.ContainerCodecSort Proofs.ContainerCodec
     Proofs.DerAbsFunction.
Local Open Scope nat_scope.

(* ---- (1) the encoder model ---- *)

Theorem C04_sort_setof_perm : forall l1 l2, Permutation l1 l2 -> pad_distinct l1 -> sort_setof l1 = sort_setof l2.
Proof. exact sort_setof_perm. Qed.
Print Assumptions C04_sort_setof_perm.

(* FULL STATEMENT (false): forall l1 l2, Permutation l1 l2 -> concat (sort_setof l1) = concat (sort_setof l2) *)
Theorem C04_sort_setof_perm_refuted :
  exists l1 l2, Permutation l1 l2 /\ concat (sort_setof l1) <> concat (sort_setof l2).
Proof. exact sort_setof_perm_refuted. Qed.
Print Assumptions C04_sort_setof_perm_refuted.

(* SET OF contents octets under CER/DER do not depend on the order the members were added in *)
Theorem C04_setof_order : forall c t fl o xs ys ps, Permutation xs ys -> elems_encode c t o xs ps -> pad_distinct ps ->
  enc_content c (TSetOf t) EcSetOfCer fl o (VList xs) = enc_content c (TSetOf t) EcSetOfCer fl o (VList ys).
Proof. exact setof_order. Qed.
Print Assumptions C04_setof_order.

Theorem C04_setof_order_encode : forall c d k t xs ys ps fl,
  concrete_encoder c (TSetOf t) = Ok (EcSetOfCer, fl) -> Permutation xs ys ->
  let o := fix_opts c (mkOpts d k false) in
  elems_encode c t (mkOpts (o_def o) (o_chunk o) false) xs ps -> pad_distinct ps ->
  encode c d k (TSetOf t) (VList xs) = encode c d k (TSetOf t) (VList ys).
Proof. exact setof_order_encode. Qed.
Print Assumptions C04_setof_order_encode.

(* table fact on the regenerated Gen/Tables.v: CER and DER send SET OF to the sorting encoder *)
Theorem C04_tables_setof_sorted : forall t,
  (exists fl, concrete_encoder CER (TSetOf t) = Ok (EcSetOfCer, fl)) /\
  (exists fl, concrete_encoder DER (TSetOf t) = Ok (EcSetOfCer, fl)).
Proof. exact cer_der_setof_sorted. Qed.
Print Assumptions C04_tables_setof_sorted.

(* SET: ordering the (tag, encoding) pairs of the members by tag does not depend on the order they are listed in *)
Theorem C04_set_order : forall p1 p2 : list (tagset * bytes), Permutation p1 p2 -> tags_distinct p1 ->
  Enc.sort_by tagset_ltb fst p1 = Enc.sort_by tagset_ltb fst p2.
Proof. exact sort_set_perm. Qed.
Print Assumptions C04_set_order.

Theorem C04_set_order_refuted :
  exists p1 p2 : list (tagset * bytes), Permutation p1 p2 /\
    concat (map snd (Enc.sort_by tagset_ltb fst p1)) <> concat (map snd (Enc.sort_by tagset_ltb fst p2)).
Proof. exact sort_set_perm_refuted. Qed.
Print Assumptions C04_set_order_refuted.

(* ---- (2) the container model ---- *)

(* two well-formed histories reaching the same list leave the same object: same content, len, isValue, DER *)
Theorem C04_factor_seqof : forall ct isset ops1 ops2,
  l_wf_hist ct isset None ops1 = true -> l_wf_hist ct isset None ops2 = true ->
  fst (l_run isset None ops1) = fst (l_run isset None ops2) ->
  fst (sof_run ct isset None ops1) = fst (sof_run ct isset None ops2) /\
  sof_observe ct isset (fst (sof_run ct isset None ops1)) = sof_observe ct isset (fst (sof_run ct isset None ops2)).
Proof. exact factor_seqof. Qed.
Print Assumptions C04_factor_seqof.

(* SEQUENCE OF / SET OF states without holes or placeholders, whatever order the positions were first assigned
   in (the dict keeps insertion order: s[2] = c; s[1] = b; s[0] = a is another dict than the ascending twin):
   the encoder and iteration go by ascending position, so DER and iteration are functions of the lookup only,
   and encoding leaves the state alone *)
Theorem C04_seqof_assignment_order : forall ct isset (d1 d2: dict) (val: nat -> Z) n,
  slen (Some d1) = n -> slen (Some d2) = n ->
  (forall k, k < n -> dget k d1 = Some (CVal (val k))) ->
  (forall k, k < n -> dget k d2 = Some (CVal (val k))) ->
  snd (sof_step ct isset (Some d1) SEncode) = snd (sof_step ct isset (Some d2) SEncode) /\
  fst (sof_step ct isset (Some d1) SEncode) = Some d1 /\
  snd (sof_step ct isset (Some d1) SIter) = OSlots (map (fun k => Some (CVal (val k))) (seq 0 n)).
Proof. exact seqof_assignment_order. Qed.
Print Assumptions C04_seqof_assignment_order.

(* assignment is a lookup update, so any order of assigning every position ends in such a state *)
Theorem C04_assignment_is_update : forall k k' v (d: dict),
  dget k (dset k' v d) = if Nat.eqb k k' then Some v else dget k d.
Proof. exact ContainerBase.dget_dset. Qed.
Print Assumptions C04_assignment_is_update.

Example C04_seqof_assignment_order_nonvacuous :
  let h1 := [SSetItem 2 (PInt 30); SSetItem 1 (PInt 20); SSetItem 0 (PInt 10)] in
  let h2 := [SSetItem 0 (PInt 10); SSetItem 1 (PInt 20); SSetItem 2 (PInt 30)] in
  fst (sof_run true false None h1) = Some [(2, CVal 30%Z); (1, CVal 20%Z); (0, CVal 10%Z)] /\
  fst (sof_run true false None h2) = Some [(0, CVal 10%Z); (1, CVal 20%Z); (2, CVal 30%Z)] /\
  snd (sof_step true false (fst (sof_run true false None h1)) SEncode) =
  snd (sof_step true false (fst (sof_run true false None h2)) SEncode) /\
  snd (sof_step true false (fst (sof_run true false None h1)) SEncode) = OBytes [48; 9; 2; 1; 10; 2; 1; 20; 2; 1; 30]%N.
Proof. exact seqof_assignment_order_example. Qed.

(* SEQUENCE / SET: same abstract content (DEFAULT explicit or left out, any assignment order, clone, reads
   in between) -> same value/schema status and the same DER.  [_partial]: the histories are the well-formed
   ones of C19 (len(), prettyPrint() and == with absent members are not part of them) *)
Theorem C04_factor_record_partial : forall cfg isset ops1 ops2, has_req cfg = true ->
  r_wf_hist cfg isset (r_init cfg) ops1 = true -> r_wf_hist cfg isset (r_init cfg) ops2 = true ->
  fst (r_run cfg isset (r_init cfg) ops1) = fst (r_run cfg isset (r_init cfg) ops2) ->
  let s1 := fst (rec_run cfg isset (Some []) ops1) in
  let s2 := fst (rec_run cfg isset (Some []) ops2) in
  rec_isvalue cfg s1 = rec_isvalue cfg s2 /\
  (rec_isvalue cfg s1 = true -> snd (rec_step cfg isset s1 REncode) = snd (rec_step cfg isset s2 REncode)).
Proof. exact factor_record. Qed.
Print Assumptions C04_factor_record_partial.

(* [_partial]: histories outside the class of finding F18a (c_wf) *)
Theorem C04_factor_choice_partial : forall cfg ops1 ops2, no_def cfg = true ->
  c_wf_hist cfg None ops1 = true -> c_wf_hist cfg None ops2 = true ->
  fst (c_run cfg None ops1) = fst (c_run cfg None ops2) ->
  match fst (c_run cfg None ops1) with Some (_, Some _) => True | _ => False end ->
  snd (ch_step cfg (fst (ch_run cfg ch_init ops1)) REncode) = snd (ch_step cfg (fst (ch_run cfg ch_init ops2)) REncode).
Proof. exact factor_choice. Qed.
Print Assumptions C04_factor_choice_partial.

(* any read (encode, iterate, print, compare, getComponentBy*, with or without instantiation) leaves the DER of a
   SEQUENCE/SET value as it was: no exclusion *)
Theorem C04_reads_preserve_der : forall cfg isset s o, has_req cfg = true -> rinv cfg s ->
  rec_reader o = true -> r_isvalue cfg (rabs cfg s) = true ->
  snd (rec_step cfg isset (fst (rec_step cfg isset s o)) REncode) = snd (rec_step cfg isset s REncode).
Proof. exact reads_preserve_der_record. Qed.
Print Assumptions C04_reads_preserve_der.

(* non-vacuity: two different histories (other order, DEFAULT explicit vs left out, a clone, reads) meet
   the hypotheses and yield the same octets *)
Example C04_nonvacuous :
  r_wf_hist cfg4 false (r_init cfg4) C04_ha = true /\ r_wf_hist cfg4 false (r_init cfg4) C04_hb = true /\
  fst (r_run cfg4 false (r_init cfg4) C04_ha) = fst (r_run cfg4 false (r_init cfg4) C04_hb) /\
  fst (rec_run cfg4 false (Some []) C04_ha) <> fst (rec_run cfg4 false (Some []) C04_hb) /\
  snd (rec_step cfg4 false (fst (rec_run cfg4 false (Some []) C04_ha)) REncode) =
    OBytes [48; 6; 2; 1; 1; 130; 1; 2]%N /\
  pad_distinct [[2; 1; 5]; [2; 1; 0]; [2; 2; 1; 0]]%N /\
  sort_setof [[2; 1; 5]; [2; 1; 0]; [2; 2; 1; 0]]%N = [[2; 1; 0]; [2; 1; 5]; [2; 2; 1; 0]]%N.
Proof.
  repeat split; try reflexivity.
  - vm_compute. discriminate.
  - intros a b Ha Hb E. cbn [In] in Ha, Hb.
    destruct Ha as [<-|[<-|[<-|[]]]]; destruct Hb as [<-|[<-|[<-|[]]]]; try reflexivity; vm_compute in E; discriminate.
Qed.

(* ---- (3) the codec-level statement, for every input ---- *)

(* DER bytes are a function of the abstract value: for EVERY type of the universe (any tag stack,
   SEQUENCE, SET, SEQUENCE OF, SET OF, CHOICE, ANY, to any depth) and any two values of it with the same
   abstract content - SET OF members in another order, a DEFAULT given explicitly or left out, text
   or octets, another REAL representation of the same number - the DER encodings are byte-identical.
   c04_val: the value fits the type, decimal REALs are normalised (as the library's constructor does),
   an untagged ANY inside a SET OF is one complete TLV *)
Theorem C04_der_is_a_function_of_the_abstract_value : forall T v1 v2 b1 b2 d k,
  c04_ty all_ty T = true -> c04_val T v1 = true -> c04_val T v2 = true ->
  aval_eqb (abs T v1) (abs T v2) = true ->
  encode DER d k T v1 = Ok b1 -> encode DER d k T v2 = Ok b2 -> b1 = b2.
Proof. exact der_abs_function. Qed.
Print Assumptions C04_der_is_a_function_of_the_abstract_value.
