(* Simulation proofs for the stream/decoder model of Model/Proc.v:
   exact consumption (C07), schedule independence (C05), prefix insufficiency (C06)
   for decoders that never ask "is the stream at its end" (clean trees), and their
   transfer to arbitrary trees for runs that never touch such a node (guard).
   The simulation and the schedule theorems are proved once, for trees without ReadAll in which the
   end test AtEOS is allowed or not ([tame]); ProcSched.v instantiates them for trees with AtEOS. *)
From PV Require Import Model.Proc Proofs.Basics.
From Coq Require Import Lia.

Inductive clean {A} : proc A -> Prop :=
| clean_Ret a : clean (Ret a)
| clean_Raise e : clean (Raise e)
| clean_ReadN n k : (forall b, clean (k b)) -> clean (ReadN n k)
| clean_Tell k : (forall q, clean (k q)) -> clean (Tell k)
| clean_SeekBack d k : clean k -> clean (SeekBack d k)
| clean_Mark k : clean k -> clean (Mark k)
| clean_GetMark k : (forall q, clean (k q)) -> clean (GetMark k).

(* no ReadAll, and AtEOS only if [eos]: [tame false] is [clean], [tame true] is ProcSched.clean_sched *)
Fixpoint tame {A} (eos: bool) (p: proc A) : Prop :=
  match p with
  | Ret _ | Raise _ => True
  | ReadN _ k => forall b, tame eos (k b)
  | Tell k | GetMark k => forall q, tame eos (k q)
  | SeekBack _ k | Mark k => tame eos k
  | AtEOS k => eos = true /\ forall b, tame eos (k b)
  | ReadAll _ => False
  end.

Lemma clean_tame {A} (p: proc A) : clean p <-> tame false p.
Proof.
  split.
  - induction 1; cbn [tame]; auto.
  - induction p as [a0|e|n k IH|k IH|d k IH|k IH|k IH|k IH|k IH]; cbn [tame]; intros H;
      try (constructor; auto).
    + destruct H as [H _]. discriminate H.
    + contradiction.
Qed.

(* s2 extends s1: same position, same mark, the arrived bytes of s1 are a prefix of those of s2 *)
Definition extends (s1 s2: stream) : Prop :=
  pos s1 = pos s2 /\ mark s1 = mark s2 /\ exists more, arrived s2 = arrived s1 ++ more.

(* s with the position and mark recorded in s' *)
Definition sync (s s': stream) : stream := mkStream (arrived s) (pos s') (closed s) (mark s').

(* where the end test is allowed, a closed stream receives nothing more and stays closed *)
Definition ext (eos: bool) (s1 s2: stream) : Prop :=
  extends s1 s2 /\ (eos = true -> closed s1 = true -> arrived s2 = arrived s1 /\ closed s2 = true).

Lemma avail_length s : length (avail s) = length (arrived s) - pos s.
Proof. unfold avail. apply skipn_length. Qed.

Lemma avail_ext s1 s2 : extends s1 s2 -> length (avail s1) <> 0 ->
  exists more, avail s2 = avail s1 ++ more.
Proof.
  intros [Hp [_ [more Ha]]] Hn. exists more. rewrite avail_length in Hn.
  unfold avail. rewrite <- Hp, Ha. apply skipn_app_le. lia.
Qed.

Lemma avail_nonempty_ext s1 s2 : extends s1 s2 ->
  Nat.eqb (length (avail s1)) 0 = false -> Nat.eqb (length (avail s2)) 0 = false.
Proof.
  intros Hx E. apply Nat.eqb_neq in E. destruct (avail_ext _ _ Hx E) as [more Hav].
  apply Nat.eqb_neq. rewrite Hav, app_length. lia.
Qed.

Lemma setpos_same s q : q = pos s -> setpos s q = s.
Proof. intros ->. destruct s; reflexivity. Qed.

Lemma extends_refl s : extends s s.
Proof. split; [reflexivity|]. split; [reflexivity|]. exists []. symmetry. apply app_nil_r. Qed.

Lemma extends_setpos s1 s2 q : extends s1 s2 -> extends (setpos s1 q) (setpos s2 q).
Proof. intros [_ Hm]. split; [reflexivity|exact Hm]. Qed.

Lemma extends_setmark s1 s2 m : extends s1 s2 -> extends (setmark s1 m) (setmark s2 m).
Proof. intros [Hp [_ Hm]]. split; [exact Hp|]. split; [reflexivity|exact Hm]. Qed.

Lemma ext_extends s1 s2 : extends s1 s2 -> ext false s1 s2.
Proof. intros Hx. split; [exact Hx|discriminate]. Qed.

Lemma ext_pos eos s1 s2 : ext eos s1 s2 -> pos s2 = pos s1.
Proof. intros [[Hp _] _]. symmetry. exact Hp. Qed.

Lemma ext_mark eos s1 s2 : ext eos s1 s2 -> mark s2 = mark s1.
Proof. intros [[_ [Hm _]] _]. symmetry. exact Hm. Qed.

Lemma sync_same s s' : pos s = pos s' -> mark s = mark s' -> sync s s' = s.
Proof. intros Hp Hm. unfold sync. rewrite <- Hp, <- Hm. destruct s; reflexivity. Qed.

Lemma ext_sync eos s1 s2 : ext eos s1 s2 -> sync s2 s1 = s2.
Proof. intros Hx. apply sync_same; [exact (ext_pos _ _ _ Hx)|exact (ext_mark _ _ _ Hx)]. Qed.

Lemma attempt_got_ext s1 s2 n c s1' :
  extends s1 s2 -> attempt s1 n = (Got c, s1') ->
  attempt s2 n = (Got c, setpos s2 (pos s1')) /\ extends s1' (setpos s2 (pos s1')).
Proof.
  intros Hx H. unfold attempt in *.
  destruct (Nat.eqb n 0) eqn:En.
  - inversion H; subst. rewrite (setpos_same s2) by exact (proj1 Hx). split; [reflexivity|exact Hx].
  - destruct (Nat.ltb (length (avail s1)) n) eqn:El; [destruct (closed s1); discriminate|].
    apply Nat.eqb_neq in En. apply Nat.ltb_ge in El. inversion H; subst; clear H.
    assert (E0: length (avail s1) <> 0) by lia.
    destruct (avail_ext _ _ Hx E0) as [more Hav]. rewrite Hav, app_length.
    assert (Nat.ltb (length (avail s1) + length more) n = false) as -> by (apply Nat.ltb_ge; lia).
    rewrite firstn_app_le by lia. cbn [setpos pos]. rewrite <- (proj1 Hx).
    split; [reflexivity|]. apply extends_setpos. exact Hx.
Qed.

Lemma attempt_under s n s' : attempt s n = (Under, s') ->
  s' = s /\ length (avail s) < n /\ closed s = false.
Proof.
  unfold attempt. destruct (Nat.eqb n 0); [discriminate|].
  destruct (Nat.ltb (length (avail s)) n) eqn:El; [|discriminate].
  apply Nat.ltb_lt in El. destruct (closed s); [discriminate|]. intros H; inversion H; subst; auto.
Qed.

Lemma attempt_frame s n r s' : attempt s n = (r, s') ->
  arrived s' = arrived s /\ closed s' = closed s /\ mark s' = mark s.
Proof.
  unfold attempt. destruct (Nat.eqb n 0); [intros H; inversion H; auto|].
  destruct (Nat.ltb (length (avail s)) n); intros H; inversion H; auto.
Qed.

Lemma attempt_eos_closed s n s' : attempt s n = (EOS, s') -> closed s = true.
Proof.
  unfold attempt. destruct (Nat.eqb n 0); [discriminate|].
  destruct (Nat.ltb (length (avail s)) n); [|discriminate].
  destruct (closed s); [reflexivity|discriminate].
Qed.

Lemma attempt_pos_le s n r s' : attempt s n = (r, s') ->
  pos s <= length (arrived s) -> pos s' <= length (arrived s').
Proof.
  unfold attempt. destruct (Nat.eqb n 0) eqn:En; [intros H; inversion H; auto|].
  destruct (Nat.ltb (length (avail s)) n) eqn:El; intros H; inversion H; auto.
  apply Nat.ltb_ge in El. apply Nat.eqb_neq in En. rewrite avail_length in El. cbn. lia.
Qed.

Lemma attempt_got_sim eos s1 s2 n c s1' :
  ext eos s1 s2 -> attempt s1 n = (Got c, s1') ->
  attempt s2 n = (Got c, setpos s2 (pos s1')) /\ ext eos s1' (setpos s2 (pos s1')).
Proof.
  intros [Hx Hc] H. destruct (attempt_got_ext _ _ _ _ _ Hx H) as [E2 Hx2].
  destruct (attempt_frame _ _ _ _ H) as [Ha [Hcl _]].
  split; [exact E2|]. split; [exact Hx2|]. rewrite Ha, Hcl. exact Hc.
Qed.

Definition end_stream {A} (x: (proc A * stream) + (res A * stream)) : stream :=
  match x with inl (_, s) | inr (_, s) => s end.

Lemma resume_frame {A} (p: proc A) : forall s,
  arrived (end_stream (resume p s)) = arrived s /\ closed (end_stream (resume p s)) = closed s
  /\ (pos s <= length (arrived s) -> pos (end_stream (resume p s)) <= length (arrived s)).
Proof.
  induction p as [a0|e|n k IH|k IH|d k IH|k IH|k IH|k IH|k IH]; intros s; cbn [resume]; auto.
  - destruct (attempt s n) as [r sm] eqn:E.
    destruct (attempt_frame _ _ _ _ E) as [Ha [Hc _]]. pose proof (attempt_pos_le _ _ _ _ E) as Hle.
    rewrite <- Ha, <- Hc in *. destruct r as [c| |]; [|auto|auto].
    destruct (IH c sm) as [Ha' [Hc' Hle']]. auto.
  - destruct (IH (setpos s (pos s - d))) as [Ha [Hc Hle]]. cbn [setpos arrived pos] in Hle.
    split; [exact Ha|]. split; [exact Hc|]. intros H. apply Hle. lia.
  - exact (IH (setmark s (pos s))).
  - pose proof (IH true s). destruct (Nat.eqb (length (avail s)) 0); [destruct (closed s) eqn:Hcl|]; cbn [end_stream]; auto.
  - destruct (Nat.eqb (length (avail s)) 0); [destruct (closed s) eqn:Hcl; cbn [end_stream]; auto|].
    destruct (IH (avail s) (setpos s (length (arrived s)))) as [Ha [Hc Hle]].
    split; [exact Ha|]. split; [exact Hc|]. intros _. apply Hle. apply Nat.le_refl.
Qed.

(* simulation: what a tame decoder achieves on partial data it achieves on any extension:
   a value is reached again; an error raised while the stream was still open is raised again; a suspension
   only records progress: resuming the suspended continuation on the extended stream at the recorded
   position and mark is the same as running the original decoder on the extended stream *)
Lemma resume_sim {A} eos (p: proc A) : tame eos p -> forall s1 s2, ext eos s1 s2 ->
  match resume p s1 with
  | inl (p', s1') => ext eos s1' (sync s2 s1') /\ resume p s2 = resume p' (sync s2 s1') /\ tame eos p'
  | inr (Ok a, s1') => exists s2', resume p s2 = inr (Ok a, s2') /\ ext eos s1' s2'
  | inr (Err e, s1') => closed s1 = false -> exists s2', resume p s2 = inr (Err e, s2') /\ pos s2' = pos s1'
  end.
Proof.
  induction p as [a0|e|n k IH|k IH|d k IH|k IH|k IH|k IH|k IH]; intros Ht s1 s2 Hx; cbn [tame] in Ht.
  - cbn [resume]. eauto.
  - cbn [resume]. intros _. exists s2. split; [reflexivity|exact (ext_pos _ _ _ Hx)].
  - cbn [resume]. destruct (attempt s1 n) as [[c| |] s1m] eqn:E.
    + destruct (attempt_got_sim _ _ _ _ _ _ Hx E) as [-> Hxm].
      specialize (IH c (Ht c) s1m _ Hxm). destruct (attempt_frame _ _ _ _ E) as [_ [Hcl _]].
      rewrite Hcl in IH. exact IH.
    + apply attempt_under in E. destruct E as [-> _]. rewrite (ext_sync _ _ _ Hx). auto.
    + intros Hc. apply attempt_eos_closed in E. congruence.
  - cbn [resume]. rewrite (ext_pos _ _ _ Hx). exact (IH _ (Ht _) s1 s2 Hx).
  - cbn [resume]. rewrite (ext_pos _ _ _ Hx). apply (IH Ht (setpos s1 _) (setpos s2 _)).
    split; [apply extends_setpos; exact (proj1 Hx)|exact (proj2 Hx)].
  - cbn [resume]. rewrite (ext_pos _ _ _ Hx). apply (IH Ht (setmark s1 _) (setmark s2 _)).
    split; [apply extends_setmark; exact (proj1 Hx)|exact (proj2 Hx)].
  - cbn [resume]. rewrite (ext_mark _ _ _ Hx). exact (IH _ (Ht _) s1 s2 Hx).
  - destruct Ht as [-> Hk].
    pose proof (IH true (Hk true) s1 s2 Hx) as St. pose proof (IH false (Hk false) s1 s2 Hx) as Sf.
    cbn [resume]. destruct (Nat.eqb (length (avail s1)) 0) eqn:E0.
    + destruct (closed s1) eqn:Hcl.
      * destruct (proj2 Hx eq_refl Hcl) as [Ha Hc2].
        assert (avail s2 = avail s1) as -> by (unfold avail; rewrite Ha, (ext_pos _ _ _ Hx); reflexivity).
        rewrite E0, Hc2. exact St.
      * rewrite (ext_sync _ _ _ Hx). cbn [tame]. auto.
    + rewrite (avail_nonempty_ext _ _ (proj1 Hx) E0). exact Sf.
  - contradiction.
Qed.

Lemma resume_done_ext {A} (p: proc A) : clean p -> forall s1 s2 a s1',
  extends s1 s2 -> resume p s1 = inr (Ok a, s1') ->
  exists s2', resume p s2 = inr (Ok a, s2') /\ extends s1' s2'.
Proof.
  intros Hc s1 s2 a s1' Hx H.
  pose proof (resume_sim false p (proj1 (clean_tame p) Hc) s1 s2 (ext_extends _ _ Hx)) as S.
  rewrite H in S. destruct S as [s2' [E Hx']]. exists s2'. split; [exact E|exact (proj1 Hx')].
Qed.

Lemma resume_susp_ext {A} (p: proc A) : clean p -> forall s1 s2 p' s1',
  extends s1 s2 -> resume p s1 = inl (p', s1') ->
  extends s1' (sync s2 s1') /\ resume p s2 = resume p' (sync s2 s1') /\ clean p'.
Proof.
  intros Hc s1 s2 p' s1' Hx H.
  pose proof (resume_sim false p (proj1 (clean_tame p) Hc) s1 s2 (ext_extends _ _ Hx)) as S.
  rewrite H in S. destruct S as [Hx' [E Ht]].
  split; [exact (proj1 Hx')|]. split; [exact E|exact (proj2 (clean_tame p') Ht)].
Qed.

Lemma resume_err_ext {A} (p: proc A) : clean p -> forall s1 s2 e s1',
  extends s1 s2 -> closed s1 = false -> resume p s1 = inr (Err e, s1') ->
  exists s2', resume p s2 = inr (Err e, s2') /\ pos s2' = pos s1'.
Proof.
  intros Hc s1 s2 e s1' Hx Hcl H.
  pose proof (resume_sim false p (proj1 (clean_tame p) Hc) s1 s2 (ext_extends _ _ Hx)) as S.
  rewrite H in S. exact (S Hcl).
Qed.

Lemma suspension {A} eos (p: proc A) : tame eos p -> forall s q s',
  resume p s = inl (q, s') ->
  closed s' = false
  /\ ((exists n k, q = ReadN n k /\ length (avail s') < n)
      \/ (eos = true /\ exists k, q = AtEOS k /\ length (avail s') = 0)).
Proof.
  induction p as [a0|e|n k IH|k IH|d k IH|k IH|k IH|k IH|k IH]; intros Ht s q s' H;
    cbn [resume tame] in *; try discriminate; eauto.
  - destruct (attempt s n) as [[c| |] sm] eqn:E; try discriminate; [eauto|].
    apply attempt_under in E. destruct E as [-> [Hlt Hcl]]. inversion H; subst. eauto 6.
  - destruct Ht as [-> Hk]. destruct (Nat.eqb (length (avail s)) 0) eqn:E0; [|eauto].
    destruct (closed s) eqn:Hcl; [eauto|]. inversion H; subst. apply Nat.eqb_eq in E0. eauto 6.
  - contradiction.
Qed.

Lemma tame_closed_no_suspend {A} eos (p: proc A) : tame eos p -> forall s,
  closed s = true -> exists r s', resume p s = inr (r, s').
Proof.
  intros Ht s Hcl. destruct (resume p s) as [[q s']|[r s']] eqn:E; [|eauto].
  destruct (suspension eos p Ht s q s' E) as [Hc _].
  pose proof (resume_frame p s) as [_ [Hf _]]. rewrite E in Hf. cbn [end_stream] in Hf. congruence.
Qed.

Theorem underrun_only_when_missing {A} (p: proc A) : clean p -> forall s q s',
  resume p s = inl (q, s') -> exists n k, q = ReadN n k /\ length (avail s') < n.
Proof.
  intros Hc s q s' H.
  destruct (suspension false p (proj1 (clean_tame p) Hc) s q s' H) as [_ [Hr|[He _]]]; [exact Hr|discriminate He].
Qed.

Theorem closed_no_suspend {A} (p: proc A) : clean p -> forall s,
  closed s = true -> exists r s', resume p s = inr (r, s').
Proof. intros Hc. exact (tame_closed_no_suspend false p (proj1 (clean_tame p) Hc)). Qed.

(* C07: exact consumption, whatever follows *)
Lemma exact_consumption_gen {A} (p: proc A) e t q cl cl2 m a s' :
  clean p -> resume p (mkStream e q cl m) = inr (Ok a, s') ->
  exists s'', resume p (mkStream (e ++ t) q cl2 m) = inr (Ok a, s'')
    /\ pos s'' = pos s' /\ mark s'' = mark s'
    /\ (q <= length e -> avail s'' = avail s' ++ t).
Proof.
  intros Hc H.
  destruct (resume_done_ext p Hc (mkStream e q cl m) (mkStream (e ++ t) q cl2 m) a s') as [s'' [Hr Hx]].
  - split; [reflexivity|]. split; [reflexivity|]. exists t. reflexivity.
  - exact H.
  - exists s''. split; [exact Hr|]. destruct Hx as [Hp [Hmk _]].
    split; [congruence|]. split; [congruence|]. intros Hq.
    pose proof (resume_frame p (mkStream e q cl m)) as [Ha [_ Hle]].
    pose proof (resume_frame p (mkStream (e ++ t) q cl2 m)) as [Ha2 _].
    rewrite H in Ha, Hle. rewrite Hr in Ha2. cbn [end_stream arrived pos] in Ha, Hle, Ha2.
    unfold avail. rewrite Ha, Ha2, <- Hp. apply skipn_app_le. exact (Hle Hq).
Qed.

Theorem exact_consumption {A} (p: proc A) e t a s' :
  clean p -> resume p (mkStream e 0 true 0) = inr (Ok a, s') ->
  exists s'', resume p (mkStream (e ++ t) 0 true 0) = inr (Ok a, s'') /\ pos s'' = pos s'.
Proof.
  intros Hc H. destruct (exact_consumption_gen p e t 0 true true 0 a s' Hc H) as [s'' [Hr [Hp _]]].
  eauto.
Qed.

Theorem exact_consumption_tail {A} (p: proc A) e t a s' :
  clean p -> resume p (mkStream e 0 true 0) = inr (Ok a, s') ->
  exists s'', resume p (mkStream (e ++ t) 0 true 0) = inr (Ok a, s'') /\ pos s'' = pos s'
    /\ avail s'' = avail s' ++ t.
Proof.
  intros Hc H. destruct (exact_consumption_gen p e t 0 true true 0 a s' Hc H) as [s'' [Hr [Hp [_ Hav]]]].
  exists s''. split; [exact Hr|]. split; [exact Hp|]. apply Hav. apply Nat.le_0_l.
Qed.

(* C05: schedule independence *)
Fixpoint arrivals (sched: list envev) : bytes :=
  match sched with
  | [] => []
  | Arrive b :: r => b ++ arrivals r
  | _ :: r => arrivals r
  end.

Fixpoint has_close (sched: list envev) : bool :=
  match sched with
  | [] => false
  | Close :: _ => true
  | _ :: r => has_close r
  end.

(* everything the schedule will deliver has arrived and the stream is closed *)
Definition complete (s: stream) (sched: list envev) : stream :=
  mkStream (arrived s ++ arrivals sched) (pos s) true (mark s).

(* well-formed schedules: nothing arrives after Close *)
Fixpoint wf_sched (cl: bool) (sched: list envev) : Prop :=
  match sched with
  | [] => True
  | Arrive b :: r => cl = false /\ wf_sched cl r
  | Close :: r => wf_sched true r
  | Poll :: r => wf_sched cl r
  end.

Lemma complete_step e r s : complete (apply_ev e s) r = complete s (e :: r).
Proof. unfold complete. destruct e; cbn; auto. rewrite <- app_assoc. reflexivity. Qed.

Lemma extends_complete s sched : extends s (complete s sched).
Proof. split; [reflexivity|]. split; [reflexivity|]. cbn. eauto. Qed.

Lemma sync_complete s sched s' : arrived s' = arrived s -> sync (complete s sched) s' = complete s' sched.
Proof. intros Ha. unfold sync, complete. cbn. rewrite Ha. reflexivity. Qed.

Lemma wf_closed_no_arrivals sched : wf_sched true sched -> arrivals sched = [].
Proof. induction sched as [|[b| |] r IH]; cbn; auto. intros [H _]; discriminate. Qed.

Lemma complete_closed s sched : closed s = true -> wf_sched true sched -> complete s sched = s.
Proof.
  intros Hc Hw. unfold complete. rewrite (wf_closed_no_arrivals _ Hw), app_nil_r.
  destruct s; cbn in *; subst; reflexivity.
Qed.

Lemma ext_complete eos s sched : wf_sched (closed s) sched -> ext eos s (complete s sched).
Proof.
  intros Hw. split; [apply extends_complete|]. intros _ Hcl. rewrite Hcl in Hw.
  rewrite (complete_closed s sched Hcl Hw). auto.
Qed.

Lemma resume_done_complete {A} eos (p: proc A) s sched r sF r' s' :
  tame eos p -> wf_sched (closed s) sched ->
  resume p (complete s sched) = inr (r, sF) ->
  resume p s = inr (r', s') -> r' = r /\ pos s' = pos sF.
Proof.
  intros Ht Hw H E. pose proof (resume_sim eos p Ht s _ (ext_complete eos s sched Hw)) as S.
  rewrite E in S. destruct r' as [a'|er].
  - destruct S as [s2 [E2 Hx]]. rewrite E2 in H. inversion H; subst. split; [reflexivity|exact (proj1 (proj1 Hx))].
  - destruct (closed s) eqn:Hcl.
    + rewrite (complete_closed s _ Hcl Hw), E in H. inversion H; subst. auto.
    + destruct (S eq_refl) as [s2 [E2 Hp]]. rewrite E2 in H. inversion H; subst. auto.
Qed.

Lemma resume_susp_complete {A} eos (p: proc A) s e rest p' s' :
  tame eos p -> wf_sched (closed s) (e :: rest) ->
  resume p s = inl (p', s') ->
  tame eos p' /\ wf_sched (closed (apply_ev e s')) rest /\ closed s' = closed s
  /\ resume p (complete s (e :: rest)) = resume p' (complete (apply_ev e s') rest).
Proof.
  intros Ht Hw E. pose proof (resume_sim eos p Ht s _ (ext_complete eos s _ Hw)) as S.
  rewrite E in S. destruct S as [_ [Hr Ht']].
  pose proof (resume_frame p s) as [Ha [Hcl _]]. rewrite E in Ha, Hcl. cbn [end_stream] in Ha, Hcl.
  split; [exact Ht'|]. split; [|split; [exact Hcl|]].
  - rewrite <- Hcl in Hw. destruct e; cbn in *; tauto.
  - rewrite Hr, (sync_complete s (e :: rest) s' Ha), <- complete_step. reflexivity.
Qed.

(* the driver reports underruns and then what the complete run ends in; it can run out of events before
   that only if the stream is never closed and, without an end test, the complete run does not end in a value *)
Theorem drive_complete {A} eos : forall sched (p: proc A) s r sF,
  tame eos p -> wf_sched (closed s) sched ->
  resume p (complete s sched) = inr (r, sF) ->
  (exists j, drive sched p s = repeat OUnder j ++ [ODone r (pos sF)])
  \/ (drive sched p s = repeat OUnder (S (length sched))
      /\ closed s || has_close sched = false /\ (eos = false -> forall a, r <> Ok a)).
Proof.
  (* with or without events left: a run that finishes at once finishes as the complete run does *)
  induction sched as [|e rest IH]; intros p s r sF Ht Hw H; cbn [drive];
    (destruct (resume p s) as [[p' s']|[r' s']] eqn:E;
      [|left; exists 0; destruct (resume_done_complete eos p s _ r sF r' s' Ht Hw H E) as [-> ->]; reflexivity]).
  - right. split; [reflexivity|]. split.
    + cbn [has_close]. rewrite Bool.orb_false_r. destruct (closed s) eqn:Hcl; [|reflexivity].
      destruct (tame_closed_no_suspend eos p Ht s Hcl) as [r' [s'' E']]. congruence.
    + (* a value does not depend on the stream being closed *)
      intros -> a ->. pose proof (resume_sim false p Ht (complete s []) s) as S. rewrite H in S.
      destruct S as [s2 [E2 _]]; [|congruence]. apply ext_extends.
      split; [reflexivity|]. split; [reflexivity|]. exists []. cbn. rewrite !app_nil_r. reflexivity.
  - destruct (resume_susp_complete eos p s e rest p' s' Ht Hw E) as [Ht' [Hw' [Hcs Hr]]].
    rewrite Hr in H.
    destruct (IH p' (apply_ev e s') r sF Ht' Hw' H) as [[j Hj]|[Hj [Hcl Hv]]].
    + left. exists (S j). cbn [repeat app]. rewrite Hj. reflexivity.
    + right. cbn [repeat length] in *. rewrite Hj. split; [reflexivity|]. split; [|exact Hv].
      destruct e; cbn in *; rewrite <- ?Hcs; [exact Hcl|discriminate Hcl|exact Hcl].
Qed.

Theorem sched_indep {A} : forall sched (p: proc A) s r sF,
  clean p -> wf_sched (closed s) sched ->
  resume p (complete s sched) = inr (r, sF) ->
  (exists j, drive sched p s = repeat OUnder j ++ [ODone r (pos sF)])
  \/ drive sched p s = repeat OUnder (S (length sched)).
Proof.
  intros sched p s r sF Hc Hw H.
  destruct (drive_complete false sched p s r sF (proj1 (clean_tame p) Hc) Hw H) as [Hj|[Hj _]]; auto.
Qed.

Theorem tame_sched_indep_closed {A} eos sched (p: proc A) s r sF :
  tame eos p -> wf_sched (closed s) sched ->
  closed s || has_close sched = true ->
  resume p (complete s sched) = inr (r, sF) ->
  exists j, drive sched p s = repeat OUnder j ++ [ODone r (pos sF)].
Proof.
  intros Ht Hw Hcl H. destruct (drive_complete eos sched p s r sF Ht Hw H) as [Hj|[_ [Hc _]]]; [exact Hj|congruence].
Qed.

(* [sched_indep] without its second case: the stream is closed at the start or by the schedule *)
Theorem sched_indep_closed {A} : forall sched (p: proc A) s r sF,
  clean p -> wf_sched (closed s) sched ->
  closed s || has_close sched = true ->
  resume p (complete s sched) = inr (r, sF) ->
  exists j, drive sched p s = repeat OUnder j ++ [ODone r (pos sF)].
Proof. intros sched p s r sF Hc. exact (tame_sched_indep_closed false sched p s r sF (proj1 (clean_tame p) Hc)). Qed.

(* [sched_indep_closed] for a schedule that contains Close *)
Theorem sched_indep_close {A} (sched: list envev) (p: proc A) s r sF :
  clean p -> wf_sched (closed s) sched -> has_close sched = true ->
  resume p (complete s sched) = inr (r, sF) ->
  exists j, drive sched p s = repeat OUnder j ++ [ODone r (pos sF)].
Proof.
  intros Hc Hw Hh H. apply sched_indep_closed; auto. rewrite Hh. apply orb_true_r.
Qed.

Theorem sched_indep_ok {A} : forall sched (p: proc A) s a sF,
  clean p -> wf_sched (closed s) sched ->
  resume p (complete s sched) = inr (Ok a, sF) ->
  exists j, drive sched p s = repeat OUnder j ++ [ODone (Ok a) (pos sF)].
Proof.
  intros sched p s a sF Hc Hw H.
  destruct (drive_complete false sched p s _ sF (proj1 (clean_tame p) Hc) Hw H) as [Hj|[_ [_ Hv]]]; [exact Hj|].
  destruct (Hv eq_refl a eq_refl).
Qed.

(* C06: every proper prefix is reported as insufficient data *)
Definition insufficient {A} (x: (proc A * stream) + (res A * stream)) : Prop :=
  match x with
  | inl _ => True                       (* suspended on an underrun *)
  | inr (Err EEndOfStream, _) => True   (* end-of-stream error *)
  | _ => False
  end.

(* closing the stream turns a suspension into the end-of-stream error and changes nothing else *)
Lemma attempt_close s n : closed s = false ->
  attempt (apply_ev Close s) n =
  match attempt s n with
  | (Got c, s') => (Got c, apply_ev Close s')
  | (_, s') => (EOS, apply_ev Close s')
  end.
Proof.
  intros Hc. unfold attempt. change (avail (apply_ev Close s)) with (avail s). rewrite Hc.
  destruct (Nat.eqb n 0); [reflexivity|]. destruct (Nat.ltb (length (avail s)) n); reflexivity.
Qed.

Lemma resume_close {A} (p: proc A) : clean p -> forall s, closed s = false ->
  match resume p s with
  | inl _ => exists s1, resume p (apply_ev Close s) = inr (Err EEndOfStream, s1)
  | inr (r, s') => resume p (apply_ev Close s) = inr (r, apply_ev Close s')
  end.
Proof.
  induction 1 as [a0|e0|n k Hk IH|k Hk IH|d k Hk IH|k Hk IH|k Hk IH]; intros s Hc; cbn [resume];
    try reflexivity; try (apply IH; exact Hc).
  rewrite (attempt_close s n Hc). destruct (attempt s n) as [[c| |] sm] eqn:E; [|eauto|reflexivity].
  apply IH. destruct (attempt_frame _ _ _ _ E) as [_ [Hcl _]]. congruence.
Qed.

(* with the stream still open the truncated run suspends: a value or an error would be that of the whole run *)
Theorem prefix_insufficient_open {A} (p: proc A) : clean p -> forall e k q a s',
  k < length e -> q <= k ->
  resume p (mkStream e q true 0) = inr (Ok a, s') -> k < pos s' ->
  exists p' s1, resume p (mkStream (firstn k e) q false 0) = inl (p', s1).
Proof.
  intros Hc e k q a s' Hlt Hq H Hpos.
  assert (Hx: extends (mkStream (firstn k e) q false 0) (mkStream e q true 0)).
  { split; [reflexivity|]. split; [reflexivity|]. exists (skipn k e). symmetry. apply firstn_skipn. }
  pose proof (resume_sim false p (proj1 (clean_tame p) Hc) _ _ (ext_extends _ _ Hx)) as S.
  pose proof (resume_frame p (mkStream (firstn k e) q false 0)) as [_ [_ Hle]].
  cbn [arrived pos] in Hle. rewrite firstn_length, Nat.min_l in Hle by lia.
  destruct (resume p (mkStream (firstn k e) q false 0)) as [[p' s1]|[[a1|e1] s1]]; [eauto| |].
  - destruct S as [s2 [E2 Hx2]]. rewrite E2 in H. inversion H; subst.
    cbn [end_stream] in Hle. rewrite (proj1 (proj1 Hx2)) in Hle. lia.
  - destruct (S eq_refl) as [s2 [E2 _]]. congruence.
Qed.

(* the streaming decoder on a stream that ended at the cut raises the end-of-stream error *)
Theorem prefix_closed_eos {A} (p: proc A) : clean p -> forall e k q a s',
  k < length e -> q <= k ->
  resume p (mkStream e q true 0) = inr (Ok a, s') -> k < pos s' ->
  exists s1, resume p (mkStream (firstn k e) q true 0) = inr (Err EEndOfStream, s1).
Proof.
  intros Hc e k q a s' Hlt Hq H Hpos.
  destruct (prefix_insufficient_open p Hc e k q a s' Hlt Hq H Hpos) as [p' [s1 E]].
  pose proof (resume_close p Hc (mkStream (firstn k e) q false 0) eq_refl) as S. rewrite E in S. exact S.
Qed.

Theorem prefix_insufficient {A} (p: proc A) : clean p -> forall e k q a s',
  k < length e -> q <= k ->
  resume p (mkStream e q true 0) = inr (Ok a, s') -> k < pos s' ->
  insufficient (resume p (mkStream (firstn k e) q true 0)).
Proof.
  intros Hc e k q a s' Hlt Hq H Hpos.
  destruct (prefix_closed_eos p Hc e k q a s' Hlt Hq H Hpos) as [s1 ->]. exact I.
Qed.

(* p with every AtEOS and ReadAll node replaced by [Raise u]: a clean tree that runs as p does as long as
   the run meets no such node; u is an error p itself never raises (EUnclean for the decoder) *)
Fixpoint guard {A} (u: err) (p: proc A) : proc A :=
  match p with
  | Ret a => Ret a
  | Raise e => Raise e
  | ReadN n k => ReadN n (fun b => guard u (k b))
  | Tell k => Tell (fun q => guard u (k q))
  | SeekBack d k => SeekBack d (guard u k)
  | Mark k => Mark (guard u k)
  | GetMark k => GetMark (fun q => guard u (k q))
  | AtEOS _ => Raise u
  | ReadAll _ => Raise u
  end.

Lemma guard_clean {A} (u: err) (p: proc A) : clean (guard u p).
Proof.
  induction p as [a0|e|n k IH|k IH|d k IH|k IH|k IH|k IH|k IH]; cbn [guard]; constructor; auto.
Qed.

Lemma guard_done {A} (u: err) (p: proc A) : forall s r s',
  resume (guard u p) s = inr (r, s') -> r <> Err u -> resume p s = inr (r, s').
Proof.
  induction p as [a0|e|n k IH|k IH|d k IH|k IH|k IH|k IH|k IH]; intros s r s' H Hne;
    cbn [guard resume] in *; auto.
  - destruct (attempt s n) as [[c| |] sm]; try discriminate; auto.
  - inversion H; subst. congruence.
  - inversion H; subst. congruence.
Qed.

Lemma guard_susp {A} (u: err) (p: proc A) : forall s q s',
  resume (guard u p) s = inl (q, s') -> exists p', q = guard u p' /\ resume p s = inl (p', s').
Proof.
  induction p as [a0|e|n k IH|k IH|d k IH|k IH|k IH|k IH|k IH]; intros s q s' H;
    cbn [guard resume] in *; try discriminate; auto.
  destruct (attempt s n) as [[c| |] sm]; try discriminate; auto.
  inversion H; subst; clear H. exists (ReadN n k). split; reflexivity.
Qed.

(* the driver cannot tell p from G p, a version of p in which some nodes are replaced by [Raise u], when
   the complete run of G p does not end in that error *)
Section Guarded.
  Context {A: Type} (eos: bool) (u: err) (G: proc A -> proc A).
  Hypothesis G_tame : forall p, tame eos (G p).
  Hypothesis G_done : forall p s r s', resume (G p) s = inr (r, s') -> r <> Err u -> resume p s = inr (r, s').
  Hypothesis G_susp : forall p s q s', resume (G p) s = inl (q, s') -> exists p', q = G p' /\ resume p s = inl (p', s').

  Theorem guarded_drive : forall sched p s r sF,
    wf_sched (closed s) sched ->
    resume (G p) (complete s sched) = inr (r, sF) -> r <> Err u ->
    drive sched (G p) s = drive sched p s.
  Proof.
    induction sched as [|e rest IH]; intros p s r sF Hw H Hne; cbn [drive];
      (destruct (resume (G p) s) as [[q s']|[r' s']] eqn:E;
        [destruct (G_susp p _ _ _ E) as [p' [-> E']]; rewrite E'|
         destruct (resume_done_complete eos _ s _ r sF r' s' (G_tame p) Hw H E) as [-> _];
         rewrite (G_done p _ _ _ E Hne); reflexivity]).
    - reflexivity.
    - destruct (resume_susp_complete eos _ s e rest _ s' (G_tame p) Hw E) as [_ [Hw' [_ Hr]]].
      rewrite Hr in H. rewrite (IH p' (apply_ev e s') r sF Hw' H Hne). reflexivity.
  Qed.
End Guarded.

Theorem guard_drive {A} (u: err) : forall sched (p: proc A) s r sF,
  wf_sched (closed s) sched ->
  resume (guard u p) (complete s sched) = inr (r, sF) -> r <> Err u ->
  drive sched (guard u p) s = drive sched p s.
Proof.
  apply (guarded_drive false u (guard u)); [|apply guard_done|apply guard_susp].
  intros p. apply clean_tame. apply guard_clean.
Qed.

Theorem sched_indep_run {A} (u: err) (sched: list envev) (p: proc A) s r sF :
  wf_sched (closed s) sched ->
  resume (guard u p) (complete s sched) = inr (r, sF) -> r <> Err u ->
  resume p (complete s sched) = inr (r, sF)
  /\ ((exists j, drive sched p s = repeat OUnder j ++ [ODone r (pos sF)])
      \/ drive sched p s = repeat OUnder (S (length sched))).
Proof.
  intros Hw H Hne. split; [apply (guard_done u); assumption|].
  rewrite <- (guard_drive u sched p s r sF Hw H Hne).
  apply sched_indep; auto. apply guard_clean.
Qed.

(* [sched_indep_closed] for any tree whose complete guarded run did not hit the guard *)
Theorem sched_indep_close_run {A} (u: err) (sched: list envev) (p: proc A) s r sF :
  wf_sched (closed s) sched -> closed s || has_close sched = true ->
  resume (guard u p) (complete s sched) = inr (r, sF) -> r <> Err u ->
  exists j, drive sched p s = repeat OUnder j ++ [ODone r (pos sF)].
Proof.
  intros Hw Hcl H Hne.
  rewrite <- (guard_drive u sched p s r sF Hw H Hne).
  apply sched_indep_closed; auto. apply guard_clean.
Qed.

Theorem sched_indep_ok_run {A} (u: err) (sched: list envev) (p: proc A) s a sF :
  wf_sched (closed s) sched ->
  resume (guard u p) (complete s sched) = inr (Ok a, sF) ->
  exists j, drive sched p s = repeat OUnder j ++ [ODone (Ok a) (pos sF)].
Proof.
  intros Hw H.
  rewrite <- (guard_drive u sched p s (Ok a) sF Hw H ltac:(discriminate)).
  apply sched_indep_ok; auto. apply guard_clean.
Qed.

Theorem underrun_only_when_missing_run {A} (u: err) (p: proc A) s q s' :
  resume (guard u p) s = inl (q, s') ->
  exists n k, resume p s = inl (ReadN n k, s') /\ length (avail s') < n.
Proof.
  intros H. destruct (guard_susp u p _ _ _ H) as [p' [Hq E]].
  destruct (underrun_only_when_missing _ (guard_clean u p) _ _ _ H) as [n [k [Hk Hlt]]].
  subst q. destruct p' as [a0|e0|n' k'|k'|d' k'|k'|k'|k'|k']; cbn [guard] in Hk; try discriminate.
  inversion Hk; subst. exists n, k'. auto.
Qed.

Theorem exact_consumption_run {A} (u: err) (p: proc A) e t a s' :
  resume (guard u p) (mkStream e 0 true 0) = inr (Ok a, s') ->
  resume p (mkStream e 0 true 0) = inr (Ok a, s')
  /\ exists s'', resume p (mkStream (e ++ t) 0 true 0) = inr (Ok a, s'') /\ pos s'' = pos s'
       /\ avail s'' = avail s' ++ t.
Proof.
  intros H. assert (Hne: Ok a <> Err u) by discriminate.
  split; [apply (guard_done u); assumption|].
  destruct (exact_consumption_tail _ e t a s' (guard_clean u p) H) as [s'' [Hr [Hp Hav]]].
  exists s''. split; [apply (guard_done u); assumption|]. auto.
Qed.

Theorem prefix_insufficient_run {A} (u: err) (p: proc A) e k q a s' :
  u <> EEndOfStream ->
  k < length e -> q <= k ->
  resume (guard u p) (mkStream e q true 0) = inr (Ok a, s') -> k < pos s' ->
  insufficient (resume p (mkStream (firstn k e) q true 0)).
Proof.
  intros Hu Hlt Hq H Hpos.
  pose proof (prefix_insufficient _ (guard_clean u p) e k q a s' Hlt Hq H Hpos) as Hi.
  destruct (resume (guard u p) (mkStream (firstn k e) q true 0)) as [[p' s1]|[r s1]] eqn:E.
  - destruct (guard_susp u p _ _ _ E) as [p'' [_ E']]. rewrite E'. exact I.
  - destruct r as [a'|er]; [contradiction|].
    assert (er = EEndOfStream) as -> by (destruct er; cbn in Hi; tauto).
    rewrite (guard_done u p _ _ _ E); [exact I|]. congruence.
Qed.

Theorem prefix_insufficient_open_run {A} (u: err) (p: proc A) e k q a s' :
  k < length e -> q <= k ->
  resume (guard u p) (mkStream e q true 0) = inr (Ok a, s') -> k < pos s' ->
  exists p' s1, resume p (mkStream (firstn k e) q false 0) = inl (p', s1).
Proof.
  intros Hlt Hq H Hpos.
  destruct (prefix_insufficient_open _ (guard_clean u p) e k q a s' Hlt Hq H Hpos) as [q' [s1 E]].
  destruct (guard_susp u p _ _ _ E) as [p'' [_ E']]. eauto.
Qed.

Theorem prefix_closed_eos_run {A} (u: err) (p: proc A) e k q a s' :
  u <> EEndOfStream ->
  k < length e -> q <= k ->
  resume (guard u p) (mkStream e q true 0) = inr (Ok a, s') -> k < pos s' ->
  exists s1, resume p (mkStream (firstn k e) q true 0) = inr (Err EEndOfStream, s1).
Proof.
  intros Hu Hlt Hq H Hpos.
  destruct (prefix_closed_eos _ (guard_clean u p) e k q a s' Hlt Hq H Hpos) as [s1 E].
  exists s1. apply (guard_done u); [exact E|]. congruence.
Qed.

Print Assumptions closed_no_suspend.
Print Assumptions prefix_closed_eos.
Print Assumptions prefix_closed_eos_run.
Print Assumptions underrun_only_when_missing.
Print Assumptions exact_consumption.
Print Assumptions exact_consumption_tail.
Print Assumptions sched_indep.
Print Assumptions sched_indep_closed.
Print Assumptions sched_indep_close.
Print Assumptions sched_indep_ok.
Print Assumptions prefix_insufficient.
Print Assumptions prefix_insufficient_open.
Print Assumptions guard_clean.
Print Assumptions guard_done.
Print Assumptions guard_susp.
Print Assumptions guard_drive.
Print Assumptions sched_indep_run.
Print Assumptions sched_indep_close_run.
Print Assumptions sched_indep_ok_run.
Print Assumptions underrun_only_when_missing_run.
Print Assumptions exact_consumption_run.
Print Assumptions prefix_insufficient_run.
Print Assumptions prefix_insufficient_open_run.
