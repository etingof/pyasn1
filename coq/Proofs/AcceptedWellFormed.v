(* C10, well-formedness: whatever a decoder accepts - for EVERY input, not only encoder outputs - is a well-formed
   value of the guiding type.  A postcondition ([post], Proofs/DecSound.v) of the decoder model,
   by induction on its fuel: what a call returns is determined by what the calls inside it return,
   whatever the stream holds. *)
From Coq Require Import Lia.
From PV Require Import Base.Bytes Model.Tag Model.TableTypes Model.Types Model.Proc Model.Enc Model.Dec Gen.Tables
     Proofs.Basics Proofs.ProcSim Proofs.DecSound.
Local Open Scope N_scope.

(* an OBJECT IDENTIFIER value has at least two arcs, the first 0, 1 or 2, the second below 40 unless
   the first is 2 (X.680 32, X.690 8.19.4) *)
Definition oid_wf (arcs: list N) : bool :=
  match arcs with
  | first :: second :: _ =>
      N.eqb first 2 || (N.leb second 39 && (N.eqb first 0 || N.eqb first 1))
  | _ => false
  end.

(* a REAL value of the model proper (RFloat stands for values that went through a Python float) *)
Definition real_wf (r: real) : bool := match r with RFloat => false | _ => true end.

(* v is a well-formed value of T: right constructor at every level, one slot per declared
   component, every mandatory component present, a CHOICE holds exactly one of its alternatives,
   list elements are values of the element type *)
Fixpoint val_of (T: ty) (v: val) {struct T} : bool :=
  match T with
  | TBool => match v with VBool _ => true | _ => false end
  | TInt | TEnum => match v with VInt _ => true | _ => false end
  | TBits => match v with VBits _ => true | _ => false end
  | TOcts => match v with VOcts _ => true | _ => false end
  | TStr _ => match v with VOcts _ | VChars _ => true | _ => false end
  | TNull => match v with VNull => true | _ => false end
  | TOid => match v with VOid a => oid_wf a | _ => false end
  | TReal => match v with VReal r => real_wf r | _ => false end
  | TAny => match v with VAny _ | VOcts _ => true | _ => false end
  | TSeq fs | TSet fs =>
      match v with
      | VRec vs =>
          (fix go (fs: list (presence * ty)) (vs: list (option val)) : bool :=
             match fs, vs with
             | [], [] => true
             | (p, t) :: fs', ov :: vs' =>
                 (match ov with
                  | Some x => val_of t x
                  | None => match p with Req => false | _ => true end
                  end) && go fs' vs'
             | _, _ => false
             end) fs vs
      | _ => false
      end
  | TSeqOf t | TSetOf t =>
      match v with VList xs => forallb (val_of t) xs | _ => false end
  | TChoice alts =>
      match v with
      | VChoice i x =>
          (fix go (alts: list ty) (k: nat) : bool :=
             match alts, k with
             | a :: _, O => val_of a x
             | _ :: r, S k' => go r k'
             | [], _ => false
             end) alts i
      | _ => false
      end
  | TImp _ x | TExp _ x => val_of x v
  end.

(* the same, presented with list functions *)
Definition fields_ok (P: ty -> val -> bool) : list (presence * ty) -> list (option val) -> bool :=
  fix go (fs: list (presence * ty)) (vs: list (option val)) : bool :=
    match fs, vs with
    | [], [] => true
    | (p, t) :: fs', ov :: vs' =>
        (match ov with
         | Some x => P t x
         | None => match p with Req => false | _ => true end
         end) && go fs' vs'
    | _, _ => false
    end.

Lemma val_of_seq fs vs : val_of (TSeq fs) (VRec vs) = fields_ok val_of fs vs.
Proof. reflexivity. Qed.
Lemma val_of_set fs vs : val_of (TSet fs) (VRec vs) = fields_ok val_of fs vs.
Proof. reflexivity. Qed.

(* T is a tagging wrapper, not a base type *)
Definition is_wrapped (T: ty) : bool := match T with TImp _ _ | TExp _ _ => true | _ => false end.

Lemma val_of_base : forall T v, val_of T v = val_of (base_of T) v.
Proof. induction T using ty_ind'; intros v; cbn [base_of]; try reflexivity; cbn [val_of]; apply IHT. Qed.

Fixpoint cdepth (v: val) : nat := match v with VChoice _ x => S (cdepth x) | _ => O end.

(* the unread tail handed back by decode is a suffix of the input *)
Lemma decode_with_suffix c fuel sp b d tl :
  decode_with c fuel sp b = Ok (d, tl) -> exists used, b = used ++ tl.
Proof.
  unfold decode_with, run_complete. intros H.
  destruct (resume (dec_item c fuel sp) (mkStream b 0 true 0)) as [[p s]|[[d0|e] s]] eqn:E; try discriminate.
  inversion H; subst. destruct (resume_frame (dec_item c fuel sp) (mkStream b 0 true 0)) as [Ha _].
  rewrite E in Ha. cbn [end_stream arrived] in Ha.
  exists (firstn (pos s) b). unfold avail. rewrite Ha. symmetry. apply firstn_skipn.
Qed.

(* the dispatch tables hand every type a value decoder of its own kind *)
Definition compat (k: tkey) (cd: dec_codec) : bool :=
  match k, cd with
  | KBool, (DcBoolBer | DcBoolCer) | (KInt | KEnum), DcInt | KBits, DcBits | KOcts, DcOcts
  | KStr _, (DcStr | DcOcts) | KNull, DcNull | KOid, DcOid | KReal, DcReal
  | KSeq, DcSeq | KSet, DcSet | KSeqOf, DcSeqOf | KSetOf, DcSetOf | KChoice, DcChoice | KAny, DcAny => true
  | _, _ => false
  end.

(* what holds of every row of a table holds of what a lookup finds *)
Lemma table_compat {B C} (ok: tkey -> B -> bool) (l: list (tkey * B * C)) k b c :
  forallb (fun e => ok (fst (fst e)) (snd (fst e))) l = true -> lookup3 k l = Some (b, c) -> ok k b = true.
Proof. intros Hall H. apply lookup3_in in H. rewrite forallb_forall in Hall. apply (Hall _ H). Qed.

Lemma by_type_compat c T cd fl : by_type c T = Some (cd, fl) -> compat (key_of T) cd = true.
Proof.
  unfold by_type. destruct (lookup3 (key_of T) (dec_type_map c)) as [[cd0 fl0]|] eqn:E1.
  - intros H. inversion H; subst. apply (table_compat compat (dec_type_map c) _ _ fl); [|exact E1].
    destruct c; vm_compute; reflexivity.
  - (* only ENUMERATED and the character-string types are missing from a type map; their base tags
       find the INTEGER and the OCTET STRING decoder *)
    unfold tag_fallback_key. intros H.
    destruct (key_of T) eqn:EK; try (destruct c; vm_compute in E1; discriminate).
    all: destruct c; vm_compute in H; inversion H; reflexivity.
Qed.

(* a member of a tag map (SET members, CHOICE alternatives, a run of OPTIONAL members) that is an
   untagged CHOICE must not reach an untagged ANY: the catch-all entry of the map would hand out the
   ANY alternative itself in place of the CHOICE (see [any_in_choice_member_misplaced] below) *)
Definition map_member_ok (T: ty) : bool :=
  match T with
  | TChoice _ => match tm_default (tagmap_of T) with None => true | Some _ => false end
  | _ => true
  end.

Definition all_req (fs: list (presence * ty)) : bool := forallb (fun f => is_req (fst f)) fs.

(* the types for which acceptance is proved to give a well-formed value: every tag map met on the
   way down holds only members that pass [map_member_ok].  (Not the [fragment] of Model/Dec.v, a
   piece of a constructed string.) *)
Fixpoint frag (T: ty) : bool :=
  match T with
  | TSeq fs => forallb (fun f => frag (snd f)) fs && (all_req fs || forallb (fun f => map_member_ok (snd f)) fs)
  | TSet fs => forallb (fun f => frag (snd f)) fs && forallb (fun f => map_member_ok (snd f)) fs
  | TSeqOf t | TSetOf t => frag t
  | TChoice alts => forallb frag alts && forallb map_member_ok alts
  | TImp _ x | TExp _ x => frag x
  | _ => true
  end.

Lemma frag_base : forall T, frag T = frag (base_of T).
Proof. induction T using ty_ind'; cbn [frag base_of]; auto. Qed.

Lemma base_of_not_wrapped : forall T, is_wrapped (base_of T) = false.
Proof. induction T using ty_ind'; cbn [base_of is_wrapped]; auto. Qed.

Definition in_tmap (m: tmap) (T: ty) : Prop :=
  (exists k, In (k, T) (tm_present m)) \/ tm_default m = Some T.

(* a character-string value holds octets its type's text codec accepts (Model/Dec.v str_octets_ok) *)
Definition str_ok (T: ty) (v: val) : Prop :=
  match base_of T with
  | TStr n => match v with VOcts b => str_octets_ok n b = Some true | _ => False end
  | _ => True
  end.

(* the nesting of CHOICE values is bounded by the fuel n of the call that returned them: the fuel
   with which the decoder computes effective tag sets is then enough *)
Definition dv_ok (n: nat) (T: ty) (v: val) : Prop :=
  (cdepth v <= n)%nat /\ (frag T = true -> val_of T v = true) /\ str_ok T v.

(* what a call guided by the types in P may hand back: the end-of-octets marker only if the caller
   allowed it, raw octets only to the collector, otherwise a value of one of those types *)
Definition gd (n: nat) (P: ty -> Prop) (ae sfun: bool) (d: dval) : Prop :=
  match d with
  | DEoo => ae = true
  | DRaw _ => sfun = true
  | DNoValue | DNone => False
  | DV T v => P T /\ dv_ok n T v
  end.

(* nothing is claimed about what is decoded without a guiding type *)
Definition good (n: nat) (sp: spec) (ae sfun: bool) (d: dval) : Prop :=
  match sp with
  | SNone => True
  | STy T0 => gd n (fun T => T = T0) ae sfun d
  | SMap m => gd n (in_tmap m) ae sfun d
  end.

Lemma good_mono n m sp ae sfun d : (n <= m)%nat -> good n sp ae sfun d -> good m sp ae sfun d.
Proof.
  intros Hle. destruct sp as [|T0|mp]; cbn [good]; auto; destruct d; cbn [gd]; auto;
    intros [H1 [H2 H3]]; (split; [exact H1|split; [lia|exact H3]]).
Qed.

(* the caller's flags matter only for the end-of-octets marker and for raw octets *)
Lemma good_flags n sp ae sfun ae' sfun' d :
  (d = DEoo -> ae = true -> ae' = true) -> (sfun = true -> sfun' = true) ->
  good n sp ae sfun d -> good n sp ae' sfun' d.
Proof. intros Ha Hs. destruct sp as [|T0|mp]; cbn [good]; auto; destruct d; cbn [gd]; auto. Qed.

Lemma good_sty_smap n mp T ae sfun d : in_tmap mp T -> good n (STy T) ae sfun d -> good n (SMap mp) ae sfun d.
Proof. intros Hin. cbn [good]. destruct d; cbn [gd]; auto. intros [-> Hd]. auto. Qed.

Definition rec_good (n: nat) (rec: spec -> tagset -> option (option N) -> bool -> bool -> proc dval) : Prop :=
  forall sp ts rs ae sfun, post (good n sp ae sfun) (rec sp ts rs ae sfun).

Lemma dec_oid_wf b a : dec_oid b = Ok a -> oid_wf a = true.
Proof.
  unfold dec_oid. destruct b as [|o b]; [discriminate|].
  destruct (oid_subids (S (length (o :: b))) (o :: b)) as [[|x r]|e]; cbn [bind]; try discriminate.
  destruct (N.leb_spec x 39) as [H1|H1].
  - intros H. inversion H; subst. cbn [oid_wf]. apply N.leb_le in H1. rewrite H1. reflexivity.
  - destruct (N.leb_spec x 79) as [H2|H2]; intros H; inversion H; subst; cbn [oid_wf]; [|reflexivity].
    assert (Hle: N.leb (x - 40) 39 = true) by (apply N.leb_le; lia). rewrite Hle. reflexivity.
Qed.

Lemma dec_real_wf b r : dec_real b = Ok r -> real_wf r = true.
Proof.
  unfold dec_real. destruct b as [|fo chunk]; [intros H; inversion H; reflexivity|].
  destruct (negb (N.eqb (N.land fo 128) 0)).
  - destruct chunk as [|c0 crest]; [discriminate|].
    destruct (if N.eqb (N.land fo 3 + 1) 4 then (c0, crest) else (N.land fo 3 + 1, c0 :: crest)) as [n chunk1].
    destruct (firstn (N.to_nat n) chunk1); [discriminate|]. destruct (skipn (N.to_nat n) chunk1); [discriminate|].
    destruct (N.ltb 2 (N.land (N.shiftr fo 4) 3)); [discriminate|]. intros H; inversion H; reflexivity.
  - destruct (negb (N.eqb (N.land fo 64) 0)).
    + intros H; inversion H. destruct (N.eqb (N.land fo 1) 0); reflexivity.
    + destruct chunk; discriminate.
Qed.

(* asn1Spec.clone(value) with a value from the decoder the tables chose for the spec *)
Lemma create_good n T cd proto ts v ae sfun : compat (key_of T) cd = true -> payload cd v ->
  post (good n (STy T) ae sfun) (create (Some T) proto ts v).
Proof.
  intros Hc Hm. unfold key_of in Hc. pose proof (base_of_not_wrapped T) as Hnw.
  assert (Hok: forall v', cdepth v' = O -> val_of (base_of T) v' = true -> str_ok T v' ->
                          post (good n (STy T) ae sfun) (Ret (DV T v'))).
  { intros v' Hd Hv Hs. apply post_ret. split; [reflexivity|]. split; [lia|].
    split; [intros _; rewrite val_of_base; exact Hv|exact Hs]. }
  unfold create, str_ok in *. cbv zeta.
  destruct (base_of T); try discriminate Hnw; destruct cd; try discriminate Hc; destruct v; try contradiction Hm.
  all: try (apply Hok; [reflexivity|try reflexivity|exact I]).
  1: destruct Hm as [b0 Hm]; exact (dec_oid_wf _ _ Hm).
  1: destruct Hm as [b0 Hm]; exact (dec_real_wf _ _ Hm).
  all: destruct (str_octets_ok n0 b) as [[|]|] eqn:E; try apply post_raise; apply Hok; [reflexivity|reflexivity|exact E].
Qed.


Lemma forallb_snoc {A} (f: A -> bool) l x : forallb f (l ++ [x]) = forallb f l && f x.
Proof. rewrite forallb_app. cbn [forallb]. rewrite Bool.andb_true_r. reflexivity. Qed.

Section ListOf.
  Variable rec : spec -> tagset -> option (option N) -> bool -> bool -> proc dval.
  Variable lf : nat.
  Hypothesis Hrec : rec_good lf rec.

  Lemma listof_loop_good m T t len start ae sfun : (base_of T = TSeqOf t \/ base_of T = TSetOf t) ->
    forall k acc, (frag t = true -> forallb (val_of t) acc = true) ->
    post (good m (STy T) ae sfun) (listof_loop rec T t len start k acc).
  Proof.
    intros HB.
    assert (Hfin: forall acc, (frag t = true -> forallb (val_of t) acc = true) ->
                              post (good m (STy T) ae sfun) (Ret (DV T (VList acc)))).
    { intros acc Hacc. apply post_ret. split; [reflexivity|]. split; [cbn [cdepth]; lia|].
      split; [|unfold str_ok; destruct HB as [HB|HB]; rewrite HB; exact I].
      intros HF. rewrite frag_base in HF. rewrite val_of_base.
      destruct HB as [HB|HB]; rewrite HB in *; apply (Hacc HF). }
    induction k as [|k IH]; intros acc Hacc; cbn [listof_loop]; [apply post_raise|].
    apply post_bind_any. intros p. cbv zeta. destruct (negb _); [apply Hfin, Hacc|].
    eapply post_bind; [apply Hrec|]. intros d Hg.
    destruct d as [Tc vc| |b| |]; try apply post_raise; [|apply Hfin, Hacc|discriminate Hg].
    destruct Hg as [-> [_ [Hv _]]]. apply IH. intros HF. rewrite forallb_snoc, (Hacc HF), (Hv HF). reflexivity.
  Qed.

  Lemma listof_good m T t len ae sfun : (base_of T = TSeqOf t \/ base_of T = TSetOf t) ->
    post (good m (STy T) ae sfun) (dec_listof rec lf T t len).
  Proof.
    intros HB. unfold dec_listof. apply post_bind_any. intros start.
    apply (listof_loop_good m _ _ _ _ ae sfun HB). reflexivity.
  Qed.
End ListOf.

(* tag maps.  Two tag sets are the same key when [tagset_eqb] says so *)

Section Assoc.
  Context {B: Type}.
  (* k is a key of l *)
  Definition hask (k: tagset) (l: list (tagset * B)) : bool :=
    match assoc tagset_eqb k l with Some _ => true | None => false end.

  Lemma assoc_app k (a b: list (tagset * B)) :
    assoc tagset_eqb k (a ++ b) = match assoc tagset_eqb k a with Some x => Some x | None => assoc tagset_eqb k b end.
  Proof. induction a as [|[k0 v0] a IH]; [reflexivity|]. cbn [app assoc]. destruct (tagset_eqb k k0); [reflexivity|exact IH]. Qed.

  Lemma hask_app k (a b: list (tagset * B)) : hask k (a ++ b) = hask k a || hask k b.
  Proof. unfold hask. rewrite assoc_app. destruct (assoc tagset_eqb k a); reflexivity. Qed.

  Lemma hask_compat k k' (l: list (tagset * B)) : tagset_eqb k k' = true -> hask k l = hask k' l.
  Proof. intros E. unfold hask. rewrite (assoc_tagset_eqb _ _ _ E). reflexivity. Qed.

  (* removing entries whose key is not k does not change the lookup of k *)
  Lemma assoc_filter k k1 (l: list (tagset * B)) : tagset_eqb k k1 = false ->
    assoc tagset_eqb k (filter (fun e => negb (tagset_eqb (fst e) k1)) l) = assoc tagset_eqb k l.
  Proof.
    intros E. induction l as [|[k0 v0] l IH]; [reflexivity|]. cbn [filter fst].
    destruct (tagset_eqb k0 k1) eqn:E0; cbn [negb assoc]; [|rewrite IH; reflexivity].
    destruct (tagset_eqb k k0) eqn:E2; [|exact IH]. rewrite (tagset_eqb_left _ _ _ E2), E0 in E. discriminate.
  Qed.

  Lemma hask_existsb k (l: list (tagset * B)) : hask k l = existsb (fun e => tagset_eqb k (fst e)) l.
  Proof.
    unfold hask. induction l as [|[k0 v0] l IH]; [reflexivity|]. cbn [assoc existsb fst].
    destruct (tagset_eqb k k0); [reflexivity|exact IH].
  Qed.
End Assoc.

(* one entry of a member's map entered into the combined map: dict assignment *)
Definition enter (T: ty) (p: list (tagset * ty)) (kt: tagset * ty) : list (tagset * ty) :=
  filter (fun e => negb (tagset_eqb (fst e) (fst kt))) p ++ [(fst kt, T)].

Lemma enter_hask k T p kt : hask k (enter T p kt) = hask k p || tagset_eqb k (fst kt).
Proof.
  unfold enter. rewrite hask_app. unfold hask at 2. cbn [assoc].
  destruct (tagset_eqb k (fst kt)) eqn:E.
  - rewrite !Bool.orb_true_r. reflexivity.
  - rewrite !Bool.orb_false_r. unfold hask. rewrite (assoc_filter _ _ _ E). reflexivity.
Qed.

Lemma enter_In T p kt k' T' : In (k', T') (enter T p kt) -> In (k', T') p \/ T' = T.
Proof.
  unfold enter. intros H. apply in_app_or in H. destruct H as [H|H].
  - apply filter_In in H. left. apply H.
  - destruct H as [H|[]]. inversion H; subst. right. reflexivity.
Qed.

Lemma enter_fold_hask k T : forall l p, hask k (fold_left (enter T) l p) = hask k p || hask k l.
Proof.
  induction l as [|kt l IH]; intros p; cbn [fold_left].
  - unfold hask at 3. cbn [assoc]. rewrite Bool.orb_false_r. reflexivity.
  - rewrite IH, enter_hask. rewrite (hask_existsb k (kt :: l)). cbn [existsb]. rewrite <- hask_existsb.
    rewrite Bool.orb_assoc. reflexivity.
Qed.

Lemma enter_fold_In T k' T' : forall l p, In (k', T') (fold_left (enter T) l p) -> In (k', T') p \/ T' = T.
Proof.
  induction l as [|kt l IH]; intros p H; cbn [fold_left] in H; [left; exact H|].
  destruct (IH _ H) as [H1|H1]; [|right; exact H1]. apply (enter_In _ _ _ _ _ H1).
Qed.

Lemma combine_maps_step u m T r acc :
  combine_maps u ((m, T) :: r) acc =
  combine_maps u r
    (mkTmap (fold_left (enter T) (tm_present m) (tm_present acc)) (tm_skip acc ++ tm_skip m)
            (match tm_default acc with Some d => Some d | None => tm_default m end)
            (tm_postponed acc || tm_postponed m
             || (u && existsb (fun kt => match tm_find (fst kt) (tm_present acc) with Some _ => true | None => false end) (tm_present m))
             || match tm_default acc, tm_default m with Some _, Some _ => true | _, _ => false end)).
Proof. reflexivity. Qed.

(* the combined map has the members' keys, hands out the members' types, and its catch-all entry
   is a member's *)
Lemma combine_hask k u : forall l acc,
  hask k (tm_present (combine_maps u l acc)) = hask k (tm_present acc) || existsb (fun mt => hask k (tm_present (fst mt))) l.
Proof.
  induction l as [|[m T] l IH]; intros acc.
  - cbn [combine_maps existsb]. rewrite Bool.orb_false_r. reflexivity.
  - rewrite combine_maps_step, IH. cbn [tm_present existsb fst]. rewrite enter_fold_hask, Bool.orb_assoc. reflexivity.
Qed.

Lemma combine_In k T u : forall l acc,
  In (k, T) (tm_present (combine_maps u l acc)) -> In (k, T) (tm_present acc) \/ In T (map snd l).
Proof.
  induction l as [|[m T0] l IH]; intros acc H.
  - left. exact H.
  - rewrite combine_maps_step in H. destruct (IH _ H) as [H1|H1]; [|right; right; exact H1].
    destruct (enter_fold_In _ _ _ _ _ H1) as [H2|H2]; [left; exact H2|right; left; symmetry; exact H2].
Qed.

Lemma combine_default d u : forall l acc,
  tm_default (combine_maps u l acc) = Some d ->
  tm_default acc = Some d \/ exists mt, In mt l /\ tm_default (fst mt) = Some d.
Proof.
  induction l as [|[m T0] l IH]; intros acc H.
  - left. exact H.
  - rewrite combine_maps_step in H. destruct (IH _ H) as [H1|(mt & Hin & Hd)].
    + cbn [tm_default] in H1. destruct (tm_default acc) as [d0|].
      * left. exact H1.
      * right. exists (m, T0). split; [left; reflexivity|exact H1].
    + right. exists mt. split; [right; exact Hin|exact Hd].
Qed.

Lemma tagmap_choice alts : tagmap_of (TChoice alts) = fields_tagmap true alts.
Proof. reflexivity. Qed.

(* whatever a map built from member types hands out is one of the members *)
Lemma fields_tagmap_member u L T :
  (forall T0, In T0 L -> map_member_ok T0 = true) -> in_tmap (fields_tagmap u L) T -> In T L.
Proof.
  intros Hok [[k Hin]|Hd]; unfold fields_tagmap in *.
  - apply combine_In in Hin. destruct Hin as [[]|Hin]. rewrite map_map in Hin. cbn [snd] in Hin. rewrite map_id in Hin. exact Hin.
  - apply combine_default in Hd. destruct Hd as [Hd|(mt & Hin & Hd)]; [discriminate|].
    apply in_map_iff in Hin. destruct Hin as (T0 & <- & Hin). cbn [fst] in Hd. specialize (Hok _ Hin).
    destruct T0; cbn [tagmap_of tm_default] in Hd; try discriminate.
    + unfold map_member_ok in Hok. cbn [tagmap_of] in Hok. rewrite Hd in Hok. discriminate.
    + inversion Hd; subst. exact Hin.
Qed.

(* a well-formed CHOICE value names one of the alternatives and holds a value of it *)
Lemma val_of_choice alts i x :
  val_of (TChoice alts) (VChoice i x) = match nth_error alts i with Some a => val_of a x | None => false end.
Proof. apply (nth_loop (fun a => val_of a x)). Qed.

(* the effective tag set of a well-formed value is one of the keys of its type's tag map *)
Lemma ets_key : forall fuel T v, (cdepth v < fuel)%nat -> val_of T v = true ->
  hask (effective_tagset fuel T v) (tm_present (tagmap_of T)) = true.
Proof.
  induction fuel as [|f IH]; intros T v Hd Hv; [lia|].
  assert (Hplain: forall T', tagmap_of T' = mkTmap [(tagset_of' T', T')] [] None false ->
                             hask (tagset_of' T') (tm_present (tagmap_of T')) = true).
  { intros T' ->. cbn [tm_present]. unfold hask. cbn [assoc]. rewrite tagset_eqb_refl. reflexivity. }
  destruct T; try (cbn [effective_tagset]; apply Hplain; reflexivity).
  - (* CHOICE *)
    destruct v as [| | | | | | | | | |i v|]; try discriminate Hv. cbn [effective_tagset].
    rewrite val_of_choice in Hv. destruct (nth_error alts i) as [a|] eqn:Hn; [|discriminate].
    rewrite (nth_error_nth _ _ TNull Hn).
    cbn [cdepth] in Hd. assert (Hd': (cdepth v < f)%nat) by lia.
    rewrite tagmap_choice. unfold fields_tagmap. rewrite combine_hask.
    apply existsb_exists. exists (tagmap_of a, a). split; [|exact (IH a v Hd' Hv)].
    apply in_map_iff. exists a. split; [reflexivity|]. apply (nth_error_In _ _ Hn).
  - (* ANY *)
    destruct v; reflexivity.
Qed.

Lemma ttp_mono ets : forall fs i acc m k, tag_to_pos fs i acc = Some m ->
  assoc tagset_eqb ets acc = Some k -> assoc tagset_eqb ets m = Some k.
Proof.
  induction fs as [|T0 r IH]; intros i acc m k H Ha; cbn [tag_to_pos] in H.
  - inversion H; subst. exact Ha.
  - cbv zeta in H. destruct (tm_postponed (tagmap_of T0)); [discriminate|].
    destruct (existsb _ _); [discriminate|].
    apply (IH _ _ _ _ H). rewrite assoc_app, Ha. reflexivity.
Qed.

Lemma assoc_keys_const ets (i: nat) : forall keys, existsb (tagset_eqb ets) keys = true ->
  assoc tagset_eqb ets (map (fun k => (k, i)) keys) = Some i.
Proof.
  induction keys as [|k0 r IH]; cbn [existsb map assoc]; [discriminate|].
  destruct (tagset_eqb ets k0); [reflexivity|exact IH].
Qed.

(* the tag-to-position map sends every key of the j-th member to j *)
Lemma ttp_pos ets : forall fs i acc m, tag_to_pos fs i acc = Some m ->
  forall j T, nth_error fs j = Some T -> hask ets (tm_present (tagmap_of T)) = true ->
  assoc tagset_eqb ets acc = None /\ assoc tagset_eqb ets m = Some (i + j)%nat.
Proof.
  induction fs as [|T0 r IH]; intros i acc m H j T Hn Hk; [destruct j; discriminate|].
  cbn [tag_to_pos] in H. cbv zeta in H. destruct (tm_postponed (tagmap_of T0)); [discriminate|].
  destruct (existsb _ _) eqn:Edup in H; [discriminate|].
  destruct j as [|j]; cbn [nth_error] in Hn.
  - inversion Hn; subst T0. clear Hn.
    rewrite hask_existsb in Hk. apply existsb_exists in Hk. destruct Hk as ([k0 T1] & Hin & Heq). cbn [fst] in Heq.
    assert (Hk0: In k0 (map fst (tm_present (tagmap_of T)))) by (apply in_map_iff; exists (k0, T1); auto).
    assert (Hacc: assoc tagset_eqb ets acc = None).
    { rewrite (assoc_tagset_eqb _ _ _ Heq). destruct (assoc tagset_eqb k0 acc) eqn:E; [|reflexivity].
      apply Bool.not_true_iff_false in Edup. destruct Edup. apply existsb_exists. exists k0. rewrite E. auto. }
    split; [exact Hacc|]. rewrite Nat.add_0_r. apply (ttp_mono _ _ _ _ _ _ H).
    rewrite assoc_app, Hacc. apply assoc_keys_const. apply existsb_exists. exists k0. auto.
  - destruct (IH _ _ _ H _ _ Hn Hk) as [Hacc' Hm].
    rewrite assoc_app in Hacc'. split.
    + destruct (assoc tagset_eqb ets acc); [discriminate|reflexivity].
    + rewrite Hm. f_equal. lia.
Qed.

(* where a decoded member is put: at the member whose type it was decoded with *)
Lemma place_sound lf u L ae Tc vc k :
  (forall T, In T L -> frag T = true /\ map_member_ok T = true) ->
  good lf (SMap (fields_tagmap u L)) ae false (DV Tc vc) ->
  position_by_type L (effective_tagset (S lf) Tc vc) = Ok k -> nth_error L k = Some Tc /\ val_of Tc vc = true.
Proof.
  intros Hok [Hin [Hd [Hv _]]] Hp.
  pose proof (fields_tagmap_member _ _ _ (fun T H => proj2 (Hok T H)) Hin) as HIn.
  specialize (Hv (proj1 (Hok _ HIn))). destruct (In_nth_error _ _ HIn) as [j Hj].
  assert (Hk: hask (effective_tagset (S lf) Tc vc) (tm_present (tagmap_of Tc)) = true) by (apply ets_key; [lia|exact Hv]).
  unfold position_by_type in Hp. destruct (tag_to_pos L 0 []) as [m|] eqn:Em; [|discriminate].
  destruct (ttp_pos _ _ _ _ _ Em _ _ Hj Hk) as [_ Hm]. rewrite Hm in Hp. inversion Hp; subst. auto.
Qed.

(* SEQUENCE / SET.  The component slots while the loop runs: one per declared member, filled ones
   well-formed *)
Definition slots_ok (P: ty -> val -> bool) : list (presence * ty) -> list (option val) -> bool :=
  fix go (fs: list (presence * ty)) (vs: list (option val)) : bool :=
    match fs, vs with
    | [], [] => true
    | (p, t) :: fs', ov :: vs' => (match ov with Some x => P t x | None => true end) && go fs' vs'
    | _, _ => false
    end.

Lemma slots_init P : forall fs, slots_ok P fs (map (fun _ => None) fs) = true.
Proof. induction fs as [|[p t] fs IH]; [reflexivity|]. cbn [map slots_ok andb]. exact IH. Qed.

Lemma slots_set P : forall fs vs i p t x, slots_ok P fs vs = true -> nth_error fs i = Some (p, t) -> P t x = true ->
  slots_ok P fs (set_nth i (Some x) vs) = true.
Proof.
  induction fs as [|[p0 t0] fs IH]; intros vs i p t x Hs Hn Hx; [destruct i; discriminate|].
  destruct vs as [|ov vs]; [discriminate|]. cbn [slots_ok] in Hs. apply andb_prop in Hs. destruct Hs as [H1 H2].
  destruct i as [|i]; cbn [nth_error] in Hn; cbn [set_nth slots_ok].
  - inversion Hn; subst. rewrite Hx, H2. reflexivity.
  - rewrite H1, (IH _ _ _ _ _ H2 Hn Hx). reflexivity.
Qed.

Lemma slots_finish P : forall fs vs, slots_ok P fs vs = true -> required_seen fs vs = true -> fields_ok P fs vs = true.
Proof.
  unfold required_seen.
  induction fs as [|[p t] fs IH]; intros [|ov vs] Hs Hr; try discriminate; [reflexivity|].
  cbn [slots_ok] in Hs. apply andb_prop in Hs. destruct Hs as [H1 H2].
  cbn [combine forallb fst snd] in Hr. apply andb_prop in Hr. destruct Hr as [R1 R2].
  cbn [fields_ok]. rewrite (IH _ H2 R2), Bool.andb_true_r.
  destruct ov; [exact H1|]. destruct p; [discriminate| |]; reflexivity.
Qed.

Lemma ambiguous_run_prefix : forall fs k t, nth_error (ambiguous_run fs) k = Some t ->
  exists p, nth_error fs k = Some (p, t).
Proof.
  induction fs as [|[p0 t0] fs IH]; intros k t H; [destruct k; discriminate|].
  destruct k as [|k]; [destruct p0; inversion H; subst; eexists; reflexivity|].
  destruct p0; cbn [ambiguous_run nth_error] in H; [destruct k; discriminate| |]; apply (IH _ _ H).
Qed.

Lemma nth_error_skipn {A} : forall i (l: list A) k, nth_error (skipn i l) k = nth_error l (i + k).
Proof. induction i as [|i IH]; intros [|x l] k; try reflexivity; [destruct k; reflexivity|apply IH]. Qed.

Section Record.
  Variable rec : spec -> tagset -> option (option N) -> bool -> bool -> proc dval.
  Variable lf : nat.
  Hypothesis Hrec : rec_good lf rec.

  Lemma record_end_good m T fs (is_set: bool) vs ae sfun :
    base_of T = (if is_set then TSet fs else TSeq fs) ->
    (frag T = true -> slots_ok val_of fs vs = true) ->
    post (good m (STy T) ae sfun) (record_end T fs vs).
  Proof.
    intros HB Hs.
    assert (Hv: forall vs', (frag T = true -> fields_ok val_of fs vs' = true) ->
                            post (good m (STy T) ae sfun) (Ret (DV T (VRec vs')))).
    { intros vs' Hf. apply post_ret. split; [reflexivity|]. split; [cbn [cdepth]; lia|].
      split; [|unfold str_ok; rewrite HB; destruct is_set; exact I]. intros HF.
      rewrite val_of_base, HB. destruct is_set; apply (Hf HF). }
    unfold record_end. destruct fs as [|f fs']; [apply Hv; reflexivity|].
    destruct (required_seen (f :: fs') vs) eqn:E; [|apply post_raise].
    apply Hv. intros HF. apply slots_finish; [apply (Hs HF)|exact E].
  Qed.

  (* the member a decoded component is stored at is the member it was decoded as *)
  Lemma component_placed T fs (is_set: bool) idx sp' ae' Tc vc i :
    base_of T = (if is_set then TSet fs else TSeq fs) -> frag T = true ->
    (if is_set then Some (SMap (fields_tagmap true (map snd fs)))
     else seq_component_spec fs (negb is_set && all_req fs) idx) = Some sp' ->
    good lf sp' ae' false (DV Tc vc) ->
    seq_position lf fs is_set (negb is_set && all_req fs) idx Tc vc = Ok i ->
    exists p t, nth_error fs i = Some (p, t) /\ val_of t vc = true.
  Proof.
    intros HB HF Hsp Hg Hpos. unfold seq_position in Hpos. rewrite frag_base, HB in HF.
    destruct is_set; cbn [frag negb andb] in *; apply andb_prop in HF; destruct HF as [Hfr Hmap];
      rewrite forallb_forall in Hfr.
    - (* SET *)
      inversion Hsp; subst sp'. rewrite forallb_forall in Hmap.
      assert (Hmem: forall T, In T (map snd fs) -> frag T = true /\ map_member_ok T = true).
      { intros T0 HT. apply in_map_iff in HT. destruct HT as (f & <- & HT). auto. }
      destruct (place_sound _ _ _ _ _ _ _ Hmem Hg Hpos) as [Hn Hvo].
      rewrite nth_error_map in Hn. destruct (nth_error fs i) as [[p t]|] eqn:En; [|discriminate].
      inversion Hn; subst. exists p, Tc. auto.
    - (* SEQUENCE *)
      unfold seq_component_spec in Hsp.
      destruct (nth_error fs idx) as [[p t]|] eqn:En; [|discriminate].
      assert (Hhere: sp' = STy t -> i = idx -> exists p t, nth_error fs i = Some (p, t) /\ val_of t vc = true).
      { intros -> ->. destruct Hg as [-> [_ [Hv _]]]. exists p, t. split; [exact En|]. apply Hv, (Hfr (p, t)), (nth_error_In _ _ En). }
      destruct (all_req fs); cbn [orb] in *; [inversion Hsp; inversion Hpos; auto|].
      destruct (is_req p); [inversion Hsp; inversion Hpos; auto|].
      inversion Hsp; subst sp'. rewrite forallb_forall in Hmap.
      destruct (position_by_type _ _) as [k|] eqn:Ek; [|discriminate]. inversion Hpos; subst i.
      assert (Hrun: forall j T, nth_error (ambiguous_run (skipn idx fs)) j = Some T -> exists p', nth_error fs (idx + j) = Some (p', T)).
      { intros j T0 HT. apply ambiguous_run_prefix in HT. rewrite nth_error_skipn in HT. exact HT. }
      assert (Hmem: forall T, In T (ambiguous_run (skipn idx fs)) -> frag T = true /\ map_member_ok T = true).
      { intros T0 HT. apply In_nth_error in HT. destruct HT as [j HT]. apply Hrun in HT. destruct HT as [p' HT].
        apply nth_error_In in HT. split; [apply (Hfr _ HT)|apply (Hmap _ HT)]. }
      destruct (place_sound _ _ _ _ _ _ _ Hmem Hg Ek) as [Hn Hvo].
      destruct (Hrun _ _ Hn) as [p' Hn']. exists p', Tc. auto.
  Qed.

  Lemma record_loop_good m T fs (is_set: bool) len start ae sfun :
    base_of T = (if is_set then TSet fs else TSeq fs) ->
    forall k idx vs extra, (frag T = true -> slots_ok val_of fs vs = true) ->
    post (good m (STy T) ae sfun) (record_loop rec lf T fs is_set len start k idx vs extra).
  Proof.
    intros HB k idx vs extra.
    apply (record_loop_post rec lf (fun sp ae d => good lf sp ae false d) (fun sp ts rs ae => Hrec sp ts rs ae false)
             T fs is_set _ (fun vs => frag T = true -> slots_ok val_of fs vs = true)).
    - intros vs0 Hs. apply (record_end_good m T fs is_set vs0 ae sfun HB Hs).
    - intros idx0 vs0 sp' ae' Tc vc i Hs Esp Hg Hi HF.
      destruct (component_placed _ _ _ _ _ _ _ _ _ HB HF Esp Hg Hi) as (p0 & t & Hn & Hv).
      apply (slots_set _ _ _ _ _ _ _ (Hs HF) Hn Hv).
    - (* raw octets go into an ANY member *)
      intros idx0 vs0 b p0 ft Hs En Ea HF. apply (slots_set _ _ _ _ _ _ _ (Hs HF) En).
      rewrite val_of_base. unfold is_any in Ea. destruct (base_of ft); try discriminate Ea. reflexivity.
  Qed.

  Lemma record_good m T fs (is_set: bool) len ae sfun :
    base_of T = (if is_set then TSet fs else TSeq fs) ->
    post (good m (STy T) ae sfun) (dec_record rec lf T fs is_set len).
  Proof.
    intros HB. unfold dec_record. apply post_bind_any. intros start.
    apply (record_loop_good m _ _ _ _ _ ae sfun HB). intros _. apply slots_init.
  Qed.
End Record.

Section Choice.
  Variable rec : spec -> tagset -> option (option N) -> bool -> bool -> proc dval.
  Variable lf : nat.
  Hypothesis Hrec : rec_good lf rec.

  Lemma choice_place_good T alts ae' d0 ae sfun :
    base_of T = TChoice alts ->
    good lf (SMap (fields_tagmap true alts)) ae' false d0 ->
    post (good (S lf) (STy T) ae sfun) (choice_place lf T alts d0).
  Proof.
    intros HB Hg. unfold choice_place. destruct d0 as [Tc vc| |b| |]; try apply post_raise.
    apply post_bind_lift. intros i Hi. apply post_ret.
    split; [reflexivity|]. split; [destruct Hg as [_ [Hd _]]; cbn [cdepth]; lia|].
    split; [|unfold str_ok; rewrite HB; exact I].
    intros HF. rewrite frag_base, HB in HF. cbn [frag] in HF. apply andb_prop in HF. destruct HF as [Hfr Hmap].
    rewrite forallb_forall in Hfr, Hmap.
    destruct (place_sound _ _ _ _ _ _ _ (fun T HT => conj (Hfr T HT) (Hmap T HT)) Hg Hi) as [Hn Hvo].
    rewrite val_of_base, HB, val_of_choice, Hn. exact Hvo.
  Qed.

  Lemma choice_loop_good T alts ts (tagged: bool) ae sfun :
    base_of T = TChoice alts ->
    forall k cur, (match cur with None => True | Some x => good (S lf) (STy T) ae sfun x end) ->
    post (good (S lf) (STy T) ae sfun) (choice_loop rec lf T alts ts tagged k cur).
  Proof.
    intros HB. induction k as [|k IH]; intros cur Hcur; cbn [choice_loop]; [apply post_raise|].
    cbv zeta. apply (post_bind (good lf (SMap (fields_tagmap true alts)) tagged false)); [destruct tagged; apply Hrec|].
    intros d Hg.
    destruct d as [Tc vc| |b| |]; [|destruct cur as [x|]; [apply post_ret, Hcur|apply post_raise]| | |];
      (apply (post_bind (good (S lf) (STy T) ae sfun)); [apply (choice_place_good _ _ _ _ _ _ HB Hg)|]; intros x Hx;
       destruct tagged; [apply (IH (Some x)), Hx|apply post_ret, Hx]).
  Qed.

  Lemma choice_good T alts ts len ae sfun :
    base_of T = TChoice alts -> post (good (S lf) (STy T) ae sfun) (dec_choice rec lf T alts ts len).
  Proof.
    intros HB. unfold dec_choice. cbv zeta. destruct len as [l|]; [|apply (choice_loop_good _ _ _ _ _ _ HB), I].
    apply (post_bind (good lf (SMap (fields_tagmap true alts)) false false)); [destruct (tagset_eqb _ ts); apply Hrec|].
    intros d Hg. apply (choice_place_good _ _ _ _ _ _ HB Hg).
  Qed.
End Choice.

Section Call.
  Variable c : codec.
  Variable rec : spec -> tagset -> option (option N) -> bool -> bool -> proc dval.
  Variable lf : nat.
  Hypothesis Hrec : rec_good lf rec.

  Lemma raw_loop_good sp ts ae : forall k last, (last = DNoValue \/ good lf sp false false last) ->
    post (good lf sp ae false) (raw_loop rec sp ts k last).
  Proof.
    induction k as [|k IH]; intros last Hl; cbn [raw_loop]; [apply post_raise|].
    apply (post_bind (good lf sp true false)); [apply Hrec|]. intros d Hg.
    destruct d; try (apply IH; right; revert Hg; apply good_flags; [discriminate|auto]).
    destruct Hl as [->|Hl]; [apply post_raise|].
    destruct last; try apply post_raise; apply post_ret; revert Hl; (apply good_flags; [intros _ E; discriminate E|auto]).
  Qed.

  Lemma raw_good sp ts len ae sfun : post (good lf sp ae sfun) (dec_raw rec lf sp ts len sfun).
  Proof.
    unfold dec_raw. destruct sfun; [apply collector_post; intros b; destruct sp; reflexivity|].
    destruct len as [l|]; [|apply raw_loop_good; left; reflexivity].
    apply (post_mono (good lf sp false false)); [|apply Hrec].
    intros d. apply good_flags; [intros _ E; discriminate E|auto].
  Qed.

  Lemma dec_value_good cd fl T ts len ae sfun : compat (key_of T) cd = true ->
    post (good (S lf) (STy T) ae sfun) (dec_value rec lf cd fl (Some T) ts len sfun).
  Proof.
    intros Hc. destruct (constructed cd) eqn:Ecd.
    2: { apply scalar_value_post; [exact Ecd|intros -> b; reflexivity|]. intros proto v. apply create_good, Hc. }
    assert (Hcoll: sfun = true -> post (good (S lf) (STy T) ae sfun) (collector lf len)).
    { intros ->. apply collector_post. reflexivity. }
    unfold key_of in Hc. unfold dec_value. cbv zeta.
    destruct (base_of T) eqn:HB; destruct cd; try discriminate Hc; try discriminate Ecd.
    5: destruct sfun; [apply Hcoll; reflexivity|apply (choice_good rec lf Hrec), HB].
    all: destruct (negb (tag0_cons ts)); [apply post_raise|]; destruct sfun; [apply Hcoll; reflexivity|].
    - apply (record_good rec lf Hrec _ T _ false), HB.
    - apply (record_good rec lf Hrec _ T _ true), HB.
    - apply (listof_good rec lf Hrec). left. exact HB.
    - apply (listof_good rec lf Hrec). right. exact HB.
  Qed.

  Lemma tm_get_in mp ts T : tm_get mp ts = Ok (Some T) -> in_tmap mp T.
  Proof.
    unfold tm_get. destruct (tm_postponed mp); [discriminate|].
    destruct (tm_find ts (tm_present mp)) as [t|] eqn:E.
    - intros H. inversion H; subst. left. destruct (assoc_In _ _ _ _ E) as (k' & Hk & _). eauto.
    - destruct (tm_default mp) as [d0|] eqn:Ed; [|discriminate]. destruct (tm_mem ts (tm_skip mp)); [discriminate|].
      intros H. inversion H; subst. right. exact Ed.
  Qed.

  Lemma dispatch_good sp ts len ae sfun : post (good (S lf) sp ae sfun) (dispatch c rec lf sp ts len sfun).
  Proof.
    apply dispatch_cases.
    - apply post_raise.
    - apply run_value_post, (post_mono (good lf sp ae sfun)); [intros d; apply good_mono; lia|apply raw_good].
    - intros cd fl osp Hsp. apply run_value_post. destruct sp as [|T|mp]; [exact (fun _ _ _ _ => I)| |].
      + destruct Hsp as [-> Hby]. apply dec_value_good, (by_type_compat _ _ _ _ Hby).
      + destruct Hsp as (T & -> & Hget & Hby). apply (post_mono (good (S lf) (STy T) ae sfun)).
        * intros d. apply good_sty_smap, (tm_get_in _ _ _ Hget).
        * apply dec_value_good, (by_type_compat _ _ _ _ Hby).
  Qed.

  Lemma body_good sp ts rs ae sfun : post (good (S lf) sp ae sfun) (dec_body c rec lf sp ts rs ae sfun).
  Proof.
    unfold dec_body. cbv zeta.
    set (main := match rs with Some len => _ | None => _ end).
    assert (Hmain: post (good (S lf) sp ae sfun) main).
    { unfold main. destruct rs as [len|]; [apply dispatch_good|].
      apply post_mark, post_bind_any. intros t. apply post_bind_any. intros len. apply dispatch_good. }
    destruct (ae && support_indef c) eqn:Eae; [|exact Hmain].
    apply post_bind_any. intros b. apply (match_eoo (post _)); intros _; [|apply post_seekback, Hmain].
    apply post_ret. apply andb_prop in Eae. destruct sp; [exact I| |]; apply Eae.
  Qed.
End Call.

Theorem call_good c : forall fuel, rec_good fuel (dec_call c fuel).
Proof.
  induction fuel as [|f IH]; intros sp ts rs ae sfun; [apply post_raise|]. apply (body_good c _ f IH).
Qed.

(* whatever input is accepted under a guiding type T yields a value object of exactly that type *)
Lemma decode_with_good c fuel T b d tl :
  decode_with c fuel (Some T) b = Ok (d, tl) -> exists v, d = DV T v /\ dv_ok fuel T v.
Proof.
  unfold decode_with, run_complete.
  destruct (resume _ _) as [[p s]|[[d0|e] s]] eqn:E; try discriminate. intros H. inversion H; subst.
  pose proof (call_good c fuel _ _ _ _ _ _ _ _ E) as Hg.
  destruct d as [T' v| |r| |]; try discriminate Hg; try contradiction Hg. destruct Hg as [-> Hok]. eauto.
Qed.

(* ... the unread tail is a suffix of the input; for T in the fragment the value is well-formed *)
Theorem accepted_is_well_formed_gen : forall c fuel T b d tl,
  decode_with c fuel (Some T) b = Ok (d, tl) ->
  exists v, d = DV T v
            /\ (frag T = true -> val_of T v = true)
            /\ exists used, b = used ++ tl.
Proof.
  intros c fuel T b d tl H. destruct (decode_with_good _ _ _ _ _ _ H) as (v & -> & _ & Hv & _).
  exists v. split; [reflexivity|]. split; [exact Hv|exact (decode_with_suffix _ _ _ _ _ _ H)].
Qed.

(* whatever input is accepted under a character-string type (under any stack of tags, in primitive
   or segmented form) yields octets that the type's text codec accepts *)
Theorem accepted_string_codec_ok : forall c fuel T n b d tl,
  base_of T = TStr n -> decode_with c fuel (Some T) b = Ok (d, tl) ->
  exists bs, d = DV T (VOcts bs) /\ str_octets_ok n bs = Some true.
Proof.
  intros c fuel T n b d tl HB H. destruct (decode_with_good _ _ _ _ _ _ H) as (v & -> & _ & _ & Hs).
  unfold str_ok in Hs. rewrite HB in Hs. destruct v; try contradiction. eauto.
Qed.

(* every codec, every type of the fragment (tagged CHOICE included) *)
Theorem accepted_is_well_formed : forall c fuel T b d tl,
  frag T = true -> decode_with c fuel (Some T) b = Ok (d, tl) ->
  exists v, d = DV T v /\ val_of T v = true /\ exists used, b = used ++ tl.
Proof.
  intros c fuel T b d tl HF H.
  destruct (accepted_is_well_formed_gen _ _ _ _ _ _ H) as (v & -> & Hv & Hsuf).
  exists v. split; [reflexivity|]. split; [exact (Hv HF)|exact Hsuf].
Qed.

(* the same for the one-shot entry point with its own choice of fuel *)
Corollary accepted_is_well_formed_decode : forall c T b d tl,
  frag T = true -> decode c (Some T) b = Ok (d, tl) ->
  exists v, d = DV T v /\ val_of T v = true /\ exists used, b = used ++ tl.
Proof. intros c T b d tl HF H. apply (accepted_is_well_formed c (dec_fuel (Some T) b) T b d tl HF H). Qed.

(* three nested sub-fragments of [frag], by the kinds of types they admit; they are not the stages of
   DESIGN.md, whose stage 3 is the whole universe *)

(* stage 1: simple types (and ANY) under any stack of tags *)
Definition stage1_frag (T: ty) : bool :=
  match base_of T with TSeq _ | TSet _ | TSeqOf _ | TSetOf _ | TChoice _ => false | _ => true end.

(* stage 2: + SEQUENCE OF / SET OF, nested and tagged at will *)
Fixpoint stage2_frag (T: ty) : bool :=
  match T with
  | TSeq _ | TSet _ | TChoice _ => false
  | TSeqOf t | TSetOf t => stage2_frag t
  | TImp _ x | TExp _ x => stage2_frag x
  | _ => true
  end.

(* stage 3: + SEQUENCE with mandatory, OPTIONAL and DEFAULT members *)
Fixpoint stage3_frag (T: ty) : bool :=
  match T with
  | TSet _ | TChoice _ => false
  | TSeq fs => forallb (fun f => stage3_frag (snd f)) fs
  | TSeqOf t | TSetOf t => stage3_frag t
  | TImp _ x | TExp _ x => stage3_frag x
  | _ => true
  end.

Lemma stage3_frag_frag : forall T, stage3_frag T = true -> frag T = true.
Proof.
  intros T H. assert (HH: frag T = true /\ map_member_ok T = true).
  { induction T using ty_ind'; try discriminate H; cbn [stage3_frag frag map_member_ok] in *; auto;
      try (destruct (IHT H) as [A _]; auto).
    assert (Hall: forallb (fun f => frag (snd f)) fs = true /\ forallb (fun f => map_member_ok (snd f)) fs = true).
    { induction H0 as [|f fs Hf Hfs IH]; [auto|]. cbn [forallb] in *. apply andb_prop in H. destruct H as [H1 H2].
      destruct (Hf H1) as (A & C). destruct (IH H2) as (A' & C'). rewrite A, C, A', C'. auto. }
    destruct Hall as (A & C). rewrite A, C, Bool.orb_true_r. auto. }
  apply HH.
Qed.

Lemma stage2_stage3 : forall T, stage2_frag T = true -> stage3_frag T = true.
Proof. induction T using ty_ind'; cbn [stage2_frag stage3_frag]; auto; discriminate. Qed.

Lemma stage1_stage2 : forall T, stage1_frag T = true -> stage2_frag T = true.
Proof.
  unfold stage1_frag. induction T using ty_ind'; cbn [stage2_frag base_of]; auto; discriminate.
Qed.

Theorem accepted_is_well_formed_stage1 : forall c fuel T b d tl,
  stage1_frag T = true -> decode_with c fuel (Some T) b = Ok (d, tl) ->
  exists v, d = DV T v /\ val_of T v = true /\ exists used, b = used ++ tl.
Proof. intros c fuel T b d tl HF. apply accepted_is_well_formed, stage3_frag_frag, stage2_stage3, stage1_stage2, HF. Qed.

Print Assumptions accepted_is_well_formed_gen.
Print Assumptions accepted_is_well_formed.
Print Assumptions accepted_is_well_formed_stage1.

(* the hypotheses are satisfiable on inputs no encoder writes *)

Definition awf_ctx (n: N) : tag := mkTag Ctx false n.
Definition awf_T : ty :=
  TSeq [(Req, TInt); (Opt, TExp (awf_ctx 0) (TChoice [TBool; TOcts])); (Def (VInt 3), TImp (awf_ctx 1) TInt);
        (Opt, TChoice [TNull; TImp (awf_ctx 5) TOid]); (Req, TSetOf (TStr 12))].
(* BER: indefinite outer length, a padded INTEGER, long-form lengths, a segmented OCTET STRING as the
   CHOICE alternative, an absent DEFAULT member, trailing octets *)
Definition awf_ber : bytes :=
  [48;128; 2;2;0;5; 160;129;11; 36;128; 4;1;7; 4;2;8;9; 0;0; 133;2;42;3; 49;129;4; 12;2;104;105; 0;0; 99].
Definition awf_der : bytes := [48;20; 2;2;0;5; 160;3;1;1;255; 129;1;7; 5;0; 49;4;12;2;104;105].

Example accepted_is_well_formed_witness :
  frag awf_T = true
  /\ decode BER (Some awf_T) awf_ber
     = Ok (DV awf_T (VRec [Some (VInt 5); Some (VChoice 1 (VOcts [7; 8; 9])); None;
                           Some (VChoice 1 (VOid [1; 2; 3])); Some (VList [VOcts [104; 105]])]), [99])
  /\ decode DER (Some awf_T) awf_der
     = Ok (DV awf_T (VRec [Some (VInt 5); Some (VChoice 0 (VBool true)); Some (VInt 7);
                           Some (VChoice 0 VNull); Some (VList [VOcts [104; 105]])]), [])
  /\ val_of awf_T (VRec [Some (VInt 5); Some (VChoice 1 (VOcts [7; 8; 9])); None;
                         Some (VChoice 1 (VOid [1; 2; 3])); Some (VList [VOcts [104; 105]])]) = true.
Proof. repeat split; vm_compute; reflexivity. Qed.

Example accepted_stage_witness :
  stage1_frag (TExp (awf_ctx 2) (TImp (mkTag Appl false 70) TBits)) = true
  /\ decode BER (Some (TExp (awf_ctx 2) (TImp (mkTag Appl false 70) TBits))) [162;128; 127;70;128; 3;2;4;160; 3;1;0; 0;0; 0;0]
     = Ok (DV (TExp (awf_ctx 2) (TImp (mkTag Appl false 70) TBits)) (VBits [true; false; true; false]), [])
  /\ stage2_frag (TSeqOf (TImp (awf_ctx 0) (TSetOf TInt))) = true
  /\ decode CER (Some (TSeqOf (TImp (awf_ctx 0) (TSetOf TInt)))) [48;128; 160;6;2;1;2;2;1;1; 160;128;0;0; 0;0]
     = Ok (DV (TSeqOf (TImp (awf_ctx 0) (TSetOf TInt))) (VList [VList [VInt 2; VInt 1]; VList []]), [])
  /\ stage3_frag (TSeq [(Opt, TInt); (Def (VBool false), TBool); (Req, TOcts)]) = true
  /\ decode DER (Some (TSeq [(Opt, TInt); (Def (VBool false), TBool); (Req, TOcts)])) [48;5; 1;1;0; 4;0]
     = Ok (DV (TSeq [(Opt, TInt); (Def (VBool false), TBool); (Req, TOcts)]) (VRec [None; Some (VBool false); Some (VOcts [])]), []).
Proof. repeat split; vm_compute; reflexivity. Qed.

(* the edges of the theorem: D1 inside the fragment and refused, D2 accepted and well-formed though
   no encoder writes it, D3 outside the fragment: accepted, yet ill-formed *)

(* D1 (finding F55, repaired in the library, and the model follows): a tagged CHOICE in the indefinite form with
   nothing inside (a0 80 00 00) used to be accepted as a CHOICE object without a value, which the
   encoder refuses; it is now refused by every decoder ('No alternative of CHOICE') *)
Example valueless_tagged_choice_refused :
  let T := TExp (awf_ctx 0) (TChoice [TInt; TOcts]) in
  frag T = true
  /\ decode BER (Some T) [160;128;0;0] = Err EMalformed
  /\ decode CER (Some T) [160;128;0;0] = Err EMalformed
  /\ decode DER (Some T) [160;128;0;0] = Err EMalformed
  /\ val_of T (VChoice 2 VNull) = false
  /\ decode BER (Some T) [160;128; 4;1;7; 0;0] = Ok (DV T (VChoice 1 (VOcts [7])), []).
Proof. repeat split; vm_compute; reflexivity. Qed.

(* D2. a tagged CHOICE in the indefinite form holding two alternatives is accepted; the last one wins *)
Example two_alternatives_accepted :
  let T := TExp (awf_ctx 0) (TChoice [TInt; TOcts]) in
  decode BER (Some T) [160;128; 2;1;5; 4;1;7; 0;0] = Ok (DV T (VChoice 1 (VOcts [7])), []).
Proof. vm_compute; reflexivity. Qed.

(* D3. an untagged CHOICE reaching an untagged ANY, as an OPTIONAL member, a SET member or a nested
   alternative: the tag map's catch-all entry hands out the ANY type, so the member holds an ANY value
   where a CHOICE value belongs *)
Example any_in_choice_member_misplaced :
  let T := TSeq [(Opt, TChoice [TAny]); (Req, TInt)] in
  let U := TSet [(Req, TChoice [TAny]); (Req, TInt)] in
  frag T = false /\ frag U = false
  /\ decode BER (Some T) [48;6; 4;1;9; 2;1;5] = Ok (DV T (VRec [Some (VAny [4;1;9]); Some (VInt 5)]), [])
  /\ val_of T (VRec [Some (VAny [4;1;9]); Some (VInt 5)]) = false
  /\ decode DER (Some U) [49;6; 4;1;9; 2;1;5] = Ok (DV U (VRec [Some (VAny [4;1;9]); Some (VInt 5)]), [])
  /\ val_of U (VRec [Some (VAny [4;1;9]); Some (VInt 5)]) = false.
Proof. repeat split; vm_compute; reflexivity. Qed.

(* a definite-length constructed BIT STRING with no segments (23 00) is the empty bit string under BER
   (finding F54, repaired in the library) *)
Example empty_constructed_bits_accepted :
  decode BER (Some TBits) [35;0] = Ok (DV TBits (VBits []), []) /\ val_of TBits (VBits []) = true
  /\ decode BER (Some TBits) [3;0] = Err EMalformed.
Proof. repeat split; vm_compute; reflexivity. Qed.

(* an untagged ANY as the alternative of an untagged CHOICE holds the whole TLV (finding F60, repaired
   in the library: the element-start mark stays where the element began when the CHOICE is re-entered
   past the header): inside the fragment, and well-formed *)
Example any_alternative_keeps_header :
  frag (TChoice [TAny]) = true
  /\ decode BER (Some (TChoice [TAny])) [4;1;9] = Ok (DV (TChoice [TAny]) (VChoice 0 (VAny [4;1;9])), [])
  /\ decode DER (Some (TChoice [TInt; TAny])) [4;1;9; 7] = Ok (DV (TChoice [TInt; TAny]) (VChoice 1 (VAny [4;1;9])), [7])
  /\ val_of (TChoice [TAny]) (VChoice 0 (VAny [4;1;9])) = true
  /\ encode BER true 0 (TChoice [TAny]) (VChoice 0 (VAny [4;1;9])) = Ok [4;1;9].
Proof. repeat split; vm_compute; reflexivity. Qed.
