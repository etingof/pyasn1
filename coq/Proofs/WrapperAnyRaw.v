(* CachingStreamWrapper over an arbitrary raw stream (short reads, None answers, anything
   deterministic) refines the seekable stream that keeps everything delivered so far and draws
   on the same source: dropping the cache and renumbering by the kept offset is invisible (C11).
   Also: without fixes/F05.diff a None from the raw stream ends in TypeError (finding F05). *)
From Coq Require Import Lia Arith.
From PV Require Import Base.Bytes Model.Wrapper Proofs.Basics Proofs.Wrapper.

Lemma wstep_other_raw_rest v bufsize w o :
  match o with ORead _ | OReadAll | OPeek _ => False | _ => True end ->
  raw_rest (fst (wstep v bufsize w o)) = raw_rest w.
Proof.
  destruct o; intros H; try contradiction; cbn [wstep].
  - destruct (Nat.ltb p (w_base v w)); reflexivity.
  - reflexivity.
  - reflexivity.
  - unfold w_set_mark. destruct (Nat.ltb bufsize (bpos (wcache w))); [destruct v|]; reflexivity.
  - reflexivity.
Qed.

Section AnyRaw.
  Variable R : Type.
  Variable rread : option nat -> R -> option bytes * R.

  (* what the relation says once the records are opened *)
  Lemma grelated_open (g: gwstate R) (f: fstate R) : grelated g f ->
    exists D C cp off mk r,
      g = mkGW r (mkW [] (mkBio C cp) off mk)
      /\ f = mkF r (mkS (D ++ C) (off + cp) mk)
      /\ length D = off /\ cp <= length C /\ off <= mk.
  Proof.
    destruct g as [r [RR [C cp] off mk]], f as [r' [all pos smk]].
    intros ((D & Hall & HD & Hpos & Hcp & Hmk & Hoff) & Hrr & Hraw).
    cbn [gw graw fs fraw raw_rest wcache bbuf bpos woff wmark sall spos smark] in *.
    subst. rewrite app_nil_r. exists D, C, cp, (length D), mk, r'. repeat split; auto.
  Qed.

  Lemma grelated_make D C cp off mk (r: R) :
    length D = off -> cp <= length C -> off <= mk ->
    grelated (mkGW r (mkW [] (mkBio C cp) off mk)) (mkF r (mkS (D ++ C) (off + cp) mk)).
  Proof.
    intros HD Hcp Hoff. split; [|split; reflexivity].
    exists D. cbn [gw fs raw_rest wcache bbuf bpos woff wmark sall spos smark].
    rewrite app_nil_r. repeat split; auto.
  Qed.

  Lemma skipn_DC (D C: bytes) off cp : length D = off -> skipn (off + cp) (D ++ C) = skipn cp C.
  Proof. intros H. rewrite skipn_app_ge by lia. f_equal. lia. Qed.

  (* the third part is what peek needs: the cache position has passed over the octets returned *)
  Lemma g_read_refines n g f : grelated g f ->
    snd (g_read rread true n g) = snd (f_read rread n f)
    /\ grelated (fst (g_read rread true n g)) (fst (f_read rread n f))
    /\ match snd (g_read rread true n g) with
       | OBytes r => length r <= bpos (wcache (gw (fst (g_read rread true n g))))
       | _ => True
       end.
  Proof.
    intros H. destruct (grelated_open g f H) as (D & C & cp & off & mk & r & -> & -> & HD & Hcp & Hoff).
    unfold g_read, f_read, bio_read.
    cbn [gw graw fs fraw raw_rest wcache bbuf bpos woff wmark sall spos smark with_cache].
    rewrite (skipn_DC D C off cp HD).
    set (c := firstn n (skipn cp C)).
    assert (Hc: length c = Nat.min n (length C - cp)) by (subst c; rewrite firstn_length, skipn_length; reflexivity).
    destruct (n - length c) as [|k] eqn:En.
    - cbn [fst snd gw wcache bpos with_cache]. split; [reflexivity|]. split; [|lia].
      replace (off + cp + length c) with (off + (cp + length c)) by lia.
      apply grelated_make; lia.
    - assert (Epos: cp + length c = length C) by lia.
      rewrite Epos. destruct (rread (Some (S k)) r) as [[d|] r'].
      + rewrite bio_write_end. cbn [fst snd gw wcache bpos with_cache]. split; [reflexivity|].
        split; [|rewrite app_length; lia]. rewrite <- app_assoc.
        replace (off + cp + length c + length d) with (off + (length C + length d)) by lia.
        apply grelated_make; try lia. rewrite app_length. lia.
      + cbn [fst snd g_after_none gw wcache bpos with_cache]. split; [reflexivity|].
        split; [|destruct c; [exact I|lia]].
        replace (off + cp + length c) with (off + length C) by lia.
        apply grelated_make; lia.
  Qed.

  Lemma g_read_all_refines g f : grelated g f ->
    snd (g_read_all rread true g) = snd (f_read_all rread f)
    /\ grelated (fst (g_read_all rread true g)) (fst (f_read_all rread f)).
  Proof.
    intros H. destruct (grelated_open g f H) as (D & C & cp & off & mk & r & -> & -> & HD & Hcp & Hoff).
    unfold g_read_all, f_read_all, bio_read_all.
    cbn [gw graw fs fraw raw_rest wcache bbuf bpos woff wmark sall spos smark with_cache].
    rewrite (skipn_DC D C off cp HD).
    assert (Epos: cp + length (skipn cp C) = length C) by (rewrite skipn_length; lia).
    rewrite Epos. destruct (rread None r) as [[d|] r'].
    - rewrite bio_write_end. cbn [fst snd]. split; [reflexivity|].
      rewrite <- app_assoc.
      replace (off + cp + length (skipn cp C) + length d) with (off + (length C + length d)) by lia.
      apply grelated_make; try lia. rewrite app_length. lia.
    - cbn [fst snd g_after_none]. split; [reflexivity|].
      replace (off + cp + length (skipn cp C)) with (off + length C) by lia.
      apply grelated_make; lia.
  Qed.

  Lemma g_peek_refines n g f : grelated g f ->
    snd (g_peek rread true n g) = snd (f_peek rread n f)
    /\ grelated (fst (g_peek rread true n g)) (fst (f_peek rread n f)).
  Proof.
    intros H. destruct (g_read_refines n g f H) as (Hout & Hrel & Hmv).
    unfold g_peek, f_peek.
    destruct (g_read rread true n g) as [g1 x]. destruct (f_read rread n f) as [f1 y].
    cbn [fst snd] in *. subst y.
    destruct x; try (split; [reflexivity|exact Hrel]).
    destruct (grelated_open g1 f1 Hrel) as (D & C & cp & off & mk & r & -> & -> & HD & Hcp & Hoff).
    cbn [gw graw fs fraw raw_rest wcache bbuf bpos woff wmark sall spos smark with_cache bio_seek_cur_back fst snd] in *.
    split; [reflexivity|].
    replace (off + cp - length b) with (off + (cp - length b)) by lia.
    apply grelated_make; lia.
  Qed.

  (* the other calls do not touch the raw stream: the wrapper's step over an exhausted one *)
  Lemma g_other_refines bufsize (g: gwstate R) (f: fstate R) o :
    match o with ORead _ | OReadAll | OPeek _ => False | _ => True end ->
    grelated g f -> op_okb (fs f) o = true ->
    snd (let (w', x) := wstep Fix bufsize (gw g) o in (mkGW (graw g) w', x))
      = snd (let (s', y) := sstep (fs f) o in (mkF (fraw f) s', y))
    /\ grelated (fst (let (w', x) := wstep Fix bufsize (gw g) o in (mkGW (graw g) w', x)))
                (fst (let (s', y) := sstep (fs f) o in (mkF (fraw f) s', y))).
  Proof.
    intros Hk (Hrel & Hrr & Hraw) Hok.
    pose proof (step_refines bufsize (gw g) (fs f) o Hrel Hok) as [Hout Hrel'].
    pose proof (wstep_other_raw_rest Fix bufsize (gw g) o Hk) as Hkeep.
    destruct (wstep Fix bufsize (gw g) o) as [w' x]. destruct (sstep (fs f) o) as [s' y].
    cbn [fst snd] in *. split; [assumption|].
    unfold grelated. cbn [gw graw fs fraw].
    split; [assumption|split; [congruence|assumption]].
  Qed.

  Lemma gstep_refines bufsize g f o :
    grelated g f -> op_okb (fs f) o = true ->
    snd (gwstep rread true Fix bufsize g o) = snd (fstep rread f o)
    /\ grelated (fst (gwstep rread true Fix bufsize g o)) (fst (fstep rread f o)).
  Proof.
    intros H Hok. destruct o as [n| |n|p|d| |v| ]; cbn [gwstep fstep];
      try (apply g_other_refines; [exact I|assumption|assumption]).
    - destruct (g_read_refines n g f H) as (H1 & H2 & _). split; assumption.
    - apply g_read_all_refines; assumption.
    - apply g_peek_refines; assumption.
  Qed.

  Theorem wrapper_refines_any_raw bufsize : forall ops g f,
    grelated g f -> gpermittedb rread f ops = true ->
    outputs (run (gwstep rread true Fix bufsize) g ops) = outputs (run (fstep rread) f ops).
  Proof.
    exact (run_refines _ _ grelated (fun f => op_okb (fs f)) (gpermittedb rread)
             (fun _ _ _ => eq_refl) (gstep_refines bufsize)).
  Qed.

  Lemma grelated_init (r: R) : grelated (gw_init r) (f_init r).
  Proof. apply (grelated_make [] [] 0 0 0 r); cbn; lia. Qed.
End AnyRaw.

(* finding F05, in Coq: a raw stream that has nothing yet makes the unrepaired read() raise
   TypeError where the reference (and the repaired class) report "no data yet" *)
Theorem refuted_none_old :
  let r := mkPraw [[1; 2; 3]%N] [true; false] in
  outputs (run (gwstep pread false Fix 8) (gw_init r) [ORead 2; ORead 2])
    = [OTypeError; OBytes [1; 2]%N]
  /\ outputs (run (fstep pread) (f_init r) [ORead 2; ORead 2]) = [ONoData; OBytes [1; 2]%N]
  /\ outputs (run (gwstep pread true Fix 8) (gw_init r) [ORead 2; ORead 2]) = [ONoData; OBytes [1; 2]%N].
Proof. repeat split. Qed.
