(* CER string segmentation (X.690 9.2): the model of pyasn1's chunked OCTET STRING / character
   string / BIT STRING encoders (Model/Enc.v: enc_octets_like, enc_string_chunked, enc_bits)
   writes exactly the segments of the independent reference (Spec/X690.v: string_tlv,
   bitstring_tlv). *)
From Coq Require Import Lia.
From PV Require Import Base.Bytes Model.Tag Model.TableTypes Model.Types Model.Enc Gen.Tables Spec.X690
     Proofs.LeafInt Proofs.LeafOidBits Proofs.DerReference Proofs.ReaderLeafOidBits.
Local Open Scope N_scope.

Lemma chunks_is_segs : forall f k (l: bytes), chunks f k l = segs f k l.
Proof. induction f as [|f IH]; intros k l; cbn [chunks segs]; [reflexivity|]. destruct l; [reflexivity|]. rewrite IH. reflexivity. Qed.

Lemma segs1000_is_segs : forall f (l: bytes), segs1000 f l = segs f 1000 l.
Proof. induction f as [|f IH]; intros l; cbn [segs1000 segs]; [reflexivity|]. destruct l; [reflexivity|]. rewrite IH. reflexivity. Qed.

Lemma frame_piece_is_tlv n c s : frame_piece n c = Ok s -> s = tlv Univ false n c.
Proof.
  unfold frame_piece. intros H.
  apply (frame_one_is_tlv (utag false n) false true c s (form_agrees_prim _)) in H. exact H.
Qed.

Definition piece_step {A} (n: N) (g: A -> bytes) : res bytes -> A -> res bytes :=
  fun acc piece => do a <- acc; do p <- frame_piece n (g piece); Ok (a ++ p).

Lemma fold_pieces_err {A} n (g: A -> bytes) : forall l e, fold_left (piece_step n g) l (Err e) = Err e.
Proof. induction l as [|x l IH]; intros e; cbn [fold_left]; [reflexivity|]. unfold piece_step at 2. cbn [bind]. apply IH. Qed.

Lemma fold_pieces_ok {A} n (g: A -> bytes) : forall l a0 s,
  fold_left (piece_step n g) l (Ok a0) = Ok s ->
  s = a0 ++ concat (map (fun p => tlv Univ false n (g p)) l).
Proof.
  induction l as [|x l IH]; intros a0 s H; cbn [fold_left] in H.
  - cbn [map concat]. rewrite app_nil_r.
    apply (f_equal (fun x => match x with Ok a => a | Err _ => [] end)) in H. symmetry. exact H.
  - unfold piece_step at 2 in H. cbn [bind] in H.
    destruct (frame_piece n (g x)) as [p|e] eqn:E; cbn [bind] in H.
    + apply frame_piece_is_tlv in E. subst p. apply IH in H. subst s.
      cbn [map concat]. rewrite app_assoc. reflexivity.
    + rewrite fold_pieces_err in H. discriminate.
Qed.

Lemma string_chunked_is_segs v b k s : octets_of v = Some b ->
  enc_string_chunked v k = Ok s -> s = concat (map (tlv Univ false 4) (segs (S (length b)) k b)).
Proof.
  intros Ho H.
  assert (G: forall b0, fold_left (fun acc piece => do a <- acc; do p <- frame_piece 4 piece; Ok (a ++ p))
                                  (chunks (S (length b0)) k b0) (Ok []) = Ok s ->
                        s = concat (map (tlv Univ false 4) (segs (S (length b0)) k b0))).
  { intros b0 H0. apply (fold_pieces_ok 4 (fun x : bytes => x)) in H0. rewrite chunks_is_segs in H0.
    subst s. reflexivity. }
  destruct v; cbn [octets_of] in Ho; try discriminate Ho; cbn [enc_string_chunked] in H;
    injection Ho as Ho; subst b; apply G; exact H.
Qed.

Lemma enc_octets_like_shape o v b s ic : octets_of v = Some b -> enc_octets_like o v = Ok (s, ic) ->
  (ic = false /\ s = b /\ (o_chunk o = 0 \/ (length b <= N.to_nat (o_chunk o))%nat)) \/
  (ic = true /\ o_chunk o <> 0 /\
   s = concat (map (tlv Univ false 4) (segs (S (length b)) (N.to_nat (o_chunk o)) b)) /\
   (N.to_nat (o_chunk o) < length b)%nat).
Proof.
  intros Ho H. unfold enc_octets_like in H. rewrite Ho in H.
  destruct (N.eqb_spec (o_chunk o) 0) as [Ez|Ez]; cbn [orb] in H.
  - left. injection H as <- <-. auto.
  - destruct (Nat.leb_spec (length b) (N.to_nat (o_chunk o))) as [Hle|Hgt].
    + left. injection H as <- <-. auto.
    + right. destruct (enc_string_chunked v (N.to_nat (o_chunk o))) as [s1|] eqn:E; cbn [bind] in H; [|discriminate H].
      injection H as <- <-. split; [reflexivity|split; [exact Ez|split; [|exact Hgt]]].
      apply (string_chunked_is_segs v b _ s1 Ho E).
Qed.

(* the comparisons with 1000 are decided from the shape: no arithmetic on the numeral *)
Theorem cer_string_is_reference : forall (v: val) (b: bytes) (num: N) (d i: bool) (s: bytes) (ic: bool),
  octets_of v = Some b -> enc_octets_like (mkOpts d 1000 i) v = Ok (s, ic) ->
  string_tlv true num b = (if ic then ctlv true Univ num s else tlv Univ false num s).
Proof.
  intros v b num d i s ic Ho H. unfold string_tlv. cbn [andb]. rewrite segs1000_is_segs.
  destruct (enc_octets_like_shape _ v b s ic Ho H) as [(-> & -> & Hk)|(-> & _ & -> & Hgt)];
    cbn [o_chunk] in *; change (N.to_nat 1000) with 1000%nat in *.
  - destruct Hk as [Hk|Hk]; [discriminate Hk|]. rewrite (proj2 (Nat.ltb_ge _ _) Hk). reflexivity.
  - rewrite (proj2 (Nat.ltb_lt _ _) Hgt). reflexivity.
Qed.

Example cer_string_is_reference_ex :
  let b := repeat 65 (25 * 100)%nat in
  exists s, enc_octets_like (mkOpts false 1000 false) (VOcts b) = Ok (s, true)
            /\ length s = (25 * 100 + 3 * 4)%nat
            /\ string_tlv true 4 b = ctlv true Univ 4 s.
Proof.
  cbv zeta.
  assert (H: exists s, enc_octets_like (mkOpts false 1000 false) (VOcts (repeat 65 (25 * 100)%nat)) = Ok (s, true)
                       /\ length s = (25 * 100 + 3 * 4)%nat) by (vm_compute; eexists; split; reflexivity).
  destruct H as (s & H1 & H2). exists s.
  split; [exact H1|split; [exact H2|exact (cer_string_is_reference (VOcts _) _ 4 _ _ _ _ eq_refl H1)]].
Qed.

(* the reference's inner [go], named *)
Section Go.
  Variable unused : N.
  Fixpoint bit_go (l: list bytes) : list bytes :=
    match l with
    | [] => []
    | [p] => [tlv Univ false 3 (unused :: p)]
    | p :: r => tlv Univ false 3 (0 :: p) :: bit_go r
    end.
End Go.

Lemma bitstring_tlv_named cer bs :
  bitstring_tlv cer bs =
  let c := bitstring_contents bs in
  if (cer && Nat.ltb 1000 (length c))%bool
  then ctlv true Univ 3 (concat (bit_go (hd 0 c) (segs (S (length (tl c))) 999 (tl c))))
  else tlv Univ false 3 c.
Proof. reflexivity. Qed.

Lemma bit_go_one u p : bit_go u [p] = [tlv Univ false 3 (u :: p)].
Proof. reflexivity. Qed.
Lemma bit_go_cons2 u p q r : bit_go u (p :: q :: r) = tlv Univ false 3 (0 :: p) :: bit_go u (q :: r).
Proof. reflexivity. Qed.

Lemma chunks_nil {A} f k : @chunks A f k [] = [].
Proof. destruct f; reflexivity. Qed.
Lemma chunks_cons {A} f k (l: list A) : l <> [] -> chunks (S f) k l = firstn k l :: chunks f k (skipn k l).
Proof. destruct l; [congruence|reflexivity]. Qed.
Lemma segs_nil f k : segs f k [] = [].
Proof. destruct f; reflexivity. Qed.
Lemma segs_cons f k (l: bytes) : l <> [] -> segs (S f) k l = firstn k l :: segs f k (skipn k l).
Proof. destruct l; [congruence|reflexivity]. Qed.

Lemma nonempty_length {A} (l: list A) : (0 < length l)%nat -> l <> [].
Proof. destruct l; cbn [length]; [lia|congruence]. Qed.

Lemma bit_chunks_bit_go m k : (0 < m)%nat -> k = (m * 8)%nat ->
  forall n bs f g, (length bs <= n)%nat -> (length bs < f)%nat -> (length (bits_octets bs) < g)%nat ->
  map (fun p => tlv Univ false 3 (enc_bits_prim p)) (chunks f k bs)
  = bit_go (N.of_nat (pad_of (length bs))) (segs g m (bits_octets bs)).
Proof.
  intros Hm Hk. induction n as [|n IH]; intros bs f g Hn Hf Hg.
  - destruct bs; [|cbn [length] in Hn; lia]. rewrite chunks_nil.
    change (bits_octets []) with (@nil N). rewrite segs_nil. reflexivity.
  - destruct (Nat.eq_dec (length bs) 0) as [H0|H0].
    { destruct bs; [|cbn [length] in H0; lia]. rewrite chunks_nil.
      change (bits_octets []) with (@nil N). rewrite segs_nil. reflexivity. }
    assert (Hne: bs <> []) by (apply nonempty_length; lia).
    destruct f as [|f]; [lia|]. destruct g as [|g]; [lia|].
    rewrite (chunks_cons f k bs Hne).
    pose proof (bits_octets_length bs) as HL.
    pose proof (pad_aligned (length bs)) as HA.
    pose proof (pad_of_lt (length bs)) as HP.
    assert (Hone: bits_octets bs <> []) by (apply nonempty_length; lia).
    rewrite (segs_cons g m _ Hone).
    destruct (Nat.le_gt_cases (length bs) k) as [Hle|Hgt].
    + rewrite (firstn_all2 bs Hle), (skipn_all2 bs Hle), chunks_nil.
      assert (Hlm: (length (bits_octets bs) <= m)%nat) by lia.
      rewrite (firstn_all2 _ Hlm), (skipn_all2 _ Hlm), segs_nil.
      cbn [map]. rewrite bit_go_one. reflexivity.
    + set (a := firstn k bs). set (b := skipn k bs).
      assert (Hab: bs = a ++ b) by (symmetry; apply firstn_skipn).
      assert (Hla: length a = k) by (subst a; apply firstn_length_le; lia).
      assert (Hlb: length b = (length bs - k)%nat) by (subst b; apply skipn_length).
      assert (Ha8: (length a mod 8 = 0)%nat) by lia.
      assert (HA0: bits_octets bs = bits_octets a ++ bits_octets b).
      { rewrite Hab at 1. apply bits_octets_app. exact Ha8. }
      assert (Hlena: length (bits_octets a) = m).
      { rewrite bits_octets_length, (pad_of_0 _ Ha8). lia. }
      rewrite HA0 in *.
      rewrite <- Hlena, Basics.firstn_app_exact, Basics.skipn_app_exact, Hlena.
      pose proof (bits_octets_length b) as HLb.
      pose proof (pad_aligned (length b)) as HAb.
      assert (Hbne: bits_octets b <> []) by (apply nonempty_length; lia).
      rewrite app_length in Hg.
      destruct g as [|g]; [lia|].
      assert (IHb := IH b f (S g)).
      rewrite (segs_cons g m _ Hbne) in *.
      rewrite bit_go_cons2. cbn [map]. f_equal.
      * unfold enc_bits_prim. rewrite Hla, (pad_of_0 k) by lia. reflexivity.
      * rewrite IHb by lia. f_equal. f_equal. unfold pad_of. lia.
Qed.

Lemma enc_bits_prim_le (m: nat) p : (length p <= m * 8)%nat -> (length (enc_bits_prim p) <= S m)%nat.
Proof.
  intros Hp. unfold enc_bits_prim. cbn [length]. rewrite bits_octets_length.
  pose proof (pad_aligned (length p)). pose proof (pad_of_lt (length p)). lia.
Qed.

Lemma enc_bits_prim_full (m: nat) p : length p = (m * 8)%nat -> length (enc_bits_prim p) = S m.
Proof.
  intros Hp. unfold enc_bits_prim. cbn [length].
  rewrite bits_octets_length, Hp, (pad_of_0 (m * 8)), Nat.add_0_r, Nat.div_mul by (try apply Nat.mod_mul; discriminate).
  reflexivity.
Qed.

Lemma enc_bits_shape o bs s ic : enc_bits o bs = Ok (s, ic) ->
  (ic = false /\ s = enc_bits_prim bs /\
   (o_chunk o = 0 \/ (length bs + pad_of (length bs) <= N.to_nat (o_chunk o) * 8)%nat)) \/
  (ic = true /\ o_chunk o <> 0 /\
   s = concat (map (tlv Univ false 3) (map enc_bits_prim (chunks (S (length bs)) (N.to_nat (o_chunk o) * 8) bs))) /\
   (N.to_nat (o_chunk o) * 8 < length bs + pad_of (length bs))%nat).
Proof.
  intros H. unfold enc_bits in H. cbv zeta in H.
  destruct (N.eqb_spec (o_chunk o) 0) as [Ez|Ez]; cbn [orb] in H.
  - left. injection H as <- <-. auto.
  - destruct (Nat.leb_spec (length bs + pad_of (length bs)) (N.to_nat (o_chunk o) * 8)) as [Hle|Hgt].
    + left. injection H as <- <-. auto.
    + right. match type of H with bind ?F _ = _ => destruct F as [s1|e1] eqn:E end; cbn [bind] in H; [|discriminate H].
      injection H as <- <-. split; [reflexivity|split; [exact Ez|split; [|exact Hgt]]].
      apply (fold_pieces_ok 3 enc_bits_prim) in E. cbn [app] in E. subst s1. rewrite map_map. reflexivity.
Qed.

(* segments of m octets of bits each, m a variable: the arithmetic never meets the numeral 999 *)
Lemma bits_segments (m: nat) o bs s ic : (0 < m)%nat -> N.to_nat (o_chunk o) = m -> enc_bits o bs = Ok (s, ic) ->
  (if Nat.ltb (S m) (S (length (bits_octets bs)))
   then ctlv true Univ 3 (concat (bit_go (N.of_nat (pad_of (length bs))) (segs (S (length (bits_octets bs))) m (bits_octets bs))))
   else tlv Univ false 3 (enc_bits_prim bs))
  = (if ic then ctlv true Univ 3 s else tlv Univ false 3 s).
Proof.
  intros Hm Hk H. pose proof (bits_octets_length bs) as HL. pose proof (pad_aligned (length bs)) as HA.
  destruct (enc_bits_shape o bs s ic H) as [(-> & -> & Hc)|(-> & _ & -> & Hgt)]; rewrite Hk in *.
  - destruct (Nat.ltb_spec (S m) (S (length (bits_octets bs)))) as [Hlt|_]; [|reflexivity].
    destruct Hc as [Hc|Hc]; [rewrite Hc in Hk; cbn in Hk|]; lia.
  - destruct (Nat.ltb_spec (S m) (S (length (bits_octets bs)))) as [_|Hge]; [|lia].
    rewrite map_map. f_equal. f_equal. symmetry.
    apply (bit_chunks_bit_go m (m * 8) Hm eq_refl (length bs)); lia.
Qed.

Theorem cer_bits_is_reference : forall (d i: bool) (bs: list bool) (s: bytes) (ic: bool),
  enc_bits (mkOpts d 999 i) bs = Ok (s, ic) ->
  bitstring_tlv true bs = (if ic then ctlv true Univ 3 s else tlv Univ false 3 s).
Proof.
  intros d i bs s ic H. rewrite bitstring_tlv_named. cbv zeta. rewrite bitstring_contents_is_enc_bits_prim.
  cbn [andb]. unfold enc_bits_prim at 1 2 3. cbn [hd tl length].
  exact (bits_segments 999 (mkOpts d 999 i) bs s ic (Nat.lt_0_succ _) eq_refl H).
Qed.

(* Segmented witnesses: the encoder's side is evaluated (by shifts, [enc_bits_shift]); the reference's
   side, which would sum 8000 powers of two, follows from the theorem *)
Lemma cer_bits_witness d i bs n :
  (exists s, enc_bits_sh (mkOpts d 999 i) bs = Ok (s, true) /\ length s = n) ->
  exists s, enc_bits (mkOpts d 999 i) bs = Ok (s, true) /\ length s = n
            /\ bitstring_tlv true bs = ctlv true Univ 3 s.
Proof.
  rewrite <- enc_bits_shift. intros (s & H1 & H2). exists s. split; [exact H1|]. split; [exact H2|].
  exact (cer_bits_is_reference _ _ _ _ _ H1).
Qed.

(* 8003 bits: one full segment of 999 octets of bits, then 11 bits with 5 unused *)
Example cer_bits_is_reference_ex :
  let bs := repeat true (8 * 1000 + 3)%nat in
  exists s, enc_bits (mkOpts false 999 false) bs = Ok (s, true)
            /\ length s = (4 + 1000 + (2 + 3))%nat
            /\ bitstring_tlv true bs = ctlv true Univ 3 s.
Proof. apply cer_bits_witness. vm_compute. eexists. split; reflexivity. Qed.

(* three segments, the boundary falling inside the value: 2 * 7992 + 1 bits *)
Example cer_bits_is_reference_ex3 :
  let bs := repeat true (2 * (999 * 8) + 1)%nat in
  exists s, enc_bits (mkOpts true 999 true) bs = Ok (s, true)
            /\ length s = (2 * (4 + 1000) + (2 + 2))%nat
            /\ bitstring_tlv true bs = ctlv true Univ 3 s.
Proof. apply cer_bits_witness. vm_compute. eexists. split; reflexivity. Qed.

Lemma enc_bits_full (m: nat) d i bs : length bs = (m * 8)%nat ->
  enc_bits (mkOpts d (N.of_nat m) i) bs = Ok (enc_bits_prim bs, false) /\ length (enc_bits_prim bs) = S m.
Proof.
  intros Hl. split; [|exact (enc_bits_prim_full m bs Hl)].
  unfold enc_bits. cbv zeta. cbn [o_chunk].
  rewrite Hl, (pad_of_0 (m * 8)), Nat.add_0_r, Nat2N.id, Nat.leb_refl, Bool.orb_true_r by (apply Nat.mod_mul; discriminate).
  reflexivity.
Qed.

(* exactly 999 octets of bits stay primitive on both sides *)
Example cer_bits_is_reference_prim :
  let bs := repeat true (999 * 8)%nat in
  exists s, enc_bits (mkOpts false 999 false) bs = Ok (s, false)
            /\ length s = 1000%nat
            /\ bitstring_tlv true bs = tlv Univ false 3 s.
Proof.
  cbv zeta. destruct (enc_bits_full 999 false false _ (repeat_length true (999 * 8))) as [H1 H2].
  eexists. split; [exact H1|split; [exact H2|exact (cer_bits_is_reference _ _ _ _ _ H1)]].
Qed.

Print Assumptions cer_string_is_reference.
Print Assumptions cer_bits_is_reference.
