(* Round trip under every encoder mode for the whole type universe (C01/C02), part (c): SEQUENCE with
   mandatory, OPTIONAL and DEFAULT components in every mode.  The new case is the decoder's component loop
   of an indefinite-length SEQUENCE - the components are read where end-of-octets is allowed, the
   OPTIONAL/DEFAULT components that were not written are skipped by their tags, and the loop ends at
   the 00 00 the encoder wrote, wherever in the declaration the decoder then stands. *)
From Coq Require Import Lia Permutation.
From PV Require Import Base.Bytes Model.Tag Model.TableTypes Model.Types Model.Proc Model.Enc Model.Dec Gen.Tables
     Proofs.ProcBind Proofs.RunLemmas Proofs.TagOctets Proofs.TagAlgebra Proofs.DecHeader Proofs.DecFrame Proofs.DecPrim
     Proofs.TagsetShape Proofs.Schemaless Proofs.RoundTrip1 Proofs.RoundTrip2 Proofs.TagReject Proofs.ContainerCodecSort
     Proofs.RoundTripModesA Proofs.RoundTripModesB Proofs.RoundTripModesC Proofs.RoundTripModesBag Proofs.EncUnfold
     Proofs.RoundTrip3 Proofs.RoundTrip3a Proofs.RoundTrip3b Proofs.RoundTripModes3a Proofs.RoundTripModes3b.
Local Open Scope N_scope.

(* the decoder entry point with the allowEoo flag fixed: the plans of RoundTrip3b.v speak of components read
   where end-of-octets is not allowed; through this they speak of either *)
Definition rec_ae (rec: spec -> tagset -> option (option N) -> bool -> bool -> proc dval) (ae: bool)
  : spec -> tagset -> option (option N) -> bool -> bool -> proc dval :=
  fun sp ts rs _ sf => rec sp ts rs ae sf.

Lemma fplan_rec_false rec lf fs vs ps ds : fplan (rec_ae rec false) lf fs vs ps ds -> fplan rec lf fs vs ps ds.
Proof.
  induction 1 as [|p ft fs ov vs ps ds Hp _ IH|p ft fs x vs pb x' ps ds Hl Hreq Hkeys _ IH].
  - constructor.
  - constructor; assumption.
  - constructor; [exact Hl|exact Hreq|exact Hkeys|exact IH].
Qed.

Section RecordLoopIndef.
  Variable rec : spec -> tagset -> option (option N) -> bool -> bool -> proc dval.
  Variable lf : nat.
  Hypothesis Heoo : eoo_ok rec.

  Local Notation nones fs := (map (fun _ : presence * ty => @None val) fs).

  (* one round of the indefinite-length SEQUENCE loop that decodes a component: the twin of
     RoundTrip2.record_loop_next, with no length to compare the position with *)
  Lemma record_loop_next_indef T fs start n idx vs s sp p tl ft x' i :
    (match fs with [] => true | _ => false end) = false -> Nat.leb (length fs) idx = false ->
    seq_component_spec fs (forallb (fun f => is_req (fst f)) fs) idx = Some sp ->
    consumes (rec sp [] None true false) p (DV ft x') -> avail s = p ++ tl ->
    seq_position lf fs false (forallb (fun f => is_req (fst f)) fs) idx ft x' = Ok i -> (i < length fs)%nat ->
    exists s1, resume (record_loop rec lf T fs false None start (S n) idx vs 0%nat) s
               = resume (record_loop rec lf T fs false None start n (S i) (set_nth i (Some x') vs) 0%nat) s1
      /\ avail s1 = tl /\ pos s1 = (pos s + length p)%nat /\ arrived s1 = arrived s /\ closed s1 = closed s.
  Proof.
    intros Hne Hidx Hsp Hp Hav Hposn Hi. destruct (Hp s _ Hav) as (s1 & Hrun & Hpos & Harr & Hcl). exists s1.
    split; [|split; [exact (consumes_avail p s _ s1 Hav Hpos Harr)|repeat split; assumption]].
    cbn [record_loop]. cbv zeta. rewrite resume_tell. cbn [negb andb].
    rewrite Hne, Hidx, Hsp, (resume_pbind_done _ _ _ _ _ Hrun), Hposn. cbn [lift pbind].
    apply Nat.leb_gt in Hi. rewrite Hi. reflexivity.
  Qed.

  Lemma record_loop_opt_indef T fs :
    (match fs with [] => true | _ => false end) = false -> seq_wf fs = true ->
    forall todo vtodo parts ds, fplan (rec_ae rec true) lf todo vtodo parts ds ->
    forall done skipped vdone n start s tl,
      fs = done ++ skipped ++ todo -> length vdone = length done ->
      Forall nonreq skipped ->
      required_seen done vdone = true ->
      (length parts < n)%nat ->
      avail s = concat parts ++ [0; 0] ++ tl ->
      exists s', resume (record_loop rec lf T fs false None start n (length done)
                                     (vdone ++ nones skipped ++ nones todo) 0%nat) s
                 = inr (Ok (DV T (VRec (vdone ++ nones skipped ++ ds))), s')
        /\ pos s' = (pos s + length (concat parts) + 2)%nat /\ arrived s' = arrived s /\ closed s' = closed s.
  Proof.
    intros Hne Hwf todo vtodo parts ds HP.
    induction HP as [|p ft todo ov vtodo parts ds Hp HP IH|p ft todo x vtodo pb x' parts ds Hpl Hreq Hkeys HP IH];
      intros done skipped vdone n start s tl Hfs Hvd Hsk Hseen Hn Hav.
    - (* nothing more was written: the end-of-octets marker follows *)
      destruct n as [|n']; [cbn [length] in Hn; lia|].
      cbn [record_loop]. cbv zeta. rewrite resume_tell. cbn [negb andb]. rewrite Hne.
      cbn [concat app] in Hav.
      assert (Hsp: exists sp', (if Nat.leb (length fs) (length done) then Some SNone
                                else seq_component_spec fs (forallb (fun f => is_req (fst f)) fs) (length done)) = Some sp').
      { destruct (Nat.leb (length fs) (length done)) eqn:El; [eexists; reflexivity|].
        apply Nat.leb_gt in El. unfold seq_component_spec.
        destruct (nth_error fs (length done)) as [[p0 t0]|] eqn:En.
        - destruct (forallb (fun f => is_req (fst f)) fs || is_req p0)%bool; eexists; reflexivity.
        - apply nth_error_None in En. lia. }
      destruct Hsp as (sp' & ->).
      rewrite (resume_pbind_done _ _ _ _ _ (Heoo sp' false s tl Hav)).
      assert (Hrs: required_seen fs (vdone ++ nones skipped ++ nones []) = true).
      { rewrite Hfs, app_nil_r. cbn [map]. rewrite app_nil_r.
        rewrite required_seen_app by exact Hvd. rewrite Hseen. cbn [andb]. apply required_seen_nonreq. exact Hsk. }
      rewrite Hrs. cbn [resume]. exists (adv s 2). cbn [concat length map]. rewrite pos_adv. repeat split. lia.
    - (* a component that was not written: it joins the run the decoder will skip *)
      assert (Hfs': fs = done ++ (skipped ++ [(p, ft)]) ++ todo) by (rewrite <- app_assoc; exact Hfs).
      assert (Hsk': Forall nonreq (skipped ++ [(p, ft)])).
      { apply Forall_app. split; [exact Hsk|]. constructor; [exact Hp|constructor]. }
      destruct (IH done (skipped ++ [(p, ft)]) vdone n start s tl Hfs' Hvd Hsk' Hseen Hn Hav) as (s' & Hrun & Hrest).
      exists s'. split; [|exact Hrest].
      rewrite map_app in Hrun. cbn [map] in Hrun. rewrite <- !app_assoc in Hrun. cbn [app] in Hrun.
      cbn [map]. exact Hrun.
    - (* a component that was written: it lands at position i, past the run that was skipped *)
      destruct n as [|n']; [cbn [length] in Hn; lia|].
      cbn [concat] in Hav |- *. rewrite <- app_assoc in Hav.
      set (i := (length done + length skipped)%nat).
      assert (Hilt: (i < length fs)%nat) by (subst i; rewrite Hfs, !app_length; cbn [length]; lia).
      destruct (emit_step (rec_ae rec true) lf fs done skipped p ft todo x pb x' Hwf Hfs Hsk Hreq Hkeys) as (sp & Hsp & Hdec & Hposn).
      destruct (record_loop_next_indef T fs start n' (length done) (vdone ++ nones skipped ++ nones ((p, ft) :: todo))
                  s sp pb (concat parts ++ [0; 0] ++ tl) ft x' i Hne) as (s1 & -> & Hav1 & Hp1 & Ha1 & Hc1);
        [apply Nat.leb_gt; rewrite Hfs, !app_length; cbn [length]; lia|exact Hsp|exact Hdec|exact Hav|exact Hposn|exact Hilt|].
      subst i. rewrite (emit_placed done skipped todo (p, ft) vdone x' Hvd).
      destruct (IH (done ++ skipped ++ [(p, ft)]) [] (vdone ++ nones skipped ++ [Some x']) n' start s1 tl) as (s2 & Hrun2 & Hpos2 & Harr2 & Hcl2);
        [rewrite Hfs, <- !app_assoc; reflexivity|rewrite !app_length, map_length; cbn [length]; lia|constructor
        |exact (emit_seen done skipped p ft vdone x' Hvd Hsk Hseen)|cbn [length] in Hn; lia|exact Hav1|].
      exists s2. split; [|rewrite app_length; split; [lia|split; congruence]].
      cbn [map app] in Hrun2.
      replace (length (done ++ skipped ++ [(p, ft)])) with (S (length done + length skipped)) in Hrun2 by (rewrite !app_length; cbn [length]; lia).
      replace (vdone ++ nones skipped ++ Some x' :: ds) with ((vdone ++ nones skipped ++ [Some x']) ++ ds) by (rewrite <- !app_assoc; reflexivity).
      exact Hrun2.
  Qed.

  Lemma dec_record_opt_indef T fs vs parts ds :
    seq_wf fs = true -> fplan (rec_ae rec true) lf fs vs parts ds -> (length parts < lf)%nat ->
    consumes (dec_record rec lf T fs false None) (concat parts ++ [0; 0]) (DV T (VRec ds)).
  Proof.
    intros Hwf HP Hlf s tl Hav. unfold dec_record. rewrite resume_tell. rewrite <- app_assoc in Hav.
    destruct fs as [|f0 fs0].
    - inversion HP; subst. destruct lf as [|n]; [cbn [length] in Hlf; lia|].
      cbn [record_loop]. cbv zeta. rewrite resume_tell. cbn [negb].
      cbn [concat app] in Hav.
      rewrite (resume_pbind_done _ _ _ _ _ (Heoo SNone false s tl Hav)). cbn [resume map].
      exists (adv s 2). cbn [concat app length]. rewrite pos_adv. repeat split.
    - destruct (record_loop_opt_indef T (f0 :: fs0) eq_refl Hwf (f0 :: fs0) vs parts ds HP [] [] [] lf (pos s)
                  s tl eq_refl eq_refl (Forall_nil _) eq_refl Hlf Hav)
        as (s' & Hrun & Hpos & Harr & Hcl).
      exists s'. split; [exact Hrun|]. rewrite app_length. cbn [length]. repeat split; try assumption. lia.
  Qed.

End RecordLoopIndef.

Lemma stable_ifne ce d k : stable ce d k -> fix_opts ce (mkOpts d k true) = mkOpts d k true.
Proof.
  unfold stable, fix_opts, mo. destruct (enc_fixed ce) as [[fd|] [fc|]]; cbn [o_def o_chunk o_ifne]; intros H;
    inversion H; reflexivity.
Qed.

(* under the encoders that omit empty OPTIONAL components (CER, DER: their options are fixed) the
   non-emptiness condition of [stage3_val] is stated for the options the encoder really uses *)
Lemma omits_ifne_opts ce T d k v : omits ce = true -> stable ce d k ->
  enc_with ce (enc_content ce) T (mkOpts d k true) v = encw ce T ifne_opts v.
Proof. destruct ce; intros Ho Hst; [discriminate Ho|reflexivity|reflexivity]. Qed.

Section Modes3c.
  Variables ce cd : codec.
  Variable d : bool.
  Variable k : N.
  Hypothesis Hst : stable ce d k.
  Hypothesis Hcd : dec_ok cd.
  Variable R : aval -> aval -> Prop.
  Variable srt : bool.
  Hypothesis HR : rel_ok R srt.

  Notation encm := (encm ce d k).
  Notation val_ok_m := (val_ok_m ce cd d k R).
  Notation item_sty_m := (item_sty_m ce cd d k R).

  (* the ifNotEmpty option only matters when it empties the encoding (defect F24) *)
  Lemma encm_ifne T v b : enc_with ce (enc_content ce) T (mkOpts d k true) v = Ok b -> b <> [] -> encm T v = Ok b.
  Proof.
    unfold RoundTripModes3b.encm, enc_with. intros H Hne.
    rewrite (stable_ifne ce d k Hst) in H. unfold stable in Hst. rewrite Hst.
    destruct (concrete_encoder ce T) as [[ec fl]|e]; cbn [bind] in *; [|discriminate].
    destruct (tagset_of T) as [ts|e]; cbn [bind] in *; [|discriminate].
    change (mkOpts (o_def (mkOpts d k true)) (o_chunk (mkOpts d k true)) false) with (mo d k) in H.
    change (mkOpts (o_def (mo d k)) (o_chunk (mo d k)) false) with (mo d k).
    destruct (enc_content ce T ec fl (mo d k) v) as [[content cns]|e]; cbn [bind] in *; [|discriminate].
    destruct ts as [|t0 r]; [exact H|].
    cbn [frame] in *. cbn [o_ifne o_def mo] in *. rewrite Bool.andb_false_r.
    destruct content as [|c0 content]; [|exact H].
    destruct cns; [|exact H]. cbn [andb] in H. inversion H; subst. congruence.
  Qed.

  Definition comp_ok_m (Pv: ty -> val -> Prop) (f: presence * ty) : Prop :=
    (is_req (fst f) = false -> keys_ok (ckeys (snd f)) = true) /\
    forall x, Pv (snd f) x ->
      (keys_ok (ckeys (snd f)) = true -> val_ok_m (snd f) x) /\
      (is_req (fst f) = true -> item_sty_m (snd f) x).

  Definition plan_ok_m (fs: list (presence * ty)) (vs: list (option val)) (parts: list (tagset * bytes)) : Prop :=
    N.of_nat (length (concat (map snd parts))) <= index_max ->
    exists ds, Forall2 (opt_rel R) (abs_fields fs ds) (abs_fields fs vs) /\
      forall f ae, (length (concat (map snd parts)) + max_depth fs <= f)%nat ->
                fplan (rec_ae (dec_call cd f) ae) f fs vs (map snd parts) ds.

  (* a component that is not written: absent, or equal to its DEFAULT *)
  Lemma plan_skip_m p ft fs ov vs parts : is_req p = false ->
    opt_rel R (match @None val, p with Some x, _ => Some (abs ft x) | None, Def d => Some (abs ft d) | None, _ => None end)
              (match ov, p with Some x, _ => Some (abs ft x) | None, Def d => Some (abs ft d) | None, _ => None end) ->
    plan_ok_m fs vs parts -> plan_ok_m ((p, ft) :: fs) (ov :: vs) parts.
  Proof.
    intros Hp Hrel IH Hmax. destruct (IH Hmax) as (ds & Hads & Hplan). exists (None :: ds). split.
    - rewrite !abs_fields_cons. constructor; [exact Hrel|exact Hads].
    - intros f ae Hf. constructor; [exact Hp|]. apply Hplan. cbn [max_depth fold_right] in Hf. unfold max_depth. lia.
  Qed.

  (* a component that is written, with the ifNotEmpty flag [ine], before components that are dealt with *)
  Lemma plan_emit_m (Pv: ty -> val -> Prop) ec omit p ft fs vs x (ine: bool) parts :
    (ine = false \/ (ine = true /\ enc_with ce (enc_content ce) ft (mkOpts d k true) x <> Ok [])) ->
    Pv ft x -> comp_ok_m Pv (p, ft) ->
    (forall rest, enc_rec_fields_g ce ec omit (mo d k) fs vs = Ok rest -> plan_ok_m fs vs rest) ->
    (do b <- enc_with ce (enc_content ce) ft (mkOpts d k ine) x; do rest <- enc_rec_fields_g ce ec omit (mo d k) fs vs;
     Ok ((set_sort_key (match ec with EcSetDer => true | _ => false end) ft x, b) :: rest)) = Ok parts ->
    plan_ok_m ((p, ft) :: fs) (Some x :: vs) parts.
  Proof.
    intros Hine HPx [Hkopt Hcomp] IHr He Hmax. cbn [fst snd] in Hkopt, Hcomp.
    destruct (Hcomp x HPx) as [Hval Hsty].
    destruct (enc_with ce (enc_content ce) ft (mkOpts d k ine) x) as [pb|e] eqn:Ep; cbn [bind] in He; [|discriminate].
    destruct (enc_rec_fields_g ce ec omit (mo d k) fs vs) as [rest|e] eqn:Er; cbn [bind] in He; [|discriminate].
    inversion He; subst parts; clear He.
    assert (Ep': encm ft x = Ok pb).
    { destruct Hine as [-> | [-> Hne]]; [exact Ep|]. apply encm_ifne; [exact Ep|]. intros ->. apply Hne. exact Ep. }
    cbn [map snd concat] in Hmax. rewrite app_length in Hmax.
    destruct (IHr rest eq_refl ltac:(lia)) as (ds & Hads & Hplan).
    assert (Hone: exists x', R (abs ft x') (abs ft x) /\
              forall f ae, (length pb + ty_depth ft <= f)%nat -> fplan (rec_ae (dec_call cd f) ae) f fs vs (map snd rest) ds ->
                fplan (rec_ae (dec_call cd f) ae) f ((p, ft) :: fs) (Some x :: vs) (pb :: map snd rest) (Some x' :: ds)).
    { destruct (keys_ok (ckeys ft)) eqn:HK.
      - (* good keys: the invariant gives everything *)
        specialize (Hval eq_refl).
        destruct (item_of_val_m ce cd d k Hcd R ft x pb Hval Ep' ltac:(lia)) as (x' & Hax & Hwx & Hwne & Hit).
        exists x'. split; [exact Hax|].
        intros f ae Hf HP. constructor; try assumption.
        + destruct (Hit (STy ft) (resolves_sty ft x HK Hwne)) as (Hl & _ & _). lia.
        + intros _. destruct (Hit (STy ft) (resolves_sty ft x HK Hwne)) as (_ & _ & Hc). apply Hc. unfold fuel_ok. lia.
        + intros _. split; [|split].
          * intros sp Hres. destruct (Hit sp Hres) as (_ & _ & Hc). apply Hc. unfold fuel_ok. lia.
          * rewrite <- Hwx. apply effective_wire; [lia|]. rewrite Hwx. exact Hwne.
          * exact Hwne.
      - (* otherwise the component is mandatory and guided by its type *)
        assert (Hr: is_req p = true) by (destruct (is_req p) eqn:E; [reflexivity|specialize (Hkopt eq_refl); discriminate Hkopt]).
        destruct (Hsty Hr pb Ep' ltac:(lia)) as (x' & Hax & Hl & _ & Hc).
        exists x'. split; [exact Hax|].
        intros f ae Hf HP. constructor; try assumption.
        + lia.
        + intros _. apply Hc. unfold fuel_ok. lia.
        + intros E. rewrite HK in E. discriminate E. }
    destruct Hone as (x' & Hax & Hfp).
    exists (Some x' :: ds). split.
    + rewrite !abs_fields_cons. constructor; [constructor; exact Hax|exact Hads].
    + intros f ae Hf. cbn [map snd concat max_depth fold_right] in Hf. rewrite app_length in Hf.
      cbn [map snd]. apply Hfp; [lia|]. apply Hplan. unfold max_depth. lia.
  Qed.

  Lemma fields_plan_m (Pv: ty -> val -> Prop) ec omit : (omit = true -> omits ce = true) -> forall fs,
    Forall (comp_ok_m Pv) fs ->
    forall vs parts, comp_vals ce Pv fs vs -> enc_rec_fields_g ce ec omit (mo d k) fs vs = Ok parts ->
    N.of_nat (length (concat (map snd parts))) <= index_max ->
    exists ds, Forall2 (opt_rel R) (abs_fields fs ds) (abs_fields fs vs) /\
      forall f ae, (length (concat (map snd parts)) + max_depth fs <= f)%nat ->
                fplan (rec_ae (dec_call cd f) ae) f fs vs (map snd parts) ds.
  Proof.
    intros Homit fs HF vs parts HCV. revert parts HF.
    assert (Ho: forall b, (if omit then mkOpts (o_def (mo d k)) (o_chunk (mo d k)) b else mo d k) = mkOpts d k (omit && b))
      by (intros b; destruct omit; reflexivity).
    induction HCV as [|ft x fs vs HPx HCV IH|ft fs vs HCV IH|ft x fs vs HPx Hne HCV IH|dv ft fs vs HCV IH|dv ft x fs vs HPx Hpy HCV IH];
      intros parts HF He; [|inversion HF as [|? ? Hcomp HF']; subst;
                            cbn [enc_rec_fields_g] in He; fold (enc_rec_fields_g ce ec omit (mo d k)) in He ..].
    - intros _. inversion He; subst. exists []. split; [constructor|]. intros f ae _. constructor.
    - (* mandatory *)
      rewrite Ho, Bool.andb_false_r in He.
      exact (plan_emit_m Pv ec omit Req ft fs vs x false parts (or_introl eq_refl) HPx Hcomp (fun rest => IH rest HF') He).
    - (* OPTIONAL, absent *)
      apply plan_skip_m; [reflexivity|constructor|exact (IH parts HF' He)].
    - (* OPTIONAL, present *)
      rewrite Ho, Bool.andb_true_r in He.
      refine (plan_emit_m Pv ec omit Opt ft fs vs x omit parts _ HPx Hcomp (fun rest => IH rest HF') He).
      destruct omit; [right; split; [reflexivity|]|left; reflexivity].
      rewrite (omits_ifne_opts ce ft d k x (Homit eq_refl) Hst). exact (Hne (Homit eq_refl)).
    - (* DEFAULT, absent *)
      apply plan_skip_m; [reflexivity|constructor; apply (r_refl _ _ HR)|exact (IH parts HF' He)].
    - (* DEFAULT, present: written unless it equals the default *)
      destruct (val_py_eq x dv) as [[|]|] eqn:Epy; [| |discriminate He].
      + apply plan_skip_m; [reflexivity|constructor; rewrite (Hpy eq_refl); apply (r_refl _ _ HR)|exact (IH parts HF' He)].
      + rewrite Ho, Bool.andb_false_r in He.
        exact (plan_emit_m Pv ec omit (Def dv) ft fs vs x false parts (or_introl eq_refl) HPx Hcomp (fun rest => IH rest HF') He).
  Qed.

  Lemma record_val_m (Pv: ty -> val -> Prop) T' fs : base_of T' = TSeq fs -> wf_tags T' = true -> seq_wf fs = true ->
    Forall (comp_ok_m Pv) fs ->
    forall vs, comp_vals ce Pv fs vs -> val_ok_m T' (VRec vs).
  Proof.
    intros Hb Hw Hwf IHfs vs HCV b He Hmax.
    assert (Hcb: container_base T' = true) by (unfold container_base; rewrite Hb; reflexivity).
    destruct (container_frame_m ce d k T' _ b Hst Hcb Hw He)
      as (t0 & r & ec & fl & content & cns & Hts & Hex & Hd & Hnz' & Hcon & Hcenc & Hcont & Hfr).
    assert (Hdep: ty_depth (base_of T') = S (max_depth fs)) by (rewrite Hb; reflexivity).
    assert (Hnc: match T' with TChoice _ => False | _ => True end).
    { destruct T'; try exact I. discriminate Hb. }
    rewrite (enc_content_rec ce (base_of T') fs ec fl (mo d k) vs (or_introl Hb)) in Hcont.
    assert (Hec: ec = EcSeq /\ ef_indef fl = true /\ (ef_omit_empty fl = true -> omits ce = true)).
    { unfold omits. rewrite Hb in Hcenc. destruct ce; vm_compute in Hcenc;
        inversion Hcenc; subst ec fl; repeat split; try reflexivity. discriminate. }
    destruct Hec as (-> & Hsi & Homit).
    destruct (enc_rec_fields_g ce EcSeq (ef_omit_empty fl) (mo d k) fs vs) as [parts|e] eqn:Eparts; cbn [bind] in Hcont; [|discriminate].
    inversion Hcont; subst content cns; clear Hcont. rewrite Hsi in Hfr.
    pose proof (frame_modes_len _ _ _ _ _ _ _ _ Hex Hfr) as Hlen.
    destruct (fields_plan_m Pv EcSeq (ef_omit_empty fl) Homit fs IHfs vs parts HCV Eparts ltac:(lia)) as (ds & Habs & Hplan).
    exists t0, r, (concat (map snd parts)), true, true, (VRec ds).
    split; [rewrite (wire_tags_plain T' _ Hnc); apply tagset_of'_ok; exact Hts|].
    split; [exact Hex|]. split; [lia|]. split; [exact Hnz'|]. split; [reflexivity|]. split; [exact Hfr|].
    split; [rewrite (wire_tags_plain T' _ Hnc); apply tagset_of'_ok; exact Hts|].
    split.
    { rewrite (abs_wrappers T' (VRec ds)), (abs_wrappers T' (VRec vs)), Hb. rewrite !abs_seq.
      apply (r_rec _ _ HR). exact Habs. }
    exists DcSeq, (mkDecFlags true (Some KSeq)). split.
    { rewrite by_type_base, Hb. destruct Hcd as [-> | ->]; vm_compute; reflexivity. }
    intros f Hf.
    assert (Hw1: wire t0 true = t0) by (apply wire_con; exact Hcon). rewrite Hw1.
    unfold val_consumes. destruct d; cbn [andb negb]; cbn [dec_value tag0_cons]; rewrite Hcon; cbn [negb]; rewrite Hb.
    - assert (HP: fplan (dec_call cd f) f fs vs (map snd parts) ds) by (apply fplan_rec_false; apply Hplan; lia).
      apply (dec_record_opt (dec_call cd f) f T' fs vs (map snd parts) ds Hwf HP).
      pose proof (fplan_count _ _ _ _ _ _ HP). lia.
    - assert (HP: fplan (rec_ae (dec_call cd f) true) f fs vs (map snd parts) ds) by (apply Hplan; lia).
      destruct f as [|f']; [lia|].
      apply (dec_record_opt_indef (dec_call cd (S f')) (S f') (eoo_ok_call cd f' Hcd) T' fs vs (map snd parts) ds Hwf HP).
      pose proof (fplan_count _ _ _ _ _ _ HP). lia.
  Qed.

End Modes3c.
