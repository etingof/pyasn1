(* CHOICE: the single-alternative invariant over every history, and refinement of the
   option (alternative, value) prototype outside the class of F18a.
   Every state the code reaches is either empty or [selected]; on such states the setter and the getter are
   described completely ([ch_set_spec], [ch_get_spec], the latter through [ch_read], which is where the
   code and the prototype part ways).  The invariant, the refinement and the inertness of ill-formed
   operations are read off these two. *)
From Coq Require Import Lia.
From PV Require Import Spec.ListSpec Proofs.ContainerBase.
Local Open Scope nat_scope.

Definition selected (cfg: rcfg) (s: cstate) (k: nat) (c: comp) : Prop :=
  c_cur s = Some k /\ k < length cfg /\ length (rslots (c_cv s)) = length cfg /\
  forall j, nth j (rslots (c_cv s)) None = if Nat.eqb j k then Some c else None.

Definition cval (c: comp) : option Z := match c with CVal z => Some z | CSchema => None end.

Lemma selected_cinv cfg s k c : selected cfg s k c -> cinv cfg s.
Proof.
  intros (Hc & Hk & Hl & Hn). unfold cinv. rewrite Hc. repeat split; auto.
  - rewrite Hn, Nat.eqb_refl. discriminate.
  - intros j Hj. rewrite Hn. destruct (Nat.eqb_spec j k); [contradiction|reflexivity].
Qed.

Lemma selected_cabs cfg s k c : selected cfg s k c -> cabs s = Some (k, cval c).
Proof. intros (Hc & _ & _ & Hn). unfold cabs. rewrite Hc, Hn, Nat.eqb_refl. destruct c; reflexivity. Qed.

Lemma cinv_selected cfg s k : cinv cfg s -> c_cur s = Some k -> exists c, selected cfg s k c.
Proof.
  unfold cinv. intros H E. rewrite E in H. destruct H as (Hk & Hl & Hne & Hoth).
  destruct (nth k (rslots (c_cv s)) None) as [c|] eqn:Ec; [|congruence]. exists c. repeat split; auto.
  intros j. destruct (Nat.eqb_spec j k) as [->|Hj]; auto.
Qed.

Lemma cinv_others cfg s j : cinv cfg s -> c_cur s <> Some j -> nth j (rslots (c_cv s)) None = None.
Proof.
  unfold cinv. destruct (c_cur s) as [k|].
  - intros (_ & _ & _ & H) Hj. apply H. congruence.
  - intros -> _. destruct j; reflexivity.
Qed.

Lemma cinv_shaped cfg s : cinv cfg s -> shaped cfg (c_cv s).
Proof. unfold cinv, shaped. destruct (c_cur s); [intros (_ & H & _); auto|auto]. Qed.

Lemma cinv_init cfg : cinv cfg ch_init.
Proof. reflexivity. Qed.

Lemma ch_set_spec cfg s i v : cinv cfg s ->
  match pyidx i (length cfg) with
  | Some k => match rec_resolve (kind_of cfg k) v with
              | Ok c => exists s', ch_set cfg s i v = Ok s' /\ selected cfg s' k c
              | Err e => ch_set cfg s i v = Err e
              end
  | None => ch_set cfg s i v = Err ELib
  end.
Proof.
  intros Hinv. pose proof (cinv_shaped _ _ Hinv) as Hs. unfold ch_set, rec_set.
  rewrite (rec_store_shaped _ _ _ _ Hs). destruct (pyidx i (length cfg)) as [k|] eqn:Hi; [|reflexivity].
  destruct (rec_resolve (kind_of cfg k) v) as [c|e]; [|reflexivity].
  cbn [rslots]. rewrite set_nth_length, (alloc_length _ _ Hs), Hi. eexists. split; [reflexivity|].
  apply pyidx_lt in Hi as [Hk _]. pose proof (alloc_length _ _ Hs) as Hl.
  assert (Hkk: Nat.ltb k (length cfg) = true) by (apply Nat.ltb_lt; exact Hk).
  unfold selected. cbn [c_cur c_cv]. split; [reflexivity|]. split; [exact Hk|].
  (* the slots: the old selection, if it was another alternative, is emptied *)
  destruct (c_cur s) as [old|] eqn:Eold; [destruct (Nat.eqb_spec old k) as [->|Hne]|];
    cbn [rslots]; rewrite ?set_nth_length, Hl; (split; [reflexivity|]); intros j;
    rewrite ?nth_set_nth, ?set_nth_length, Hl, Hkk, alloc_nth, andb_true_r.
  - destruct (Nat.eqb_spec j k); [reflexivity|]. apply (cinv_others cfg s j Hinv). congruence.
  - assert (Hold: Nat.ltb old (length cfg) = true).
    { apply Nat.ltb_lt. unfold cinv in Hinv. rewrite Eold in Hinv. apply Hinv. }
    rewrite Hold, andb_true_r. destruct (Nat.eqb_spec j old) as [->|Hjo].
    + destruct (Nat.eqb_spec old k); [contradiction|reflexivity].
    + destruct (Nat.eqb_spec j k); [reflexivity|]. apply (cinv_others cfg s j Hinv). congruence.
  - destruct (Nat.eqb_spec j k); [reflexivity|]. apply (cinv_others cfg s j Hinv). congruence.
Qed.

Lemma ch_set_cinv cfg s i v s' : cinv cfg s -> ch_set cfg s i v = Ok s' -> cinv cfg s'.
Proof.
  intros Hinv E. pose proof (ch_set_spec cfg s i v Hinv) as H. rewrite E in H.
  destruct (pyidx i (length cfg)); [|discriminate]. destruct (rec_resolve _ v); [|discriminate].
  destruct H as (s1 & [= <-] & H). exact (selected_cinv _ _ _ _ H).
Qed.

(* what a read does to the content: the selected alternative is handed out; any other one is, with
   instantiation, selected in its place - whether or not a value is held (F18a) *)
Definition ch_read (cfg: rcfg) (a: cspec) (k: nat) (inst: bool) : cspec * out :=
  let other := if inst then (Some (k, cval (placeholder (kind_of cfg k))), OSlot (slot_abs (Some (placeholder (kind_of cfg k)))))
               else (a, OSlot None) in
  match a with
  | Some (k', v) => if Nat.eqb k' k then (a, OSlot (oslot v)) else other
  | None => other
  end.

Lemma ch_get_spec cfg s i inst : cinv cfg s ->
  match pyidx i (length cfg) with
  | Some k => exists s' c, ch_get cfg s i inst = Ok (s', c) /\ cinv cfg s' /\
                           (cabs s', OSlot (slot_abs c)) = ch_read cfg (cabs s) k inst
  | None => ch_get cfg s i inst = if inst then Err ELib else Ok (s, None)
  end.
Proof.
  intros Hinv. pose proof (rslot_at_shaped cfg (c_cv s) i (cinv_shaped _ _ Hinv)) as Hat.
  pose proof (ch_set_spec cfg s i None Hinv) as Hset. unfold ch_get.
  destruct (pyidx i (length cfg)) as [k|] eqn:Hi.
  - (* an alternative that is not the selected one holds nothing *)
    assert (Hother: rslot_at (c_cv s) i = None ->
              exists s' c, gen_get c_cv (ch_set cfg) s i inst = Ok (s', c) /\ cinv cfg s' /\
                (cabs s', OSlot (slot_abs c)) =
                if inst then (Some (k, cval (placeholder (kind_of cfg k))), OSlot (slot_abs (Some (placeholder (kind_of cfg k)))))
                else (cabs s, OSlot None)).
    { intros E. unfold gen_get. rewrite E. destruct inst; [|exists s, None; auto].
      destruct Hset as (s' & -> & Hsel). pose proof (selected_cinv _ _ _ _ Hsel) as Hinv'.
      exists s', (rslot_at (c_cv s') i). rewrite (rslot_at_shaped cfg _ i (cinv_shaped _ _ Hinv')), Hi.
      rewrite (selected_cabs _ _ _ _ Hsel). destruct Hsel as (_ & _ & _ & ->). rewrite Nat.eqb_refl. auto. }
    rewrite Hat in Hother. unfold ch_read. destruct (c_cur s) as [k'|] eqn:Ecur.
    + destruct (cinv_selected cfg s k' Hinv Ecur) as [c0 Hsel]. pose proof (selected_cabs _ _ _ _ Hsel) as Ea.
      destruct Hsel as (_ & Hk' & _ & Hn). rewrite Ea in Hother |- *. destruct (Nat.eqb_spec k' k) as [->|Hne].
      * (* the selected alternative, under its own position or counted from the end *)
        destruct (Z.eqb (Z.of_nat k) i).
        -- exists s, (nth k (rslots (c_cv s)) None). rewrite Ea, Hn, Nat.eqb_refl. destruct c0; auto.
        -- exists s, (if inst then Some c0 else if is_value (Some c0) then Some c0 else None).
           unfold gen_get. rewrite Ea, Hat, Hn, Nat.eqb_refl. destruct inst, c0; auto.
      * destruct (Z.eqb_spec (Z.of_nat k') i) as [<-|_].
        { rewrite pyidx_nat in Hi. destruct (Nat.ltb k' (length cfg)); congruence. }
        apply Hother. apply (cinv_others cfg s k Hinv). congruence.
    + assert (cabs s = None) as Ea by (unfold cabs; rewrite Ecur; reflexivity).
      rewrite Ea in Hother |- *. apply Hother. apply (cinv_others cfg s k Hinv). congruence.
  - assert (G: gen_get c_cv (ch_set cfg) s i inst = if inst then Err ELib else Ok (s, None)).
    { unfold gen_get. rewrite Hat, Hset. destruct inst; reflexivity. }
    destruct (c_cur s) as [k'|] eqn:Ecur; [|exact G]. destruct (Z.eqb_spec (Z.of_nat k') i) as [<-|_]; [|exact G].
    destruct (cinv_selected cfg s k' Hinv Ecur) as (c0 & _ & Hk' & _). rewrite pyidx_nat in Hi.
    destruct (Nat.ltb_spec k' (length cfg)); [discriminate|lia].
Qed.

Lemma ch_step_addressed cfg s o p : op_pos cfg o = Some p ->
  ch_step cfg s o = addressed_step (ch_set cfg) (ch_get cfg) p s o.
Proof. destruct o as [[]| | | | | | | | | | |[]| | | | | | | | | | | ]; intros [= <-]; reflexivity. Qed.

Theorem cinv_step cfg s o : cinv cfg s -> cinv cfg (fst (ch_step cfg s o)).
Proof.
  intros Hinv. destruct (op_pos cfg o) as [p|] eqn:Ep.
  - rewrite (ch_step_addressed _ _ _ _ Ep). apply addressed_step_inv; [exact Hinv| |].
    + intros i v s' _. apply ch_set_cinv. exact Hinv.
    + intros i s' c _ E. pose proof (ch_get_spec cfg s i (r_inst o) Hinv) as H. rewrite E in H.
      destruct (pyidx i (length cfg)).
      * destruct H as (s1 & c1 & [= <- _] & H & _). exact H.
      * destruct (r_inst o); [discriminate|]. injection H as <- _. exact Hinv.
  - destruct o as [[]| | | | | |flag| | | | |[]| | | | | | | | | | | ]; try discriminate Ep; cbn [ch_step];
      try exact Hinv; try reflexivity.
    + (* clone *)
      destruct flag; [|reflexivity]. unfold ch_current. destruct (c_cur s) as [k|] eqn:Ek; [|reflexivity].
      destruct (cinv_selected cfg s k Hinv Ek) as (c & _ & Hk & _ & Hn). rewrite Hn, Nat.eqb_refl. cbn [fst].
      apply (selected_cinv cfg _ k c). unfold selected. cbn [c_cur c_cv rslots].
      rewrite set_nth_length, repeat_length. repeat split; auto. intros j.
      rewrite nth_set_nth, repeat_length, nth_repeat.
      destruct (Nat.eqb j k), (Nat.ltb_spec k (length cfg)), (Nat.ltb j (length cfg)); try reflexivity; lia.
    + destruct (c_cv s); exact Hinv.
    + destruct (c_cv s) as [[|]|]; try exact Hinv. destruct (ch_current s) as [[]|], l; exact Hinv.
    + destruct (c_cur s); exact Hinv.
    + destruct (c_cur s); exact Hinv.
    + destruct (c_cur s); exact Hinv.
Qed.

Theorem cinv_run cfg : forall ops s, cinv cfg s -> cinv cfg (fst (ch_run cfg s ops)).
Proof.
  induction ops as [|o r IH]; intros s H; [exact H|].
  cbn [ch_run]. pose proof (cinv_step cfg s o H) as H1.
  destruct (ch_step cfg s o) as [s1 x]. cbn [fst] in H1. specialize (IH s1 H1).
  destruct (ch_run cfg s1 r). exact IH.
Qed.

Lemma filter_all_none (l: list slot) : (forall j, nth j l None = None) ->
  filter (fun c => match c with Some _ => true | None => false end) l = [].
Proof.
  induction l as [|x l IH]; intros H; [reflexivity|].
  pose proof (H 0) as H0. cbn [nth] in H0. subst x. cbn [filter]. apply IH. intros j. exact (H (S j)).
Qed.

Lemma single_occupied : forall (l: list slot) k, (forall j, j <> k -> nth j l None = None) ->
  length (filter (fun c => match c with Some _ => true | None => false end) l) <= 1.
Proof.
  induction l as [|x l IH]; intros k H; [cbn; lia|].
  destruct k as [|k].
  - cbn [filter]. rewrite (filter_all_none l); [destruct x; cbn; lia|].
    intros j. exact (H (S j) ltac:(lia)).
  - pose proof (H 0 ltac:(lia)) as H0. cbn [nth] in H0. subst x. cbn [filter].
    apply (IH k). intros j Hj. exact (H (S j) ltac:(lia)).
Qed.

Lemma cinv_single cfg s : cinv cfg s -> ch_occupied s <= 1.
Proof.
  unfold cinv, ch_occupied. destruct (c_cur s) as [k|].
  - intros (_ & _ & _ & H). exact (single_occupied _ k H).
  - intros ->. cbn. lia.
Qed.

(* at most one alternative holds anything, after any history of any operations *)
Theorem choice_single cfg ops : ch_occupied (fst (ch_run cfg ch_init ops)) <= 1.
Proof. apply (cinv_single cfg). apply cinv_run. apply cinv_init. Qed.

Lemma no_def_placeholder cfg k : no_def cfg = true -> placeholder (kind_of cfg k) = CSchema.
Proof.
  unfold no_def, kind_of. intros H. destruct (nth_in_or_default k cfg (FReq, tag_integer)) as [Hin| ->]; [|reflexivity].
  rewrite forallb_forall in H. specialize (H _ Hin). destruct (fst (nth k cfg (FReq, tag_integer))); [reflexivity..|discriminate].
Qed.

Lemma c_step_set cfg a o v : r_setval o = Some v ->
  c_wf cfg a o = is_some (r_addr cfg o) && match v with Some pv => is_some (pv_z pv) | None => true end /\
  c_step cfg a o = match r_addr cfg o, v with
                   | Some k, Some pv => match pv_z pv with Some z => (Some (k, Some z), ORet) | None => (a, ORet) end
                   | Some k, None => (Some (k, None), ORet)
                   | None, _ => (a, ORet)
                   end.
Proof. destruct o; try discriminate; intros [= <-]; split; try reflexivity; cbn [c_step r_setval]; destruct (r_addr cfg _); reflexivity. Qed.

Definition spec_get (a: cspec) (k: nat) (inst: bool) : cspec * out :=
  match a with
  | Some (k', v) => if Nat.eqb k' k then (a, OSlot (oslot v))
                    else if inst && negb (is_some v) then (Some (k, None), OSlot None) else (a, OSlot None)
  | None => if inst then (Some (k, None), OSlot None) else (a, OSlot None)
  end.

Lemma c_step_get cfg a o p : op_pos cfg o = Some p -> r_setval o = None ->
  c_step cfg a o = match r_addr cfg o with Some k => spec_get a k (r_inst o) | None => (a, OSlot None) end /\
  (c_wf cfg a o = true ->
   (r_inst o && match r_addr cfg o, a with Some k, Some (k', Some _) => negb (Nat.eqb k' k) | _, _ => false end) = false /\
   (r_addr cfg o = None -> r_inst o = false /\ exists i, p = Ok i)).
Proof.
  destruct o as [| | | | | | | | | | |[i|n]|i inst|n inst|n inst| | | | | | | | ]; try discriminate; intros [= <-] _.
  all: split; [cbn [c_step]; destruct (r_addr cfg _); reflexivity|].
  all: unfold c_wf; cbn [f18a r_inst]; intros H; apply andb_prop in H as [H1 H2]; apply negb_true_iff in H1;
    (split; [exact H1|]); intros E; rewrite E in H2; try discriminate H2.
  destruct inst; [discriminate|eauto].
Qed.

(* outside the class of F18a, and with no DEFAULT among the alternatives, the code reads as the prototype does *)
Lemma ch_read_spec cfg a k inst : no_def cfg = true ->
  (inst && match a with Some (k', Some _) => negb (Nat.eqb k' k) | _ => false end) = false ->
  ch_read cfg a k inst = spec_get a k inst.
Proof.
  intros Hnd H. unfold ch_read, spec_get. rewrite (no_def_placeholder cfg k Hnd).
  destruct a as [[k' v]|]; [destruct (Nat.eqb k' k); [reflexivity|]|]; destruct inst; try reflexivity.
  destruct v; [discriminate H|reflexivity].
Qed.

Theorem ch_sim_step cfg s o : no_def cfg = true -> cinv cfg s -> c_wf cfg (cabs s) o = true ->
  cinv cfg (fst (ch_step cfg s o)) /\
  cabs (fst (ch_step cfg s o)) = fst (c_step cfg (cabs s) o) /\
  out_abs (snd (ch_step cfg s o)) = snd (c_step cfg (cabs s) o).
Proof.
  intros Hnd Hinv Hwf. split; [apply cinv_step; exact Hinv|].
  destruct (op_pos cfg o) as [p|] eqn:Ep.
  - rewrite (ch_step_addressed _ _ _ _ Ep). unfold addressed_step. pose proof (op_pos_addr cfg o p Ep) as Hp.
    destruct (r_setval o) as [v|] eqn:Ev.
    + (* an assignment: the position is declared and the value is an integer, or none is given *)
      destruct (c_step_set cfg (cabs s) o v Ev) as [Ew ->]. rewrite Ew in Hwf. apply andb_prop in Hwf as [Ha Hv].
      destruct p as [i|e]; [|destruct Hp as [_ Hp]; rewrite Hp in Ha; discriminate].
      rewrite Hp in *. destruct (pyidx i (length cfg)) as [k|] eqn:Hi; [|discriminate].
      pose proof (ch_set_spec cfg s i v Hinv) as H. rewrite Hi, rec_resolve_spec in H.
      cbn [with_pos]. unfold lift_set. destruct v as [pv|].
      * destruct (pv_z pv) as [z|]; [|discriminate]. destruct H as (s' & -> & H).
        cbn [fst snd]. rewrite (selected_cabs _ _ _ _ H). split; reflexivity.
      * destruct H as (s' & -> & H). cbn [fst snd].
        rewrite (selected_cabs _ _ _ _ H), (no_def_placeholder cfg k Hnd). split; reflexivity.
    + destruct (c_step_get cfg (cabs s) o p Ep Ev) as [-> Hw]. destruct (Hw Hwf) as [Hx Hnone].
      destruct p as [i|e]; [|destruct Hp as [_ Hp]; destruct (Hnone Hp) as (_ & i & [=])].
      rewrite Hp in *. pose proof (ch_get_spec cfg s i (r_inst o) Hinv) as H. cbn [with_pos]. unfold lift_get.
      destruct (pyidx i (length cfg)) as [k|].
      * destruct H as (s' & c & -> & _ & H). rewrite (ch_read_spec cfg _ k _ Hnd) in H.
        -- cbn [fst snd out_abs]. rewrite <- H. split; reflexivity.
        -- destruct (cabs s) as [[k' [z|]]|]; auto.
      * destruct (Hnone eq_refl) as [Ei _]. rewrite Ei in H |- *. rewrite H. split; reflexivity.
  - unfold c_wf in Hwf. apply andb_prop in Hwf as [_ Hwf].
    destruct o as [[]| | | | | |flag| | | | |[]| | | | | | |l| | | | ]; try discriminate Ep; try discriminate Hwf;
      cbn [ch_step c_step fst snd].
    (* all but clone and == look at the selection and the slot selected, nothing else *)
    all: try (destruct (c_cur s) as [k|] eqn:Ek; cbn [fst snd]; unfold cabs, ch_isvalue, ch_current; rewrite ?Ek;
              [destruct (nth k (rslots (c_cv s)) None) as [[z|]|]|]; split; reflexivity).
    + (* clone *)
      destruct flag; [|split; reflexivity]. unfold ch_current. destruct (c_cur s) as [k|] eqn:Ek; [|unfold cabs; rewrite Ek; split; reflexivity].
      destruct (cinv_selected cfg s k Hinv Ek) as [c Hsel]. rewrite (selected_cabs _ _ _ _ Hsel).
      destruct Hsel as (_ & Hk & _ & Hn). rewrite Hn, Nat.eqb_refl. cbn [fst snd]. unfold cabs. cbn [c_cur c_cv rslots].
      rewrite nth_set_nth_same by (rewrite repeat_length; exact Hk). destruct c; split; reflexivity.
    + (* == : a value is held, so the slots are allocated *)
      destruct (c_cur s) as [k|] eqn:Ek; [|unfold cabs in Hwf; rewrite Ek in Hwf; discriminate].
      destruct (cinv_selected cfg s k Hinv Ek) as [c Hsel]. pose proof (selected_cabs _ _ _ _ Hsel) as Ea.
      destruct Hsel as (_ & Hk & Hl & Hn). unfold ch_current. rewrite Ea in Hwf |- *. rewrite Ek, Hn, Nat.eqb_refl.
      destruct c as [z|]; [|discriminate]. destruct l as [|z' l]; [discriminate|].
      destruct (c_cv s) as [[|x sl]|]; cbn [rslots length] in Hl; try lia. cbn [fst snd]. rewrite Ea. split; reflexivity.
Qed.

Theorem ch_refines_from cfg : no_def cfg = true -> forall ops s,
  cinv cfg s -> c_wf_hist cfg (cabs s) ops = true ->
  cabs (fst (ch_run cfg s ops)) = fst (c_run cfg (cabs s) ops) /\ map out_abs (snd (ch_run cfg s ops)) = snd (c_run cfg (cabs s) ops).
Proof.
  intros Hnd ops s Hinv H.
  destruct (simulation_run (ch_step cfg) (c_step cfg) (c_wf cfg) (fun a s => cinv cfg s /\ cabs s = a) out_abs
              (ch_run cfg) (c_run cfg) (c_wf_hist cfg)) with (ops := ops) (a := cabs s) (s := s)
    as [[_ E1] E2]; try reflexivity; auto.
  intros a s' o [Hi <-] Hw. destruct (ch_sim_step cfg s' o Hnd Hi Hw) as (H1 & H2 & H3). auto.
Qed.

Theorem ch_refines cfg ops : no_def cfg = true -> c_wf_hist cfg None ops = true ->
  let '(s, outs) := ch_run cfg ch_init ops in
  let '(a, outs') := c_run cfg None ops in
  cabs s = a /\ map out_abs outs = outs' /\ ch_occupied s <= 1.
Proof.
  intros Hnd H. destruct (ch_refines_from cfg Hnd ops ch_init (cinv_init cfg) H) as [E1 E2].
  pose proof (choice_single cfg ops) as E3.
  change (cabs ch_init) with (@None (nat * option Z)) in *.
  destruct (ch_run cfg ch_init ops) as [s outs]. destruct (c_run cfg None ops) as [a outs'].
  cbn [fst snd] in *. auto.
Qed.

(* reads: the selected alternative, or any alternative while no value is held, leave the content alone;
   reading another alternative while a value is held drops the value (F18a) *)
Theorem ch_reads_inert_partial cfg s o : no_def cfg = true -> cinv cfg s ->
  rec_reader o = true -> c_wf cfg (cabs s) o = true ->
  match cabs s with Some (_, Some _) => cabs (fst (ch_step cfg s o)) = cabs s | _ => True end.
Proof.
  intros Hnd Hinv Hr Hwf. destruct (ch_sim_step cfg s o Hnd Hinv Hwf) as (_ & Ha & _).
  rewrite Ha. destruct (cabs s) as [[k [z|]]|] eqn:Ea; auto.
  destruct o; cbn [rec_reader] in Hr; try discriminate; cbn [c_step]; try reflexivity.
  all: destruct (r_addr cfg _); try reflexivity.
  all: destruct (Nat.eqb k _); try reflexivity.
  all: cbn [is_some negb]; rewrite andb_false_r; reflexivity.
Qed.

Theorem ch_reads_inert_refuted :
  exists ops o, rec_reader o = true /\ cabs (fst (ch_run cfg3 ch_init ops)) = Some (1, Some 5%Z) /\ cabs (fst (ch_step cfg3 (fst (ch_run cfg3 ch_init ops)) o)) = Some (2, None) /\ f18a cfg3 (cabs (fst (ch_run cfg3 ch_init ops))) o = true.
Proof. exists [RSetItem (KName 1) (PInt 5)], (RGetItem (KName 2)). repeat split. Qed.

(* ill-formed: unknown name, position outside the declared range, refused value *)
Theorem ch_illformed_inert cfg s o : cinv cfg s -> r_ill cfg o = true ->
  fst (ch_step cfg s o) = s /\ exists e, snd (ch_step cfg s o) = ORaise e /\ lookup_or_library e = true.
Proof.
  intros Hinv Hill. destruct (op_pos cfg o) as [p|] eqn:Ep.
  2: destruct o as [[]| | | | | | | | | | |[]| | | | | | | | | | | ]; discriminate.
  rewrite (ch_step_addressed _ _ _ _ Ep). apply (addressed_illformed _ _ cfg s o p Ep Hill).
  - intros i v Hbad. pose proof (ch_set_spec cfg s i v Hinv) as H. destruct Hbad as [Hi|(pv & -> & Hz)].
    + rewrite Hi in H. exact H.
    + destruct (pyidx i (length cfg)); [rewrite rec_resolve_spec, Hz in H|]; exact H.
  - intros i Hi. pose proof (ch_get_spec cfg s i true Hinv) as H. rewrite Hi in H. exact H.
Qed.
