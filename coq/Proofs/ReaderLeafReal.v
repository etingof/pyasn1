(* A property of the independent X.690 reference alone (Spec/X690.v): the reference's reader of REAL
   contents octets [real_value] (8.5, any binary form) inverts the reference's writer
   [real_contents] (8.5 / 11.3: base 2, odd mantissa, scaling factor 0, shortest exponent), up to
   the abstract content [abs_real].  No bound on mantissa or exponent. *)
From Coq Require Import Lia.
From PV Require Import Base.Bytes Model.Tag Model.Types Model.Enc Spec.X690
                       Proofs.Bits Proofs.TagOctets Proofs.SpecOctets Proofs.LeafInt Proofs.LeafReal Proofs.ReaderParse.
Local Open Scope N_scope.

(* the reader after the first-octet fields have been extracted *)
Definition real_fields (lt128 neg: bool) (base_bits sf ef: N) (r: bytes) : option areal :=
  if lt128 then None else
  let '(elen, r1) := if N.eqb ef 3 then (match r with l :: _ => N.to_nat l | [] => O end, tl r)
                     else (S (N.to_nat ef), r) in
  if (Nat.eqb elen 0 || Nat.ltb (length r1) elen)%bool then None else
  let e := signed_value (firstn elen r1) in
  let m := Z.of_N (octets_value 0 (skipn elen r1)) in
  if N.eqb base_bits 3 then None else
  let e2 := (if N.eqb base_bits 0 then e else if N.eqb base_bits 1 then 3 * e else 4 * e)%Z in
  let mant := ((if neg then -1 else 1) * m * 2 ^ Z.of_N sf)%Z in
  Some (abs_real (RBin mant e2)).

Definition real_value_gen (fo: N) (r: bytes) : option areal :=
  real_fields (N.ltb fo 128) (N.eqb ((fo / 64) mod 2) 1) ((fo / 16) mod 4) ((fo / 4) mod 4) (fo mod 4) r.

(* a first octet with bit 8 set is neither 64 nor 65: the general branch applies *)
Lemma real_value_ge128 fo r : 128 <= fo -> real_value (fo :: r) = real_value_gen fo r.
Proof.
  intros H. destruct fo as [|p]; [lia|].
  do 7 (destruct p as [p|p|]; try reflexivity); destruct r; try reflexivity; lia.
Qed.

(* base 2, scaling factor 0, exponent in form k (0,1,2: k+1 octets; 3: a length octet first) *)
Lemma real_fields_binary (neg: bool) (k: N) (pre eo mo: bytes) :
  (k < 3 /\ pre = [] /\ length eo = S (N.to_nat k) \/ k = 3 /\ pre = [N.of_nat (length eo)]) ->
  eo <> [] ->
  real_fields false neg 0 0 k (pre ++ eo ++ mo) =
  Some (abs_real (RBin (if neg then - Z.of_N (octets_value 0 mo) else Z.of_N (octets_value 0 mo))
                       (signed_value eo))).
Proof.
  intros Hform Heo. unfold real_fields.
  assert (Hfin: forall elen r1, elen = length eo -> r1 = eo ++ mo ->
    (if (Nat.eqb elen 0 || Nat.ltb (length r1) elen)%bool then None else
     let e := signed_value (firstn elen r1) in
     let m := Z.of_N (octets_value 0 (skipn elen r1)) in
     if N.eqb 0 3 then None else
     let e2 := (if N.eqb 0 0 then e else if N.eqb 0 1 then 3 * e else 4 * e)%Z in
     let mant := ((if neg then -1 else 1) * m * 2 ^ Z.of_N 0)%Z in
     Some (abs_real (RBin mant e2))) =
    Some (abs_real (RBin (if neg then - Z.of_N (octets_value 0 mo) else Z.of_N (octets_value 0 mo))
                         (signed_value eo)))).
  { intros elen r1 -> ->.
    assert (Hl: length eo <> O) by (destruct eo; [congruence|discriminate]).
    destruct (Nat.eqb_spec (length eo) 0) as [|_]; [contradiction|].
    destruct (Nat.ltb_spec (length (eo ++ mo)) (length eo)) as [Hc|_].
    { rewrite app_length in Hc. lia. }
    cbn [orb]. cbv zeta. rewrite firstn_app_exact, skipn_app_exact.
    change (N.eqb 0 3) with false. change (N.eqb 0 0) with true. cbv iota.
    change (2 ^ Z.of_N 0)%Z with 1%Z. rewrite Z.mul_1_r.
    f_equal. f_equal. f_equal. destruct neg; lia. }
  destruct Hform as [(Hk3 & -> & Hlen)|(-> & ->)].
  - cbn [app]. destruct (N.eqb_spec k 3) as [Hc|_]; [lia|].
    apply Hfin; [symmetry; exact Hlen|reflexivity].
  - change (N.eqb 3 3) with true. cbn [app tl]. rewrite Nat2N.id.
    apply Hfin; reflexivity.
Qed.

(* the eight first octets the writer produces, as the reader splits them into fields *)
Lemma real_value_first (neg: bool) (k: N) r : k < 4 ->
  real_value ((128 + (if neg then 64 else 0) + k) :: r) = real_fields false neg 0 0 k r.
Proof.
  intros Hk. rewrite real_value_ge128 by (destruct neg; lia).
  assert (Hc: k = 0 \/ k = 1 \/ k = 2 \/ k = 3) by lia.
  destruct Hc as [->|[->|[->| ->]]]; destruct neg; reflexivity.
Qed.

Theorem real_value_real_contents : forall (r: real) (c: bytes),
  real_contents r = Some c -> real_value c = Some (abs_real r).
Proof.
  intros r c H. destruct r as [| |m e|m e|].
  - injection H as <-. reflexivity.
  - injection H as <-. reflexivity.
  - destruct (Z.eq_dec m 0) as [->|Hm].
    { change (Some (@nil N) = Some c) in H. injection H as <-. reflexivity. }
    unfold real_contents in H. destruct (Z.eqb_spec m 0) as [|_]; [contradiction|].
    rewrite make_odd_is_strip2 in H.
    destruct (strip2 (N.size_nat (Z.abs_N m)) (Z.abs_N m) e) as [m' e'] eqn:Es.
    cbv zeta in H.
    destruct (abs_real_bin_norm m e m' e' Hm Es) as [Ha1 Ha2]. cbv zeta in Ha1, Ha2.
    assert (Heo: int_contents e' <> []).
    { rewrite exp_octets_is_int_contents. apply exp_octets_nonempty. }
    pose proof (signed_value_int_contents e') as Hexp.
    pose proof (octets_value_digits256 _ m' : octets_value 0 (digits_of 256 m') = m') as Hmant.
    set (eo := int_contents e') in *. set (mo := digits_of 256 m') in *.
    set (neg := Z.ltb m 0) in *.
    assert (Hdec: forall k pre, k < 4 ->
      (k < 3 /\ pre = [] /\ length eo = S (N.to_nat k) \/ k = 3 /\ pre = [N.of_nat (length eo)]) ->
      Some ((128 + (if neg then 64 else 0) + k) :: pre ++ eo ++ mo) = Some c ->
      real_value c = Some (abs_real (RBin m e))).
    { intros k pre Hk Hform Hc.
      assert (Hc': (128 + (if neg then 64 else 0) + k) :: pre ++ eo ++ mo = c) by congruence.
      clear Hc. subst c.
      rewrite (real_value_first neg k (pre ++ eo ++ mo) Hk).
      rewrite (real_fields_binary neg k pre eo mo Hform Heo).
      rewrite Hexp, Hmant, Ha1. f_equal. exact Ha2. }
    destruct (length eo) as [|[|[|[|n]]]] eqn:Hlen.
    + destruct eo; [congruence|discriminate].
    + apply (Hdec 0 []); [lia| |rewrite N.add_0_r; exact H]. left. split; [lia|split; reflexivity].
    + apply (Hdec 1 []); [lia| |exact H]. left. split; [lia|split; reflexivity].
    + apply (Hdec 2 []); [lia| |exact H]. left. split; [lia|split; reflexivity].
    + apply (Hdec 3 [N.of_nat (S (S (S (S n))))]); [lia| |exact H].
      right. split; [reflexivity|]. rewrite ?Hlen. reflexivity.
  - destruct (Z.eq_dec m 0) as [->|Hm].
    { change (Some (@nil N) = Some c) in H. injection H as <-. reflexivity. }
    unfold real_contents in H. destruct (Z.eqb_spec m 0) as [|_]; [contradiction|discriminate].
  - discriminate.
Qed.

(* the hypothesis is satisfiable: negative mantissa with factors of two; an exponent of six octets
   (length-prefixed form); a three-octet exponent; the special values and zero *)
Example real_value_real_contents_ex :
  real_contents (RBin (-80) 3) = Some [192; 7; 5] /\
  real_value [192; 7; 5] = Some (ABin (-5) 7) /\ abs_real (RBin (-80) 3) = ABin (-5) 7 /\
  real_contents (RBin 3 (2 ^ 40)) = Some [131; 6; 1; 0; 0; 0; 0; 0; 3] /\
  real_value [131; 6; 1; 0; 0; 0; 0; 0; 3] = Some (ABin 3 (2 ^ 40)) /\
  real_contents (RBin 1000 (-70000)) = Some [130; 254; 238; 147; 125] /\
  real_value [130; 254; 238; 147; 125] = Some (abs_real (RBin 1000 (-70000))) /\
  abs_real (RBin 1000 (-70000)) = ABin 125 (-69997) /\
  real_contents RPInf = Some [64] /\ real_value [64] = Some APInf /\
  real_contents (RDec 0 5) = Some [] /\ real_value [] = Some AZero.
Proof. vm_compute. repeat split. Qed.

Example real_value_real_contents_inst :
  real_value [192; 7; 5] = Some (abs_real (RBin (-80) 3)).
Proof. apply real_value_real_contents. vm_compute. reflexivity. Qed.

Print Assumptions real_value_real_contents.
