(* Facts shared by the container proofs: lists under positional update and enumeration, the
   insertion-ordered dict on consecutive keys, sorting, and - for SEQUENCE / SET and CHOICE, which
   share one positional setter and one dispatch of their operations - what that setter does and
   how an operation addressed by position, name or type reaches it. *)
From Coq Require Import Lia Sorting.Permutation Sorting.Sorted.
From PV Require Import Spec.ListSpec.
Local Open Scope nat_scope.

Lemma set_nth_length {A} (l: list A) k x : length (set_nth k x l) = length l.
Proof. revert k; induction l as [|y l IH]; intros [|k]; simpl; auto. Qed.

Lemma nth_set_nth {A} (l: list A) k j x d :
  nth j (set_nth k x l) d = if Nat.eqb j k && Nat.ltb k (length l) then x else nth j l d.
Proof.
  revert k j; induction l as [|y l IH]; intros [|k] [|j]; cbn [set_nth nth length]; try reflexivity.
  - rewrite andb_false_r. reflexivity.
  - apply IH.
Qed.

Lemma nth_set_nth_same {A} (l: list A) k x d : k < length l -> nth k (set_nth k x l) d = x.
Proof. intros H. rewrite nth_set_nth, Nat.eqb_refl. destruct (Nat.ltb_spec k (length l)); [reflexivity|lia]. Qed.

Lemma nth_set_nth_other {A} (l: list A) k j x d : j <> k -> nth j (set_nth k x l) d = nth j l d.
Proof. intros H. rewrite nth_set_nth. destruct (Nat.eqb_spec j k); [contradiction|reflexivity]. Qed.

Lemma set_nth_same {A} (l: list A) k d : set_nth k (nth k l d) l = l.
Proof. revert k; induction l as [|x l IH]; intros [|k]; cbn [set_nth nth]; try reflexivity. f_equal. apply IH. Qed.

Lemma set_nth_split {A} (l: list A) k x : k < length l ->
  set_nth k x l = firstn k l ++ x :: skipn (S k) l.
Proof.
  revert k; induction l as [|y l IH]; intros [|k] H; simpl in *; try lia; auto.
  f_equal. apply IH. lia.
Qed.

Lemma set_nth_map {A B} (f: A -> B) (l: list A) k x : map f (set_nth k x l) = set_nth k (f x) (map f l).
Proof. revert k; induction l as [|y l IH]; intros [|k]; simpl; auto. f_equal; auto. Qed.

Lemma nth_repeat {A} (x: A) n k d : nth k (repeat x n) d = if Nat.ltb k n then x else d.
Proof.
  revert k; induction n as [|n IH]; intros [|k]; simpl; auto.
  rewrite IH. destruct (Nat.ltb_spec k n), (Nat.ltb_spec (S k) (S n)); auto; lia.
Qed.

Lemma skipn_cons_nth {A} (l: list A) k d : k < length l -> skipn k l = nth k l d :: skipn (S k) l.
Proof.
  revert k; induction l as [|x l IH]; intros [|k] H; cbn [length] in H; try lia; [reflexivity|].
  cbn [skipn nth]. apply IH. lia.
Qed.

Lemma skipn_eq_cons {A} (l: list A) k x r : skipn k l = x :: r -> k < length l.
Proof.
  intros H. destruct (Nat.lt_ge_cases k (length l)); [assumption|]. rewrite skipn_all2 in H by lia. discriminate.
Qed.

Lemma enumerate_from_length {A} i (l: list A) : length (enumerate_from i l) = length l.
Proof. revert i; induction l; intros; simpl; auto. Qed.

Lemma enumerate_from_snd {A} i (l: list A) : map snd (enumerate_from i l) = l.
Proof. revert i; induction l; intros; simpl; auto. f_equal; auto. Qed.

Lemma enumerate_from_app {A} i (l r: list A) :
  enumerate_from i (l ++ r) = enumerate_from i l ++ enumerate_from (i + length l) r.
Proof.
  revert i; induction l as [|x l IH]; intros; simpl.
  - rewrite Nat.add_0_r; auto.
  - f_equal. rewrite IH. do 2 f_equal. lia.
Qed.

Lemma nth_enumerate_from {A} (l: list A) : forall i j d, j < length l ->
  nth j (enumerate_from i l) d = (i + j, nth j l (snd d)).
Proof.
  induction l as [|x l IH]; intros i j d H; cbn [length] in H; [lia|].
  destruct j as [|j]; cbn [enumerate_from nth].
  - rewrite Nat.add_0_r. reflexivity.
  - rewrite IH by lia. f_equal. lia.
Qed.

Lemma forallb_enumerate {A} (P: nat -> A -> bool) (d: A) : forall (l: list A) i,
  forallb (fun kx => P (fst kx) (snd kx)) (enumerate_from i l) = true <->
  forall j, j < length l -> P (i + j) (nth j l d) = true.
Proof.
  induction l as [|x l IH]; intros i; cbn [enumerate_from forallb fst snd length].
  - split; [intros _ j Hj; lia|reflexivity].
  - rewrite andb_true_iff, IH. split.
    + intros [H0 H] [|j] Hj; [rewrite Nat.add_0_r; exact H0|].
      replace (i + S j) with (S i + j) by lia. apply H. lia.
    + intros H. split; [rewrite <- (Nat.add_0_r i); apply (H 0); lia|].
      intros j Hj. replace (S i + j) with (i + S j) by lia. apply (H (S j)). lia.
Qed.

Lemma forallb_enumerate_ext {A} (P Q: nat -> A -> bool) (d: A) (l: list A) i :
  (forall j, j < length l -> P (i + j) (nth j l d) = Q (i + j) (nth j l d)) ->
  forallb (fun kx => P (fst kx) (snd kx)) (enumerate_from i l) =
  forallb (fun kx => Q (fst kx) (snd kx)) (enumerate_from i l).
Proof.
  intros H. apply eq_true_iff_eq. rewrite !(forallb_enumerate _ d).
  split; intros G j Hj; [rewrite <- H|rewrite H]; auto.
Qed.

Lemma dget_enum (l: list comp) : forall i k,
  dget k (enumerate_from i l) = if Nat.leb i k then nth_error l (k - i) else None.
Proof.
  induction l as [|x l IH]; intros i k; simpl.
  - destruct (Nat.leb i k); auto. destruct (k - i); auto.
  - destruct (Nat.eqb_spec k i) as [->|Hne].
    + rewrite Nat.leb_refl, Nat.sub_diag. auto.
    + rewrite IH. destruct (Nat.leb_spec i k), (Nat.leb_spec (S i) k); try lia; auto.
      replace (k - i) with (S (k - S i)) by lia. auto.
Qed.

Lemma dset_enum_in (l: list comp) : forall i k v, i <= k < i + length l ->
  dset k v (enumerate_from i l) = enumerate_from i (set_nth (k - i) v l).
Proof.
  induction l as [|x l IH]; intros i k v H; simpl in *; [lia|].
  destruct (Nat.eqb_spec k i) as [->|Hne].
  - rewrite Nat.sub_diag. auto.
  - replace (k - i) with (S (k - S i)) by lia. simpl. f_equal. apply IH. lia.
Qed.

Lemma dset_enum_end (l: list comp) : forall i v,
  dset (i + length l) v (enumerate_from i l) = enumerate_from i (l ++ [v]).
Proof.
  induction l as [|x l IH]; intros i v; simpl.
  - rewrite Nat.add_0_r. auto.
  - destruct (Nat.eqb_spec (i + S (length l)) i); [lia|]. f_equal.
    replace (i + S (length l)) with (S i + length l) by lia. apply IH.
Qed.

Lemma dget_dset k k' v (d: dict) : dget k (dset k' v d) = if Nat.eqb k k' then Some v else dget k d.
Proof.
  induction d as [|[j w] d IH]; cbn [dset dget].
  - destruct (Nat.eqb k k'); reflexivity.
  - destruct (Nat.eqb_spec k' j) as [->|Hne]; cbn [dget].
    + destruct (Nat.eqb_spec k j); reflexivity.
    + rewrite IH. destruct (Nat.eqb_spec k j) as [->|]; [|reflexivity].
      destruct (Nat.eqb_spec j k'); [congruence|reflexivity].
Qed.

Lemma dmax_enum (l: list comp) : forall i, l <> [] -> dmax (enumerate_from i l) = i + length l - 1.
Proof.
  induction l as [|x l IH]; intros i H; [congruence|]. simpl.
  destruct l as [|y l'].
  - simpl. lia.
  - rewrite IH by congruence. simpl. lia.
Qed.

Lemma slen_enum (l: list comp) : slen (Some (enumerate l)) = length l.
Proof.
  destruct l as [|x l]; [reflexivity|]. unfold slen, enumerate.
  rewrite (dmax_enum (x :: l) 0) by discriminate. cbn [enumerate_from length]. lia.
Qed.

Lemma filter_map_comm {A B} (h: A -> B) (p: B -> bool) (q: A -> bool) l :
  (forall x, In x l -> p (h x) = q x) -> filter p (map h l) = map h (filter q l).
Proof.
  induction l as [|x l IH]; intros H; [reflexivity|]. cbn [map filter].
  rewrite (H x (or_introl eq_refl)). rewrite IH by (intros y Hy; apply H; right; exact Hy).
  destruct (q x); reflexivity.
Qed.

Section Sort.
  Context {A: Type} (leb: A -> A -> bool).

  Lemma insert_by_permutes x l : Permutation (x :: l) (insert_by leb x l).
  Proof.
    induction l as [|y l IH]; cbn [insert_by]; [apply Permutation_refl|].
    destruct (leb x y); [apply Permutation_refl|].
    eapply perm_trans; [apply perm_swap|]. apply perm_skip. exact IH.
  Qed.

  Lemma sort_by_permutes l : Permutation l (sort_by leb l).
  Proof.
    induction l as [|x l IH]; [apply perm_nil|].
    eapply perm_trans; [apply perm_skip; exact IH|]. apply insert_by_permutes.
  Qed.

  Context {B: Type} (h: A -> B) (lebB: B -> B -> bool) (Hh: forall x y, lebB (h x) (h y) = leb x y).

  Lemma insert_by_map x l : insert_by lebB (h x) (map h l) = map h (insert_by leb x l).
  Proof.
    induction l as [|y l IH]; [reflexivity|]. cbn [map insert_by]. rewrite Hh.
    destruct (leb x y); [reflexivity|]. cbn [map]. f_equal. exact IH.
  Qed.

  Lemma sort_by_map l : sort_by lebB (map h l) = map h (sort_by leb l).
  Proof.
    induction l as [|x l IH]; [reflexivity|]. unfold sort_by in *. cbn [map fold_right].
    rewrite IH. apply insert_by_map.
  Qed.
End Sort.

Lemma sort_by_key_enum (l: list comp) : forall i, sort_by key_leb (enumerate_from i l) = enumerate_from i l.
Proof.
  induction l as [|x l IH]; intros i; auto.
  change (sort_by key_leb (enumerate_from i (x :: l)))
    with (insert_by key_leb (i, x) (sort_by key_leb (enumerate_from (S i) l))).
  rewrite IH.
  destruct l as [|y l']; auto. simpl. unfold key_leb. simpl.
  destruct (Nat.leb_spec i (S i)); [auto|lia].
Qed.

Lemma components_enum (l: list comp) : components (enumerate l) = l.
Proof. unfold components, enumerate. rewrite sort_by_key_enum. apply enumerate_from_snd. Qed.

Theorem zsort_perm l : Permutation l (zsort l).
Proof. apply sort_by_permutes. Qed.

Lemma insert_sorted (x: Z) l : LocallySorted Z.le l -> LocallySorted Z.le (insert_by Z.leb x l).
Proof.
  induction 1 as [|y|y z l Hs IH Hyz]; cbn [insert_by].
  - constructor.
  - destruct (Z.leb_spec x y); constructor; try constructor; lia.
  - destruct (Z.leb_spec x y).
    + constructor; [constructor; assumption|assumption].
    + cbn [insert_by] in IH. destruct (Z.leb_spec x z).
      * constructor; [exact IH|lia].
      * constructor; [exact IH|exact Hyz].
Qed.

Theorem zsort_sorted l : LocallySorted Z.le (zsort l).
Proof.
  induction l as [|x l IH]; [constructor|].
  change (zsort (x :: l)) with (insert_by Z.leb x (zsort l)). apply insert_sorted. exact IH.
Qed.

Lemma eq_list_vals l l' : eq_list (map Some (map CVal l)) l' = OBool (list_eqb Z.eqb l l').
Proof.
  unfold eq_list. rewrite !map_length. revert l'.
  induction l as [|x l IH]; intros [|y l']; try reflexivity.
  specialize (IH l'). cbn [length Nat.eqb map eq_elems list_eqb].
  destruct (Nat.eqb (length l) (length l')), (Z.eqb x y); cbn [andb]; first [reflexivity|exact IH].
Qed.

Lemma norm_idx_nat k n : norm_idx (Z.of_nat k) n = Some k.
Proof. unfold norm_idx. destruct (Z.ltb_spec (Z.of_nat k) 0); [lia|]. rewrite Nat2Z.id. auto. Qed.

Lemma pyidx_nat k n : pyidx (Z.of_nat k) n = if Nat.ltb k n then Some k else None.
Proof.
  unfold pyidx. destruct (Z.ltb_spec (Z.of_nat k) 0); [lia|].
  destruct (Z.ltb_spec (Z.of_nat k) (Z.of_nat n)), (Nat.ltb_spec k n); try lia; auto.
  rewrite Nat2Z.id. auto.
Qed.

Lemma pyidx_lt i n k : pyidx i n = Some k -> k < n /\ (i < Z.of_nat n)%Z.
Proof.
  unfold pyidx. destruct (Z.ltb_spec i 0).
  - destruct (Z.leb_spec (- Z.of_nat n) i); [|discriminate]. intros E; inversion E; lia.
  - destruct (Z.ltb_spec i (Z.of_nat n)); [|discriminate]. intros E; inversion E; lia.
Qed.

Lemma pyidx_nil i : pyidx i 0 = None.
Proof. destruct (pyidx i 0) as [k|] eqn:E; [|reflexivity]. apply pyidx_lt in E. lia. Qed.

Lemma pyidx_same_len i n m : n = m -> pyidx i n = pyidx i m.
Proof. intros ->; auto. Qed.

Lemma scalar_valueless_raises {A} (f: Z -> A) (g: Z -> Z -> A) (y: scalar) :
  scalar_unop None f = Err ELib /\ scalar_binop None y g = Err ELib /\ scalar_binop y None g = Err ELib.
Proof. repeat split; destruct y; reflexivity. Qed.

Lemma scalar_value_computes {A} (f: Z -> A) (g: Z -> Z -> A) x y :
  scalar_unop (Some x) f = Ok (f x) /\ scalar_binop (Some x) (Some y) g = Ok (g x y).
Proof. split; reflexivity. Qed.

Lemma raises_inert {St} (r: St * out) s e : r = (s, ORaise e) -> lookup_or_library e = true ->
  fst r = s /\ exists e, snd r = ORaise e /\ lookup_or_library e = true.
Proof. intros -> H. split; [reflexivity|]. exists e. split; [reflexivity|exact H]. Qed.

(* One object against its prototype: if every well-formed step keeps the relation between prototype
   state and object state and gives the same result up to [oabs], then so does every history whose
   steps are well-formed in the prototype states they meet.  The runs and the well-formedness of a
   history are the models' own fixpoints; all that is used of them is how they unfold. *)
Section Simulation.
  Context {S A Op: Type} (step: S -> Op -> S * out) (spec: A -> Op -> A * out) (wf: A -> Op -> bool)
          (R: A -> S -> Prop) (oabs: out -> out).
  Context (run: S -> list Op -> S * list out) (srun: A -> list Op -> A * list out) (wfh: A -> list Op -> bool).
  Hypothesis run_nil: forall s, run s [] = (s, []).
  Hypothesis run_cons: forall s o r,
    run s (o :: r) = let '(s', x) := step s o in let '(s'', xs) := run s' r in (s'', x :: xs).
  Hypothesis srun_nil: forall a, srun a [] = (a, []).
  Hypothesis srun_cons: forall a o r,
    srun a (o :: r) = let '(a', x) := spec a o in let '(a'', xs) := srun a' r in (a'', x :: xs).
  Hypothesis wfh_cons: forall a o r, wfh a (o :: r) = wf a o && wfh (fst (spec a o)) r.
  Hypothesis sim: forall a s o, R a s -> wf a o = true ->
    R (fst (spec a o)) (fst (step s o)) /\ oabs (snd (step s o)) = snd (spec a o).

  Theorem simulation_run : forall ops a s, R a s -> wfh a ops = true ->
    R (fst (srun a ops)) (fst (run s ops)) /\ map oabs (snd (run s ops)) = snd (srun a ops).
  Proof.
    induction ops as [|o r IH]; intros a s HR H.
    - rewrite run_nil, srun_nil. split; [exact HR|reflexivity].
    - rewrite wfh_cons in H. apply andb_prop in H as [H1 H2]. destruct (sim a s o HR H1) as [HR' Ho].
      rewrite run_cons, srun_cons. destruct (step s o) as [s1 x], (spec a o) as [a1 y]. cbn [fst snd] in *.
      destruct (IH a1 s1 HR' H2) as [HR'' Hos]. destruct (run s1 r) as [s2 xs], (srun a1 r) as [a2 ys].
      cbn [fst snd map] in *. split; [exact HR''|]. rewrite Ho, Hos. reflexivity.
  Qed.
End Simulation.

(* the slots an assignment works on: allocated on first use *)
Definition alloc (cfg: rcfg) (s: rstate) : list slot :=
  match rslots s with [] => repeat None (length cfg) | l => l end.
Definition shaped (cfg: rcfg) (s: rstate) : Prop := rslots s = [] \/ length (rslots s) = length cfg.

Lemma alloc_length cfg s : shaped cfg s -> length (alloc cfg s) = length cfg.
Proof.
  unfold alloc, shaped. destruct (rslots s) as [|x l]; intros [H|H]; try discriminate;
    try apply repeat_length; auto.
Qed.

Lemma alloc_nth cfg s j : nth j (alloc cfg s) None = nth j (rslots s) None.
Proof.
  unfold alloc. destruct (rslots s); [|reflexivity].
  rewrite nth_repeat. destruct (Nat.ltb j (length cfg)), j; reflexivity.
Qed.

Lemma alloc_full cfg s : length (rslots s) = length cfg -> alloc cfg s = rslots s.
Proof.
  unfold alloc. destruct (rslots s) eqn:E; [|reflexivity]. cbn [length]. intros H.
  destruct cfg; [reflexivity|discriminate].
Qed.

Lemma kind_at_pyidx cfg i : kind_at cfg i = option_map (kind_of cfg) (pyidx i (length cfg)).
Proof.
  unfold kind_at, kind_of. destruct (pyidx i (length cfg)) as [k|] eqn:H; [|reflexivity].
  apply pyidx_lt in H as [H _]. rewrite (nth_error_nth' cfg (FReq, tag_integer) H). reflexivity.
Qed.

(* on a state of the shape the code keeps, the setter stores at a declared position what the value
   resolves to there, and refuses everything else *)
Lemma rec_store_shaped cfg s i rc : shaped cfg s ->
  rec_store cfg s i rc =
  match pyidx i (length cfg) with
  | Some k => match rc (kind_of cfg k) with
              | Ok c => Ok (Some (set_nth k (Some c) (alloc cfg s)))
              | Err e => Err e
              end
  | None => Err ELib
  end.
Proof.
  intros Hs. unfold rec_store. rewrite kind_at_pyidx.
  destruct (pyidx i (length cfg)) as [k|] eqn:Hi; cbn [option_map].
  - assert (match pyidx i (length (rslots s)) with
            | Some _ => Ok (rslots s)
            | None => if Z.ltb (Z.of_nat (length cfg)) i then Err ELib else Ok (repeat None (length cfg))
            end = Ok (alloc cfg s)) as ->.
    { destruct Hs as [E|E].
      - unfold alloc. rewrite E. cbn [length]. rewrite pyidx_nil.
        apply pyidx_lt in Hi as [_ Hi]. destruct (Z.ltb_spec (Z.of_nat (length cfg)) i); [lia|reflexivity].
      - rewrite E, Hi, (alloc_full _ _ E). reflexivity. }
    destruct (rc (kind_of cfg k)); [|reflexivity]. rewrite (alloc_length _ _ Hs), Hi. reflexivity.
  - destruct (pyidx i (length (rslots s))); [reflexivity|].
    destruct (Z.ltb (Z.of_nat (length cfg)) i); reflexivity.
Qed.

Lemma rslot_at_shaped cfg s i : shaped cfg s ->
  rslot_at s i = match pyidx i (length cfg) with Some k => nth k (rslots s) None | None => None end.
Proof.
  intros [H|H]; unfold rslot_at; rewrite H; [|reflexivity].
  cbn [length]. rewrite pyidx_nil. destruct (pyidx i (length cfg)) as [[|k]|]; reflexivity.
Qed.

(* what an assignment without a value stores: the declared default, else a placeholder *)
Definition placeholder (fk: fkind) : comp := match fk with FDef d => CVal d | _ => CSchema end.

Lemma rec_resolve_spec fk v :
  rec_resolve fk v = match v with
                     | Some pv => match pv_z pv with Some z => Ok (CVal z) | None => Err ELib end
                     | None => Ok (placeholder fk)
                     end.
Proof. destruct v as [[]|]; reflexivity. Qed.

(* [rec_step] and [ch_step] send all of these through one shape: find the position (a name may be
   unknown), then call the positional setter or getter and convert its error *)
Definition op_pos (cfg: rcfg) (o: rop) : option (res Z) :=
  match o with
  | RSetItem (KPos i) _ | RSetPos i _ | RGetItem (KPos i) | RGetPos i _ => Some (Ok i)
  | RSetItem (KName n) _ | RSetName n _ | RSetType n _
  | RGetItem (KName n) | RGetName n _ | RGetType n _ => Some (pos_of_name cfg n)
  | _ => None
  end.
Definition op_conv (o: rop) : err -> err :=
  match o with
  | RSetItem (KPos _) _ | RGetItem (KPos _) => to_index
  | RSetItem (KName _) _ | RGetItem (KName _) => to_key
  | _ => noconv
  end.
Definition addressed_step {St} (set: St -> Z -> option pyval -> res St)
           (get: St -> Z -> bool -> res (St * slot)) (p: res Z) (s: St) (o: rop) : St * out :=
  with_pos p s (op_conv o)
           (fun i => match r_setval o with
                     | Some v => lift_set (set s i v) s (op_conv o)
                     | None => lift_get (get s i (r_inst o)) s (op_conv o)
                     end).

Lemma op_pos_addr cfg o p : op_pos cfg o = Some p ->
  match p with
  | Ok i => r_addr cfg o = pyidx i (length cfg)
  | Err e => e = ELib /\ r_addr cfg o = None
  end.
Proof.
  assert (N: forall n, match pos_of_name cfg n with
                       | Ok i => (if Nat.ltb n (length cfg) then Some n else None) = pyidx i (length cfg)
                       | Err e => e = ELib /\ (if Nat.ltb n (length cfg) then Some n else None) = None
                       end).
  { intros n. unfold pos_of_name. rewrite <- pyidx_nat. destruct (Nat.ltb n (length cfg)) eqn:E; [reflexivity|].
    rewrite pyidx_nat, E. split; reflexivity. }
  destruct o as [[]| | | | | | | | | | |[]| | | | | | | | | | | ]; intros [= <-]; first [reflexivity|apply N].
Qed.

Lemma addressed_step_inv {St} (P: St -> Prop) set get p (s: St) o : P s ->
  (forall i v s', r_setval o = Some v -> set s i v = Ok s' -> P s') ->
  (forall i s' c, r_setval o = None -> get s i (r_inst o) = Ok (s', c) -> P s') ->
  P (fst (addressed_step set get p s o)).
Proof.
  intros Hs Hset Hget. unfold addressed_step, with_pos. destruct p as [i|e]; [|exact Hs].
  destruct (r_setval o) as [v|].
  - unfold lift_set. destruct (set s i v) eqn:E; [eapply Hset; eauto|exact Hs].
  - unfold lift_get. destruct (get s i (r_inst o)) as [[s' c]|] eqn:E; [eapply Hget; eauto|exact Hs].
Qed.

Lemma r_ill_set cfg o v : r_setval o = Some v ->
  r_ill cfg o = negb (is_some (r_addr cfg o)) ||
                match v with Some pv => negb (is_some (pv_z pv)) | None => false end.
Proof. destruct o; try discriminate; intros [= <-]; reflexivity. Qed.

(* an ill-formed read asks for instantiation, unless it is one by a name that is not declared *)
Lemma r_ill_get cfg o : r_setval o = None -> r_ill cfg o = true ->
  r_addr cfg o = None /\ (r_inst o = true \/ op_pos cfg o = Some (Err ELib)).
Proof.
  assert (N: forall n, negb (is_some (if Nat.ltb n (length cfg) then Some n else None)) = true ->
             (if Nat.ltb n (length cfg) then Some n else None) = None /\ pos_of_name cfg n = Err ELib).
  { intros n. unfold pos_of_name. destruct (Nat.ltb n (length cfg)); [discriminate|auto]. }
  destruct o as [| | | | | | | | | | |[i|n]|i inst|n inst|n inst| | | | | | | | ]; try discriminate;
    cbn [r_ill r_addr r_inst op_pos]; intros _ H.
  - destruct (pyidx i (length cfg)); [discriminate|auto].
  - destruct (N n H) as [-> ->]. auto.
  - destruct inst; [|discriminate]. destruct (pyidx i (length cfg)); [discriminate|auto].
  - destruct (N n H) as [-> ->]. auto.
  - destruct (N n H) as [-> ->]. auto.
Qed.

(* an unknown name, a position outside the declared range or a refused value: nothing changes and
   the library's error comes back, as the lookup error of the bracket form used *)
Lemma addressed_illformed {St} set get cfg (s: St) o p : op_pos cfg o = Some p -> r_ill cfg o = true ->
  (forall i v, pyidx i (length cfg) = None \/ (exists pv, v = Some pv /\ pv_z pv = None) -> set s i v = Err ELib) ->
  (forall i, pyidx i (length cfg) = None -> get s i true = Err ELib) ->
  let r := addressed_step set get p s o in
  fst r = s /\ exists e, snd r = ORaise e /\ lookup_or_library e = true.
Proof.
  intros Ep Hill Hset Hget. apply (raises_inert _ s (op_conv o ELib)).
  2: destruct o as [[]| | | | | | | | | | |[]| | | | | | | | | | | ]; reflexivity.
  pose proof (op_pos_addr cfg o p Ep) as Ha. unfold addressed_step, with_pos.
  destruct p as [i|e]; [|destruct Ha as [-> _]; reflexivity].
  destruct (r_setval o) as [v|] eqn:Ev.
  - rewrite (r_ill_set cfg o v Ev), Ha in Hill. unfold lift_set. rewrite Hset; [reflexivity|].
    destruct (pyidx i (length cfg)); [right|left; reflexivity]. cbn [is_some negb orb] in Hill.
    destruct v as [pv|]; [|discriminate]. exists pv. split; [reflexivity|].
    destruct (pv_z pv); [discriminate|reflexivity].
  - destruct (r_ill_get cfg o Ev Hill) as [Hn [Hi|Hp]]; [|congruence].
    rewrite Ha in Hn. unfold lift_get. rewrite Hi, (Hget i Hn). reflexivity.
Qed.
