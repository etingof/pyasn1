(* Stage 3 of the round trip, part (d): SET with mandatory, OPTIONAL and DEFAULT components.  The
   decoder finds the position of each component by its tags, whatever the order on the wire (the DER
   encoder sorts the components by tag, the BER encoder keeps the order of the declaration). *)
From Coq Require Import Lia Permutation.
From PV Require Import Base.Bytes Model.Tag Model.TableTypes Model.Types Model.Proc Model.Enc Model.Dec Gen.Tables
     Proofs.ProcBind Proofs.RunLemmas Proofs.TagOctets Proofs.TagAlgebra Proofs.DecHeader Proofs.DecFrame Proofs.DecPrim
     Proofs.TagsetShape Proofs.Schemaless Proofs.RoundTrip1 Proofs.RoundTrip2 Proofs.TagReject Proofs.ContainerCodecSort
     Proofs.RoundTrip3 Proofs.RoundTrip3a Proofs.RoundTrip3b Proofs.RoundTrip3c.
Local Open Scope N_scope.

Lemma set_nth_comm {X} : forall (l: list X) i j a b, i <> j -> set_nth i a (set_nth j b l) = set_nth j b (set_nth i a l).
Proof.
  induction l as [|y l IH]; intros i j a b Hij; [destruct i, j; reflexivity|].
  destruct i as [|i]; destruct j as [|j]; try reflexivity; [congruence|].
  cbn [set_nth]. f_equal. apply IH. congruence.
Qed.

Lemma set_nth_length {X} : forall (l: list X) i a, length (set_nth i a l) = length l.
Proof. induction l as [|y l IH]; intros [|i] a; try reflexivity. cbn [set_nth length]. rewrite IH. reflexivity. Qed.

Lemma place_perm : forall items items', Permutation items items' -> NoDup (map sidx items) ->
  forall vs, place items vs = place items' vs.
Proof.
  induction 1 as [|it l l' Hp IH|a b l|l l' l'' Hp1 IH1 Hp2 IH2]; intros Hnd vs.
  - reflexivity.
  - cbn [place fold_left]. cbn [map] in Hnd. inversion Hnd; subst. apply IH. assumption.
  - cbn [place fold_left]. cbn [map] in Hnd. inversion Hnd as [|? ? Hnin _]; subst.
    rewrite set_nth_comm; [reflexivity|]. intros E. apply Hnin. left. exact E.
  - rewrite IH1 by exact Hnd. apply IH2. eapply Permutation_NoDup; [apply Permutation_map; exact Hp1|exact Hnd].
Qed.

(* the components that were written, in declaration order, from position k on: position, encoding,
   decoded value *)
Fixpoint mk_items (k: nat) (ds: list (option val)) (ps: list bytes) : list sitem :=
  match ds with
  | [] => []
  | None :: ds' => mk_items (S k) ds' ps
  | Some x' :: ds' => match ps with
                      | pb :: ps' => (k, pb, x') :: mk_items (S k) ds' ps'
                      | [] => []
                      end
  end.

Lemma mk_items_ge : forall ds k ps, Forall (fun it => (k <= sidx it)%nat) (mk_items k ds ps).
Proof.
  induction ds as [|[x'|] ds IH]; intros k ps; cbn [mk_items]; [constructor| |].
  - destruct ps as [|pb ps]; [constructor|]. constructor; [cbn; lia|].
    eapply Forall_impl; [|apply IH]. intros it H. cbn beta in H. lia.
  - eapply Forall_impl; [|apply IH]. intros it H. cbn beta in H. lia.
Qed.

Lemma mk_items_nodup : forall ds k ps, NoDup (map sidx (mk_items k ds ps)).
Proof.
  induction ds as [|[x'|] ds IH]; intros k ps; cbn [mk_items]; [constructor| |apply IH].
  destruct ps as [|pb ps]; [constructor|]. cbn [map]. constructor; [|apply IH].
  intros Hin. apply in_map_iff in Hin. destruct Hin as (it & E & Hin).
  pose proof (mk_items_ge ds (S k) ps) as Hge. rewrite Forall_forall in Hge. specialize (Hge it Hin). cbn in E. unfold sidx in *. lia.
Qed.

Section SetLoop.
  Variable rec : spec -> tagset -> option (option N) -> bool -> bool -> proc dval.
  Variable lf : nat.
  Variable T : ty.
  Variable fs : list (presence * ty).
  Hypothesis Hne : (match fs with [] => true | _ => false end) = false.

  Definition sitem_ok (it: sitem) : Prop :=
    exists ft, consumes (rec (SMap (fields_tagmap true (map snd fs))) [] None false false) (sbytes it) (DV ft (sval it))
      /\ (0 < length (sbytes it))%nat
      /\ position_by_type (map snd fs) (effective_tagset (S lf) ft (sval it)) = Ok (sidx it)
      /\ (sidx it < length fs)%nat.

  Lemma sitem_steps items : Forall sitem_ok items -> forall idx, steps_ok rec lf fs true idx items.
  Proof.
    induction 1 as [|it items (ft & Hdec & Hpl & Hposn & Hlt) _ IH]; intros idx; [exact I|]. split; [|apply IH].
    exists (SMap (fields_tagmap true (map snd fs))), ft. repeat split; assumption.
  Qed.

  (* [record_loop_items] for SET, stated on [sitem_ok] *)
  Lemma set_loop : forall items, Forall sitem_ok items ->
    forall vs idx n start total s tl,
      (length items < n)%nat ->
      avail s = concat (map sbytes items) ++ tl ->
      (start <= pos s)%nat ->
      (pos s - start + length (concat (map sbytes items)) = total)%nat ->
      required_seen fs (place items vs) = true ->
      exists s', resume (record_loop rec lf T fs true (Some (N.of_nat total)) start n idx vs 0%nat) s
                 = inr (Ok (DV T (VRec (place items vs))), s')
        /\ pos s' = (pos s + length (concat (map sbytes items)))%nat /\ arrived s' = arrived s /\ closed s' = closed s.
  Proof. intros items HF vs idx. exact (record_loop_items rec lf T fs true Hne items idx (sitem_steps items HF idx) vs). Qed.
End SetLoop.

(* from the plan of the component loop (declaration order) to the items *)
Lemma fplan_items rec lf fsall : keys_ok (flat_map ckeys (map snd fsall)) = true ->
  forall fs vs ps ds, fplan rec lf fs vs ps ds -> forall done, fsall = done ++ fs ->
    Forall (sitem_ok rec lf fsall) (mk_items (length done) ds ps)
    /\ map sbytes (mk_items (length done) ds ps) = ps
    /\ (forall pre, length pre = length done ->
          place (mk_items (length done) ds ps) (pre ++ map (fun _ => None) fs) = pre ++ ds)
    /\ required_seen fs ds = true.
Proof.
  intros HK fs vs ps ds HP.
  induction HP as [|p ft fs ov vs ps ds Hp HP IH|p ft fs x vs pb x' ps ds Hpl Hreq Hkeys HP IH]; intros done Hall.
  - cbn [mk_items map]. split; [constructor|]. split; [reflexivity|]. split; [|reflexivity]. intros pre _. reflexivity.
  - assert (Hall': fsall = (done ++ [(p, ft)]) ++ fs) by (rewrite <- app_assoc; exact Hall).
    destruct (IH _ Hall') as (I1 & I2 & I3 & I4).
    rewrite app_length in I1, I2, I3. cbn [length] in I1, I2, I3. rewrite Nat.add_1_r in I1, I2, I3.
    cbn [mk_items]. split; [exact I1|]. split; [exact I2|]. split.
    + intros pre Hpre. cbn [map]. specialize (I3 (pre ++ [None])). rewrite <- !app_assoc in I3. cbn [app] in I3.
      apply I3. rewrite app_length. cbn [length]. lia.
    + unfold required_seen in *. cbn [combine forallb fst snd]. rewrite I4. destruct p; [discriminate Hp|reflexivity|reflexivity].
  - assert (Hall': fsall = (done ++ [(p, ft)]) ++ fs) by (rewrite <- app_assoc; exact Hall).
    destruct (IH _ Hall') as (I1 & I2 & I3 & I4).
    rewrite app_length in I1, I2, I3. cbn [length] in I1, I2, I3. rewrite Nat.add_1_r in I1, I2, I3.
    cbn [mk_items]. split; [|split; [|split]].
    + constructor; [|exact I1].
      assert (Hnth: nth_error (map snd fsall) (length done) = Some ft).
      { rewrite Hall, map_app. rewrite nth_error_app2 by (rewrite map_length; lia). rewrite map_length, Nat.sub_diag. reflexivity. }
      destruct (Hkeys (keys_ok_sub ft _ (nth_error_In _ _ Hnth) HK)) as (Hdec & Heff & Hwne).
      exists ft. unfold sbytes, sval, sidx. cbn [fst snd]. split; [|split; [exact Hpl|split]].
      * apply Hdec. exact (resolves_sib true (map snd fsall) (length done) ft x HK Hnth Hwne).
      * rewrite Heff. exact (sib_pos (map snd fsall) HK (length done) ft _ Hnth (tm_mem_in _ _ (wire_in_ckeys ft x Hwne))).
      * rewrite Hall, app_length. cbn [length]. lia.
    + cbn [map]. unfold sbytes at 1. cbn [fst snd]. rewrite I2. reflexivity.
    + intros pre Hpre. cbn [map]. unfold place at 1. cbn [fold_left].
      change (sidx (length done, pb, x')) with (length done). change (sval (length done, pb, x')) with x'.
      rewrite <- Hpre, set_nth_app. rewrite Hpre. fold (place (mk_items (S (length done)) ds ps) (pre ++ Some x' :: map (fun _ => None) fs)).
      specialize (I3 (pre ++ [Some x'])). rewrite <- !app_assoc in I3. cbn [app] in I3.
      apply I3. rewrite app_length. cbn [length]. lia.
    + unfold required_seen in *. cbn [combine forallb fst snd]. rewrite I4. destruct p; reflexivity.
Qed.

(* The items of a SET in the order of the wire.  The component encoder wrote [ps], which decode to [ds]
   according to a plan for every fuel and decoder entry point that [Q] admits; on the wire they stand in
   some other order [wps].  The items follow their encodings there: each still finds its place by its tags,
   and together they fill the same positions.  Only [sitem_ok] looks at the entry point, so the same items
   serve every one of them. *)
Lemma set_items_wire (Q: nat -> (spec -> tagset -> option (option N) -> bool -> bool -> proc dval) -> Prop)
    fs vs ps ds wps f0 rec0 :
  keys_ok (flat_map ckeys (map snd fs)) = true ->
  (forall f rec, Q f rec -> fplan rec f fs vs ps ds) -> Q f0 rec0 -> Permutation wps ps ->
  exists witems, map sbytes witems = wps
    /\ (forall f rec, Q f rec -> Forall (sitem_ok rec f fs) witems)
    /\ place witems (map (fun _ => None) fs) = ds /\ required_seen fs ds = true
    /\ (length witems <= length (concat wps))%nat
    /\ (fs = [] -> ds = [] /\ witems = []).
Proof.
  intros HK Hplan HQ0 Hperm.
  set (items := mk_items 0 ds ps).
  assert (Hitems: forall f rec, Q f rec -> Forall (sitem_ok rec f fs) items /\ map sbytes items = ps
            /\ place items (map (fun _ => None) fs) = ds /\ required_seen fs ds = true).
  { intros f rec HQ. destruct (fplan_items rec f fs HK fs vs ps ds (Hplan f rec HQ) [] eq_refl) as (I1 & I2 & I3 & I4).
    split; [exact I1|]. split; [exact I2|]. split; [exact (I3 [] eq_refl)|exact I4]. }
  destruct (Hitems f0 rec0 HQ0) as (_ & Hbytes & Hplace & Hseen).
  rewrite <- Hbytes in Hperm. destruct (Permutation_map_inv _ _ Hperm) as (witems & -> & Hpi).
  assert (Hwok: forall f rec, Q f rec -> Forall (sitem_ok rec f fs) witems).
  { intros f rec HQ. destruct (Hitems f rec HQ) as (Hok & _). rewrite Forall_forall in *. intros it Hin. apply Hok.
    eapply Permutation_in; [apply Permutation_sym; exact Hpi|exact Hin]. }
  exists witems. split; [reflexivity|]. split; [exact Hwok|].
  split; [rewrite <- (place_perm items witems Hpi (mk_items_nodup ds 0 ps)); exact Hplace|].
  split; [exact Hseen|]. split.
  - (* every item has at least one octet *)
    pose proof (Hwok f0 rec0 HQ0) as Hw0. clear - Hw0.
    induction Hw0 as [|it l (ft & _ & Hl & _) _ IH]; [cbn; lia|]. cbn [length map concat]. rewrite app_length. lia.
  - intros Efs. pose proof (Hplan f0 rec0 HQ0) as HP. rewrite Efs in HP.
    assert (Hds: ds = []) by (inversion HP; reflexivity). split; [exact Hds|].
    apply Permutation_nil. unfold items in Hpi. rewrite Hds in Hpi. exact Hpi.
Qed.

(* the contents of a record are its parts in the order of the declaration, or sorted by their keys *)
Lemma rec_content_wire ec (parts: list (tagset * bytes)) content (cns: bool) :
  match ec with
  | EcSeq => Ok (concat (map snd parts), true)
  | EcSetCer | EcSetDer => Ok (concat (map snd (sort_by tagset_ltb fst parts)), true)
  | _ => Err EMalformed
  end = Ok (content, cns) ->
  exists wparts, content = concat (map snd wparts) /\ cns = true /\ Permutation wparts parts.
Proof.
  intros H. destruct ec; inversion H; subst content cns;
    [exists parts; repeat split; apply Permutation_refl
    |exists (sort_by tagset_ltb fst parts); repeat split; apply Permutation_sym, sort_by_perm_self ..].
Qed.

(* the component loop of a definite-length SET on items in any order *)
Lemma dec_record_set rec lf T fs witems ds :
  Forall (sitem_ok rec lf fs) witems -> place witems (map (fun _ => None) fs) = ds -> required_seen fs ds = true ->
  (length witems < lf)%nat -> (fs = [] -> ds = [] /\ witems = []) ->
  consumes (dec_record rec lf T fs true (Some (N.of_nat (length (concat (map sbytes witems))))))
           (concat (map sbytes witems)) (DV T (VRec ds)).
Proof.
  intros Hwok Hpw Hseen Hlf Hds0 s tl Hav. unfold dec_record. rewrite resume_tell.
  destruct fs as [|f0 fs0] eqn:Efs.
  - (* no components: nothing was written *)
    destruct (Hds0 eq_refl) as [Hds Hw0]. rewrite Hw0 in *. cbn [map concat length app] in *.
    destruct lf as [|n]; [lia|].
    cbn [record_loop]. cbv zeta. rewrite resume_tell. rewrite Nat.sub_diag.
    cbn [N.of_nat N.ltb N.compare negb map resume].
    rewrite Hds. exists s. repeat split. lia.
  - rewrite <- Efs in *.
    assert (Hne: (match fs with [] => true | _ => false end) = false) by (rewrite Efs; reflexivity).
    destruct (set_loop rec lf T fs Hne witems Hwok (map (fun _ => None) fs) 0%nat lf (pos s)
                (length (concat (map sbytes witems))) s tl) as (s' & Hrun & Hpos & Harr & Hcl2);
      [exact Hlf|exact Hav|lia|lia|rewrite Hpw; exact Hseen|].
    rewrite Hpw in Hrun. exists s'. split; [exact Hrun|]. repeat split; assumption.
Qed.

Section Stage3d.
  Variables ce cd : codec.
  Hypothesis Hce : enc_ok ce.
  Variable R : aval -> aval -> Prop.
  Variable srt : bool.
  Hypothesis HR : rel_ok R srt.

  Lemma abs_set fs vs : abs (TSet fs) (VRec vs) = ARec (abs_fields fs vs).
  Proof. reflexivity. Qed.

  (* SET, under any tagging.  The loop finds the place of each component by its tags, so it reads the
     encodings of the components in whatever order they stand on the wire: [wbytes] is any rearrangement
     of what the component encoder wrote. *)
  Lemma set_any_order (Pv: ty -> val -> Prop) T' fs : base_of T' = TSet fs -> wf_tags T' = true ->
    keys_ok (flat_map ckeys (map snd fs)) = true ->
    Forall (comp_ok ce cd R Pv) fs ->
    forall vs, comp_vals ce Pv fs vs ->
    forall ec omit parts wbytes ts b,
      (omit = true -> omits ce = true) ->
      enc_rec_fields_g ce ec omit def_opts fs vs = Ok parts ->
      Permutation wbytes (map snd parts) ->
      tagset_of T' = Ok ts -> frame ts (concat wbytes) true def_opts true = Ok b ->
      N.of_nat (length b) <= index_max ->
      exists t0 r content si v',
        wire_tags T' (VRec vs) = t0 :: r /\ Forall explicit_like r /\ (length r < ty_depth T')%nat /\
        frame (t0 :: r) content (tcon t0) def_opts si = Ok b /\
        wire_tags T' v' = t0 :: r /\ R (abs T' v') (abs T' (VRec vs)) /\
        exists dcd dfl, by_type cd T' = Some (dcd, dfl) /\
          forall f, (length b + ty_depth T' <= S f + length r)%nat ->
            consumes (dec_value (dec_call cd f) f dcd dfl (Some T') (t0 :: r) (Some (N.of_nat (length content))) false)
                     content (DV T' v').
  Proof.
    intros Hb Hw HK Hcomp vs HCV ec omit parts wbytes ts b Homit Eparts Hperm Hts' Hfr Hmax.
    assert (Htb: tagged_base T' = true) by (unfold tagged_base; rewrite Hb; reflexivity).
    destruct (tagset_shape T' Htb Hw) as (t0 & r & b0 & Hb0 & Hts & Hc0 & Hex & Hd).
    rewrite Hts in Hts'. inversion Hts'; subst ts; clear Hts'.
    assert (Hcon: tcon t0 = true).
    { rewrite Hc0. rewrite Hb in Hb0; inversion Hb0; reflexivity. }
    assert (Hdep: ty_depth (base_of T') = S (max_depth fs)) by (rewrite Hb; reflexivity).
    assert (Hnc: match T' with TChoice _ => False | _ => True end).
    { destruct T'; try exact I. discriminate Hb. }
    pose proof (frame_len_r _ _ _ _ _ _ Hfr) as Hlen.
    pose proof (concat_perm_length _ _ Hperm) as Hcl.
    destruct (fields_plan ce cd Hce R srt HR Pv ec omit Homit fs Hcomp vs parts HCV Eparts ltac:(lia)) as (ds & Habs & Hplan).
    set (bound := (length (concat (map snd parts)) + max_depth fs)%nat).
    destruct (set_items_wire (fun f rec => (bound <= f)%nat /\ rec = dec_call cd f) fs vs (map snd parts) ds wbytes
                bound (dec_call cd bound) HK) as (witems & <- & Hwok & Hpw & Hseen & Hcnt & Hds0);
      [intros f rec [Hf ->]; exact (Hplan f Hf)|split; [apply le_n|reflexivity]|exact Hperm|].
    exists t0, r, (concat (map sbytes witems)), true, (VRec ds).
    split; [rewrite (wire_tags_plain T' _ Hnc); apply tagset_of'_ok; exact Hts|].
    split; [exact Hex|]. split; [lia|]. split; [rewrite Hcon; exact Hfr|].
    split; [rewrite (wire_tags_plain T' _ Hnc); apply tagset_of'_ok; exact Hts|].
    split.
    { rewrite (abs_wrappers T' (VRec ds)), (abs_wrappers T' (VRec vs)), Hb. rewrite !abs_set.
      apply (r_rec _ _ HR). exact Habs. }
    exists DcSet, (mkDecFlags true (Some KSet)). split.
    { rewrite by_type_base, Hb. destruct cd; vm_compute; reflexivity. }
    intros f Hf. cbn [dec_value tag0_cons]. rewrite Hcon. cbn [negb]. rewrite Hb.
    assert (Hbf: (bound <= f)%nat) by (subst bound; lia).
    pose proof (Hwok f _ (conj Hbf eq_refl)) as Hwokf.
    apply (dec_record_set (dec_call cd f) f T' fs witems ds Hwokf Hpw Hseen); [|exact Hds0].
    unfold bytes in *. lia.
  Qed.

  (* the encoders: the order of the declaration (BER) or of the tags (DER) *)
  Lemma set_val (Pv: ty -> val -> Prop) T' fs : base_of T' = TSet fs -> wf_tags T' = true ->
    keys_ok (flat_map ckeys (map snd fs)) = true ->
    Forall (comp_ok ce cd R Pv) fs ->
    forall vs, comp_vals ce Pv fs vs -> val_ok ce cd R T' (VRec vs).
  Proof.
    intros Hb Hw HK Hcomp vs HCV b He Hmax.
    destruct (enc_with_inv_g ce Hce T' _ b He) as (ec & fl & ts & content & cns & Hcenc & Hts & Hcont & Hfr).
    rewrite concrete_encoder_base in Hcenc. rewrite enc_content_base in Hcont.
    rewrite (enc_content_rec ce (base_of T') fs ec fl def_opts vs (or_intror Hb)) in Hcont.
    set (omit := match ec with EcSeq => ef_omit_empty fl | EcSetCer | EcSetDer => true | _ => false end) in Hcont.
    assert (Hec: ef_indef fl = true /\ (omit = true -> omits ce = true)).
    { subst omit. unfold omits. rewrite Hb in Hcenc. destruct Hce as [E|E]; rewrite E in Hcenc |- *; vm_compute in Hcenc;
        inversion Hcenc; subst ec fl; (split; [reflexivity|]); cbn; intros H; solve [discriminate H|reflexivity]. }
    destruct Hec as (Hsi & Homit).
    destruct (enc_rec_fields_g ce ec omit def_opts fs vs) as [parts|e] eqn:Eparts; cbn [bind] in Hcont; [|discriminate].
    destruct (rec_content_wire ec parts content cns Hcont) as (wparts & -> & -> & Hperm). rewrite Hsi in Hfr.
    exact (set_any_order Pv T' fs Hb Hw HK Hcomp vs HCV ec omit parts (map snd wparts) ts b Homit Eparts
             (Permutation_map snd Hperm) Hts Hfr Hmax).
  Qed.
End Stage3d.

(* Round trip, stage 3 (d): as (c), plus SET with mandatory, OPTIONAL and DEFAULT components whose keys
   (complete tag sets, those of the alternatives for an untagged CHOICE component) are such that none is
   a suffix of another *)
Theorem roundtrip_stage3d : forall ce cd T v b tl,
  enc_ok ce -> stage3_ty false ce T = true -> frag true false T = true -> stage3_val ce cd T v = true ->
  encode ce true 0 T v = Ok b -> N.of_nat (length b) <= index_max ->
  exists v', decode cd (Some T) (b ++ tl) = Ok (DV T v', tl) /\ abs T v' = abs T v.
Proof.
  intros ce cd T v b tl Hce Hty Hfr Hv He Hmax.
  apply (stage3_decode ce cd Hce eq false rel_ok_eq true false); try assumption; try (intros E; discriminate E).
  intros _ T' fs. exact (set_val ce cd Hce eq false rel_ok_eq (Pv3 ce cd) T' fs).
Qed.

Print Assumptions roundtrip_stage3d.

(* the hypotheses are met: DER encoder (components sorted by tag: declaration order 4,[2],2,[0],[APPLICATION 1] is
   written as 2,4,[APPLICATION 1],[0],[2]), DER decoder;
   SET { OCTET STRING, [2] EXPLICIT INTEGER OPTIONAL, INTEGER DEFAULT 7, CHOICE { BOOLEAN, [0] IMPLICIT NULL },
         [APPLICATION 1] IMPLICIT SET { INTEGER, BOOLEAN OPTIONAL } OPTIONAL } *)
Definition stage3d_example_ty : ty :=
  TSet [ (Req, TOcts);
         (Opt, TExp (mkTag Ctx false 2) TInt);
         (Def (VInt 7), TInt);
         (Req, TChoice [TBool; TImp (mkTag Ctx false 0) TNull]);
         (Opt, TImp (mkTag Appl false 1) (TSet [(Req, TInt); (Opt, TBool)])) ].
Definition stage3d_example_val : val :=
  VRec [ Some (VOcts [1]); Some (VInt 300); Some (VInt 8); Some (VChoice 1 VNull); Some (VRec [Some (VInt 2); None]) ].

Example roundtrip_stage3d_nonvacuous :
  stage3_ty false DER stage3d_example_ty = true /\ frag true false stage3d_example_ty = true
  /\ stage3_val DER DER stage3d_example_ty stage3d_example_val = true
  /\ encode DER true 0 stage3d_example_ty stage3d_example_val
     = Ok [49; 19; 2; 1; 8; 4; 1; 1; 97; 3; 2; 1; 2; 128; 0; 162; 4; 2; 2; 1; 44]
  /\ encode BER true 0 stage3d_example_ty stage3d_example_val
     = Ok [49; 19; 4; 1; 1; 162; 4; 2; 2; 1; 44; 2; 1; 8; 128; 0; 97; 3; 2; 1; 2]
  /\ N.of_nat 21 <= index_max.
Proof. vm_compute. repeat split; try reflexivity; discriminate. Qed.
