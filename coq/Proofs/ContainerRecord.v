(* SEQUENCE / SET with declared components refine the finite map name -> value.
   [content cfg a s] relates an object state to the map it stands for.  On related states the positional
   setter and getter are described completely ([rec_set_content], [rec_get_spec]); the addressed operations
   reduce to them (ContainerBase), every other operation has a lemma of its own, and histories follow by
   [simulation_run]. *)
From Coq Require Import Lia Sorting.Permutation.
From PV Require Import Spec.ListSpec Proofs.ContainerBase.
Local Open Scope nat_scope.

Lemma rabs_length cfg s : length (rabs cfg s) = length cfg.
Proof. unfold rabs, enumerate. rewrite map_length, enumerate_from_length. reflexivity. Qed.

Lemma nth_rabs cfg s k : k < length cfg ->
  nth k (rabs cfg s) None = slot_val (kind_of cfg k) (nth k (rslots s) None).
Proof.
  intros H. unfold rabs, enumerate.
  set (g := fun kf : nat * field => slot_val (fst (snd kf)) (nth (fst kf) (rslots s) None)).
  rewrite (nth_indep (map g (enumerate_from 0 cfg)) None (g (0, (FReq, tag_integer)))) by (rewrite map_length, enumerate_from_length; lia).
  rewrite map_nth. rewrite nth_enumerate_from by lia. unfold g. cbn [fst snd plus]. reflexivity.
Qed.

Lemma rabs_ext cfg s1 s2 :
  (forall j, j < length cfg -> nth j (rslots s1) None = nth j (rslots s2) None) ->
  rabs cfg s1 = rabs cfg s2.
Proof.
  intros H. apply (nth_ext _ _ None None).
  - rewrite !rabs_length. reflexivity.
  - intros j Hj. rewrite rabs_length in Hj. rewrite !nth_rabs by lia. rewrite H by lia. reflexivity.
Qed.

Lemma nth_r_init cfg : forall j, j < length cfg -> nth j (r_init cfg) None = default_of (kind_of cfg j).
Proof.
  unfold r_init, kind_of. induction cfg as [|f cfg IH]; intros [|j] H; cbn [length map nth] in *; try lia; auto.
  apply IH. lia.
Qed.

Lemma rabs_empty cfg s : rslots s = [] -> rabs cfg s = r_init cfg.
Proof.
  intros H. apply (nth_ext _ _ None None).
  - rewrite rabs_length. unfold r_init. rewrite map_length. reflexivity.
  - intros j Hj. rewrite rabs_length in Hj. rewrite nth_rabs by lia. rewrite H, nth_r_init by lia.
    destruct j; reflexivity.
Qed.

Definition content (cfg: rcfg) (a: rspec) (s: rstate) : Prop := rinv cfg s /\ rabs cfg s = a.

Lemma content_length cfg a s : content cfg a s -> length a = length cfg.
Proof. intros [_ <-]. apply rabs_length. Qed.

Lemma content_empty cfg s : rslots s = [] -> content cfg (r_init cfg) s.
Proof.
  intros H. split; [|apply rabs_empty; exact H]. split; [left; exact H|].
  intros k d _. rewrite H. destruct k; discriminate.
Qed.

(* slot c stands for the member v of a component of kind fk: a DEFAULT is never a placeholder *)
Definition holds (fk: fkind) (c: slot) (v: option Z) : Prop :=
  slot_val fk c = v /\ (c = Some CSchema -> default_of fk = None).

Lemma content_holds cfg a s k : content cfg a s -> k < length cfg ->
  holds (kind_of cfg k) (nth k (rslots s) None) (nth k a None).
Proof.
  intros [[_ Hd] <-] Hk. split; [symmetry; apply nth_rabs; exact Hk|].
  intros E. destruct (kind_of cfg k) eqn:Ek; try reflexivity. destruct (Hd k d Ek E).
Qed.

Lemma slot_val_placeholder fk : slot_val fk (Some (placeholder fk)) = default_of fk.
Proof. destruct fk; reflexivity. Qed.

(* a placeholder reads as an absent member; so does an empty slot, unless the absent member has a default *)
Lemma holds_abs fk c v : holds fk c v -> (c = None -> default_of fk = None) -> slot_abs c = oslot v.
Proof.
  intros [<- Hs] Hn. destruct c as [[z|]|]; cbn [slot_abs slot_val]; [reflexivity| |];
    rewrite ?Hs, ?Hn by reflexivity; reflexivity.
Qed.

Lemma content_store cfg a s k c : content cfg a s -> k < length cfg ->
  (forall d, kind_of cfg k = FDef d -> c <> CSchema) ->
  content cfg (set_nth k (slot_val (kind_of cfg k) (Some c)) a) (Some (set_nth k (Some c) (alloc cfg s))).
Proof.
  intros [[Hs Hd] <-] Hk Hc. pose proof (alloc_length cfg s Hs) as Hl.
  assert (Hkk: Nat.ltb k (length cfg) = true) by (apply Nat.ltb_lt; exact Hk).
  split; [split|].
  - right. cbn [rslots]. rewrite set_nth_length. exact Hl.
  - intros j d Hj. cbn [rslots]. rewrite nth_set_nth, Hl, Hkk, andb_true_r, alloc_nth.
    destruct (Nat.eqb_spec j k) as [->|_]; [|apply (Hd j d Hj)]. intros [= E]. exact (Hc d Hj E).
  - apply (nth_ext _ _ None None); [rewrite set_nth_length, !rabs_length; reflexivity|].
    intros j Hj. rewrite rabs_length in Hj. rewrite nth_rabs by lia. cbn [rslots].
    rewrite !nth_set_nth, Hl, rabs_length, Hkk, andb_true_r, alloc_nth.
    destruct (Nat.eqb_spec j k) as [->|_]; [reflexivity|]. symmetry. apply nth_rabs. lia.
Qed.

Lemma rec_set_content cfg a s i k v c : content cfg a s -> pyidx i (length cfg) = Some k ->
  rec_resolve (kind_of cfg k) v = Ok c ->
  let s' := Some (set_nth k (Some c) (alloc cfg s)) in
  rec_set cfg s i v = Ok s' /\ content cfg (set_nth k (slot_val (kind_of cfg k) (Some c)) a) s'.
Proof.
  intros Hc Hi Hr. unfold rec_set. rewrite (rec_store_shaped cfg s i _ (proj1 (proj1 Hc))), Hi, Hr.
  split; [reflexivity|]. apply content_store; [exact Hc|apply (pyidx_lt _ _ _ Hi)|].
  intros d Ek. rewrite Ek in Hr. destruct v as [[]|]; cbn in Hr; congruence.
Qed.

(* a read at a declared position hands out a slot standing for the member there and leaves the content
   alone (with instantiation the slot is filled first, by the default or by a placeholder); a read
   anywhere else fails, or without instantiation finds nothing *)
Lemma rec_get_spec cfg a s i inst : content cfg a s ->
  match pyidx i (length cfg) with
  | Some k => exists s' c, rec_get cfg s i inst = Ok (s', c) /\ content cfg a s' /\
                           holds (kind_of cfg k) c (nth k a None) /\ (if inst then c <> None else s' = s)
  | None => rec_get cfg s i inst = if inst then Err ELib else Ok (s, None)
  end.
Proof.
  intros Hc. pose proof (proj1 (proj1 Hc)) as Hs. unfold rec_get, gen_get. rewrite (rslot_at_shaped cfg s i Hs).
  destruct (pyidx i (length cfg)) as [k|] eqn:Hi.
  - pose proof (pyidx_lt _ _ _ Hi) as [Hk _]. pose proof (content_holds cfg a s k Hc Hk) as Hh.
    destruct inst.
    + destruct (nth k (rslots s) None) as [c0|] eqn:Ec.
      * exists s, (Some c0). repeat split; try apply Hc; try apply Hh. discriminate.
      * destruct (rec_set_content cfg a s i k None (placeholder (kind_of cfg k)) Hc Hi eq_refl) as [-> Hc'].
        destruct Hh as [Hv _]. cbn [slot_val] in Hv.
        assert (Ev: slot_val (kind_of cfg k) (Some (placeholder (kind_of cfg k))) = nth k a None)
          by (rewrite <- Hv; apply slot_val_placeholder).
        rewrite Ev, set_nth_same in Hc'. eexists _, _. split; [reflexivity|]. split; [exact Hc'|].
        rewrite (rslot_at_shaped cfg _ i (proj1 (proj1 Hc'))), Hi. cbn [rslots].
        rewrite nth_set_nth_same by (rewrite (alloc_length _ _ Hs); exact Hk).
        split; [split; [exact Ev|]|discriminate]. destruct (kind_of cfg k); intros [=]; reflexivity.
    + exists s, (if is_value (nth k (rslots s) None) then nth k (rslots s) None else None).
      split; [reflexivity|]. split; [exact Hc|]. split; [|reflexivity].
      destruct Hh as [Hv Hp]. destruct (nth k (rslots s) None) as [[z|]|]; split; auto; discriminate.
  - destruct inst; [|reflexivity]. unfold rec_set. rewrite (rec_store_shaped cfg s i _ Hs), Hi. reflexivity.
Qed.

Lemma pyidx_declared (cfg: rcfg) k : k < length cfg -> pyidx (Z.of_nat k) (length cfg) = Some k.
Proof. intros H. rewrite pyidx_nat. destruct (Nat.ltb_spec k (length cfg)); [reflexivity|lia]. Qed.

(* values(): every declared position is read with instantiation; the content is untouched and
   what comes back is the content up to placeholders *)
Lemma gen_values_core cfg a : forall n from acc s, from + n = length cfg -> content cfg a s ->
  exists s' l, gen_values (rec_get cfg) s from n acc = (s', Ok (rev acc ++ l)) /\
               content cfg a s' /\ map slot_abs l = map oslot (skipn from a).
Proof.
  induction n as [|n IH]; intros from acc s Hlen Hc; pose proof (content_length _ _ _ Hc) as Hla.
  - exists s, []. rewrite skipn_all2 by lia. cbn [gen_values]. rewrite app_nil_r. auto.
  - pose proof (rec_get_spec cfg a s (Z.of_nat from) true Hc) as H. rewrite pyidx_declared in H by lia.
    destruct H as (s1 & c & E & Hc1 & Hh & Hne). cbn [gen_values]. rewrite E.
    destruct (IH (S from) (c :: acc) s1 ltac:(lia) Hc1) as (s' & l & -> & Hc' & Hl).
    exists s', (c :: l). cbn [rev]. rewrite <- app_assoc. split; [reflexivity|]. split; [exact Hc'|].
    rewrite (skipn_cons_nth a from None) by lia. cbn [map]. rewrite Hl, (holds_abs _ _ _ Hh); [reflexivity|].
    intros ->. contradiction.
Qed.

Lemma isvalue_at cfg a k : r_isvalue cfg a = true -> k < length cfg ->
  kind_of cfg k = FReq -> is_some (nth k a None) = true.
Proof.
  unfold r_isvalue, enumerate, kind_of. intros Hv Hk Hreq.
  apply (forallb_enumerate (fun k (f: field) => match fst f with FReq => is_some (nth k a None) | _ => true end)
                           (FReq, tag_integer) cfg 0) with (j := k) in Hv; [|exact Hk].
  cbn [plus] in Hv. rewrite Hreq in Hv. exact Hv.
Qed.

(* a record with a required component is no value before anything is assigned *)
Lemma isvalue_init cfg : has_req cfg = true -> r_isvalue cfg (r_init cfg) = false.
Proof.
  unfold has_req. intros H. apply existsb_exists in H as (f & Hin & Hf).
  destruct (In_nth cfg f (FReq, tag_integer) Hin) as (k & Hk & <-).
  assert (Ek: kind_of cfg k = FReq) by (unfold kind_of; destruct (fst (nth k cfg (FReq, tag_integer))); congruence).
  destruct (r_isvalue cfg (r_init cfg)) eqn:E; [|reflexivity].
  apply (isvalue_at cfg _ k) in E; [|exact Hk|exact Ek]. rewrite nth_r_init, Ek in E by exact Hk. discriminate.
Qed.

Lemma isvalue_abs cfg a s : has_req cfg = true -> content cfg a s -> rec_isvalue cfg s = r_isvalue cfg a.
Proof.
  intros Hreq [Hinv <-]. destruct s as [l|]; [|rewrite rabs_empty, isvalue_init by auto; reflexivity].
  unfold rec_isvalue, r_isvalue, enumerate.
  apply (forallb_enumerate_ext
           (fun k (f: field) => match fst f with FReq => negb (Nat.eqb (length l) 0) && is_value (nth k l None) | _ => true end)
           (fun k (f: field) => match fst f with FReq => is_some (nth k (rabs cfg (Some l)) None) | _ => true end)
           (FReq, tag_integer)).
  intros j Hj. cbn [plus].
  destruct (fst (nth j cfg (FReq, tag_integer))) eqn:Ek; try reflexivity.
  rewrite nth_rabs by exact Hj. unfold kind_of. rewrite Ek. cbn [rslots slot_val default_of].
  destruct l as [|x l]; [destruct j; reflexivity|]. destruct (nth j (x :: l) None) as [[z|]|]; reflexivity.
Qed.

(* one read of the encoder, at the head of what is left of the declaration (a required component with
   instantiation, the others without): the content is untouched and the slot read stands for the member,
   which for a required component of a value is there *)
Lemma enc_read_core cfg a s from fk t r : r_isvalue cfg a = true -> (fk, t) :: r = skipn from cfg -> content cfg a s ->
  r = skipn (S from) cfg /\ skipn from a = nth from a None :: skipn (S from) a /\
  (fk = FReq -> is_some (nth from a None) = true) /\
  exists s1 c, enc_read (rec_get cfg) s from fk = Ok (s1, c) /\ content cfg a s1 /\ holds fk c (nth from a None).
Proof.
  intros Hv Hfs Hc. pose proof (skipn_eq_cons _ _ _ _ (eq_sym Hfs)) as Hk. pose proof (content_length _ _ _ Hc) as Hla.
  rewrite (skipn_cons_nth cfg from (FReq, tag_integer) Hk) in Hfs. injection Hfs as Hf Hr.
  assert (Hfk: kind_of cfg from = fk) by (unfold kind_of; rewrite <- Hf; reflexivity).
  split; [exact Hr|]. split; [apply skipn_cons_nth; rewrite Hla; exact Hk|]. split; [intros ->; apply (isvalue_at cfg a from Hv Hk Hfk)|].
  pose proof (rec_get_spec cfg a s (Z.of_nat from) true Hc) as Ht.
  pose proof (rec_get_spec cfg a s (Z.of_nat from) false Hc) as Hn.
  rewrite pyidx_declared, Hfk in Ht, Hn by exact Hk.
  destruct Ht as (s1 & c1 & Et & Hc1 & Hh1 & _), Hn as (s2 & c2 & En & Hc2 & Hh2 & _).
  unfold enc_read. destruct fk; rewrite ?Et, ?En; eauto.
Qed.

(* what the encoder does with a slot is what the prototype does with the member it stands for,
   provided a required member is there *)
Lemma enc_elt fk t c v : holds fk c v -> (fk = FReq -> is_some v = true) ->
  enc_keep fk c = r_keep fk v /\
  (r_keep fk v = true -> enc_slot t c = Ok (int_tlv t (match v with Some z => z | None => 0%Z end))).
Proof.
  intros [<- Hs] Hr. destruct c as [[z|]|]; cbn [slot_val].
  - split; [destruct fk; reflexivity|reflexivity].
  - specialize (Hs eq_refl). destruct fk; cbn [default_of] in *; try discriminate.
    + discriminate (Hr eq_refl).
    + split; [reflexivity|discriminate].
  - destruct fk; cbn [default_of enc_keep r_keep].
    + discriminate (Hr eq_refl).
    + split; [reflexivity|discriminate].
    + rewrite Z.eqb_refl. split; [reflexivity|discriminate].
Qed.

Lemma r_chunks_cons fk t fs v vs :
  r_chunks ((fk, t) :: fs) false (v :: vs) =
  (if r_keep fk v then [int_tlv t (match v with Some z => z | None => 0%Z end)] else []) ++ r_chunks fs false vs.
Proof. unfold r_chunks. cbn [combine filter fst snd]. destruct (r_keep fk v); reflexivity. Qed.

Lemma seq_chunks_core cfg a : r_isvalue cfg a = true -> forall fs from acc s,
  fs = skipn from cfg -> content cfg a s ->
  exists s', seq_chunks (rec_get cfg) s from fs acc = (s', Ok (rev acc ++ r_chunks fs false (skipn from a))) /\
             content cfg a s'.
Proof.
  intros Hv. induction fs as [|[fk t] r IH]; intros from acc s Hfs Hc.
  - exists s. cbn [seq_chunks]. rewrite app_nil_r. auto.
  - destruct (enc_read_core cfg a s from fk t r Hv Hfs Hc) as (Hr & -> & Hreq & s1 & c & E & Hc1 & Hh).
    cbn [seq_chunks]. rewrite E. destruct (enc_elt fk t c _ Hh Hreq) as [Hkeep Henc].
    rewrite r_chunks_cons, Hkeep. destruct (r_keep fk (nth from a None)).
    + rewrite (Henc eq_refl). destruct (IH (S from) (int_tlv t (match nth from a None with Some z => z | None => 0%Z end) :: acc) s1 Hr Hc1) as (s' & -> & Hc').
      exists s'. cbn [rev]. rewrite <- app_assoc. auto.
    + apply (IH (S from) acc s1 Hr Hc1).
Qed.

(* SET: the members are collected first ... *)
Definition sv (fc: field * slot) : field * option Z := (fst fc, slot_val (fst (fst fc)) (snd fc)).
Definition encodable (fc: field * slot) : Prop :=
  holds (fst (fst fc)) (snd fc) (snd (sv fc)) /\ (fst (fst fc) = FReq -> is_some (snd (sv fc)) = true).

Lemma enc_collect_core cfg a : r_isvalue cfg a = true -> forall fs from acc s,
  fs = skipn from cfg -> content cfg a s ->
  exists s' l, enc_collect (rec_get cfg) s from fs acc = (s', Ok (rev acc ++ l)) /\ content cfg a s' /\
               map sv (combine fs l) = combine fs (skipn from a) /\ Forall encodable (combine fs l).
Proof.
  intros Hv. induction fs as [|[fk t] r IH]; intros from acc s Hfs Hc.
  - exists s, []. cbn [enc_collect combine map]. rewrite app_nil_r. auto.
  - destruct (enc_read_core cfg a s from fk t r Hv Hfs Hc) as (Hr & -> & Hreq & s1 & c & E & Hc1 & Hh).
    cbn [enc_collect]. rewrite E. destruct (IH (S from) (c :: acc) s1 Hr Hc1) as (s' & l & -> & Hc' & Hm & Hok).
    exists s', (c :: l). cbn [rev]. rewrite <- app_assoc. split; [reflexivity|]. split; [exact Hc'|].
    cbn [combine map]. unfold sv at 1. cbn [fst snd]. rewrite Hm, (proj1 Hh). split; [reflexivity|].
    constructor; [|exact Hok]. unfold encodable, sv. cbn [fst snd]. rewrite (proj1 Hh). split; assumption.
Qed.

(* ... then sorted by tag and encoded *)
Definition lebS (x y: field * option Z) : bool := tag_leb (snd (fst x)) (snd (fst y)).

Lemma collect_errs_ok {A} (e: A -> res bytes) (g: A -> bytes) : forall l acc,
  (forall x, In x l -> e x = Ok (g x)) -> collect_errs (map e l) acc = Ok (rev acc ++ map g l).
Proof.
  induction l as [|x l IH]; intros acc H; cbn [map collect_errs].
  - rewrite app_nil_r. reflexivity.
  - rewrite (H x (or_introl eq_refl)). rewrite IH by (intros y Hy; apply H; right; exact Hy).
    cbn [rev]. rewrite <- app_assoc. reflexivity.
Qed.

Lemma set_chunks_abs cfg vals a : map sv (combine cfg vals) = combine cfg a ->
  Forall encodable (combine cfg vals) -> set_chunks cfg vals = Ok (r_chunks cfg true a).
Proof.
  intros Hm Hok. rewrite Forall_forall in Hok.
  assert (Helt: forall x, In x (combine cfg vals) ->
            enc_keep (fst (fst x)) (snd x) = r_keep (fst (fst (sv x))) (snd (sv x)) /\
            (enc_keep (fst (fst x)) (snd x) = true -> enc_slot (snd (fst x)) (snd x) =
               Ok (int_tlv (snd (fst (sv x))) (match snd (sv x) with Some z => z | None => 0%Z end)))).
  { intros [[fk t] c] Hin. destruct (Hok _ Hin) as [Hh Hreq]. unfold sv in *. cbn [fst snd] in *.
    destruct (enc_elt fk t c _ Hh Hreq) as [-> H2]. split; [reflexivity|exact H2]. }
  unfold set_chunks, r_chunks. rewrite <- Hm.
  rewrite (filter_map_comm sv _ (fun fc => enc_keep (fst (fst fc)) (snd fc))) by (intros x Hx; symmetry; apply (Helt x Hx)).
  rewrite (sort_by_map (fun x y : field * slot => tag_leb (snd (fst x)) (snd (fst y))) sv lebS) by reflexivity.
  rewrite map_map. apply (collect_errs_ok _ _ _ []).
  intros x Hx. apply (Permutation_in _ (Permutation_sym (sort_by_permutes _ _))) in Hx.
  apply filter_In in Hx as [Hx Hkeep]. apply (Helt x Hx). exact Hkeep.
Qed.

Definition clone_step (cfg: rcfg) (acc: rstate) (kc: nat * slot) : rstate :=
  match snd kc with
  | None => acc
  | Some c => match rec_store cfg acc (Z.of_nat (fst kc)) (fun _ => Ok c) with
              | Ok acc' => acc' | Err _ => acc end
  end.

Lemma nth_app_one {A} (l: list A) x j d : nth j (l ++ [x]) d = if Nat.eqb j (length l) then x else nth j l d.
Proof.
  destruct (Nat.eqb_spec j (length l)) as [->|Hne]; [rewrite app_nth2, Nat.sub_diag by lia; reflexivity|].
  destruct (Nat.lt_ge_cases j (length l)); [apply app_nth1; assumption|].
  rewrite !nth_overflow by (rewrite ?app_length; cbn; lia). reflexivity.
Qed.

Lemma clone_prefix cfg : forall L, length L <= length cfg ->
  shaped cfg (fold_left (clone_step cfg) (enumerate L) (Some [])) /\
  forall j, nth j (rslots (fold_left (clone_step cfg) (enumerate L) (Some []))) None = nth j L None.
Proof.
  induction L as [|x L IH] using rev_ind; intros Hlen; [split; [left; reflexivity|reflexivity]|].
  rewrite app_length in Hlen. cbn [length] in Hlen. destruct (IH ltac:(lia)) as [Hs Hn].
  unfold enumerate in *. rewrite enumerate_from_app, fold_left_app. cbn [enumerate_from fold_left plus].
  set (acc := fold_left (clone_step cfg) (enumerate_from 0 L) (Some [])) in *.
  destruct x as [c|]; unfold clone_step; cbn [fst snd].
  - rewrite (rec_store_shaped cfg acc _ _ Hs), pyidx_declared by lia. split.
    + right. cbn [rslots]. rewrite set_nth_length. apply alloc_length. exact Hs.
    + intros j. cbn [rslots]. rewrite nth_set_nth, (alloc_length cfg acc Hs), alloc_nth, Hn, nth_app_one.
      destruct (Nat.ltb_spec (length L) (length cfg)); [|lia]. rewrite andb_true_r. reflexivity.
  - split; [exact Hs|]. intros j. rewrite Hn, nth_app_one.
    destruct (Nat.eqb_spec j (length L)) as [->|]; [apply nth_overflow; lia|reflexivity].
Qed.

Lemma rec_clone_content cfg a s : content cfg a s -> content cfg a (rec_clone cfg s).
Proof.
  intros [[Hs Hd] <-]. destruct (clone_prefix cfg (rslots s)) as [H1 H2].
  { destruct Hs as [E|E]; rewrite E; cbn; lia. }
  change (fold_left (clone_step cfg) (enumerate (rslots s)) (Some [])) with (rec_clone cfg s) in *.
  split; [split|].
  - exact H1.
  - intros k d Hk. rewrite H2. apply (Hd k d Hk).
  - apply rabs_ext. intros j _. apply H2.
Qed.

Lemma nth_map_default {A B} (f: A -> B) l j d d' : j < length l -> nth j (map f l) d' = f (nth j l d).
Proof. intros H. rewrite (nth_indep _ d' (f d)) by (rewrite map_length; auto). apply map_nth. Qed.

Lemma all_explicit_slots cfg a s : content cfg a s -> all_explicit cfg a = true -> cfg <> [] ->
  s = Some (map Some (map CVal (map (fun v : option Z => match v with Some z => z | None => 0%Z end) a))).
Proof.
  intros Hc Hall Hne. pose proof (content_length _ _ _ Hc) as Hla.
  unfold all_explicit in Hall. rewrite forallb_forall in Hall.
  assert (Hpt: forall j, j < length cfg -> exists z, nth j (rslots s) None = Some (CVal z) /\ nth j a None = Some z).
  { intros j Hj. destruct (content_holds cfg a s j Hc Hj) as [Hv Hp].
    assert (Hin: In (nth j cfg (FReq, tag_integer), nth j a None) (combine cfg a)).
    { rewrite <- combine_nth by (symmetry; exact Hla). apply nth_In. rewrite combine_length. lia. }
    specialize (Hall _ Hin). cbn [fst snd] in Hall. fold (kind_of cfg j) in Hall. rewrite <- Hv in *.
    destruct (nth j (rslots s) None) as [[z|]|]; cbn [slot_val] in *; [eauto| |];
      destruct (kind_of cfg j); cbn [default_of r_keep] in Hall; try discriminate;
      rewrite Z.eqb_refl in Hall; discriminate. }
  assert (Hlen: length (rslots s) = length cfg).
  { destruct (proj1 (proj1 Hc)) as [H|H]; [|exact H]. destruct cfg as [|f cfg]; [congruence|].
    destruct (Hpt 0 ltac:(cbn; lia)) as (z & E & _). rewrite H in E. discriminate. }
  destruct s as [sl|]; [|destruct cfg; [congruence|discriminate]]. f_equal. cbn [rslots] in *.
  rewrite !map_map. apply (nth_ext _ _ None None); [rewrite map_length, Hla; exact Hlen|].
  intros j Hj0. assert (Hj: j < length cfg) by (rewrite <- Hlen; exact Hj0). destruct (Hpt j Hj) as (z & E1 & E2).
  etransitivity; [exact E1|]. rewrite (nth_map_default _ _ j None), E2 by (rewrite Hla; exact Hj). reflexivity.
Qed.

Lemma rec_step_addressed cfg isset s o p : op_pos cfg o = Some p -> r_in_api isset o = true ->
  rec_step cfg isset s o = addressed_step (rec_set cfg) (rec_get cfg) p s o.
Proof.
  destruct o as [[]| | | | | | | | | | |[]| | | | | | | | | | | ]; intros [= <-] H; cbn [r_in_api] in H;
    try subst isset; reflexivity.
Qed.

Lemma r_step_set cfg isset a o v : r_setval o = Some v ->
  r_wf cfg isset a o = r_in_api isset o && is_some (r_addr cfg o) &&
                       match v with Some pv => is_some (pv_z pv) | None => true end /\
  r_step cfg isset a o = match r_addr cfg o, v with
                         | Some k, Some pv => match pv_z pv with Some z => (set_nth k (Some z) a, ORet) | None => (a, ORet) end
                         | Some k, None => (set_nth k (default_of (kind_of cfg k)) a, ORet)
                         | None, _ => (a, ORet)
                         end.
Proof. destruct o; try discriminate; intros [= <-]; split; try reflexivity; cbn [r_step r_setval]; destruct (r_addr cfg _); reflexivity. Qed.

Lemma r_step_get cfg isset a o p : op_pos cfg o = Some p -> r_setval o = None ->
  r_step cfg isset a o = (a, OSlot (match r_addr cfg o with Some k => oslot (nth k a None) | None => None end)) /\
  (r_wf cfg isset a o = true ->
   r_in_api isset o = true /\
   match r_addr cfg o with
   | Some k => r_inst o = true \/ match kind_of cfg k, nth k a None with FDef d, Some z => Z.eqb z d | _, _ => false end = false
   | None => r_inst o = false /\ exists i, p = Ok i
   end).
Proof.
  destruct o as [| | | | | | | | | | |[i|n]|i inst|n inst|n inst| | | | | | | | ]; try discriminate; intros [= <-] _.
  all: split; [reflexivity|]; cbn [r_wf r_in_api r_inst]; intros H.
  5: apply andb_prop in H as [-> H].
  all: (split; [reflexivity|]); destruct (r_addr cfg _) as [k|]; try discriminate H.
  1-2: left; reflexivity.
  2: destruct inst; [discriminate H|eauto].
  all: apply orb_prop in H as [H|H]; [left; exact H|right; apply negb_true_iff; exact H].
Qed.

Theorem rec_sim_step cfg isset a s o : has_req cfg = true -> content cfg a s -> r_wf cfg isset a o = true ->
  content cfg (fst (r_step cfg isset a o)) (fst (rec_step cfg isset s o)) /\
  out_abs (snd (rec_step cfg isset s o)) = snd (r_step cfg isset a o).
Proof.
  intros Hreq Hc Hwf. destruct (op_pos cfg o) as [p|] eqn:Ep.
  - pose proof (op_pos_addr cfg o p Ep) as Hp. destruct (r_setval o) as [v|] eqn:Ev.
    + (* an assignment: the position is declared and the value is an integer, or none is given *)
      destruct (r_step_set cfg isset a o v Ev) as [Ew ->]. rewrite Ew in Hwf.
      apply andb_prop in Hwf as [Hwf Hv]. apply andb_prop in Hwf as [Hapi Ha].
      rewrite (rec_step_addressed _ _ _ _ _ Ep Hapi). unfold addressed_step. rewrite Ev.
      destruct p as [i|e]; [|destruct Hp as [_ Hp]; rewrite Hp in Ha; discriminate].
      rewrite Hp in *. destruct (pyidx i (length cfg)) as [k|] eqn:Hi; [|discriminate].
      pose proof (rec_set_content cfg a s i k v) as H. rewrite rec_resolve_spec in H.
      cbn [with_pos]. unfold lift_set. destruct v as [pv|].
      * destruct (pv_z pv) as [z|]; [|discriminate]. destruct (H _ Hc Hi eq_refl) as [-> Hc'].
        split; [exact Hc'|reflexivity].
      * destruct (H _ Hc Hi eq_refl) as [-> Hc']. rewrite slot_val_placeholder in Hc'. split; [exact Hc'|reflexivity].
    + destruct (r_step_get cfg isset a o p Ep Ev) as [-> Hw]. destruct (Hw Hwf) as [Hapi Hk].
      rewrite (rec_step_addressed _ _ _ _ _ Ep Hapi). unfold addressed_step. rewrite Ev.
      destruct p as [i|e]; [|destruct Hp as [_ Hp]; rewrite Hp in Hk; destruct Hk as (_ & i & [=])].
      rewrite Hp in *. pose proof (rec_get_spec cfg a s i (r_inst o) Hc) as H. cbn [with_pos]. unfold lift_get.
      destruct (pyidx i (length cfg)) as [k|].
      * destruct H as (s' & c & -> & Hc' & Hh & Hne). cbn [fst snd out_abs]. split; [exact Hc'|].
        rewrite (holds_abs _ _ _ Hh); [reflexivity|]. intros ->.
        destruct Hk as [Ei|Hx]; [rewrite Ei in Hne; contradiction|].
        destruct Hh as [Hv _]. rewrite <- Hv in Hx. cbn [slot_val] in Hx. destruct (kind_of cfg k); try reflexivity.
        cbn [default_of] in Hx. rewrite Z.eqb_refl in Hx. discriminate.
      * destruct Hk as [Ei _]. rewrite Ei in H |- *. rewrite H. split; [exact Hc|reflexivity].
  - destruct o as [[]| | | | | |flag| | | | |[]| | | | | | |l| | | | ]; try discriminate Ep; try discriminate Hwf;
      cbn [r_wf] in Hwf; cbn [rec_step r_step fst snd]; try (split; [exact Hc|reflexivity]).
    + (* RClear *) split; [apply content_empty|]; reflexivity.
    + (* RReset *) split; [apply content_empty|]; reflexivity.
    + (* RClone *) destruct flag; cbn [fst snd]; (split; [|reflexivity]); [apply rec_clone_content; exact Hc|apply content_empty; reflexivity].
    + (* RValues *)
      destruct (gen_values_core cfg a (length cfg) 0 [] s eq_refl Hc) as (s' & l & -> & Hc' & Hl).
      cbn [fst snd out_abs rev app]. rewrite Hl. split; [exact Hc'|reflexivity].
    + (* RItems *)
      destruct (gen_values_core cfg a (length cfg) 0 [] s eq_refl Hc) as (s' & l & -> & Hc' & Hl).
      cbn [fst snd out_abs rev app]. split; [exact Hc'|]. f_equal.
      generalize (names cfg). clear - Hl. cbn [skipn] in Hl. revert a Hl.
      induction l as [|c l IH]; intros [|v a] Hl n; try discriminate Hl; destruct n; try reflexivity.
      injection Hl as Hc Hl. cbn [combine map fst snd]. rewrite Hc, (IH a Hl). reflexivity.
    + (* REq *)
      rewrite (all_explicit_slots cfg a s Hc Hwf) by (destruct cfg; [discriminate Hreq|discriminate]).
      cbn [fst snd out_abs]. rewrite eq_list_vals. split; [|reflexivity].
      rewrite <- (all_explicit_slots cfg a s Hc Hwf) by (destruct cfg; [discriminate Hreq|discriminate]). exact Hc.
    + (* RIsValue *) cbn [out_abs]. rewrite (isvalue_abs cfg a s Hreq Hc). split; [exact Hc|reflexivity].
    + (* REncode *)
      unfold r_der. destruct isset.
      * destruct (enc_collect_core cfg a Hwf cfg 0 [] s eq_refl Hc) as (s' & l & -> & Hc' & Hm & Hok).
        cbn [fst snd rev app]. rewrite (set_chunks_abs cfg l a Hm Hok). split; [exact Hc'|].
        destruct (tlv tag_set true (concat (r_chunks cfg true a))); reflexivity.
      * destruct (seq_chunks_core cfg a Hwf cfg 0 [] s eq_refl Hc) as (s' & -> & Hc').
        cbn [fst snd rev app skipn]. split; [exact Hc'|].
        destruct (tlv tag_sequence true (concat (r_chunks cfg false a))); reflexivity.
Qed.

Theorem rec_refines_from cfg isset : has_req cfg = true -> forall ops a s,
  content cfg a s -> r_wf_hist cfg isset a ops = true ->
  content cfg (fst (r_run cfg isset a ops)) (fst (rec_run cfg isset s ops)) /\
  map out_abs (snd (rec_run cfg isset s ops)) = snd (r_run cfg isset a ops).
Proof.
  intros Hreq. apply (simulation_run (rec_step cfg isset) (r_step cfg isset) (r_wf cfg isset) (content cfg) out_abs);
    try reflexivity.
  intros a s o. apply rec_sim_step. exact Hreq.
Qed.

Lemma rec_encode_abs cfg isset a s : has_req cfg = true -> content cfg a s -> r_isvalue cfg a = true ->
  snd (rec_step cfg isset s REncode) = out_of_bytes (r_der cfg isset a).
Proof.
  intros Hreq Hc Hv. destruct (rec_sim_step cfg isset a s REncode Hreq Hc Hv) as [_ Ho]. cbn [r_step snd] in Ho.
  destruct (r_der cfg isset a), (snd (rec_step cfg isset s REncode)); cbn [out_abs out_of_bytes] in *; try discriminate; exact Ho.
Qed.

Theorem rec_refines cfg isset ops : has_req cfg = true -> r_wf_hist cfg isset (r_init cfg) ops = true ->
  let '(s, outs) := rec_run cfg isset (Some []) ops in
  let '(a, outs') := r_run cfg isset (r_init cfg) ops in
  rabs cfg s = a /\ map out_abs outs = outs' /\
  rec_isvalue cfg s = r_isvalue cfg a /\
  (r_isvalue cfg a = true -> snd (rec_step cfg isset s REncode) = out_of_bytes (r_der cfg isset a)).
Proof.
  intros Hreq H.
  destruct (rec_refines_from cfg isset Hreq ops _ _ (content_empty cfg (Some []) eq_refl) H) as [Hc E].
  destruct (rec_run cfg isset (Some []) ops) as [s outs]. destruct (r_run cfg isset (r_init cfg) ops) as [a outs'].
  cbn [fst snd] in *. split; [apply Hc|]. split; [exact E|]. split.
  - apply isvalue_abs; assumption.
  - apply rec_encode_abs; assumption.
Qed.

(* reads never change the content: no exclusion for SEQUENCE / SET *)

Lemma rec_get_any cfg a s i inst s' c : content cfg a s -> rec_get cfg s i inst = Ok (s', c) -> content cfg a s'.
Proof.
  intros Hc E. pose proof (rec_get_spec cfg a s i inst Hc) as H. rewrite E in H.
  destruct (pyidx i (length cfg)).
  - destruct H as (s1 & c1 & [= <- _] & H & _). exact H.
  - destruct inst; [discriminate|]. injection H as <- _. exact Hc.
Qed.

Section ReadLoops.
  Context (cfg: rcfg) (a: rspec).

  Lemma gen_values_any : forall n from acc s, content cfg a s ->
    content cfg a (fst (gen_values (rec_get cfg) s from n acc)).
  Proof.
    induction n as [|n IH]; intros from acc s Hc; cbn [gen_values]; [exact Hc|].
    destruct (rec_get cfg s (Z.of_nat from) true) as [[s' c]|e] eqn:E; [|exact Hc].
    apply IH. exact (rec_get_any _ _ _ _ _ _ _ Hc E).
  Qed.

  Lemma enc_read_any s k fk s' c : content cfg a s -> enc_read (rec_get cfg) s k fk = Ok (s', c) -> content cfg a s'.
  Proof.
    intros Hc. unfold enc_read. destruct fk; try apply (rec_get_any _ _ _ _ _ _ _ Hc).
    destruct (rec_get cfg s (Z.of_nat k) true) as [r|] eqn:E; [|discriminate].
    intros [= ->]. exact (rec_get_any _ _ _ _ _ _ _ Hc E).
  Qed.

  Lemma seq_chunks_any : forall fs from acc s, content cfg a s ->
    content cfg a (fst (seq_chunks (rec_get cfg) s from fs acc)).
  Proof.
    induction fs as [|[fk t] r IH]; intros from acc s Hc; cbn [seq_chunks]; [exact Hc|].
    destruct (enc_read (rec_get cfg) s from fk) as [[s' c]|e] eqn:E; [|exact Hc].
    pose proof (enc_read_any _ _ _ _ _ Hc E) as Hc'.
    destruct (enc_keep fk c); [destruct (enc_slot t c)|]; try apply IH; exact Hc'.
  Qed.

  Lemma enc_collect_any : forall fs from acc s, content cfg a s ->
    content cfg a (fst (enc_collect (rec_get cfg) s from fs acc)).
  Proof.
    induction fs as [|[fk t] r IH]; intros from acc s Hc; cbn [enc_collect]; [exact Hc|].
    destruct (enc_read (rec_get cfg) s from fk) as [[s' c]|e] eqn:E; [|exact Hc].
    apply IH. exact (enc_read_any _ _ _ _ _ Hc E).
  Qed.
End ReadLoops.

Theorem rec_reads_inert cfg isset s o : rinv cfg s -> rec_reader o = true ->
  rinv cfg (fst (rec_step cfg isset s o)) /\ rabs cfg (fst (rec_step cfg isset s o)) = rabs cfg s.
Proof.
  intros Hinv Hr. assert (Hc: content cfg (rabs cfg s) s) by (split; [exact Hinv|reflexivity]).
  change (content cfg (rabs cfg s) (fst (rec_step cfg isset s o))).
  destruct (op_pos cfg o) as [p|] eqn:Ep.
  - destruct (r_in_api isset o) eqn:Hapi.
    + rewrite (rec_step_addressed _ _ _ _ _ Ep Hapi). apply addressed_step_inv; [exact Hc| |].
      * intros i v s' Ev. destruct o; discriminate.
      * intros i s' c _. apply rec_get_any. exact Hc.
    + destruct o; try discriminate; cbn [r_in_api] in Hapi; subst isset; exact Hc.
  - destruct o as [[]| | | | | | | | | | |[]| | | | | | | | | | | ]; try discriminate; cbn [rec_step]; try exact Hc.
    + destruct s; exact Hc.
    + pose proof (gen_values_any cfg _ (length cfg) 0 [] s Hc) as H.
      destruct (gen_values (rec_get cfg) s 0 (length cfg) []) as [s' [l|e]]; exact H.
    + pose proof (gen_values_any cfg _ (length cfg) 0 [] s Hc) as H.
      destruct (gen_values (rec_get cfg) s 0 (length cfg) []) as [s' [l|e]]; exact H.
    + destruct s; exact Hc.
    + destruct s; exact Hc.
    + destruct isset.
      * pose proof (enc_collect_any cfg _ cfg 0 [] s Hc) as H.
        destruct (enc_collect (rec_get cfg) s 0 cfg []) as [s' [l|e]]; exact H.
      * pose proof (seq_chunks_any cfg _ cfg 0 [] s Hc) as H.
        destruct (seq_chunks (rec_get cfg) s 0 cfg []) as [s' [l|e]]; exact H.
Qed.

(* the concrete state does change: a read leaves placeholders behind and allocates the slots *)
Theorem rec_reads_concrete_refuted :
  exists cfg s o, rec_reader o = true /\ rinv cfg s /\ fst (rec_step cfg false s o) <> s /\
                  snd (rec_step cfg false s RLen) <> snd (rec_step cfg false (fst (rec_step cfg false s o)) RLen).
Proof.
  exists [(FReq, tag_integer); (FOpt, mkTag Ctx false 0%N)], (Some []), (RGetItem (KName 1)).
  split; [reflexivity|]. split; [apply (content_empty _ (Some [])); reflexivity|]. split; vm_compute; discriminate.
Qed.

Theorem rec_illformed_inert cfg isset s o : rinv cfg s -> r_ill cfg o = true -> r_in_api isset o = true ->
  fst (rec_step cfg isset s o) = s /\
  exists e, snd (rec_step cfg isset s o) = ORaise e /\ lookup_or_library e = true.
Proof.
  intros Hinv Hill Hapi. assert (Hc: content cfg (rabs cfg s) s) by (split; [exact Hinv|reflexivity]).
  destruct (op_pos cfg o) as [p|] eqn:Ep.
  2: destruct o as [[]| | | | | | | | | | |[]| | | | | | | | | | | ]; discriminate.
  rewrite (rec_step_addressed _ _ _ _ _ Ep Hapi). apply (addressed_illformed _ _ cfg s o p Ep Hill).
  - intros i v Hbad. unfold rec_set. rewrite (rec_store_shaped cfg s i _ (proj1 Hinv)).
    destruct (pyidx i (length cfg)); [|reflexivity]. destruct Hbad as [[=]|(pv & -> & Hz)].
    rewrite rec_resolve_spec, Hz. reflexivity.
  - intros i Hi. pose proof (rec_get_spec cfg _ s i true Hc) as H. rewrite Hi in H. exact H.
Qed.

(* len() of a SEQUENCE/SET is not a function of the content: 0 while no slot is allocated, the declared
   count afterwards (F18h) *)
Theorem rec_len_not_abstract :
  exists cfg s s', rinv cfg s /\ s' = fst (rec_step cfg false s (RGetItem (KName 1))) /\
                   rabs cfg s = rabs cfg s' /\
                   snd (rec_step cfg false s RLen) = ONat 0 /\ snd (rec_step cfg false s' RLen) = ONat 2 /\
                   snd (r_step cfg false (rabs cfg s) RLen) = ONat 2.
Proof.
  exists [(FReq, tag_integer); (FOpt, mkTag Ctx false 0%N)], (Some []), (Some [None; Some CSchema]).
  split; [apply (content_empty _ (Some [])); reflexivity|]. repeat split.
Qed.
