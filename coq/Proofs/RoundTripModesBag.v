(* The comparison of abstract values aval_eqb (Model/Types.v: SET OF contents compared as multisets,
   at any depth) is symmetric and transitive, and a SET OF value compares equal to any reordering of
   a pointwise-equal one (the CER/DER encoders sort SET OF elements). *)
From Coq Require Import Lia Sorting.Permutation.
From PV Require Import Base.Bytes Model.Tag Model.TableTypes Model.Types Proofs.Basics.
Local Open Scope N_scope.

Section PER.
  Context {A: Type}.
  Variable eqb : A -> A -> bool.
  Variable D : A -> Prop.
  Notation eqv := (fun a b => eqb a b = true).
  Hypothesis Hsym : forall x y, D x -> D y -> eqb x y = true -> eqb y x = true.
  Hypothesis Htrans : forall x y z, D x -> D y -> D z -> eqb x y = true -> eqb y z = true -> eqb x z = true.

  Lemma list_eqb_F2 : forall l1 l2, list_eqb eqb l1 l2 = true <-> Forall2 eqv l1 l2.
  Proof.
    induction l1 as [|x l1 IH]; intros [|y l2]; cbn [list_eqb]; split; intros H.
    - constructor.
    - reflexivity.
    - discriminate.
    - inversion H.
    - discriminate.
    - inversion H.
    - apply Bool.andb_true_iff in H. destruct H as [H1 H2]. constructor; [exact H1|apply IH; exact H2].
    - inversion H; subst. apply Bool.andb_true_iff. split; [assumption|]. apply IH. assumption.
  Qed.

  Lemma F2_sym : forall l1 l2, Forall D l1 -> Forall D l2 -> Forall2 eqv l1 l2 -> Forall2 eqv l2 l1.
  Proof.
    intros l1 l2 H1 H2 HF. revert H1 H2. induction HF as [|x y l1 l2 Hxy HF IH]; intros H1 H2; [constructor|].
    inversion H1; subst. inversion H2; subst. constructor; [apply Hsym; assumption|apply IH; assumption].
  Qed.

  Lemma F2_trans : forall l1 l2 l3, Forall D l1 -> Forall D l2 -> Forall D l3 ->
    Forall2 eqv l1 l2 -> Forall2 eqv l2 l3 -> Forall2 eqv l1 l3.
  Proof.
    intros l1 l2 l3 H1 H2 H3 HF. revert l3 H1 H2 H3. induction HF as [|x y l1 l2 Hxy HF IH]; intros l3 H1 H2 H3 HG.
    - inversion HG; subst. constructor.
    - inversion HG as [|? z ? l3' Hyz HG']; subst. inversion H1; subst. inversion H2; subst. inversion H3; subst.
      constructor; [eapply (Htrans x y z); assumption|apply IH; assumption].
  Qed.

  Lemma list_eqb_sym_D l1 l2 : Forall D l1 -> Forall D l2 -> list_eqb eqb l1 l2 = true -> list_eqb eqb l2 l1 = true.
  Proof. intros H1 H2 H. apply list_eqb_F2. apply F2_sym; try assumption. apply list_eqb_F2. exact H. Qed.

  Lemma list_eqb_trans_D l1 l2 l3 : Forall D l1 -> Forall D l2 -> Forall D l3 ->
    list_eqb eqb l1 l2 = true -> list_eqb eqb l2 l3 = true -> list_eqb eqb l1 l3 = true.
  Proof.
    intros H1 H2 H3 Ha Hb. apply list_eqb_F2. apply (F2_trans l1 l2 l3); try assumption; apply list_eqb_F2; assumption.
  Qed.

  (* soundness: a successful comparison exhibits a matching *)
  Lemma bag_eqb_sound : forall l1 l2, bag_eqb eqb l1 l2 = true ->
    exists l2', Permutation l2' l2 /\ Forall2 eqv l1 l2'.
  Proof.
    induction l1 as [|x t IH]; intros l2 H.
    - destruct l2; [|discriminate]. exists []. split; constructor.
    - rewrite bag_eqb_cons in H. destruct (remove_first (eqb x) l2) as [r|] eqn:Er; [|discriminate].
      destruct (remove_first_spec _ _ _ Er) as (pre & y & post & -> & -> & Hy).
      destruct (IH _ H) as (l2' & Hp & HF). exists (y :: l2'). split; [|constructor; assumption].
      apply Permutation_cons_app. exact Hp.
  Qed.

  (* completeness: any matching makes the greedy comparison succeed *)
  Lemma bag_eqb_complete : forall l1 l2 l2', Forall D l1 -> Forall D l2 -> Permutation l2' l2 ->
    Forall2 eqv l1 l2' -> bag_eqb eqb l1 l2 = true.
  Proof.
    induction l1 as [|x t IH]; intros l2 l2' H1 H2 Hp HF.
    - inversion HF; subst. apply Permutation_nil in Hp. subst. reflexivity.
    - inversion HF as [|? y ? t' Hxy HF']; subst. inversion H1 as [|? ? Dx Dt]; subst.
      assert (Hin: In y l2) by (eapply Permutation_in; [exact Hp|left; reflexivity]).
      destruct (remove_first_some (eqb x) l2 y Hin Hxy) as (r & Hr).
      destruct (remove_first_spec _ _ _ Hr) as (pre & y1 & post & -> & -> & Hy1).
      rewrite bag_eqb_cons, Hr.
      assert (D2: Forall D (pre ++ post)).
      { apply Forall_app in H2. destruct H2 as [Ha Hb]. inversion Hb; subst. apply Forall_app. split; assumption. }
      assert (Dy1: D y1) by (apply Forall_app in H2; destruct H2 as [_ Hb]; inversion Hb; assumption).
      assert (Dy: D y) by (rewrite Forall_forall in H2; apply H2; exact Hin).
      assert (Hin1: In y1 (y :: t')).
      { eapply Permutation_in; [apply Permutation_sym; exact Hp|]. apply in_or_app. right. left. reflexivity. }
      destruct Hin1 as [E|Hin1].
      + subst y1. apply (IH (pre ++ post) t' Dt D2); [|exact HF'].
        eapply Permutation_cons_app_inv. exact Hp.
      + destruct (in_split _ _ Hin1) as (a1 & a2 & ->).
        destruct (Forall2_app_inv_r _ _ HF') as (t1 & t2' & HF1 & HF2 & ->).
        inversion HF2 as [|x1 ? t2 ? Hx1 HF2']; subst.
        assert (Dx1: D x1) by (apply Forall_app in Dt; destruct Dt as [_ Hb]; inversion Hb; assumption).
        apply (IH (pre ++ post) (a1 ++ y :: a2) Dt D2).
        * (* y :: a1 ++ y1 :: a2  ~  pre ++ y1 :: post *)
          assert (P1: Permutation (y1 :: y :: a1 ++ a2) (y1 :: pre ++ post)).
          { eapply perm_trans; [|eapply perm_trans; [exact Hp|apply Permutation_sym, Permutation_middle]].
            change (y1 :: y :: a1 ++ a2) with (y1 :: (y :: a1) ++ a2).
            change (y :: a1 ++ y1 :: a2) with ((y :: a1) ++ y1 :: a2). apply Permutation_middle. }
          apply Permutation_cons_inv in P1.
          eapply perm_trans; [apply Permutation_sym, Permutation_middle|exact P1].
        * apply Forall2_app; [exact HF1|]. constructor; [|exact HF2'].
          (* x1 ~ y1 ~ x ~ y *)
          apply (Htrans x1 x y Dx1 Dx Dy); [|exact Hxy].
          apply (Htrans x1 y1 x Dx1 Dy1 Dx Hx1). apply Hsym; assumption.
  Qed.
End PER.

(* a permutation acts by position: it carries any pointwise relation along *)
Lemma perm_positional' {A B} (l1 l1': list A) : Permutation l1 l1' -> forall ys: list B, length ys = length l1 ->
  exists ys', Permutation ys ys' /\ forall P: A -> B -> Prop, Forall2 P l1 ys -> Forall2 P l1' ys'.
Proof.
  induction 1 as [|x l l' Hp IH|x y l|l l' l'' Hp1 IH1 Hp2 IH2]; intros ys Hlen.
  - destruct ys; [|discriminate]. exists []. split; [constructor|]. auto.
  - destruct ys as [|y0 ys]; [discriminate|]. destruct (IH ys ltac:(cbn in Hlen; lia)) as (ys' & Hpy & HP).
    exists (y0 :: ys'). split; [apply perm_skip; exact Hpy|].
    intros P HF. inversion HF; subst. constructor; [assumption|apply HP; assumption].
  - destruct ys as [|y0 [|y1 ys]]; try discriminate. exists (y1 :: y0 :: ys). split; [apply perm_swap|].
    intros P HF. inversion HF as [|? ? ? ? H1 HF']; subst. inversion HF' as [|? ? ? ? H2 HF'']; subst.
    constructor; [assumption|constructor; assumption].
  - destruct (IH1 ys Hlen) as (ys1 & Hpy1 & HP1).
    assert (Hl1: length ys1 = length l').
    { rewrite <- (Permutation_length Hpy1), Hlen. apply Permutation_length. exact Hp1. }
    destruct (IH2 ys1 Hl1) as (ys2 & Hpy2 & HP2).
    exists ys2. split; [eapply perm_trans; eassumption|].
    intros P HF. apply HP2, HP1. exact HF.
Qed.

Section BagPER.
  Context {A: Type}.
  Variable eqb : A -> A -> bool.
  Variable D : A -> Prop.
  Hypothesis Hsym : forall x y, D x -> D y -> eqb x y = true -> eqb y x = true.
  Hypothesis Htrans : forall x y z, D x -> D y -> D z -> eqb x y = true -> eqb y z = true -> eqb x z = true.

  Lemma bag_eqb_sym_D l1 l2 : Forall D l1 -> Forall D l2 -> bag_eqb eqb l1 l2 = true -> bag_eqb eqb l2 l1 = true.
  Proof.
    intros H1 H2 H. destruct (bag_eqb_sound eqb l1 l2 H) as (l2' & Hp & HF).
    assert (D2': Forall D l2') by (apply (Permutation_Forall (Permutation_sym Hp) H2)).
    pose proof (F2_sym eqb D Hsym l1 l2' H1 D2' HF) as HF'.
    destruct (perm_positional' l2' l2 Hp l1 (eq_sym (Forall2_length _ _ _ HF'))) as (l1' & Hp1 & HP).
    apply (bag_eqb_complete eqb D Hsym Htrans l2 l1 l1' H2 H1 (Permutation_sym Hp1)). apply HP. exact HF'.
  Qed.

  Lemma bag_eqb_trans_D l1 l2 l3 : Forall D l1 -> Forall D l2 -> Forall D l3 ->
    bag_eqb eqb l1 l2 = true -> bag_eqb eqb l2 l3 = true -> bag_eqb eqb l1 l3 = true.
  Proof.
    intros H1 H2 H3 Ha Hb.
    destruct (bag_eqb_sound eqb l1 l2 Ha) as (l2' & Hp2 & HF12).
    destruct (bag_eqb_sound eqb l2 l3 Hb) as (l3' & Hp3 & HF23).
    assert (D2': Forall D l2') by (apply (Permutation_Forall (Permutation_sym Hp2) H2)).
    assert (D3': Forall D l3') by (apply (Permutation_Forall (Permutation_sym Hp3) H3)).
    destruct (perm_positional' l2 l2' (Permutation_sym Hp2) l3' (eq_sym (Forall2_length _ _ _ HF23))) as (l3'' & Hp3' & HP).
    assert (D3'': Forall D l3'') by (apply (Permutation_Forall Hp3' D3')).
    apply (bag_eqb_complete eqb D Hsym Htrans l1 l3 l3'' H1 H3).
    - eapply perm_trans; [apply Permutation_sym; exact Hp3'|exact Hp3].
    - apply (F2_trans eqb D Htrans l1 l2' l3'' H1 D2' D3'' HF12). apply HP. exact HF23.
  Qed.

  (* a reordering of a pointwise-equal list is an equal bag *)
  Lemma bag_eqb_perm l1 l1' l2 : Forall D l1 -> Forall D l2 ->
    Forall2 (fun a b => eqb a b = true) l1 l2 -> Permutation l1 l1' -> bag_eqb eqb l1' l2 = true.
  Proof.
    intros H1 H2 HF Hp.
    destruct (perm_positional' l1 l1' Hp l2 (eq_sym (Forall2_length _ _ _ HF))) as (l2' & Hp2 & HP).
    apply (bag_eqb_complete eqb D Hsym Htrans l1' l2 l2' (Permutation_Forall Hp H1) H2 (Permutation_sym Hp2)).
    apply HP. exact HF.
  Qed.
End BagPER.

Fixpoint asize (a: aval) : nat :=
  match a with
  | ARec fs => S (list_sum (map (fun o => match o with Some x => asize x | None => O end) fs))
  | AList xs | ABag xs => S (list_sum (map asize xs))
  | AChoice _ v => S (asize v)
  | _ => 1%nat
  end.

Lemma list_sum_in {X} (f: X -> nat) l x : In x l -> (f x <= list_sum (map f l))%nat.
Proof.
  induction l as [|y l IH]; intros H; [destruct H|]. cbn [map].
  change (list_sum (f y :: map f l)) with (f y + list_sum (map f l))%nat.
  destruct H as [->|H]; [lia|specialize (IH H); lia].
Qed.

Lemma areal_eqb_sym a b : areal_eqb a b = true -> areal_eqb b a = true.
Proof.
  destruct a, b; cbn [areal_eqb]; try discriminate; try reflexivity; intros H;
    apply Bool.andb_true_iff in H; destruct H as [H1 H2]; apply Z.eqb_eq in H1, H2; subst; rewrite !Z.eqb_refl; reflexivity.
Qed.

Lemma areal_eqb_trans a b c : areal_eqb a b = true -> areal_eqb b c = true -> areal_eqb a c = true.
Proof.
  destruct a, b; cbn [areal_eqb]; try discriminate; destruct c; cbn [areal_eqb]; try discriminate; try reflexivity; intros H G;
    apply Bool.andb_true_iff in H; destruct H as [H1 H2]; apply Z.eqb_eq in H1, H2; subst;
    apply Bool.andb_true_iff in G; destruct G as [G1 G2]; apply Z.eqb_eq in G1, G2; subst; rewrite !Z.eqb_refl; reflexivity.
Qed.

Lemma list_eqb_iff {X} (eqb: X -> X -> bool) (Heq: forall x y, eqb x y = true <-> x = y) :
  forall l1 l2, list_eqb eqb l1 l2 = true <-> l1 = l2.
Proof.
  induction l1 as [|x l1 IH]; intros [|y l2]; cbn [list_eqb]; split; intros H; try discriminate; try reflexivity.
  - apply Bool.andb_true_iff in H. destruct H as [H1 H2]. apply Heq in H1. apply IH in H2. congruence.
  - inversion H; subst. apply Bool.andb_true_iff. split; [apply Heq; reflexivity|apply IH; reflexivity].
Qed.

Lemma bool_eqb_eq x y : Bool.eqb x y = true <-> x = y.
Proof. destruct x, y; cbn; split; congruence. Qed.

(* a comparison that decides equality is symmetric and transitive *)
Lemma dec_eqb_sym {X} (eqb: X -> X -> bool) (Heq: forall x y, eqb x y = true <-> x = y) x y :
  eqb x y = true -> eqb y x = true.
Proof. intros H. apply Heq in H. apply Heq. congruence. Qed.

Lemma dec_eqb_trans {X} (eqb: X -> X -> bool) (Heq: forall x y, eqb x y = true <-> x = y) x y z :
  eqb x y = true -> eqb y z = true -> eqb x z = true.
Proof. intros H G. apply Heq in H, G. apply Heq. congruence. Qed.

Definition osize_le (n: nat) (o: option aval) : Prop := match o with Some x => (asize x <= n)%nat | None => True end.

Theorem aval_eqb_per : forall n a b c, (asize a <= n)%nat -> (asize b <= n)%nat -> (asize c <= n)%nat ->
  (aval_eqb a b = true -> aval_eqb b a = true) /\
  (aval_eqb a b = true -> aval_eqb b c = true -> aval_eqb a c = true).
Proof.
  induction n as [|n IH]; intros a b c Ha Hb Hc.
  { destruct a; cbn [asize] in Ha; lia. }
  set (D := fun x => (asize x <= n)%nat).
  assert (Dsym: forall x y, D x -> D y -> aval_eqb x y = true -> aval_eqb y x = true).
  { intros x y Dx Dy. exact (proj1 (IH x y y Dx Dy Dy)). }
  assert (Dtrans: forall x y z, D x -> D y -> D z -> aval_eqb x y = true -> aval_eqb y z = true -> aval_eqb x z = true).
  { intros x y z Dx Dy Dz. exact (proj2 (IH x y z Dx Dy Dz)). }
  set (Do := osize_le n).
  assert (Dosym: forall x y, Do x -> Do y -> opt_eqb aval_eqb x y = true -> opt_eqb aval_eqb y x = true).
  { intros [x|] [y|] Dx Dy; cbn [opt_eqb]; try discriminate; try reflexivity. apply Dsym; assumption. }
  assert (Dotrans: forall x y z, Do x -> Do y -> Do z -> opt_eqb aval_eqb x y = true -> opt_eqb aval_eqb y z = true -> opt_eqb aval_eqb x z = true).
  { intros [x|] [y|] [z|] Dx Dy Dz; cbn [opt_eqb]; try discriminate; try reflexivity. apply Dtrans; assumption. }
  assert (Hel: forall xs, (S (list_sum (map asize xs)) <= S n)%nat -> Forall D xs).
  { intros xs H. apply Forall_forall. intros x Hx. pose proof (list_sum_in asize xs x Hx). unfold D. lia. }
  assert (Helo: forall fs, (S (list_sum (map (fun o => match o with Some x => asize x | None => O end) fs)) <= S n)%nat -> Forall Do fs).
  { intros fs H. apply Forall_forall. intros o Ho.
    pose proof (list_sum_in (fun o => match o with Some x => asize x | None => O end) fs o Ho).
    unfold Do, osize_le. destruct o; [lia|exact I]. }
  split.
  - (* symmetry *)
    destruct a, b; cbn [aval_eqb]; try discriminate; try reflexivity; intros H.
    + exact (dec_eqb_sym _ bool_eqb_eq _ _ H).
    + exact (dec_eqb_sym _ Z.eqb_eq _ _ H).
    + exact (dec_eqb_sym _ (list_eqb_iff Bool.eqb bool_eqb_eq) _ _ H).
    + exact (dec_eqb_sym _ (list_eqb_iff N.eqb N.eqb_eq) _ _ H).
    + exact (dec_eqb_sym _ (list_eqb_iff N.eqb N.eqb_eq) _ _ H).
    + apply areal_eqb_sym. exact H.
    + cbn [asize] in Ha, Hb. apply (list_eqb_sym_D (opt_eqb aval_eqb) Do Dosym); [apply Helo; exact Ha|apply Helo; exact Hb|exact H].
    + cbn [asize] in Ha, Hb. apply (list_eqb_sym_D aval_eqb D Dsym); [apply Hel; exact Ha|apply Hel; exact Hb|exact H].
    + cbn [asize] in Ha, Hb. apply (bag_eqb_sym_D aval_eqb D Dsym Dtrans); [apply Hel; exact Ha|apply Hel; exact Hb|exact H].
    + apply Bool.andb_true_iff in H. destruct H as [H1 H2]. apply Nat.eqb_eq in H1. subst.
      rewrite Nat.eqb_refl. cbn [andb]. cbn [asize] in Ha, Hb. apply Dsym; [unfold D; lia|unfold D; lia|exact H2].
    + exact (dec_eqb_sym _ (list_eqb_iff N.eqb N.eqb_eq) _ _ H).
  - (* transitivity *)
    destruct a, b; cbn [aval_eqb]; try discriminate; intros H; destruct c; cbn [aval_eqb]; try discriminate; try reflexivity; intros G.
    + exact (dec_eqb_trans _ bool_eqb_eq _ _ _ H G).
    + exact (dec_eqb_trans _ Z.eqb_eq _ _ _ H G).
    + exact (dec_eqb_trans _ (list_eqb_iff Bool.eqb bool_eqb_eq) _ _ _ H G).
    + exact (dec_eqb_trans _ (list_eqb_iff N.eqb N.eqb_eq) _ _ _ H G).
    + exact (dec_eqb_trans _ (list_eqb_iff N.eqb N.eqb_eq) _ _ _ H G).
    + exact (areal_eqb_trans _ _ _ H G).
    + cbn [asize] in Ha, Hb, Hc. apply (list_eqb_trans_D (opt_eqb aval_eqb) Do Dotrans fs fs0 fs1); try (apply Helo; assumption); assumption.
    + cbn [asize] in Ha, Hb, Hc. apply (list_eqb_trans_D aval_eqb D Dtrans xs xs0 xs1); try (apply Hel; assumption); assumption.
    + cbn [asize] in Ha, Hb, Hc. apply (bag_eqb_trans_D aval_eqb D Dsym Dtrans xs xs0 xs1); try (apply Hel; assumption); assumption.
    + apply Bool.andb_true_iff in H. destruct H as [H1 H2]. apply Nat.eqb_eq in H1. subst.
      apply Bool.andb_true_iff in G. destruct G as [G1 G2]. apply Nat.eqb_eq in G1. subst.
      rewrite Nat.eqb_refl. cbn [andb]. cbn [asize] in Ha, Hb, Hc. apply (Dtrans a b c); try (unfold D; lia); assumption.
    + exact (dec_eqb_trans _ (list_eqb_iff N.eqb N.eqb_eq) _ _ _ H G).
Qed.

Theorem aval_eqb_sym a b : aval_eqb a b = true -> aval_eqb b a = true.
Proof.
  exact (proj1 (aval_eqb_per (Nat.max (asize a) (asize b)) a b b ltac:(lia) ltac:(lia) ltac:(lia))).
Qed.

Theorem aval_eqb_trans a b c : aval_eqb a b = true -> aval_eqb b c = true -> aval_eqb a c = true.
Proof.
  exact (proj2 (aval_eqb_per (Nat.max (asize a) (Nat.max (asize b) (asize c))) a b c ltac:(lia) ltac:(lia) ltac:(lia))).
Qed.

(* SET OF contents: any reordering of a pointwise-equal list compares equal *)
Theorem aval_eqb_bag_perm l1 l1' l2 :
  Forall2 (fun a b => aval_eqb a b = true) l1 l2 -> Permutation l1 l1' -> aval_eqb (ABag l1') (ABag l2) = true.
Proof.
  intros HF Hp. cbn [aval_eqb].
  apply (bag_eqb_perm aval_eqb (fun _ => True) (fun x y _ _ => aval_eqb_sym x y) (fun x y z _ _ _ => aval_eqb_trans x y z) l1 l1' l2);
    try assumption; apply Forall_forall; intros; exact I.
Qed.

Print Assumptions aval_eqb_sym.
Print Assumptions aval_eqb_trans.
Print Assumptions aval_eqb_bag_perm.
