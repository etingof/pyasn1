(* C14, the clauses about derived types and about value-producing operations:
   - a type derived by adding constraints admits a subset of its parent's values;
   - (with fixes/F14.diff) every ancestor recognises it as a subtype, so its values can be assigned
     where the ancestor is expected; before the repair this fails (concrete witness);
   - every value-producing operation of the scalar model returns an error or a value the result
     type's constraints accept;
   - where the implementation leaves the denotation (empty lists, findings F14b, F14c);
   - reading a record does not change the encoders' verdict (finding F14d before the repair). *)
From Coq Require Import Lia.
From PV Require Import Model.Constraint Spec.SetTheory Proofs.Basics Proofs.ConstraintInd Proofs.ConstraintDenote.
Local Open Scope Z_scope.

(* subset *)

Lemma denote_spec_add s new idx x :
  denote (sp_constr (sp_add s new)) idx x <-> denote (sp_constr s) idx x /\ denote new idx x.
Proof.
  unfold sp_constr, sp_add. cbn [sp_ops]. rewrite !denote_and, Forall_app. split.
  - intros [Ha Hn]. inversion Hn; subst. tauto.
  - intros [Ha Hn]. split; [exact Ha|constructor; [exact Hn|constructor]].
Qed.

Lemma subtype_step_spec T tg new T' :
  subtype_step T tg new = Ok T' ->
  st_spec T' = match new with Some c => sp_add (st_spec T) c | None => st_spec T end.
Proof.
  unfold subtype_step. destruct tg as [|t|t]; cbn [bind].
  - intros H; inversion H; reflexivity.
  - destruct (tag_explicitly (st_tags T) t); cbn [bind]; intros H; inversion H; reflexivity.
  - intros H; inversion H; reflexivity.
Qed.

Theorem step_subset T tg new T' x :
  subtype_step T tg new = Ok T' -> admits T' x -> admits T x.
Proof.
  intros Hs. unfold admits. rewrite (subtype_step_spec _ _ _ _ Hs).
  destruct new as [c|]; [|tauto]. rewrite denote_spec_add. tauto.
Qed.

Theorem derived_subset parent child :
  derives_any parent child -> forall x, admits child x -> admits parent x.
Proof.
  induction 1 as [T|T T1 T2 tg new Hd IH Hs]; intros x Hx; [exact Hx|].
  apply IH. eapply step_subset; eassumption.
Qed.

(* the same at the level of the evaluator, with no applicability hypothesis: whatever the derived
   type's constraints let through, the parent's let through *)
Lemma and_v_app_pass {A} (f: A -> verdict) (a b: list A) :
  and_v f Pass (a ++ b) = Pass -> and_v f Pass a = Pass.
Proof.
  induction a as [|x a IH]; [reflexivity|]. cbn [app and_v]. destruct (f x); [exact IH|discriminate..].
Qed.

Lemma ceval_spec_nil idx x : ceval (CAnd []) idx x = Pass.
Proof. reflexivity. Qed.

Theorem step_accepts_subset s new idx x :
  ceval (sp_constr (sp_add s new)) idx x = Pass -> ceval (sp_constr s) idx x = Pass.
Proof.
  unfold sp_constr, sp_add. cbn [sp_ops]. rewrite !ceval_and. apply and_v_app_pass.
Qed.

(* recognised *)

Lemma shape_eqb_refl : forall a, shape_eqb a a = true.
Proof.
  induction a using shape_nested_ind; [apply sval_eqb_refl|].
  cbn [shape_eqb]. induction H as [|x l Hx Hl IH]; [reflexivity|].
  rewrite Hx. exact IH.
Qed.

Lemma in_vmap_In c vm : In c vm -> in_vmap c vm = true.
Proof.
  intros H. unfold in_vmap. apply existsb_exists. exists c. split; [exact H|apply shape_eqb_refl].
Qed.

Lemma is_prefix_refl ts : is_prefix_tags ts ts = true.
Proof. induction ts as [|t ts IH]; [reflexivity|]. cbn. rewrite tag_eqb_refl. exact IH. Qed.

Lemma is_prefix_app a b c : is_prefix_tags a b = true -> is_prefix_tags a (b ++ c) = true.
Proof.
  revert b. induction a as [|x a IH]; intros b H; [reflexivity|].
  destruct b as [|y b]; [discriminate|]. cbn in *. apply Bool.andb_true_iff in H.
  destruct H as [H1 H2]. rewrite H1. apply IH. exact H2.
Qed.

(* what a chain of derivations maintains about the constraints *)
Definition recorded (p c: cspec) : Prop :=
  c = p \/ truthy (sp_constr p) = false
  \/ (truthy (sp_constr c) = true /\ In (sp_constr p) (sp_vmap c)).

Lemma recorded_super p c : recorded p c -> spec_is_super p c = true.
Proof.
  unfold spec_is_super. intros [->|[H|[_ H]]].
  - unfold constr_py_eq. rewrite shape_eqb_refl. reflexivity.
  - rewrite H. cbn [negb]. rewrite Bool.orb_true_r. reflexivity.
  - rewrite (in_vmap_In _ _ H). apply Bool.orb_true_r.
Qed.

Lemma truthy_add s new : truthy (sp_constr (sp_add s new)) = true.
Proof. unfold sp_constr, sp_add. cbn [sp_ops truthy]. destruct (sp_ops s); reflexivity. Qed.

(* [sp_add] puts the constraint it extends, and all that one had recorded, into the history *)
Lemma recorded_add p c new : recorded p c -> recorded p (sp_add c new).
Proof.
  intros H. destruct (truthy (sp_constr p)) eqn:Ep; [|right; left; exact Ep].
  right; right. split; [apply truthy_add|].
  unfold sp_vmap at 1. apply in_or_app. right. unfold sp_add. cbn [sp_hist].
  destruct H as [->|[H|[-> H]]]; [rewrite Ep; left; reflexivity|congruence|right; exact H].
Qed.

Lemma subtype_step_tags T tg new T' :
  subtype_step T tg new = Ok T' -> (tg = NoTag \/ exists t, tg = ExplicitTag t) ->
  exists ext, st_tags T' = st_tags T ++ ext.
Proof.
  unfold subtype_step. intros H [->|[t ->]]; cbn [bind] in H.
  - inversion H. exists []. cbn. rewrite app_nil_r. reflexivity.
  - unfold tag_explicitly in H. destruct (tcls t); cbn [bind] in H; inversion H; eexists; reflexivity.
Qed.

Theorem derived_recognised parent child :
  derives parent child -> type_is_super true true parent child = true.
Proof.
  intros Hd.
  assert (H: is_prefix_tags (st_tags parent) (st_tags child) = true
             /\ recorded (st_spec parent) (st_spec child)).
  { induction Hd as [T|T T1 T2 tg new Hd [IHt IHr] Htg Hs].
    - split; [apply is_prefix_refl|left; reflexivity].
    - split.
      + destruct (subtype_step_tags _ _ _ _ Hs Htg) as [ext ->]. apply is_prefix_app. exact IHt.
      + rewrite (subtype_step_spec _ _ _ _ Hs). destruct new as [c|]; [|exact IHr].
        apply recorded_add. exact IHr. }
  destruct H as [Ht Hr]. unfold type_is_super, is_super_tagset. cbn [negb orb].
  rewrite Ht, (recorded_super _ _ Hr). reflexivity.
Qed.

Corollary derived_assignable parent child : derives parent child -> assignable parent child = true.
Proof. exact (derived_recognised parent child). Qed.

(* before the repair: INTEGER (0..100) does not recognise INTEGER (0..100)(10..50) *)
Theorem unrepaired_not_recognised :
  exists p new, truthy (sp_constr p) = true /\ wf new = true
                /\ spec_is_super p (sp_add_unrepaired p new) = false
                /\ spec_is_super p (sp_add p new) = true.
Proof.
  exists (spec_of [CRange 0 100]), (CRange 10 50). vm_compute. repeat split.
Qed.

(* no way round the constructor *)

Theorem construct_checked T x v :
  construct T x = Ok v -> v = x /\ ceval (sp_constr (st_spec T)) None (VS v) = Pass.
Proof.
  unfold construct. destruct (ceval (sp_constr (st_spec T)) None (VS x)) eqn:E; intros H;
    inversion H; subst. split; [reflexivity|exact E].
Qed.

Theorem produce_checked T payload v :
  produce T payload = Ok v -> ceval (sp_constr (st_spec T)) None (VS v) = Pass.
Proof.
  unfold produce. destruct payload as [p|]; [|discriminate]. intros H.
  apply construct_checked in H. tauto.
Qed.

(* the result of an operation: an error, or a value that passed the result type's constraints *)
Definition checked_by (T: stype) (r: res sval) : Prop :=
  match r with Ok v => ceval (sp_constr (st_spec T)) None (VS v) = Pass | Err _ => True end.

Lemma checked_construct T x : checked_by T (construct T x).
Proof. unfold checked_by. destruct (construct T x) eqn:E; [apply construct_checked in E; tauto|exact I]. Qed.
Lemma checked_produce T p : checked_by T (produce T p).
Proof. destruct p; [apply checked_construct|exact I]. Qed.

Theorem operations_checked :
  (forall T v, checked_by T (op_clone T v))
  /\ (forall T s v, checked_by (mkSType (st_tags T) s) (op_clone_spec T s v))
  /\ (forall T tg new v,
        match subtype_step T tg new with
        | Ok T' => checked_by T' (op_subtype T tg new v) /\ checked_by T (op_subtype T tg new v)
        | Err _ => exists e, op_subtype T tg new v = Err e
        end)
  /\ (forall T op refl a b, checked_by T (op_int T op refl a b))
  /\ (forall T op a, checked_by T (op_int_unary T op a))
  /\ (forall T op s, checked_by T (op_seq T op s))
  /\ (forall T op s, checked_by T (op_bits T op s)).
Proof.
  repeat split.
  - intros. apply checked_construct.
  - intros. apply checked_construct.
  - intros T tg new v. unfold op_subtype. destruct (subtype_step T tg new) as [T'|e] eqn:Es; cbn [bind].
    + split; [apply checked_construct|].
      pose proof (checked_construct T' v) as Hc. unfold checked_by in *.
      destruct (construct T' v) as [v'|]; [|exact I].
      rewrite (subtype_step_spec _ _ _ _ Es) in Hc. destruct new as [c|]; [|exact Hc].
      apply (step_accepts_subset _ c). exact Hc.
    + exists e. reflexivity.
  - intros. apply checked_produce.
  - intros. apply checked_construct.
  - intros T op s. unfold op_seq. destruct s; try exact I; apply checked_produce.
  - intros T op s. unfold op_bits. destruct s; try exact I; apply checked_produce.
Qed.

(* combined with the denotation theorem: the payload of every value object an operation returns
   lies in the set its type's constraints denote *)
Theorem produced_in_denotation T payload v :
  wf (sp_constr (st_spec T)) = true -> typed (sp_constr (st_spec T)) None (VS v) = true ->
  produce T payload = Ok v -> admits T (VS v).
Proof.
  intros Hw Ht H. apply produce_checked in H. unfold admits.
  apply (ceval_iff_denote _ _ _ Hw Ht). exact H.
Qed.

(* where the implementation leaves the denotation *)

(* an empty operand or value list is read as "no constraint", not as the empty set *)
Theorem empty_list_is_no_constraint :
  ceval (COr []) None (VS (SInt 5)) = Pass /\ ~ denote (COr []) None (VS (SInt 5))
  /\ ceval (CSingle []) None (VS (SInt 5)) = Pass /\ ~ denote (CSingle []) None (VS (SInt 5)).
Proof.
  split; [reflexivity|]. split; [intros H; exact H|]. split; [reflexivity|].
  intros [s [_ H]]. exact H.
Qed.

(* finding F14c: a ContainedSubtypeConstraint with a plain value among its operands (the class
   docstring's own example) cannot decide a value that satisfies the included constraints *)
Theorem contained_plain_value_crashes :
  exists c x, wf c = true /\ denote c None x /\ ceval c None x = Crash AttributeError.
Proof.
  exists (CContained [CSingle [SInt 1; SInt 2; SInt 3; SInt 6]] [SInt 6; SInt 9; SInt 18] []),
         (VS (SInt 6)).
  split; [reflexivity|]. split; [|reflexivity].
  apply denote_contained. repeat split.
  - constructor; [|constructor]. exists (SInt 6). split; [reflexivity|]. cbn. tauto.
  - constructor.
  - right. exists (SInt 6). split; [reflexivity|]. cbn. tauto.
Qed.

(* a value range meets a payload that is not an int (REAL keeps (mantissa, base, exponent),
   finding F14b; here an OBJECT IDENTIFIER's tuple): TypeError instead of a decision *)
Theorem range_on_tuple_crashes :
  ceval (CRange 0 10) None (VS (SOid [1%N; 3%N])) = Crash TypeError.
Proof. reflexivity. Qed.

(* reading a record does not change what its constraints see *)

Theorem mapping_read_all r : mapping (read_all r) = mapping r.
Proof.
  unfold mapping, read_all. induction r as [|[k s] r IH]; [reflexivity|].
  cbn [map flat_map fst snd]. rewrite IH. destruct s; reflexivity.
Qed.

Theorem encoder_verdict_stable spec r : encoder_admits spec (read_all r) = encoder_admits spec r.
Proof. unfold encoder_admits. rewrite mapping_read_all. reflexivity. Qed.

(* finding F14d: before the repair a read turns an absent OPTIONAL component into a present one,
   so SIZE (3) / PRESENT constraints on a record with two components are satisfied after a read *)
Theorem unrepaired_read_bypasses :
  exists spec r,
    encoder_admits_unrepaired spec r = Fail
    /\ encoder_admits_unrepaired spec (read_all r) = Pass
    /\ encoder_admits spec (read_all r) = Fail.
Proof.
  exists (spec_of [CSize 3 3; CWith [(SText [98%N], CPresent)]]),
         [(SText [97%N], Assigned (SInt 3)); (SText [98%N], Unset); (SText [99%N], Assigned (SText [100%N]))].
  vm_compute. repeat split.
Qed.
