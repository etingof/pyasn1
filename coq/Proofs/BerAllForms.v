(* C09 for the types without CHOICE and ANY: the fragment (frag), the shape of TLV trees and the side
   conditions stated on their own, over two kinds of marked tags (REAL, ASCII-repertoire strings).
   Nothing is proved from scratch here: Proofs/BerAllForms2.v covers the fragment with CHOICE and ANY,
   over three kinds of marks.  The definitions the two files share have the same bodies, so that a lemma of
   BerAllForms2 is a lemma over the definitions of this file as it stands; where they differ (kind, safe,
   frag, side_keys) the types and marks of this file are carried into those of BerAllForms2 (up, safe_up,
   side_keys_up, frag_up), and ber_all_forms_tree, ber_all_forms, ber_all_forms_unconditional follow from
   the theorems of the same names there.

   Side conditions: real_mantissas_present, ascii_strings_ascii.  Outside the fragment: CHOICE, ANY,
   character strings whose repertoire the model does not decide (UniversalString, BMPString), EXPLICIT
   UNIVERSAL tags. *)
From PV Require Import Base.Bytes Model.Tag Model.TableTypes Model.Types Model.Proc Model.Enc Model.Dec Gen.Tables Spec.X690
     Proofs.Bits Proofs.ProcBind Proofs.RunLemmas Proofs.TagOctets Proofs.TagAlgebra Proofs.DecHeader Proofs.DecFrame
     Proofs.DecPrim Proofs.TagsetShape Proofs.Schemaless Proofs.LeafInt.
From PV Require Proofs.BerAllForms2.
Local Open Scope N_scope.

(* the rest returned by the header functions is a suffix; the header does not depend on what follows *)
Definition ident_octets (hb: bytes) (t: tag) : Prop := forall tl, dec_ident (hb ++ tl) = Some (t, tl).
Definition len_octets (lb: bytes) (ol: option N) : Prop := forall tl, dec_len (lb ++ tl) = Some (ol, tl).

Example stage1_forms :
  split_ident [191; 129; 128; 5; 7] = Some (Ctx, true, 16389, [7])
  /\ dec_ident [191; 129; 128; 5; 7] = Some (mkTag Ctx true 16389, [7])
  /\ split_length [132; 0; 0; 1; 2; 9] = Some (Some 258, [9])
  /\ dec_len [132; 0; 0; 1; 2; 9] = Some (Some 258, [9]).
Proof. exact BerAllForms2.stage1_forms. Qed.

Definition kids_raw (kids: list node) : bytes := concat (map node_raw kids).
Definition eoc_start (b: bytes) : bool := match b with 0 :: 0 :: _ => true | _ => false end.

(* identifier octets, length octets in whatever form, contents; an indefinite-length node ends with
   00 00 and none of its members begins with 00 00 *)
Fixpoint shape (n: node) : Prop :=
  match n with
  | Prim c num contents raw =>
      exists ib lb, ident_octets ib (mkTag c false num) /\ len_octets lb (Some (N.of_nat (length contents)))
                    /\ raw = ib ++ lb ++ contents
  | Cons c num indef kids raw =>
      exists ib lb, ident_octets ib (mkTag c true num)
        /\ len_octets lb (if indef then None else Some (N.of_nat (length (kids_raw kids))))
        /\ raw = ib ++ lb ++ kids_raw kids ++ (if indef then [0; 0] else [])
        /\ (fix all (l: list node) : Prop :=
              match l with
              | [] => True
              | k :: r => (shape k /\ (indef = true -> eoc_start (node_raw k) = false)) /\ all r
              end) kids
  end.

Definition real_mant_ok (c: bytes) : bool :=
  match c with
  | [] => true
  | fo :: r =>
      if N.ltb fo 128 then true else
      let ef := fo mod 4 in
      let '(elen, r1) := if N.eqb ef 3 then (match r with l :: _ => N.to_nat l | [] => O end, tl r) else (S (N.to_nat ef), r) in
      match skipn elen r1 with [] => false | _ => true end
  end.

Lemma bits_leaf_full c : bits_of_octets c 0 = Ok (bits_of_octets_spec c).
Proof. exact (BerAllForms2.bits_leaf_full c). Qed.

Example stage2_leaves :
  oid_value [42; 134; 72; 128 + 6; 13] = Some [1; 2; 840; 781] /\ dec_oid [42; 134; 72; 128 + 6; 13] = Ok [1; 2; 840; 781]
  /\ signed_value [255; 0; 128] = (-65408)%Z /\ from_bytes_signed [255; 0; 128] = (-65408)%Z.
Proof. exact BerAllForms2.stage2_leaves. Qed.

Definition node_wire (n: node) : tag :=
  match n with Prim c num _ _ => mkTag c false num | Cons c num _ _ _ => mkTag c true num end.

(* size of a node against fuel and the largest read the library can ask for *)
Definition fitsn (f: nat) (n: node) : Prop :=
  N.of_nat (length (node_raw n)) <= index_max /\ (length (node_raw n) <= f)%nat.

Definition is_dv (d: dval) : Prop := match d with DV _ _ => True | _ => False end.

Lemma item_of_explicit : forall f T0 acc c num indef k raw allow v,
  shape (Cons c num indef [k] raw) -> fitsn (S f) (Cons c num indef [k] raw) ->
  (allow = true -> eoc_start raw = false) ->
  tagset_eqb (mkTag c true num :: acc) (tagset_of' T0) = false ->
  tm_contains (tagmap_of T0) (mkTag c true num :: acc) = false -> c <> Univ -> is_dv v ->
  consumes (dec_call BER (S f) (STy T0) (mkTag c true num :: acc) None indef false) (node_raw k) v ->
  consumes (dec_call BER (S (S f)) (STy T0) acc None allow false) raw v.
Proof. exact BerAllForms2.item_of_explicit. Qed.

Definition key (t: tag) : tclass * N := (tcls t, tnum t).
Definition keys (ts: tagset) : list (tclass * N) := map key ts.

Definition orkey (e: option (tclass * N)) (k: tclass * N) : tclass * N := match e with Some x => x | None => k end.
Definition tagged_base (T: ty) : bool := match base_of T with TChoice _ | TAny => false | _ => true end.

Lemma wire_univ_tagset n u acc T0 :
  key (node_wire n) = u -> keys (tagset_of' T0) = u :: keys acc ->
  tagset_eqb (node_wire n :: acc) (tagset_of' T0) = true.
Proof. exact (BerAllForms2.wire_univ_tagset n u acc T0). Qed.

Lemma tag0_simple_wire n acc : tag0_simple (node_wire n :: acc) = match n with Prim _ _ _ _ => true | Cons _ _ _ _ _ => false end.
Proof. exact (BerAllForms2.tag0_simple_wire n acc). Qed.

Definition is_nil {A} (l: list A) : bool := match l with [] => true | _ => false end.
(* marked (class, number) pairs: KR = a REAL may be carried under it, KA = a character
   string whose repertoire the library checks (ASCII) *)
Inductive kind := KR | KA.
Definition kind_eqb (a b: kind) : bool := match a, b with KR, KR | KA, KA => true | _, _ => false end.
Definition mkey : Type := (kind * (tclass * N))%type.
Definition mkey_eqb (a b: mkey) : bool := kind_eqb (fst a) (fst b) && tag_pair_eqb (snd a) (snd b).
Definition memk (k: mkey) (L: list mkey) : bool := existsb (mkey_eqb k) L.
Definition ascii (b: bytes) : bool := forallb (fun x => N.ltb x 128) b.
Fixpoint leaves_ascii (n: node) : bool :=
  match n with
  | Prim _ _ contents _ => ascii contents
  | Cons _ _ _ kids _ => forallb leaves_ascii kids
  end.
(* [safe L n]: the side conditions of the final theorems as a predicate on the TLV tree, relative to a
   list L of marked (class, number) pairs (REAL mantissas, ASCII repertoires). *)
Fixpoint safe (L: list mkey) (n: node) : bool :=
  match n with
  | Prim c num contents _ =>
      (negb (memk (KR, (c, num)) L) || real_mant_ok contents) && (negb (memk (KA, (c, num)) L) || ascii contents)
  | Cons c num indef kids _ =>
      (negb (memk (KA, (c, num)) L) || forallb leaves_ascii kids)
      && forallb (safe L) kids
  end.

Lemma kids_raw_nonempty kids : Forall shape kids -> kids <> [] -> length (kids_raw kids) <> 0%nat.
Proof. exact (BerAllForms2.kids_raw_nonempty kids). Qed.

(* a constructed BIT STRING without segments, also nested, is the empty bit string, in the definite as in
   the indefinite form (finding F54: the library refused 23 00 until it was repaired) *)
Example bits_empty_constructed_bits :
  X690.read TBits [35; 0] = Some (ABits [], [])
  /\ decode BER (Some TBits) [35; 0] = Ok (DV TBits (VBits []), [])
  /\ decode BER (Some TBits) [35; 128; 0; 0] = Ok (DV TBits (VBits []), [])
  /\ X690.read TBits [35; 128; 35; 0; 3; 2; 1; 254; 0; 0] = Some (ABits [true; true; true; true; true; true; true], [])
  /\ decode BER (Some TBits) [35; 128; 35; 0; 3; 2; 1; 254; 0; 0]
     = Ok (DV TBits (VBits [true; true; true; true; true; true; true]), []).
Proof. exact BerAllForms2.bits_empty_constructed_bits. Qed.

Definition latin1 (n: N) : bool := existsb (N.eqb n) [20; 21; 25; 27; 7].
(* NumericString, PrintableString, IA5String, VisibleString, GeneralizedTime, UTCTime; UTF8String *)
Definition ascii_str (n: N) : bool := existsb (N.eqb n) [18; 19; 22; 26; 24; 23; 12].
Definition non_univ (t: tag) : bool := negb (cls_eqb (tcls t) Univ).

(* the outermost (class, number) of a tagged type: what the reference's may_start looks at *)
Definition outer_key (T: ty) : tclass * N := match first_tags T with Some [k] => k | _ => (Univ, 0) end.
Fixpoint nodupb (l: list (tclass * N)) : bool :=
  match l with [] => true | x :: r => negb (existsb (tag_pair_eqb x) r) && nodupb r end.

(* every simple type (character strings: the latin-1 and the ASCII repertoires), SEQUENCE OF, SET OF,
   SEQUENCE (mandatory, OPTIONAL, DEFAULT components; in every run of OPTIONAL/DEFAULT components up to the
   next mandatory one the outermost tags are distinct), SET of components with distinct outermost tags
   (mandatory, OPTIONAL or DEFAULT), IMPLICIT and EXPLICIT tagging of any class but UNIVERSAL and any
   number, nested to any depth *)
Fixpoint frag (T: ty) : bool :=
  match T with
  | TBool | TInt | TEnum | TBits | TOcts | TNull | TOid | TReal => true
  | TStr n => latin1 n || ascii_str n
  | TSeqOf t | TSetOf t => frag t
  | TSeq fs => forallb (fun f => frag (snd f)) fs
                && forallb (fun idx => nodupb (map outer_key (ambiguous_run (skipn idx fs)))) (seq 0 (length fs))
  | TSet fs => forallb (fun f => frag (snd f)) fs && nodupb (map (fun f => outer_key (snd f)) fs)
  | TImp t x | TExp t x => non_univ t && frag x
  | TChoice _ | TAny => false
  end.

(* the marked (class, number) pairs under which a REAL / an ASCII string can appear in an encoding of T *)
Fixpoint side_keys (T: ty) (e: option (tclass * N)) : list mkey :=
  match T with
  | TReal => [(KR, orkey e (Univ, 9))]
  | TStr n => if ascii_str n then [(KA, orkey e (Univ, n))] else []
  | TImp t x => side_keys x (Some (orkey e (key t)))
  | TExp t x => side_keys x None
  | TSeqOf t | TSetOf t => side_keys t None
  | TSeq fs | TSet fs => flat_map (fun f => side_keys (snd f) None) fs
  | TChoice alts => flat_map (fun a => side_keys a None) alts
  | _ => []
  end.

Lemma abs_base T v : abs T v = abs (base_of T) v. Proof. apply abs_wrappers. Qed.

Lemma first_tags_outer T : tagged_base T = true -> first_tags T = Some [outer_key T].
Proof. destruct T; intros H; try discriminate H; reflexivity. Qed.

Lemma may_start_outer_iff T k : tagged_base T = true -> may_start T k = true <-> k = outer_key T.
Proof.
  intros Htb. unfold may_start. rewrite (first_tags_outer T Htb). cbn [existsb]. rewrite orb_false_r.
  split; [apply BerAllForms2.tag_pair_eqb_eq|]. intros ->. unfold tag_pair_eqb. rewrite !N.eqb_refl. reflexivity.
Qed.

Definition of_kind (q: kind) (L: list mkey) : list mkey := filter (fun x : mkey => kind_eqb (fst x) q) L.

(* side condition 1: every primitive node under a (class, number) a REAL of T can carry has, if it is a
   binary encoding, at least one mantissa octet *)
Definition real_mantissas_present (T: ty) (n: node) : bool := safe (of_kind KR (side_keys T None)) n.
(* side condition 2: under a (class, number) that a character string of T with an ASCII repertoire
   (NumericString, PrintableString, IA5String, VisibleString, the time types, UTF8String) can carry,
   every octet of every primitive leaf is below 128 (the library checks the repertoire, X.690 does not) *)
Definition ascii_strings_ascii (T: ty) (n: node) : bool := safe (of_kind KA (side_keys T None)) n.

(* the marks and the fragment of this file inside those of BerAllForms2 *)
Definition up_kind (q: kind) : BerAllForms2.kind := match q with KR => BerAllForms2.KR | KA => BerAllForms2.KA end.
Definition up (k: mkey) : BerAllForms2.mkey := (up_kind (fst k), snd k).

Lemma mkey_eqb_up a b : BerAllForms2.mkey_eqb (up a) (up b) = mkey_eqb a b.
Proof. destruct a as [[|] x], b as [[|] y]; reflexivity. Qed.

Lemma memk_up k L : BerAllForms2.memk (up k) (map up L) = memk k L.
Proof.
  unfold BerAllForms2.memk, memk. induction L as [|x L IH]; [reflexivity|].
  cbn [map existsb]. rewrite mkey_eqb_up, IH. reflexivity.
Qed.

(* the third kind of mark does not occur *)
Lemma memk_KN x L : BerAllForms2.memk (BerAllForms2.KN, x) (map up L) = false.
Proof. induction L as [|[[|] y] L IH]; [reflexivity|exact IH|exact IH]. Qed.

Lemma of_kind_KN L : BerAllForms2.of_kind BerAllForms2.KN (map up L) = [].
Proof. induction L as [|[[|] y] L IH]; [reflexivity|exact IH|exact IH]. Qed.

Lemma of_kind_up q L : BerAllForms2.of_kind (up_kind q) (map up L) = map up (of_kind q L).
Proof.
  unfold BerAllForms2.of_kind, of_kind. induction L as [|[p x] L IH]; [reflexivity|].
  destruct p, q; cbn [map filter up up_kind fst kind_eqb BerAllForms2.kind_eqb] in *; rewrite IH; reflexivity.
Qed.

Lemma safe_up L : forall n, BerAllForms2.safe (map up L) n = safe L n.
Proof.
  assert (U: forall c num, BerAllForms2.u0_ok (map up L) c num = true)
    by (intros c num; unfold BerAllForms2.u0_ok; rewrite memk_KN; reflexivity).
  induction n as [c num contents raw|c num indef kids raw IH] using BerAllForms2.node_ind'.
  - cbn [safe BerAllForms2.safe]. rewrite U, andb_true_r, (memk_up (KR, (c, num))), (memk_up (KA, (c, num))). reflexivity.
  - cbn [safe BerAllForms2.safe]. rewrite U, andb_true_r, (memk_up (KA, (c, num))).
    replace (forallb (BerAllForms2.safe (map up L)) kids) with (forallb (safe L) kids); [reflexivity|].
    induction IH as [|k kids Hk _ IHk]; [reflexivity|]. cbn [forallb]. rewrite Hk, IHk. reflexivity.
Qed.

Lemma flat_map_up {A} (g: A -> list mkey) (g': A -> list BerAllForms2.mkey) l :
  Forall (fun a => g' a = map up (g a)) l -> flat_map g' l = map up (flat_map g l).
Proof. induction 1 as [|a l Ha _ IH]; [reflexivity|]. cbn [flat_map]. rewrite map_app, Ha, IH. reflexivity. Qed.

Lemma side_keys_up : forall T e, frag T = true -> BerAllForms2.side_keys T e = map up (side_keys T e).
Proof.
  assert (Hfs: forall fs : list (presence * ty),
            Forall (fun f => forall e, frag (snd f) = true -> BerAllForms2.side_keys (snd f) e = map up (side_keys (snd f) e)) fs ->
            forallb (fun f => frag (snd f)) fs = true ->
            flat_map (fun f => BerAllForms2.side_keys (snd f) None) fs = map up (flat_map (fun f => side_keys (snd f) None) fs)).
  { intros fs IH Hf. apply flat_map_up. rewrite Forall_forall in *. rewrite forallb_forall in Hf.
    intros f Hin. apply (IH f Hin None (Hf f Hin)). }
  induction T as [| | | | | | | | n|fs IH|fs IH|t IH|t IH|alts IH| |tg x IH|tg x IH] using ty_ind'; intros e Hf;
    try discriminate Hf; try reflexivity.
  - cbn [side_keys BerAllForms2.side_keys]. change (BerAllForms2.ascii_str n) with (ascii_str n).
    destruct (ascii_str n); reflexivity.
  - cbn [frag] in Hf. apply andb_true_iff in Hf. apply (Hfs fs IH (proj1 Hf)).
  - cbn [frag] in Hf. apply andb_true_iff in Hf. apply (Hfs fs IH (proj1 Hf)).
  - exact (IH None Hf).
  - exact (IH None Hf).
  - cbn [frag] in Hf. apply andb_true_iff in Hf. exact (IH _ (proj2 Hf)).
  - cbn [frag] in Hf. apply andb_true_iff in Hf. exact (IH None (proj2 Hf)).
Qed.

(* a type of this fragment begins with one tag of its own *)
Lemma okeys_frag {A} (g: A -> ty) l : (forall a, In a l -> frag (g a) = true) ->
  flat_map (fun a => BerAllForms2.okeys (g a)) l = map (fun a => outer_key (g a)) l.
Proof.
  induction l as [|a l IH]; intros H; [reflexivity|]. cbn [flat_map map].
  rewrite IH by (intros x Hx; apply H; right; exact Hx). unfold BerAllForms2.okeys at 1.
  specialize (H a (or_introl eq_refl)). destruct (g a); try discriminate H; reflexivity.
Qed.

Lemma frag_up : forall T, frag T = true -> BerAllForms2.frag T = true /\ BerAllForms2.headed T = true.
Proof.
  assert (Hfs: forall fs : list (presence * ty),
            Forall (fun f => frag (snd f) = true -> BerAllForms2.frag (snd f) = true /\ BerAllForms2.headed (snd f) = true) fs ->
            forallb (fun f => frag (snd f)) fs = true ->
            forall f, In f fs -> BerAllForms2.frag (snd f) = true /\ BerAllForms2.mapable (snd f) = true).
  { intros fs IH Hf f Hin. rewrite Forall_forall in IH. rewrite forallb_forall in Hf. specialize (Hf f Hin).
    split; [exact (proj1 (IH f Hin Hf))|]. destruct (snd f); try discriminate Hf; reflexivity. }
  induction T as [| | | | | | | | n|fs IH|fs IH|t IH|t IH|alts IH| |tg x IH|tg x IH] using ty_ind'; intros Hf;
    try discriminate Hf; try (split; reflexivity).
  - split; [exact Hf|reflexivity].
  - split; [|reflexivity]. cbn [frag] in Hf. apply andb_true_iff in Hf. destruct Hf as [Hfs' Hruns].
    pose proof (Hfs fs IH Hfs') as Hc.
    cbn [BerAllForms2.frag]. apply andb_true_iff. split; [apply andb_true_iff; split|].
    + apply forallb_forall. intros f Hin. exact (proj1 (Hc f Hin)).
    + apply orb_true_iff. right. apply forallb_forall. intros f Hin. exact (proj2 (Hc f Hin)).
    + rewrite forallb_forall in *. intros idx Hidx. specialize (Hruns idx Hidx).
      rewrite (okeys_frag (fun t => t)); [exact Hruns|].
      intros t Ht. apply BerAllForms2.run_incl, in_map_iff in Ht. destruct Ht as (f & <- & Hin).
      apply (Hfs' f), (BerAllForms2.in_skipn f idx fs Hin).
  - split; [|reflexivity]. cbn [frag] in Hf. apply andb_true_iff in Hf. destruct Hf as [Hfs' Hnd].
    cbn [BerAllForms2.frag]. apply andb_true_iff. split.
    + apply forallb_forall. intros f Hin. destruct (Hfs fs IH Hfs' f Hin) as [-> ->]. reflexivity.
    + rewrite (okeys_frag snd) by (rewrite forallb_forall in Hfs'; exact Hfs'). exact Hnd.
  - split; [exact (proj1 (IH Hf))|reflexivity].
  - split; [exact (proj1 (IH Hf))|reflexivity].
  - cbn [frag] in Hf. apply andb_true_iff in Hf. destruct Hf as [Hn Hx]. destruct (IH Hx) as [Hx' Hh].
    split; [|exact Hh]. cbn [BerAllForms2.frag]. rewrite Hx', Hh, andb_true_r, andb_true_r. exact Hn.
  - cbn [frag] in Hf. apply andb_true_iff in Hf. destruct Hf as [Hn Hx].
    split; [|reflexivity]. cbn [BerAllForms2.frag]. rewrite (proj1 (IH Hx)), andb_true_r. exact Hn.
Qed.

(* the side conditions of BerAllForms2 on a type of this fragment: the first two are those of this file,
   the third holds since no ANY occurs *)
Lemma side_conditions_up T n : frag T = true ->
  BerAllForms2.real_mantissas_present T n = real_mantissas_present T n
  /\ BerAllForms2.ascii_strings_ascii T n = ascii_strings_ascii T n
  /\ BerAllForms2.any_without_tag_zero T n = true.
Proof.
  intros Hf.
  unfold BerAllForms2.real_mantissas_present, BerAllForms2.ascii_strings_ascii, BerAllForms2.any_without_tag_zero.
  rewrite (side_keys_up T None Hf), (of_kind_up KR), (of_kind_up KA), of_kind_KN, !safe_up.
  split; [reflexivity|]. split; [reflexivity|apply BerAllForms2.safe_nil].
Qed.

(* C09, tree form: whatever TLV tree the reference parses off the front of b and interprets under T as
   the abstract value a, the library's decoder returns a value of T with that abstract value and leaves
   the same remainder *)
Theorem ber_all_forms_tree : forall T b n a tl,
  frag T = true -> wf_bytes b = true -> N.of_nat (length b) <= index_max ->
  parse b = Some (n, tl) -> interp T None n = Some a ->
  real_mantissas_present T n = true -> ascii_strings_ascii T n = true ->
  exists v, decode BER (Some T) b = Ok (DV T v, tl) /\ abs T v = a.
Proof.
  intros T b n a tl Hfr Hwf Hmax Hparse Hint Hr Ha. destruct (side_conditions_up T n Hfr) as (E1 & E2 & E3).
  apply (BerAllForms2.ber_all_forms_tree T b n a tl (proj1 (frag_up T Hfr)) Hwf Hmax Hparse Hint); congruence.
Qed.

(* C09 in the shape of the property: read = parse + interp *)
Theorem ber_all_forms : forall T b a tl,
  frag T = true -> wf_bytes b = true -> N.of_nat (length b) <= index_max ->
  X690.read T b = Some (a, tl) ->
  (forall n r, parse b = Some (n, r) -> real_mantissas_present T n = true /\ ascii_strings_ascii T n = true) ->
  exists v, decode BER (Some T) b = Ok (DV T v, tl) /\ abs T v = a.
Proof.
  intros T b a tl Hfr Hwf Hmax Hread Hsafe.
  apply (BerAllForms2.ber_all_forms T b a tl (proj1 (frag_up T Hfr)) Hwf Hmax Hread).
  intros n r Hp. destruct (side_conditions_up T n Hfr) as (E1 & E2 & E3). rewrite E1, E2. destruct (Hsafe n r Hp). tauto.
Qed.

(* types in which no REAL and no ASCII-repertoire string occurs need no side condition *)
Theorem ber_all_forms_unconditional : forall T b a tl,
  frag T = true -> side_keys T None = [] -> wf_bytes b = true -> N.of_nat (length b) <= index_max ->
  X690.read T b = Some (a, tl) ->
  exists v, decode BER (Some T) b = Ok (DV T v, tl) /\ abs T v = a.
Proof.
  intros T b a tl Hfr Hnb. apply (BerAllForms2.ber_all_forms_unconditional T b a tl (proj1 (frag_up T Hfr))).
  rewrite (side_keys_up T None Hfr), Hnb. reflexivity.
Qed.

(* the hypotheses are satisfiable on an input that uses the liberties of the basic rules: indefinite
   and definite lengths mixed, a long-form length for one octet, over-long length octets, a long-form
   tag number, a segmented BIT STRING with a nested constructed segment under an IMPLICIT tag, a
   constructed character string, an OPTIONAL and a DEFAULT component absent, SET members out of order
   (REAL, BOOLEAN, OID; the DEFAULT member absent), TRUE as 07, a binary REAL, octets left unread *)
Definition ex_T : ty :=
  TSeq [(Req, TExp (mkTag Ctx false 0) TInt); (Opt, TNull); (Def (VBool true), TBool);
        (Req, TImp (mkTag Appl false 40) TBits); (Req, TSeqOf (TStr 20));
        (Req, TSet [(Req, TBool); (Opt, TOid); (Def (VInt 7%Z), TImp (mkTag Ctx false 2) TInt); (Req, TReal)])].
Definition ex_b : bytes :=
  [48; 128;  160; 128; 2; 129; 1; 5; 0; 0;   127; 40; 128; 3; 2; 0; 170; 35; 4; 3; 2; 4; 240; 0; 0;
   48; 131; 0; 0; 5; 52; 3; 4; 1; 200;
   49; 12;  9; 3; 128; 255; 5;   1; 1; 7;   6; 2; 42; 3;
   0; 0;  9; 9].
Definition ex_bits : list bool := [true; false; true; false; true; false; true; false; true; true; true; true].

Example ber_all_forms_nonvacuous :
  frag ex_T = true /\ wf_bytes ex_b = true /\ N.of_nat (length ex_b) <= index_max
  /\ X690.read ex_T ex_b
     = Some (ARec [Some (AInt 5); None; Some (ABool true); Some (ABits ex_bits); Some (AList [AOcts [200]]);
                   Some (ARec [Some (ABool true); Some (AOid [1; 2; 3]); Some (AInt 7); Some (AReal (ABin 5 (-1)))])], [9; 9])
  /\ (forall n r, parse ex_b = Some (n, r) -> real_mantissas_present ex_T n = true /\ ascii_strings_ascii ex_T n = true)
  /\ decode BER (Some ex_T) ex_b
     = Ok (DV ex_T (VRec [Some (VInt 5); None; None; Some (VBits ex_bits); Some (VList [VOcts [200]]);
                          Some (VRec [Some (VBool true); Some (VOid [1; 2; 3]); None; Some (VReal (RBin 5 (-1)))])]), [9; 9]).
Proof.
  split; [vm_compute; reflexivity|]. split; [vm_compute; reflexivity|]. split; [vm_compute; discriminate|].
  split; [vm_compute; reflexivity|]. split; [|vm_compute; reflexivity].
  intros n r H. assert (E: parse ex_b <> None) by (rewrite H; discriminate).
  revert H. destruct (parse ex_b) as [[n0 r0]|] eqn:Hp; [|congruence].
  intros H. inversion H; subst n0 r0. clear H E.
  assert (Hc: match parse ex_b with
              | Some (n1, _) => real_mantissas_present ex_T n1 && ascii_strings_ascii ex_T n1
              | None => false end = true)
    by (vm_compute; reflexivity).
  rewrite Hp in Hc. apply andb_true_iff in Hc. exact Hc.
Qed.

(* the first side condition is needed as the reference stands *)
Example real_refuted_empty_mantissa :
  X690.read TReal [9; 2; 128; 0] = Some (AReal AZero, []) /\ decode BER (Some TReal) [9; 2; 128; 0] = Err EMalformed.
Proof. exact BerAllForms2.real_refuted_empty_mantissa. Qed.

(* the second side condition reflects a check the library makes and X.690 does not *)
Example ascii_refuted_high_octet :
  X690.read (TStr 22) [22; 1; 200] = Some (AOcts [200], []) /\ decode BER (Some (TStr 22)) [22; 1; 200] = Err EUnicode
  /\ X690.read (TStr 22) [54; 128; 4; 1; 72; 36; 3; 4; 1; 105; 0; 0] = Some (AOcts [72; 105], [])
  /\ decode BER (Some (TStr 22)) [54; 128; 4; 1; 72; 36; 3; 4; 1; 105; 0; 0] = Ok (DV (TStr 22) (VOcts [72; 105]), []).
Proof. exact BerAllForms2.ascii_refuted_high_octet. Qed.

Print Assumptions ber_all_forms_tree.
Print Assumptions ber_all_forms.
Print Assumptions ber_all_forms_unconditional.

Definition ber_all_forms_no_bits := ber_all_forms_unconditional.
