(* Stage 3 of the round trip, part (e): ANY - tagged (any octets) and untagged (one complete TLV, where
   the type guides the decoder directly: outermost, element of SEQUENCE OF / SET OF, mandatory component
   of a SEQUENCE that does not end a run of OPTIONAL components) - and the theorem for the whole
   universe. *)
From Coq Require Import Lia Permutation.
From PV Require Import Base.Bytes Model.Tag Model.TableTypes Model.Types Model.Proc Model.Enc Model.Dec Gen.Tables Proofs.ProcBind Proofs.RunLemmas Proofs.TagOctets Proofs.DecHeader Proofs.DecPrim Proofs.RoundTrip1 Proofs.RoundTrip2 Proofs.RoundTrip3 Proofs.RoundTrip3b Proofs.RoundTrip3c Proofs.RoundTrip3d.
Local Open Scope N_scope.

(* the identifier parser reads a prefix of its input and does not look beyond it *)
Lemma dec_b128_reads : forall b acc n r, dec_b128 acc b = Some (n, r) ->
  exists h, b = h ++ r /\ forall tl, dec_b128 acc (h ++ tl) = Some (n, tl).
Proof.
  induction b as [|o b IH]; intros acc n r H; [discriminate H|].
  cbn [dec_b128] in H. destruct (N.eqb (N.land o 128) 0) eqn:E.
  - inversion H; subst. exists [o]. split; [reflexivity|]. intros tl. cbn [app dec_b128]. rewrite E. reflexivity.
  - destruct (IH _ _ _ H) as (h & -> & Hh). exists (o :: h). split; [reflexivity|].
    intros tl. cbn [app dec_b128]. rewrite E. apply Hh.
Qed.

Lemma dec_ident_reads b t r : dec_ident b = Some (t, r) ->
  exists h, b = h ++ r /\ (0 < length h)%nat /\ forall tl, dec_ident (h ++ tl) = Some (t, tl).
Proof.
  destruct b as [|o b]; [discriminate|]. cbn [dec_ident]. cbv zeta. destruct (N.eqb (N.land o 31) 31) eqn:E.
  - destruct (dec_b128 0 b) as [[num r']|] eqn:Eb; [|discriminate]. intros H. inversion H; subst.
    destruct (dec_b128_reads _ _ _ _ Eb) as (h & -> & Hh). exists (o :: h).
    split; [reflexivity|]. split; [cbn [length]; lia|]. intros tl. cbn [app dec_ident]. cbv zeta. rewrite E, Hh. reflexivity.
  - intros H. inversion H; subst. exists [o].
    split; [reflexivity|]. split; [cbn [length]; lia|]. intros tl. cbn [app dec_ident]. cbv zeta. rewrite E. reflexivity.
Qed.

Lemma dec_ident_len b t r : dec_ident b = Some (t, r) -> (length r < length b)%nat.
Proof. intros H. destruct (dec_ident_reads b t r H) as (h & -> & Hl & _). rewrite app_length. lia. Qed.

Lemma dec_len_len b ol r : dec_len b = Some (ol, r) -> (length r < length b)%nat.
Proof.
  destruct b as [|o b]; [discriminate|]. rewrite dec_len_cons.
  destruct (N.ltb o 128); [intros H; inversion H; subst; cbn [length]; lia|].
  destruct (N.eqb o 128); [intros H; inversion H; subst; cbn [length]; lia|]. cbv zeta.
  destruct (Nat.ltb (length b) (N.to_nat (N.land o 127))); [discriminate|].
  intros H. inversion H; subst. rewrite skipn_length. cbn [length]. lia.
Qed.

Lemma dec_call_header_g : forall c f sp acc sfun bs tl t r1 n r2 s,
  dec_ident bs = Some (t, r1) -> dec_len r1 = Some (Some n, r2) ->
  avail s = bs ++ tl ->
  (length bs - length r1 <= S f)%nat ->
  resume (dec_call c (S f) sp acc None false sfun) s =
  resume (dispatch c (dec_call c f) f sp (t :: acc) (Some n) sfun)
         (adv (setmark s (pos s)) (length bs - length r2)).
Proof.
  intros c f sp acc sfun bs tl t r1 n r2 s Hid Hdl Hav Hlen.
  pose proof (dec_ident_len _ _ _ Hid) as L1. pose proof (dec_len_len _ _ _ Hdl) as L2.
  cbn [dec_call]. unfold dec_body. cbn [andb]. cbn [resume].
  set (s0 := setmark s (pos s)).
  assert (Hav0: avail s0 = bs ++ tl) by exact Hav.
  pose proof (dec_ident_app bs t r1 tl Hid) as Hid'.
  assert (Hcons: (length (bs ++ tl) - length (r1 ++ tl))%nat = (length bs - length r1)%nat) by (rewrite !app_length; lia).
  rewrite (resume_read_tag f (bs ++ tl) t (r1 ++ tl) s0 _ Hid' Hav0) by (rewrite Hcons; exact Hlen).
  rewrite Hcons.
  assert (Hav1: avail (adv s0 (length bs - length r1)) = r1 ++ tl).
  { rewrite avail_adv, Hav0. destruct (dec_ident_reads bs t r1 Hid) as (h & -> & _).
    rewrite app_length, Nat.add_sub, <- app_assoc. apply skipn_app_exact. }
  pose proof (dec_len_app r1 (Some n) r2 tl Hdl) as Hdl'.
  rewrite (resume_read_length c (r1 ++ tl) (Some n) (r2 ++ tl) _ _ Hdl' Hav1) by discriminate.
  rewrite adv_adv. f_equal. f_equal. rewrite !app_length. lia.
Qed.

Lemma tlv_ok_inv b : tlv_ok b = true ->
  exists t r1 r2, dec_ident b = Some (t, r1) /\ dec_len r1 = Some (Some (N.of_nat (length r2)), r2)
    /\ (cls_eqb (tcls t) Univ && N.eqb (tnum t) 0)%bool = false.
Proof.
  unfold tlv_ok. intros H.
  destruct (dec_ident b) as [[t r1]|]; [|discriminate].
  destruct (dec_len r1) as [[[n|] r2]|] eqn:El; try discriminate.
  apply Bool.andb_true_iff in H. destruct H as [H1 H2].
  apply N.eqb_eq in H1. subst n.
  exists t, r1, r2. split; [reflexivity|]. split; [exact El|].
  destruct (cls_eqb (tcls t) Univ && N.eqb (tnum t) 0)%bool; [discriminate H2|reflexivity].
Qed.

Section Stage3e.
  Variables ce cd : codec.
  Hypothesis Hce : enc_ok ce.
  Variable R : aval -> aval -> Prop.
  Variable srt : bool.
  Hypothesis HR : rel_ok R srt.

  Lemma any_codecs T' : base_of T' = TAny ->
    (exists fl, concrete_encoder ce T' = Ok (EcAny, fl) /\ ef_indef fl = true)
    /\ by_type cd T' = Some (DcAny, mkDecFlags true (Some KAny)).
  Proof.
    intros Hb. split.
    - rewrite concrete_encoder_base, Hb. destruct Hce as [E|E]; rewrite E; eexists; (split; [vm_compute; reflexivity|reflexivity]).
    - rewrite by_type_base, Hb. destruct cd; vm_compute; reflexivity.
  Qed.

  Lemma any_octets v : (match v with VAny _ | VOcts _ => true | _ => false end) = true ->
    exists bs, octets_of v = Some bs /\ abs TAny v = AAny bs.
  Proof. destruct v; intros H; try discriminate H; eexists; split; reflexivity. Qed.

  Lemma any_val_tagged srt0 T' : base_of T' = TAny -> is_wrapped T' = true -> stage3_ty srt0 ce T' = true ->
    forall v, stage3_val ce cd T' v = true -> val_ok ce cd R T' v.
  Proof.
    intros Hb Hwr Hty v Hv.
    apply (val_ok_wrapped ce cd Hce R srt0 T' v ltac:(unfold untagged_base; rewrite Hb; reflexivity) Hwr Hty).
    assert (Hvo: (match v with VAny _ | VOcts _ => true | _ => false end) = true).
    { clear - Hb Hwr Hv. revert Hb Hv. induction T' as [| | | | | | | | n|fs IH|fs IH|t IH|t IH|alts IH| |tg x IH|tg x IH] using ty_ind';
        intros Hb Hv; try discriminate Hwr; cbn [base_of] in Hb; cbn [stage3_val] in Hv; rewrite Hb in Hv; exact Hv. }
    destruct (any_octets v Hvo) as (bs & Hoct & Habs).
    destruct (any_codecs T' Hb) as [(fl0 & Hcenc0 & _) Hby].
    intros ec fl content cns Hcenc Hcont Hmax. rewrite Hcenc0 in Hcenc. inversion Hcenc; subst ec fl; clear Hcenc.
    rewrite Hb in Hcont. cbn [enc_content] in Hcont. rewrite Hoct in Hcont. inversion Hcont; subst content cns; clear Hcont.
    exists (VAny bs). split; [rewrite Hb, Habs; apply (r_refl _ _ HR)|].
    exists DcAny, (mkDecFlags true (Some KAny)). split; [exact Hby|].
    intros f Hf. cbn [dec_value]. unfold dec_any. rewrite tagset_eqb_refl. cbn [negb pbind].
    apply consumes_ret; [split; lia|]. unfold create. rewrite Hb. reflexivity.
  Qed.

  (* the untagged ANY guided by its own type: the decoder goes back to the start of the header *)
  Lemma any_item v : stage3_val ce cd TAny v = true -> item_sty ce cd R TAny v.
  Proof.
    intros Hv p Ep Hmax.
    assert (Hvo: exists bs, octets_of v = Some bs /\ abs TAny v = AAny bs /\ tlv_ok bs = true).
    { destruct v; try discriminate Hv; eexists; (split; [reflexivity|split; [reflexivity|exact Hv]]). }
    destruct Hvo as (bs & Hoct & Habs & Htlv).
    destruct (any_codecs TAny eq_refl) as [(fl & Hcenc & Hsi) Hby].
    destruct (enc_with_inv_g ce Hce _ _ p Ep) as (ec & fl' & ts & content & cns & Hcenc' & Hts' & Hcont & Hfr).
    rewrite Hcenc in Hcenc'. inversion Hcenc'; subst ec fl'; clear Hcenc'.
    cbn [tagset_of] in Hts'. inversion Hts'; subst ts; clear Hts'.
    cbn [enc_content] in Hcont. rewrite Hoct in Hcont. inversion Hcont; subst content cns; clear Hcont.
    cbn [frame] in Hfr. inversion Hfr; subst p; clear Hfr.
    destruct (tlv_ok_inv bs Htlv) as (t & r1 & content & Hid & Hdl & Hneoo).
    pose proof (dec_ident_len _ _ _ Hid) as L1. pose proof (dec_len_len _ _ _ Hdl) as L2.
    exists (VAny bs). split; [rewrite Habs; apply (r_refl _ _ HR)|].
    split; [lia|].
    intros f Hf. unfold fuel_ok in Hf. cbn [ty_depth] in Hf.
    destruct f as [|f']; [lia|].
    intros s tl Hav.
    rewrite (dec_call_header_g cd f' (STy TAny) [] false bs tl t r1 _ content s Hid Hdl Hav) by lia.
    set (hl := (length bs - length content)%nat).
    set (s1 := adv (setmark s (pos s)) hl).
    (* the dispatch: the untagged ANY takes every tag but the end-of-octets marker *)
    unfold dispatch.
    assert (Hcontains: (tagset_eqb [t] (tagset_of' TAny) || tm_contains (tagmap_of TAny) [t])%bool = true).
    { cbn [tagset_of' tagset_of tagmap_of]. unfold tm_contains, tm_find, tm_mem, eoo_tagset. cbn [tm_present tm_default tm_skip assoc existsb].
      change (tagset_eqb [t] []) with false. cbn [orb].
      change (tagset_eqb [t] [utag false 0]) with (tag_eqb t (utag false 0) && true)%bool.
      unfold tag_eqb, utag. cbn [tcls tnum]. rewrite Hneoo. reflexivity. }
    rewrite Hcontains. change (tm_postponed (tagmap_of TAny)) with false. cbv iota. rewrite Hby.
    rewrite resume_tell. cbn [dec_value]. unfold dec_any.
    change (tagset_eqb [t] (tagset_of' TAny)) with false. cbn [negb].
    (* back to the mark, then the whole TLV *)
    assert (Hlenb: length bs = (hl + length content)%nat) by (subst hl; lia).
    set (s2 := setpos s1 (pos s1 - (pos s1 - mark s1))).
    assert (Hstep1: resume (let! m := getmark in let! p := tell in
                            SeekBack (p - m) (Ret (N.of_nat (length content) + N.of_nat (p - m)))) s1
                    = inr (Ok (N.of_nat (length bs)), s2)).
    { unfold getmark, tell. cbn [pbind resume]. fold s2. f_equal. f_equal. f_equal.
      change (mark s1) with (pos s). change (pos s1) with (pos s + hl)%nat. lia. }
    assert (Hs2: avail s2 = bs ++ tl).
    { subst s2. unfold avail, setpos. cbn [pos arrived]. change (mark s1) with (pos s). change (pos s1) with (pos s + hl)%nat.
      replace (pos s + hl - (pos s + hl - pos s))%nat with (pos s) by lia. exact Hav. }
    assert (Hps2: pos s2 = pos s).
    { subst s2. unfold setpos. cbn [pos]. change (mark s1) with (pos s). change (pos s1) with (pos s + hl)%nat. lia. }
    assert (Hstep2: resume (let! len' := (let! m := getmark in let! p := tell in
                                          SeekBack (p - m) (Ret (N.of_nat (length content) + N.of_nat (p - m)))) in
                            let! b := read_len f' len' in create (Some TAny) TAny [t] (VAny b)) s1
                    = inr (Ok (DV TAny (VAny bs)), adv s2 (length bs))).
    { rewrite (resume_pbind_done _ _ _ _ _ Hstep1).
      rewrite (resume_read_len f' bs tl s2 _ Hs2 Hmax) by lia. reflexivity. }
    rewrite (resume_pbind_done _ _ _ _ _ Hstep2). rewrite resume_tell.
    change (pos (adv s2 (length bs))) with (pos s2 + length bs)%nat. rewrite Hps2.
    change (pos s1) with (pos s + hl)%nat.
    replace (pos s + length bs - (pos s + hl))%nat with (length content) by lia.
    rewrite N.eqb_refl. cbn [resume].
    exists (adv s2 (length bs)). split; [reflexivity|]. split; [rewrite pos_adv, Hps2; reflexivity|]. split; reflexivity.
  Qed.
End Stage3e.

Lemma frag_all : forall T, frag true true T = true.
Proof.
  induction T as [| | | | | | | | n|fs IH|fs IH|t IH|t IH|alts IH| |tg x IH|tg x IH] using ty_ind'; try reflexivity; cbn [frag]; try exact IH.
  - apply forallb_forall. intros f Hin. rewrite Forall_forall in IH. exact (IH f Hin).
  - cbn [andb]. apply forallb_forall. intros f Hin. rewrite Forall_forall in IH. exact (IH f Hin).
  - apply forallb_forall. intros a Hin. rewrite Forall_forall in IH. exact (IH a Hin).
Qed.

(* [stage3_decode] with SET and ANY supplied: the whole universe, for any admissible relation between
   abstract contents *)
Theorem stage3_generic : forall ce cd R srt, enc_ok ce -> rel_ok R srt -> forall T v b tl,
  stage3_ty srt ce T = true -> stage3_val ce cd T v = true ->
  encode ce true 0 T v = Ok b -> N.of_nat (length b) <= index_max ->
  exists v', decode cd (Some T) (b ++ tl) = Ok (DV T v', tl) /\ R (abs T v') (abs T v).
Proof.
  intros ce cd R srt Hce HR T v b tl Hty Hv He Hmax.
  apply (stage3_decode ce cd Hce R srt HR true true); try assumption.
  - intros _ T' fs. exact (set_val ce cd Hce R srt HR (Pv3 ce cd) T' fs).
  - intros _ x Hx. exact (any_item ce cd Hce R srt HR x Hx).
  - intros _ T' Hb Hwr Hty' x Hx. exact (any_val_tagged ce cd Hce R srt HR srt T' Hb Hwr Hty' x Hx).
  - apply frag_all.
Qed.

(* Round trip, stage 3: the whole universe - simple types, SEQUENCE OF, SET OF, SEQUENCE and SET with
   mandatory, OPTIONAL and DEFAULT components, CHOICE, ANY, IMPLICIT/EXPLICIT tagging, to any depth -
   written by the BER or the DER encoder (definite lengths, unsegmented), read by the BER, the CER or the
   DER decoder.  [stage3_ty false ce]: the well-formedness the decoder needs (keys of the siblings of a SET,
   of a CHOICE, of a run of OPTIONAL components are not suffixes of one another; untagged ANY only where
   the type guides the decoder directly; no IMPLICIT tag directly on CHOICE/ANY); SET OF only with the BER
   encoder here (the DER encoder sorts the elements: see [roundtrip_stage3_bag]).  [stage3_val ce cd]: the
   value fits the type, leaves as in stage 1, a present OPTIONAL component is not emptied by the DER
   encoder (defect F24), an untagged ANY holds one TLV of definite length (header in any form). *)
Theorem roundtrip_stage3 : forall ce cd T v b tl,
  enc_ok ce -> stage3_ty false ce T = true -> stage3_val ce cd T v = true ->
  encode ce true 0 T v = Ok b -> N.of_nat (length b) <= index_max ->
  exists v', decode cd (Some T) (b ++ tl) = Ok (DV T v', tl) /\ abs T v' = abs T v.
Proof.
  intros ce cd T v b tl Hce Hty Hv He Hmax.
  exact (stage3_generic ce cd eq false Hce rel_ok_eq T v b tl Hty Hv He Hmax).
Qed.

Print Assumptions roundtrip_stage3.

(* equality of abstract contents up to the order of the elements of SET OF (ABag), at any depth *)
Inductive aeq : aval -> aval -> Prop :=
| aeq_refl a : aeq a a
| aeq_list xs ys : Forall2 aeq xs ys -> aeq (AList xs) (AList ys)
| aeq_bag xs ys zs : Permutation xs zs -> Forall2 aeq zs ys -> aeq (ABag xs) (ABag ys)
| aeq_rec xs ys : Forall2 (opt_rel aeq) xs ys -> aeq (ARec xs) (ARec ys)
| aeq_choice i a b : aeq a b -> aeq (AChoice i a) (AChoice i b).

Lemma rel_ok_aeq : rel_ok aeq true.
Proof.
  constructor.
  - exact aeq_refl.
  - exact aeq_list.
  - intros xs ys H. exact (aeq_bag xs ys xs (Permutation_refl _) H).
  - exact aeq_rec.
  - exact aeq_choice.
  - intros _ xs ys zs Hp HF. exact (aeq_bag xs ys zs Hp HF).
Qed.

(* Round trip, stage 3, with SET OF under the DER encoder as well *)
Theorem roundtrip_stage3_bag : forall ce cd T v b tl,
  enc_ok ce -> stage3_ty true ce T = true -> stage3_val ce cd T v = true ->
  encode ce true 0 T v = Ok b -> N.of_nat (length b) <= index_max ->
  exists v', decode cd (Some T) (b ++ tl) = Ok (DV T v', tl) /\ aeq (abs T v') (abs T v).
Proof.
  intros ce cd T v b tl Hce Hty Hv He Hmax.
  exact (stage3_generic ce cd aeq true Hce rel_ok_aeq T v b tl Hty Hv He Hmax).
Qed.

Print Assumptions roundtrip_stage3_bag.

(* the hypotheses are met (BER encoder and decoder for the first, DER encoder and decoder for the second):
   [APPLICATION 9] EXPLICIT SEQUENCE { ANY, [0] EXPLICIT ANY OPTIONAL,
       SET { [1] IMPLICIT [2] EXPLICIT ANY OPTIONAL, BOOLEAN DEFAULT FALSE, CHOICE { INTEGER, [3] EXPLICIT SEQUENCE OF ANY } },
       SET OF ANY, UTF8String OPTIONAL } *)
Definition stage3_example_ty : ty :=
  TExp (mkTag Appl false 9)
   (TSeq [ (Req, TAny);
           (Opt, TExp (mkTag Ctx false 0) TAny);
           (Req, TSet [ (Opt, TImp (mkTag Ctx false 1) (TExp (mkTag Ctx false 2) TAny));
                        (Def (VBool false), TBool);
                        (Req, TChoice [TInt; TExp (mkTag Ctx false 3) (TSeqOf TAny)]) ]);
           (Req, TSetOf TAny);
           (Opt, TStr 12) ]).
Definition stage3_example_val : val :=
  VRec [ Some (VAny [4; 2; 7; 8]);
         Some (VAny [255; 255; 255]);
         Some (VRec [ Some (VOcts [1; 2; 3]); Some (VBool true); Some (VChoice 1 (VList [VAny [5; 0]; VAny [160; 3; 2; 1; 5]])) ]);
         Some (VList [VAny [2; 1; 9]; VAny [1; 1; 0]]);
         None ].

Example roundtrip_stage3_nonvacuous :
  stage3_ty false BER stage3_example_ty = true
  /\ stage3_val BER BER stage3_example_ty stage3_example_val = true
  /\ encode BER true 0 stage3_example_ty stage3_example_val
     = Ok [105; 40; 48; 38; 4; 2; 7; 8; 160; 3; 255; 255; 255; 49; 19; 161; 3; 1; 2; 3; 1; 1; 1; 163; 9; 48; 7; 5; 0;
           160; 3; 2; 1; 5; 49; 6; 2; 1; 9; 1; 1; 0]
  /\ N.of_nat 42 <= index_max.
Proof. vm_compute. repeat split; try reflexivity; discriminate. Qed.

Example roundtrip_stage3_bag_nonvacuous :
  stage3_ty true DER stage3_example_ty = true
  /\ stage3_val DER DER stage3_example_ty stage3_example_val = true
  /\ encode DER true 0 stage3_example_ty stage3_example_val
     = Ok [105; 40; 48; 38; 4; 2; 7; 8; 160; 3; 255; 255; 255; 49; 19; 1; 1; 255; 161; 3; 1; 2; 3; 163; 9; 48; 7; 5; 0;
           160; 3; 2; 1; 5; 49; 6; 1; 1; 0; 2; 1; 9]
  /\ N.of_nat 42 <= index_max.
Proof. vm_compute. repeat split; try reflexivity; discriminate. Qed.

(* with equality instead of [aeq] the statement is false for the DER encoder: the elements come back sorted *)
Example der_setof_reorders :
  encode DER true 0 (TSetOf TInt) (VList [VInt 2; VInt 1]) = Ok [49; 6; 2; 1; 1; 2; 1; 2]
  /\ decode DER (Some (TSetOf TInt)) [49; 6; 2; 1; 1; 2; 1; 2] = Ok (DV (TSetOf TInt) (VList [VInt 1; VInt 2]), [])
  /\ abs (TSetOf TInt) (VList [VInt 1; VInt 2]) <> abs (TSetOf TInt) (VList [VInt 2; VInt 1])
  /\ aval_eqb (abs (TSetOf TInt) (VList [VInt 1; VInt 2])) (abs (TSetOf TInt) (VList [VInt 2; VInt 1])) = true.
Proof. vm_compute. repeat split; try reflexivity; discriminate. Qed.

(* an untagged ANY may hold a TLV whose length is not in the minimal form *)
Example any_nonminimal_header :
  stage3_val BER DER (TSeqOf TAny) (VList [VAny [4; 129; 1; 7]]) = true
  /\ encode BER true 0 (TSeqOf TAny) (VList [VAny [4; 129; 1; 7]]) = Ok [48; 4; 4; 129; 1; 7]
  /\ decode DER (Some (TSeqOf TAny)) [48; 4; 4; 129; 1; 7] = Ok (DV (TSeqOf TAny) (VList [VAny [4; 129; 1; 7]]), []).
Proof. vm_compute. repeat split; reflexivity. Qed.

(* where the untagged ANY is excluded: (1) the round trip is false of the model; (2) it holds on the
   input shown, and fails with an EXPLICIT-tagged sibling as in (1) *)

(* (1) an untagged ANY ending a run of OPTIONAL components: the catch-all entry of the run's tag map takes the outer
   tag of an EXPLICIT-tagged OPTIONAL component for the ANY, and the input is refused:
   SEQUENCE { [0] EXPLICIT INTEGER OPTIONAL, ANY } with the optional component present *)
Example any_after_optional_explicit :
  let T := TSeq [(Opt, TExp (mkTag Ctx false 0) TInt); (Req, TAny)] in
  let v := VRec [Some (VInt 5); Some (VAny [5; 0])] in
  stage3_ty false BER T = false                                  (* only because of the keys of the run *)
  /\ stage3_val BER BER T v = true
  /\ encode BER true 0 T v = Ok [48; 7; 160; 3; 2; 1; 5; 5; 0]
  /\ decode BER (Some T) [48; 7; 160; 3; 2; 1; 5; 5; 0] = Err EMalformed
  /\ (* with the optional component absent, or tagged IMPLICIT, it is accepted *)
     decode BER (Some T) [48; 2; 5; 0] = Ok (DV T (VRec [None; Some (VAny [5; 0])]), [])
  /\ decode BER (Some (TSeq [(Opt, TImp (mkTag Ctx false 0) TInt); (Req, TAny)])) [48; 5; 128; 1; 5; 5; 0]
     = Ok (DV (TSeq [(Opt, TImp (mkTag Ctx false 0) TInt); (Req, TAny)]) (VRec [Some (VInt 5); Some (VAny [5; 0])]), []).
Proof. vm_compute. repeat split; reflexivity. Qed.

(* (2) an untagged ANY as alternative of an untagged CHOICE: formerly the ANY came back without its header octets (the
   marked position was reset when the CHOICE decoder re-entered the item decoder); since the repair of the library the
   element-start mark is kept on re-entry and the round trip holds on this input.  The case stays outside [stage3_ty]
   (the empty key of the ANY is refused by [keys_ok]): the ANY is the catch-all of the tag map, so it also takes the
   outer tag of an EXPLICIT-tagged sibling, as in (1) - see the last line. *)
Example any_alternative_keeps_header :
  let T := TChoice [TInt; TAny] in
  stage3_ty false BER T = false
  /\ encode BER true 0 T (VChoice 1 (VAny [5; 0])) = Ok [5; 0]
  /\ decode BER (Some T) [5; 0] = Ok (DV T (VChoice 1 (VAny [5; 0])), [])
  /\ decode DER (Some T) [4; 129; 1; 9] = Ok (DV T (VChoice 1 (VAny [4; 129; 1; 9])), [])
  /\ decode BER (Some T) [2; 1; 7] = Ok (DV T (VChoice 0 (VInt 7)), [])
  /\ (let T2 := TChoice [TExp (mkTag Ctx false 0) TInt; TAny] in
      encode BER true 0 T2 (VChoice 0 (VInt 5)) = Ok [160; 3; 2; 1; 5]
      /\ decode BER (Some T2) [160; 3; 2; 1; 5] = Ok (DV T2 (VChoice 1 (VAny [160; 3; 2; 1; 5])), [])).
Proof. vm_compute. repeat split; reflexivity. Qed.

(* what the non-emptiness condition on a present OPTIONAL component excludes: contents that are empty and either
   constructed (SEQUENCE / SET with nothing to write, SEQUENCE OF / SET OF without elements: defect F24) or not framed
   at all (an untagged ANY holding no octets) *)
Lemma nonempty_enc_false ce T v : enc_ok ce -> nonempty_enc ce T v = false ->
  exists ec fl ts cns, concrete_encoder ce T = Ok (ec, fl) /\ tagset_of T = Ok ts
    /\ enc_content ce T ec fl def_opts v = Ok ([], cns) /\ (ts = [] \/ cns = true).
Proof.
  intros Hce H. unfold nonempty_enc, encw, enc_with in H.
  assert (Hf1: fix_opts ce ifne_opts = ifne_opts) by (destruct Hce as [E|E]; rewrite E; reflexivity).
  rewrite Hf1 in H.
  destruct (concrete_encoder ce T) as [[ec fl]|e]; cbn [bind] in H; [|discriminate].
  destruct (tagset_of T) as [ts|e]; cbn [bind] in H; [|discriminate].
  change (mkOpts (o_def ifne_opts) (o_chunk ifne_opts) false) with def_opts in H.
  destruct (enc_content ce T ec fl def_opts v) as [[content cns]|e] eqn:Ec; cbn [bind] in H; [|discriminate].
  destruct ts as [|t0 r].
  - cbn [frame] in H. destruct content; [|discriminate H].
    exists ec, fl, [], cns. split; [reflexivity|]. split; [reflexivity|]. split; [exact Ec|]. left. reflexivity.
  - cbn [frame] in H. cbn [o_ifne o_def ifne_opts] in H.
    destruct content as [|c0 content].
    + destruct cns.
      * exists ec, fl, (t0 :: r), true. split; [reflexivity|]. split; [reflexivity|]. split; [exact Ec|]. right. reflexivity.
      * exfalso. cbn [andb] in H.
        destruct (frame_one t0 false true (ef_indef fl) []) as [s0|e] eqn:E0; cbn [bind] in H; [|discriminate].
        destruct (frame_outer r false true (ef_indef fl) s0) as [bb|e] eqn:E1; [|discriminate].
        pose proof (frame_outer_length _ _ _ _ _ E1) as Hl. destruct (frame_one_length _ _ _ _ _ E0) as (l & -> & Hl0).
        pose proof (enc_tag_nonempty t0 false). rewrite !app_length in Hl. destruct bb; [cbn [length] in Hl; lia|discriminate H].
    + exfalso. cbn [andb] in H.
      assert (Hd: (if cns then true else true) = true) by (destruct cns; reflexivity). rewrite Hd in H.
      destruct (frame_one t0 cns true (ef_indef fl) (c0 :: content)) as [s0|e] eqn:E0; cbn [bind] in H; [|discriminate].
      destruct (frame_outer r cns true (ef_indef fl) s0) as [bb|e] eqn:E1; [|discriminate].
      pose proof (frame_outer_length _ _ _ _ _ E1) as Hl. destruct (frame_one_length _ _ _ _ _ E0) as (l & -> & Hl0).
      rewrite !app_length in Hl. cbn [length] in Hl. destruct bb; [cbn [length] in Hl; lia|discriminate H].
Qed.
