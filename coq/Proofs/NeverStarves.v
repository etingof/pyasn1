(* C08, part 2: NO STARVATION - the structural fuel of the decoder model is always sufficient.

   All recursion in Model/Dec.v is on explicit fuel; running out of it is the outcome [Err EOutOfFuel]
   ("the model declines").  This file proves that on a complete input b, with a guiding type of nesting
   depth D (1 without a guiding type), any fuel

        fuel >= 2 * length b + 2 * D

   is enough: [decode_with c fuel sp b <> Err EOutOfFuel], for every codec, every guiding type (no
   well-formedness condition) or none and EVERY byte string; [decode]'s own choice
   [dec_fuel sp b = 2 * length b + 2 * depth + 6] satisfies the bound.

   The argument: a potential 2 * (octets left) + 2 * (depth of the specification) [+ 2 on re-entry after
   the header] that every nested call of the entry point decreases -
     * a call that reads a header consumes at least two octets before it calls anything;
     * a call re-entered after the header (the untagged CHOICE) consumes nothing but descends one level of
       the guiding type;
     * the fragments of constructed strings have a specification of depth 1 and are only asked for after a
       header was read or inside a re-entered call, which pays the "+ 2";
   and every loop (fragments, components, end-of-octets search, long tag numbers) consumes at least one
   octet per iteration, its fuel being larger than the number of octets left.  The seek-back of the ANY
   decoder goes to the marked position, which the entry point set before reading the header. *)
From Coq Require Import Lia.
From PV Require Import Base.Bytes Model.Tag Model.TableTypes Model.Types Model.Proc Model.Enc Model.Dec Gen.Tables Proofs.Basics Proofs.DecSound Proofs.NeverCrashes.
Local Open Scope nat_scope.

Lemma ty_depth_pos T : 1 <= ty_depth T.
Proof. destruct T; cbn [ty_depth]; lia. Qed.

Lemma ty_depth_base T : ty_depth (base_of T) <= ty_depth T.
Proof. induction T; cbn [base_of ty_depth]; lia. Qed.

Lemma fold_max_In {X} (g: X -> nat) x l : In x l -> g x <= fold_right (fun y acc => Nat.max (g y) acc) O l.
Proof.
  induction l as [|y r IH]; intros H; [destruct H|]. cbn [fold_right]. destruct H as [->|H]; [lia|].
  specialize (IH H). lia.
Qed.

(* every type a tag map can hand out has depth at most D *)
Definition mbound (D: nat) (m: tmap) : Prop :=
  (forall e, In e (tm_present m) -> ty_depth (snd e) <= D) /\ (forall x, tm_default m = Some x -> ty_depth x <= D).

Lemma fold_left_inv {X Y} (P: X -> Prop) (f: X -> Y -> X) l :
  (forall x y, P x -> P (f x y)) -> forall x, P x -> P (fold_left f l x).
Proof. intros Hf. induction l as [|y l IH]; cbn [fold_left]; auto. Qed.

Lemma mbound_combine D u : forall l acc, mbound D acc ->
  (forall m T, In (m, T) l -> mbound D m /\ ty_depth T <= D) -> mbound D (combine_maps u l acc).
Proof.
  induction l as [|[m T] r IH]; intros acc Hacc Hl; cbn [combine_maps]; [exact Hacc|]. cbv zeta.
  apply IH; [|intros m' T' Hin; apply Hl; right; exact Hin].
  destruct (Hl m T (or_introl eq_refl)) as [[Hm1 Hm2] HT]. destruct Hacc as [Ha1 Ha2].
  split; cbn [tm_present tm_default].
  - apply (fold_left_inv (fun pres => forall e, In e pres -> ty_depth (snd e) <= D)); [|exact Ha1].
    intros pres kt Hp e He. apply in_app_or in He. destruct He as [He|[<-|[]]]; [|exact HT].
    apply filter_In in He. exact (Hp e (proj1 He)).
  - intros x Hx. destruct (tm_default acc) as [d|] eqn:Ed; [inversion Hx; subst; exact (Ha2 x eq_refl)|exact (Hm2 x Hx)].
Qed.

Lemma mbound_empty D : mbound D empty_tmap.
Proof. split; [intros e []|intros x Hx; discriminate Hx]. Qed.

Lemma choice_go_map alts :
  (fix go (l: list ty) : list (tmap * ty) := match l with [] => [] | a :: r => (tagmap_of a, a) :: go r end) alts
  = map (fun a => (tagmap_of a, a)) alts.
Proof. induction alts as [|a r IH]; [reflexivity|]. cbn [map]. rewrite <- IH. reflexivity. Qed.

Lemma mbound_tagmap_of : forall T D, ty_depth T <= D -> mbound D (tagmap_of T).
Proof.
  induction T using ty_ind'; intros D HD;
    try (split; cbn [tagmap_of tm_present tm_default]; [intros e [<-|[]]; exact HD|intros x Hx; inversion Hx; subst; exact HD]).
  cbn [tagmap_of]. rewrite choice_go_map. apply mbound_combine; [apply mbound_empty|].
  intros m T Hin. apply in_map_iff in Hin. destruct Hin as (a & Ha & Hin). inversion Ha; subst.
  pose proof (fold_max_In ty_depth T alts Hin) as Hd. cbn [ty_depth] in HD.
  rewrite Forall_forall in H. split; [apply (H T Hin)|]; lia.
Qed.

Lemma mbound_fields D u fs : (forall t, In t fs -> ty_depth t <= D) -> mbound D (fields_tagmap u fs).
Proof.
  intros H. unfold fields_tagmap. apply mbound_combine; [apply mbound_empty|].
  intros m T Hin. apply in_map_iff in Hin. destruct Hin as (a & Ha & Hin). inversion Ha; subst.
  split; [apply mbound_tagmap_of|]; exact (H T Hin).
Qed.

Lemma tm_get_bound D m ts T : mbound D m -> tm_get m ts = Ok (Some T) -> ty_depth T <= D.
Proof.
  intros [H1 H2] H. unfold tm_get in H. destruct (tm_postponed m); [discriminate|].
  destruct (tm_find ts (tm_present m)) as [t|] eqn:Ef.
  - inversion H; subst. destruct (assoc_In _ _ _ _ Ef) as (k & Hk & _). exact (H1 _ Hk).
  - destruct (tm_default m) as [d|]; [|discriminate]. destruct (tm_mem ts (tm_skip m)); [discriminate|].
    inversion H; subst. exact (H2 T eq_refl).
Qed.

Definition sbound (sp: spec) (D: nat) : Prop :=
  match sp with SNone => 1 <= D | STy T => ty_depth T <= D | SMap m => mbound D m end.

Definition osbound (o: option spec) (D: nat) : Prop := match o with Some sp => sbound sp D | None => True end.

Lemma sbound_item_pos sp D : sbound (item_spec sp) D -> 1 <= D.
Proof. destruct sp as [T|]; cbn [item_spec sbound]; [pose proof (ty_depth_pos T); lia|auto]. Qed.

(* On a closed stream the input is fixed and only the position and the mark change: the state of a run
   is (q, m).  [wp p q m Q]: from position q with mark m, p neither waits nor runs out of fuel, and if it
   yields a value, Q holds of the value and the final position and mark. *)
Section Closed.
  Variable input : bytes.

  Definition rem (q: nat) : nat := length input - q.

  Fixpoint wp {A} (p: proc A) (q m: nat) (Q: A -> nat -> nat -> Prop) : Prop :=
    match p with
    | Ret a => Q a q m
    | Raise e => e <> EOutOfFuel
    | ReadN n k => if Nat.eqb n 0 then wp (k []) q m Q
                   else if Nat.ltb (rem q) n then True
                   else wp (k (firstn n (skipn q input))) (q + n) m Q
    | Tell k => wp (k q) q m Q
    | SeekBack d k => wp k (q - d) m Q
    | Mark k => wp k q q Q
    | GetMark k => wp (k m) q m Q
    | AtEOS k => wp (k (Nat.eqb (rem q) 0)) q m Q
    | ReadAll k => if Nat.eqb (rem q) 0 then True else wp (k (skipn q input)) (length input) m Q
    end.

  Theorem wp_sound {A} (p: proc A) : forall q m Q, wp p q m Q ->
    exists r q' m', resume p (mkStream input q true m) = inr (r, mkStream input q' true m')
      /\ match r with Ok a => Q a q' m' | Err e => e <> EOutOfFuel end.
  Proof.
    induction p as [a|e|n k IH|k IH|d k IH|k IH|k IH|k IH|k IH]; intros q m Q H;
      cbn [resume wp] in *; unfold attempt, avail; cbn [pos arrived closed mark setpos setmark];
      rewrite ?skipn_length; fold (rem q); try (apply IH, H).
    - exists (Ok a), q, m. split; [reflexivity|exact H].
    - exists (Err e), q, m. split; [reflexivity|exact H].
    - destruct (Nat.eqb n 0); [apply IH, H|]. destruct (Nat.ltb (rem q) n); [|apply IH, H].
      exists (Err EEndOfStream), q, m. split; [reflexivity|discriminate].
    - destruct (Nat.eqb (rem q) 0); apply IH, H.
    - destruct (Nat.eqb (rem q) 0); [|apply IH, H].
      exists (Err EEndOfStream), q, m. split; [reflexivity|discriminate].
  Qed.

  Lemma wp_bind {A B} (p: proc A) (f: A -> proc B) : forall q m Q,
    wp (pbind p f) q m Q = wp p q m (fun a q' m' => wp (f a) q' m' Q).
  Proof.
    induction p as [a|e|n k IH|k IH|d k IH|k IH|k IH|k IH|k IH]; intros q m Q; cbn [pbind wp];
      rewrite ?IH; reflexivity.
  Qed.

  Lemma wp_mono {A} (p: proc A) : forall q m (Q Q': A -> nat -> nat -> Prop),
    wp p q m Q -> (forall a q' m', Q a q' m' -> Q' a q' m') -> wp p q m Q'.
  Proof.
    induction p as [a|e|n k IH|k IH|d k IH|k IH|k IH|k IH|k IH]; intros q m Q Q' H HQ; cbn [wp] in *; eauto.
    - destruct (Nat.eqb n 0); [eauto|]. destruct (Nat.ltb (rem q) n); eauto.
    - destruct (Nat.eqb (rem q) 0); eauto.
  Qed.

  Lemma wp_bind_mono {A B} (p: proc A) (f: A -> proc B) q m (Q0: A -> nat -> nat -> Prop) Q :
    wp p q m Q0 -> (forall a q' m', Q0 a q' m' -> wp (f a) q' m' Q) -> wp (pbind p f) q m Q.
  Proof. rewrite wp_bind. apply wp_mono. Qed.

  (* a read of n octets either ends the run or moves the position by n, within the input *)
  Lemma wp_readN_bind {B} n (f: bytes -> proc B) q m Q :
    (forall b, (n <> 0 -> q + n <= length input) -> wp (f b) (q + n) m Q) -> wp (pbind (readN n) f) q m Q.
  Proof.
    intros H. cbn [pbind readN wp]. destruct (Nat.eqb_spec n 0) as [->|Hn].
    - rewrite <- (Nat.add_0_r q) at 1. apply H. congruence.
    - destruct (Nat.ltb_spec (rem q) n) as [_|Hge]; [exact I|]. apply H. unfold rem in Hge. lia.
  Qed.

  Lemma wp_read1_bind {B} (f: N -> proc B) q m Q :
    (forall o, q + 1 <= length input -> wp (f o) (q + 1) m Q) -> wp (pbind read1 f) q m Q.
  Proof. intros H. apply (wp_readN_bind 1 (fun b => f (hd 0%N b))). intros b Hb. apply H, Hb. discriminate. Qed.

  Lemma wp_lift_bind {A B} (r: res A) (f: A -> proc B) q m Q :
    r <> Err EOutOfFuel -> (forall a, wp (f a) q m Q) -> wp (pbind (lift r) f) q m Q.
  Proof. intros Hr H. destruct r as [a|e]; cbn [lift pbind wp]; [apply H|congruence]. Qed.

  Lemma wp_create sp proto ts v q m (Q: dval -> nat -> nat -> Prop) : (forall d, Q d q m) -> wp (create sp proto ts v) q m Q.
  Proof.
    intros H. unfold create. cbv zeta.
    destruct (base_of (match sp with Some T => T | None => schemaless_ty proto ts end)); destruct v;
      try (cbn [wp]; apply H).
    destruct (str_octets_ok n b) as [[|]|]; cbn [wp]; [apply H|discriminate|discriminate].
  Qed.

  (* the post-conditions used below: at most as many octets are left as at q0 ... *)
  Definition le_ {A} (q0: nat) (_: A) (q _: nat) : Prop := rem q <= rem q0.
  (* ... or, for the ANY decoder, which re-reads the header from the marked position m0: fewer than at m0 *)
  Definition le_or_mark {A} (q0 m0: nat) (_: A) (q _: nat) : Prop :=
    rem q <= rem q0 \/ (m0 < q0 /\ rem q < length input - m0).

  Lemma rem_add q n : rem (q + n) <= rem q.
  Proof. unfold rem. lia. Qed.

  Lemma wp_le_or_mark {A} (p: proc A) q m : wp p q m (le_ q) -> wp p q m (le_or_mark q m).
  Proof. intros H. apply (wp_mono _ _ _ _ _ H). intros a q' m' Hle. left. exact Hle. Qed.

  Definition rs_cost (rs: option (option N)) : nat := match rs with None => 0 | Some _ => 2 end.

  (* what a call of the entry point guarantees: when it begins an element, at least one octet consumed; when
     it is re-entered after the header (the untagged CHOICE) no octet given back - except that an untagged
     ANY re-reads the header of the element from the marked position, which the call that began the element
     set: then it stops beyond that position *)
  Definition call_post (rs: option (option N)) (q0 m0: nat) : dval -> nat -> nat -> Prop :=
    match rs with None => fun _ q _ => rem q < rem q0 | Some _ => le_or_mark q0 m0 end.

  Ltac wraise := cbn [wp]; discriminate.
  (* split on whatever the program branches on next; a branch that raises is done *)
  Ltac wgo :=
    repeat match goal with
           | |- wp (Raise _) _ _ _ => wraise
           | |- wp (if ?b then _ else _) _ _ _ => destruct b
           | |- wp (match ?x with _ => _ end) _ _ _ => destruct x
           end.

  Variable c : codec.
  Variable rec : spec -> tagset -> option (option N) -> bool -> bool -> proc dval.
  Variable lf : nat.
  Hypothesis Hrec : forall sp D ts rs ae sf q m, sbound sp D -> 2 * rem q + 2 * D + rs_cost rs <= lf -> 1 <= lf ->
    wp (rec sp ts rs ae sf) q m (call_post rs q m).

  (* a nested element, then a continuation that runs with fewer octets left *)
  Lemma wp_rec_bind {B} sp D ts ae sf (k: dval -> proc B) q m Q :
    sbound sp D -> 2 * rem q + 2 * D <= lf -> 1 <= lf ->
    (forall d q' m', rem q' < rem q -> wp (k d) q' m' Q) -> wp (pbind (rec sp ts None ae sf) k) q m Q.
  Proof.
    intros Hb Hf Hl. apply wp_bind_mono, (Hrec sp D ts None); [exact Hb|cbn [rs_cost]; lia|exact Hl].
  Qed.

  Lemma wp_reenter_bind {B} sp D ts len ae sf (k: dval -> proc B) q m Q :
    sbound sp D -> 2 * rem q + 2 * D + 2 <= lf ->
    (forall d q' m', le_or_mark q m d q' m' -> wp (k d) q' m' Q) -> wp (pbind (rec sp ts (Some len) ae sf) k) q m Q.
  Proof. intros Hb Hf. apply wp_bind_mono, (Hrec sp D ts (Some len)); [exact Hb|exact Hf|lia]. Qed.

  Definition take (n: N) : nat := N.to_nat (N.min n (N.of_nat (S lf))).

  Lemma wp_read_len_bind {B} n (f: bytes -> proc B) q m Q :
    (forall b, (take n <> 0 -> q + take n <= length input) -> wp (f b) (q + take n) m Q) ->
    wp (pbind (read_len lf n) f) q m Q.
  Proof. intros H. unfold read_len. destruct (N.ltb index_max n); [wraise|]. apply wp_readN_bind, H. Qed.

  Lemma wp_dec_integer sp proto ts len q m : wp (dec_integer lf sp proto ts len) q m (le_ q).
  Proof.
    unfold dec_integer. destruct (negb _); [wraise|]. apply wp_read_len_bind. intros b _.
    apply wp_create. intros d. apply rem_add.
  Qed.

  Lemma wp_dec_bool_cer sp ts len q m : wp (dec_bool_cer lf sp ts len) q m (le_ q).
  Proof.
    unfold dec_bool_cer. destruct (negb _); [wraise|]. apply wp_read_len_bind. intros b _.
    wgo; apply wp_create; intros d; apply rem_add.
  Qed.

  Lemma wp_dec_null sp ts len q m : wp (dec_null lf sp ts len) q m (le_ q).
  Proof.
    unfold dec_null. destruct (negb _); [wraise|]. apply wp_read_len_bind. intros b _.
    destruct b; [|wraise]. apply wp_create. intros d. apply rem_add.
  Qed.

  Lemma wp_dec_oid_v sp ts len q m : wp (dec_oid_v lf sp ts len) q m (le_ q).
  Proof.
    unfold dec_oid_v. destruct (negb _); [wraise|]. apply wp_read_len_bind. intros b _.
    apply wp_lift_bind; [apply (rfine_fuel _ _ (dec_oid_fine b))|]. intros a. apply wp_create. intros d. apply rem_add.
  Qed.

  Lemma wp_dec_real_v sp ts len q m : wp (dec_real_v lf sp ts len) q m (le_ q).
  Proof.
    unfold dec_real_v. destruct (negb _); [wraise|]. apply wp_read_len_bind. intros b _.
    apply wp_lift_bind; [apply (rfine_fuel _ _ (dec_real_fine b))|]. intros a. apply wp_create. intros d. apply rem_add.
  Qed.

  Lemma wp_collector len q m : wp (collector lf len) q m (le_ q).
  Proof.
    unfold collector. destruct len as [n|].
    - apply wp_read_len_bind. intros b _. apply rem_add.
    - cbn [pbind readall wp]. destruct (Nat.eqb (rem q) 0); [exact I|]. unfold le_, rem. lia.
  Qed.

  (* Every loop below has fuel n larger than the number of octets left, and each round begins a nested
     element, so that fewer are left for the next round.  Stated from any position q at or beyond q0. *)

  Lemma wp_octets_loop proto sp ts len start q0 : forall n acc q m,
    rem q <= rem q0 -> rem q < n -> 2 * rem q + 2 <= lf ->
    wp (octets_loop rec proto sp ts len start n acc) q m (le_ q0).
  Proof.
    induction n as [|n IH]; intros acc q m H0 Hn Hf; [lia|]. cbn [octets_loop pbind tell wp].
    destruct (N.ltb _ _); [|apply wp_create; intros d; exact H0].
    apply (wp_rec_bind (STy TOcts) 1); [exact (le_n 1)|lia|lia|]. intros f q' m' Hlt.
    destruct f as [T []| |b| |]; try wraise; apply IH; lia.
  Qed.

  Lemma wp_dec_octets proto fl sp ts len sfun q m : 2 * rem q + 2 <= lf ->
    wp (dec_octets rec lf proto fl sp ts len sfun) q m (le_ q).
  Proof.
    intros Hf. unfold dec_octets. destruct (tag0_simple ts).
    - apply wp_read_len_bind. intros b _. apply wp_create. intros d. apply rem_add.
    - destruct (negb _); [wraise|]. cbn [pbind tell wp]. apply wp_octets_loop; lia.
  Qed.

  Lemma wp_octets_indef_loop proto sp ts q0 : forall n acc q m,
    rem q <= rem q0 -> rem q < n -> 2 * rem q + 2 <= lf ->
    wp (octets_indef_loop rec proto sp ts n acc) q m (le_ q0).
  Proof.
    induction n as [|n IH]; intros acc q m H0 Hn Hf; [lia|]. cbn [octets_indef_loop].
    apply (wp_rec_bind (STy TOcts) 1); [exact (le_n 1)|lia|lia|]. intros f q' m' Hlt.
    destruct f as [T []| |b| |]; try wraise; try (apply IH; lia).
    apply wp_create. intros d. unfold le_. lia.
  Qed.

  Lemma wp_add_bits {B} acc f (k: list bool -> proc B) q m Q :
    (forall acc', wp (k acc') q m Q) -> wp (pbind (add_bits_fragment acc f) k) q m Q.
  Proof. intros H. destruct f as [T []| |b| |]; try wraise. apply H. Qed.

  Lemma wp_bits_loop sp ts len start q0 : forall n acc q m,
    rem q <= rem q0 -> rem q < n -> 2 * rem q + 2 <= lf ->
    wp (bits_loop rec sp ts len start n acc) q m (le_ q0).
  Proof.
    induction n as [|n IH]; intros acc q m H0 Hn Hf; [lia|]. cbn [bits_loop pbind tell wp].
    destruct (N.ltb _ _); [|apply wp_create; intros d; exact H0].
    apply (wp_rec_bind (STy TBits) 1); [exact (le_n 1)|lia|lia|]. intros f q' m' Hlt.
    apply wp_add_bits. intros acc'. apply IH; lia.
  Qed.

  Lemma wp_dec_bits fl sp ts len sfun q m : 2 * rem q + 2 <= lf -> wp (dec_bits rec lf fl sp ts len sfun) q m (le_ q).
  Proof.
    intros Hf. unfold dec_bits. destruct sfun; [apply wp_collector|]. destruct (tag0_simple ts).
    - destruct (N.eqb len 0); [wraise|]. apply wp_read1_bind. intros tb _.
      destruct (N.ltb 7 tb); [wraise|]. apply wp_read_len_bind. intros b _.
      apply wp_lift_bind; [apply (rfine_fuel _ _ (bits_of_octets_fine b tb))|]. intros bs. apply wp_create. intros d.
      unfold le_, rem. lia.
    - destruct (negb _); [wraise|]. cbn [pbind tell wp]. apply wp_bits_loop; lia.
  Qed.

  Lemma wp_bits_indef_loop sp ts q0 : forall n acc q m,
    rem q <= rem q0 -> rem q < n -> 2 * rem q + 2 <= lf ->
    wp (bits_indef_loop rec sp ts n acc) q m (le_ q0).
  Proof.
    induction n as [|n IH]; intros acc q m H0 Hn Hf; [lia|]. cbn [bits_indef_loop].
    apply (wp_rec_bind (STy TBits) 1); [exact (le_n 1)|lia|lia|]. intros f q' m' Hlt.
    destruct f as [T v| |b| |]; try (apply wp_add_bits; intros acc'; apply IH; lia).
    apply wp_create. intros d. unfold le_. lia.
  Qed.

  Lemma wp_dec_bits_indef sp ts sfun q m : 2 * rem q + 2 <= lf -> wp (dec_bits_indef rec lf sp ts sfun) q m (le_ q).
  Proof.
    intros Hf. unfold dec_bits_indef. destruct sfun; [apply wp_collector|]. apply wp_bits_indef_loop; lia.
  Qed.

  Lemma wp_any_result (sfun: bool) b sp ts v q m (Q: dval -> nat -> nat -> Prop) :
    (forall d, Q d q m) -> wp (if sfun then Ret (DRaw b) else create sp TAny ts v) q m Q.
  Proof. intros H. destruct sfun; [apply H|apply wp_create, H]. Qed.

  (* an untagged ANY goes back to the mark and reads the header again with the contents: it ends where the
     contents end, or the read fails; were the read cut short (lengths beyond the fuel), it would still end
     beyond the mark *)
  Lemma wp_dec_any sp ts len sfun q m : wp (dec_any lf sp ts len sfun) q m (le_or_mark q m).
  Proof.
    unfold dec_any. cbv zeta.
    destruct (match sp with None => true | Some T => negb (tagset_eqb ts (tagset_of' T)) end);
      cbn [pbind getmark tell wp]; apply wp_read_len_bind; intros b Hb; apply wp_any_result; intros d.
    - unfold le_or_mark, rem, take in *. lia.
    - left. apply rem_add.
  Qed.

  Lemma wp_any_indef_loop sp ts sfun tagged q0 : forall n acc q m,
    rem q <= rem q0 -> rem q < n -> 2 * rem q + 2 <= lf ->
    wp (any_indef_loop rec sp ts sfun tagged n acc) q m (le_ q0).
  Proof.
    induction n as [|n IH]; intros acc q m H0 Hn Hf; [lia|]. cbn [any_indef_loop].
    apply (wp_rec_bind (STy TAny) 1); [exact (le_n 1)|lia|lia|]. intros f q' m' Hlt.
    destruct f as [T []| |b| |]; try wraise; try (apply IH; lia).
    cbv zeta. apply wp_any_result. intros d. unfold le_. lia.
  Qed.

  Lemma wp_dec_any_indef sp ts sfun q m : 2 * rem q + 2 <= lf -> wp (dec_any_indef rec lf sp ts sfun) q m (le_ q).
  Proof.
    intros Hf. unfold dec_any_indef. cbv zeta.
    destruct (match sp with None => false | Some T => tagset_eqb ts (tagset_of' T) end).
    - cbn [pbind]. apply wp_any_indef_loop; lia.
    - cbn [pbind getmark tell wp]. apply wp_readN_bind. intros b _.
      apply wp_any_indef_loop; unfold rem in *; lia.
  Qed.

  Lemma In_skipn {X} (x: X) n l : In x (skipn n l) -> In x l.
  Proof. intros H. rewrite <- (firstn_skipn n l). apply in_or_app. right. exact H. Qed.

  Lemma ambiguous_run_In t fs : In t (ambiguous_run fs) -> exists p, In (p, t) fs.
  Proof.
    induction fs as [|[p x] r IH]; cbn [ambiguous_run]; [intros []|].
    destruct p; cbn [In]; intros [<-|H]; try (eexists; left; reflexivity); try destruct H;
      destruct (IH H) as [p' Hp']; exists p'; right; exact Hp'.
  Qed.

  Lemma sbound_seq_component D fs det idx : (forall f, In f fs -> ty_depth (snd f) <= D) ->
    osbound (seq_component_spec fs det idx) D.
  Proof.
    intros Hfs. unfold seq_component_spec. destruct (nth_error fs idx) as [[p t]|] eqn:En; [|exact I].
    destruct (det || is_req p)%bool; cbn [osbound sbound].
    - exact (Hfs _ (nth_error_In _ _ En)).
    - apply mbound_fields. intros x Hx. destruct (ambiguous_run_In _ _ Hx) as [p' Hp'].
      exact (Hfs _ (In_skipn _ _ _ Hp')).
  Qed.

  Lemma wp_record_loop T fs is_set len start D q0 : (forall f, In f fs -> ty_depth (snd f) <= D) -> 1 <= D ->
    forall n idx vs extra q m, rem q <= rem q0 -> rem q < n -> 2 * rem q + 2 * D <= lf ->
    wp (record_loop rec lf T fs is_set len start n idx vs extra) q m (le_ q0).
  Proof.
    intros Hfs HD. induction n as [|n IH]; intros idx vs extra q m H0 Hn Hf; [lia|].
    cbn [record_loop]. cbv zeta. cbn [pbind tell wp].
    set (fin := if match fs with [] => true | _ => false end then Ret _ else _).
    assert (Hfin: forall q' m', rem q' <= rem q0 -> wp fin q' m' (le_ q0)).
    { intros q' m' H. subst fin. wgo; exact H. }
    destruct (negb _); [apply Hfin, H0|].
    match goal with |- wp (match ?x with Some _ => _ | None => _ end) _ _ _ =>
      assert (Hsb: osbound x D); [|destruct x as [sp'|]; [|wraise]] end.
    { assert (Hmap: mbound D (fields_tagmap true (map snd fs))).
      { apply mbound_fields. intros t Ht. apply in_map_iff in Ht. destruct Ht as (f & <- & Hf0). exact (Hfs f Hf0). }
      destruct (match fs with [] => true | _ => false end); [destruct len; exact HD|].
      destruct len; [|destruct (negb is_set && Nat.leb (length fs) idx)%bool; [exact HD|]];
        (destruct is_set; [exact Hmap|apply sbound_seq_component, Hfs]). }
    apply (wp_rec_bind sp' D); [exact Hsb|lia|lia|]. intros d q' m' Hlt.
    destruct d as [Tc vc| |b| |]; [|apply Hfin; lia| |wraise|wraise].
    - destruct (match fs with [] => true | _ => false end); [wraise|].
      destruct (negb is_set && Nat.leb (length fs) idx)%bool eqn:Eg; [wraise|].
      apply wp_lift_bind; [apply (rfine_fuel _ _ (record_position_fine lf fs is_set idx Tc vc Eg))|]. intros i. destruct (Nat.leb (length fs) i); [wraise|apply IH; lia].
    - wgo; apply IH; lia.
  Qed.

  Lemma wp_listof_loop T t len start D q0 : ty_depth t <= D ->
    forall n acc q m, rem q <= rem q0 -> rem q < n -> 2 * rem q + 2 * D <= lf ->
    wp (listof_loop rec T t len start n acc) q m (le_ q0).
  Proof.
    intros Ht. pose proof (ty_depth_pos t) as Hpos. induction n as [|n IH]; intros acc q m H0 Hn Hf; [lia|].
    cbn [listof_loop]. cbv zeta. cbn [pbind tell wp].
    destruct (negb _); [exact H0|].
    apply (wp_rec_bind (STy t) D); [exact Ht|lia|lia|]. intros d q' m' Hlt.
    destruct d as [Tc vc| |b| |]; [apply IH; lia|cbn [wp]; unfold le_; lia| |wraise|wraise].
    destruct (is_any t); [apply IH; lia|wraise].
  Qed.

  Lemma wp_schemaless_loop is_set ts len start q0 : forall n acc q m,
    rem q <= rem q0 -> rem q < n -> 2 * rem q + 2 <= lf ->
    wp (schemaless_loop rec is_set ts len start n acc) q m (le_ q0).
  Proof.
    induction n as [|n IH]; intros acc q m H0 Hn Hf; [lia|].
    cbn [schemaless_loop]. cbv zeta. cbn [pbind tell wp].
    destruct (negb _); [wgo; exact H0|].
    apply (wp_rec_bind SNone 1); [exact (le_n 1)|lia|lia|]. intros d q' m' Hlt.
    destruct d as [Tc vc| |b| |]; [apply IH; lia| |wraise|wraise|wraise].
    wgo; cbn [wp]; unfold le_; lia.
  Qed.

  Lemma wp_choice_place T alts d q m (Q: dval -> nat -> nat -> Prop) : (forall x, Q x q m) -> wp (choice_place lf T alts d) q m Q.
  Proof.
    intros H. unfold choice_place. destruct d as [Tc vc| |b| |]; try wraise.
    apply wp_lift_bind; [apply (rfine_fuel _ _ (position_by_type_fine _ _))|]. intros i. apply H.
  Qed.

  (* with the tag of the CHOICE itself on the wire: a loop over begun elements *)
  Lemma wp_choice_loop_tagged T alts ts D q0 : mbound D (fields_tagmap true alts) ->
    forall n cur q m, rem q <= rem q0 -> rem q < n -> 2 * rem q + 2 * D + 2 <= lf ->
    wp (choice_loop rec lf T alts ts true n cur) q m (le_ q0).
  Proof.
    intros Hm. induction n as [|n IH]; intros cur q m H0 Hn Hf; [lia|].
    cbn [choice_loop]. cbv zeta.
    apply (wp_rec_bind (SMap (fields_tagmap true alts)) D); [exact Hm|lia|lia|]. intros d q' m' Hlt.
    destruct d as [Tc vc| |b| |];
      try (rewrite wp_bind; apply wp_choice_place; intros x; apply IH; lia).
    destruct cur; [cbn [wp]; unfold le_; lia|wraise].
  Qed.

  (* untagged: the one alternative, re-entered after the header *)
  Lemma wp_choice_loop_untagged T alts ts D : mbound D (fields_tagmap true alts) ->
    forall n cur q m, rem q < n -> 2 * rem q + 2 * D + 2 <= lf ->
    wp (choice_loop rec lf T alts ts false n cur) q m (le_or_mark q m).
  Proof.
    intros Hm n cur q m Hn Hf. destruct n as [|n]; [lia|].
    cbn [choice_loop]. cbv zeta.
    apply (wp_reenter_bind (SMap (fields_tagmap true alts)) D); [exact Hm|exact Hf|]. intros d q' m' H'.
    destruct d as [Tc vc| |b| |]; try (rewrite wp_bind; apply wp_choice_place; intros x; exact H').
    destruct cur; [exact H'|wraise].
  Qed.

  Lemma wp_dec_choice T alts ts len D q m : mbound D (fields_tagmap true alts) -> 2 * rem q + 2 * D + 2 <= lf ->
    wp (dec_choice rec lf T alts ts len) q m (le_or_mark q m).
  Proof.
    intros Hm Hf. unfold dec_choice. cbv zeta. destruct len as [l|]; destruct (tagset_eqb (tagset_of' T) ts).
    - apply (wp_rec_bind (SMap (fields_tagmap true alts)) D); [exact Hm|lia|lia|]. intros d q' m' Hlt.
      apply wp_choice_place. intros x. left. lia.
    - apply (wp_reenter_bind (SMap (fields_tagmap true alts)) D); [exact Hm|exact Hf|]. intros d q' m' H'.
      apply wp_choice_place. intros x. exact H'.
    - apply wp_le_or_mark, (wp_choice_loop_tagged T alts ts D q Hm); lia.
    - apply (wp_choice_loop_untagged T alts ts D Hm); lia.
  Qed.

  Lemma wp_raw_loop sp D ts q0 : sbound sp D -> 1 <= lf -> forall n last q m,
    rem q <= rem q0 -> rem q < n -> 2 * rem q + 2 * D <= lf ->
    wp (raw_loop rec sp ts n last) q m (le_ q0).
  Proof.
    intros Hb Hl. induction n as [|n IH]; intros last q m H0 Hn Hf; [lia|]. cbn [raw_loop].
    apply (wp_rec_bind sp D); [exact Hb|exact Hf|exact Hl|]. intros d q' m' Hlt.
    destruct d as [Tc vc| |b| |]; try (apply IH; lia).
    destruct last; try wraise; cbn [wp]; unfold le_; lia.
  Qed.

  Lemma wp_dec_raw sp D ts len sfun q m : sbound sp D -> 2 * rem q + 2 * D <= lf -> 1 <= lf ->
    wp (dec_raw rec lf sp ts len sfun) q m (le_ q).
  Proof.
    intros Hb Hf Hl. unfold dec_raw. destruct sfun; [apply wp_collector|]. destruct len as [l|].
    - apply (wp_mono _ _ _ _ _ (Hrec sp D ts None false false q m Hb ltac:(cbn [rs_cost]; lia) Hl)).
      intros a q' m' H'. unfold le_. cbn [call_post] in H'. lia.
    - apply (wp_raw_loop sp D ts q Hb Hl); lia.
  Qed.

  Lemma wp_dec_value cd fl sp ts len sfun D q m : sbound (item_spec sp) D -> 2 * rem q + 2 * D <= lf ->
    wp (dec_value rec lf cd fl sp ts len sfun) q m (le_or_mark q m).
  Proof.
    intros Hb Hf. pose proof (sbound_item_pos sp D Hb) as HD. unfold dec_value. cbv zeta.
    generalize (match cd with DcSet | DcSetOf | DcSetOrSetOf => true | _ => false end). intros is_set.
    set (constructed := if negb (tag0_cons ts) then Raise EMalformed else _).
    assert (Hconstr: wp constructed q m (le_or_mark q m)).
    { subst constructed. destruct (negb (tag0_cons ts)); [wraise|]. apply wp_le_or_mark.
      destruct sfun; [apply wp_collector|]. destruct sp as [T|].
      - cbn [item_spec sbound] in Hb. pose proof (ty_depth_base T) as Hbase.
        destruct (base_of T) as [| | | | | | | |n0|fs|fs|t0|t0|alts| |tg x|tg x]; try wraise; cbn [ty_depth] in Hbase.
        1, 2: unfold dec_record; cbv zeta; cbn [pbind tell wp]; apply (wp_record_loop T fs _ len q D q); try lia;
          intros f Hin; pose proof (fold_max_In (fun f => ty_depth (snd f)) f fs Hin); lia.
        all: unfold dec_listof; cbn [pbind tell wp]; apply (wp_listof_loop T t0 len q D); lia.
      - unfold dec_schemaless. cbn [pbind tell wp]. apply wp_schemaless_loop; lia. }
    set (choice := match sp with Some T => _ | None => Raise EUnmodelled end).
    assert (Hchoice: wp choice q m (le_or_mark q m)).
    { subst choice. destruct sp as [T|]; [|wraise]. cbn [item_spec sbound] in Hb. pose proof (ty_depth_base T) as Hbase.
      destruct (base_of T) as [| | | | | | | |n0|fs|fs|t0|t0|alts| |tg x|tg x]; try wraise.
      destruct sfun; [apply wp_le_or_mark, wp_collector|]. cbn [ty_depth] in Hbase.
      apply (wp_dec_choice T alts ts len (D - 1)); [|lia].
      apply mbound_fields. intros a Ha. pose proof (fold_max_In ty_depth a alts Ha). lia. }
    clearbody constructed choice.
    assert (Hs: 2 * rem q + 2 <= lf) by lia.
    (* what is left, in the order of [dec_codec]: INTEGER, BOOLEAN (BER, CER), BIT STRING, OCTET STRING, NULL,
       OBJECT IDENTIFIER, REAL, ANY, the character strings; the strings and ANY also in indefinite form *)
    destruct cd; try exact Hconstr; try exact Hchoice; (destruct len as [l|]; [|try wraise]);
      try apply wp_dec_any; apply wp_le_or_mark.
    - apply wp_dec_integer.
    - apply wp_dec_integer.
    - apply wp_dec_bool_cer.
    - apply wp_dec_bits, Hs.
    - apply wp_dec_bits_indef, Hs.
    - apply wp_dec_octets, Hs.
    - apply wp_octets_indef_loop; lia.
    - apply wp_dec_null.
    - apply wp_dec_oid_v.
    - apply wp_dec_real_v.
    - apply wp_dec_any_indef, Hs.
    - apply wp_dec_octets, Hs.
    - apply wp_octets_indef_loop; lia.
  Qed.

  Lemma wp_run_value len (k: proc dval) q m : wp k q m (le_or_mark q m) -> wp (run_value len k) q m (le_or_mark q m).
  Proof.
    intros Hk. destruct len as [l|]; [|exact Hk]. cbn [run_value pbind tell wp].
    apply (wp_bind_mono _ _ _ _ _ _ Hk). intros v q' m' H'. cbn [pbind tell wp].
    destruct (N.eqb _ _); [exact H'|wraise].
  Qed.

  Lemma wp_dispatch sp D ts len sfun q m : sbound sp D -> 2 * rem q + 2 * D <= lf -> 1 <= lf ->
    wp (dispatch c rec lf sp ts len sfun) q m (le_or_mark q m).
  Proof.
    intros Hb Hf Hl. apply dispatch_cases.
    - cbn [wp]. discriminate.
    - apply wp_run_value, wp_le_or_mark, (wp_dec_raw sp D); assumption.
    - intros cd fl osp H. apply wp_run_value, (wp_dec_value cd fl osp ts len sfun D); [|exact Hf].
      destruct sp as [|T|m0]; [subst osp; exact Hb|destruct H as [-> _]; exact Hb|].
      destruct H as (T & -> & Eg & _). exact (tm_get_bound D m0 ts T Hb Eg).
  Qed.

  (* the header: the mark stays, the position moves forward within the input *)
  Definition fwd {A} (q0 m0: nat) (_: A) (q m: nat) : Prop := m = m0 /\ q0 < q <= length input.

  Lemma wp_long_tag cl f q0 : forall k acc q m, q0 < q <= length input -> rem q < k ->
    wp (long_tag cl f k acc) q m (fwd q0 m).
  Proof.
    induction k as [|k IH]; intros acc q m Hq Hk; [lia|]. cbn [long_tag]. cbv zeta.
    apply wp_read1_bind. intros b Hb. destruct (N.eqb _ _).
    - cbn [wp]. unfold fwd. lia.
    - apply IH; unfold rem in *; lia.
  Qed.

  Lemma wp_read_tag q m : rem q <= lf -> wp (read_tag lf) q m (fwd q m).
  Proof.
    intros Hl. unfold read_tag. cbv zeta. apply wp_read1_bind. intros o Ho. destruct (N.eqb _ _).
    - apply wp_long_tag; unfold rem in *; lia.
    - cbn [wp]. unfold fwd. lia.
  Qed.

  Lemma wp_read_length q m : wp (read_length c) q m (fwd q m).
  Proof.
    unfold read_length. apply wp_read1_bind. intros o Ho.
    destruct (N.ltb o 128); [cbn [wp]; unfold fwd; lia|].
    destruct (N.eqb o 128); [destruct (support_indef c); [cbn [wp]; unfold fwd; lia|wraise]|].
    apply wp_readN_bind. intros b Hb. cbn [wp]. unfold fwd. lia.
  Qed.

  Lemma wp_dec_body sp D acc rs ae sfun q m : sbound sp D -> 2 * rem q + 2 * D + rs_cost rs <= S lf ->
    wp (dec_body c rec lf sp acc rs ae sfun) q m (call_post rs q m).
  Proof.
    intros Hb Hf. unfold dec_body. cbv zeta.
    set (main := match rs with Some len => _ | None => Mark _ end).
    assert (Hmain: wp main q m (call_post rs q m)).
    { subst main. destruct rs as [len|]; cbn [rs_cost call_post wp] in *.
      - apply (wp_dispatch sp D acc len sfun q m Hb); lia.
      - apply wp_bind_mono with (Q0 := fwd q q); [apply wp_read_tag; lia|]. intros t q1 m1 [-> H1].
        apply wp_bind_mono with (Q0 := fwd q1 q); [apply wp_read_length|]. intros len q2 m2 [-> H2].
        apply wp_mono with (Q := le_or_mark q2 q); [apply (wp_dispatch sp D); [exact Hb|unfold rem in *; lia|unfold rem in *; lia]|].
        intros a q' m' H'. unfold le_or_mark, rem in *. lia. }
    destruct (ae && support_indef c)%bool; [|exact Hmain].
    apply wp_readN_bind. intros b H2. apply match_eoo; intros _.
    - destruct rs; cbn [wp call_post]; [left|]; unfold rem; lia.
    - cbn [wp]. replace (q + 2 - 2) with q by lia. exact Hmain.
  Qed.
End Closed.

Theorem wp_dec_call input c : forall f sp D acc rs ae sfun q m,
  sbound sp D -> 2 * rem input q + 2 * D + rs_cost rs <= f -> 1 <= f ->
  wp input (dec_call c f sp acc rs ae sfun) q m (call_post input rs q m).
Proof.
  induction f as [|f IH]; intros sp D acc rs ae sfun q m Hb Hf Hl; [lia|]. cbn [dec_call].
  apply (wp_dec_body input c (dec_call c f) f IH sp D); assumption.
Qed.
Print Assumptions wp_dec_call.

(* nesting depth of the guiding type; 1 without one *)
Definition odepth (sp: option ty) : nat := match sp with Some T => ty_depth T | None => 1 end.

Lemma odepth_pos sp : 1 <= odepth sp.
Proof. destruct sp as [T|]; cbn [odepth]; [apply ty_depth_pos|lia]. Qed.

(* one-shot decoding with enough fuel: not out of fuel, and a decoded item has consumed at least one octet *)
Lemma decode_with_run c fuel sp b : 2 * length b + 2 * odepth sp <= fuel ->
  match decode_with c fuel sp b with
  | Ok (_, tl) => length tl < length b
  | Err e => e <> EOutOfFuel
  end.
Proof.
  intros Hf. pose proof (odepth_pos sp) as Hd.
  assert (Hb: sbound (item_spec sp) (odepth sp)) by (destruct sp; [exact (le_n _)|exact Hd]).
  destruct (wp_sound b _ 0 0 _ (wp_dec_call b c fuel _ _ [] None false false 0 0 Hb
                                  ltac:(unfold rem; cbn [rs_cost]; lia) ltac:(lia)))
    as (r & q' & m' & Hr & Hpost).
  unfold decode_with, run_complete, dec_item. fold (item_spec sp). rewrite Hr. destruct r as [d|e]; [|exact Hpost].
  unfold avail. cbn [pos arrived]. rewrite skipn_length. cbn [call_post] in Hpost. unfold rem in Hpost. lia.
Qed.

Theorem decode_with_never_starves c fuel sp b : 2 * length b + 2 * odepth sp <= fuel ->
  decode_with c fuel sp b <> Err EOutOfFuel.
Proof. intros Hf H. pose proof (decode_with_run c fuel sp b Hf) as R. rewrite H in R. exact (R eq_refl). Qed.

Lemma dec_fuel_enough sp b : 2 * length b + 2 * odepth sp <= dec_fuel sp b.
Proof. unfold dec_fuel. destruct sp as [T|]; cbn [odepth]; lia. Qed.

Theorem NO_STARVATION : forall c sp b, decode c sp b <> Err EOutOfFuel.
Proof. intros c sp b. exact (decode_with_never_starves c (dec_fuel sp b) sp b (dec_fuel_enough sp b)). Qed.

Print Assumptions decode_with_never_starves.
Print Assumptions NO_STARVATION.

Local Open Scope N_scope.

(* too little fuel does end in EOutOfFuel (so the hypothesis is not idle), the fuel of the theorem does not:
   a long-form tag number of 40 continuation octets; nested explicit tags of indefinite length; a run of
   zero octets inside an indefinite SEQUENCE; an untagged CHOICE three levels deep over a constructed
   OCTET STRING *)
Example fuel_matters :
  decode_with BER 41 None ([31] ++ repn 40 255 ++ [1;0]) = Err EOutOfFuel
  /\ decode_with BER 42 None ([31] ++ repn 40 255 ++ [1;0]) = Err EMalformed
  /\ decode BER None ([31] ++ repn 40 255 ++ [1;0]) = Err EMalformed
  /\ decode_with BER 3 None [160;128;160;128;160;128;2;1;5;0;0;0;0;0;0] = Err EOutOfFuel
  /\ (exists d, decode BER None [160;128;160;128;160;128;2;1;5;0;0;0;0;0;0] = Ok (d, []))
  /\ decode BER None ([48;128] ++ repn 40 0) = Ok (DV (TSeqOf TNull) (VList []), repn 38 0)
  /\ decode_with BER 5 (Some (TChoice [TChoice [TChoice [TOcts]]])) [36;128;4;0;0;0] = Err EOutOfFuel
  /\ (exists d, decode BER (Some (TChoice [TChoice [TChoice [TOcts]]])) [36;128;4;0;0;0] = Ok (d, [])).
Proof. repeat split; try (eexists; vm_compute; reflexivity); vm_compute; reflexivity. Qed.

(* the one place where the position moves backwards - an untagged ANY as alternative of an untagged CHOICE,
   re-entered after the header, re-reads the element from the marked position - is covered by the
   potential argument ([call_post] on re-entry); the run: *)
Example choice_any_rereads_header :
  decode BER (Some (TChoice [TAny])) [4;1;9;7] = Ok (DV (TChoice [TAny]) (VChoice 0 (VAny [4;1;9])), [7])
  /\ decode BER (Some (TChoice [TChoice [TInt; TAny]])) [4;1;9]
     = Ok (DV (TChoice [TChoice [TInt; TAny]]) (VChoice 0 (VAny [4;1;9])), []).
Proof. split; vm_compute; reflexivity. Qed.
