(* C18 without the round-trip premise: the scalar open-type theorems of Proofs/OpenType.v carry the round trip of
   the enclosing record (and of the inner value) as a premise ([roundtrips]: for EVERY value, which no codec theorem
   gives - the codec theorems speak of the values of the type).  Here the premise is discharged with the round-trip
   theorems of the whole type universe (Proofs/RoundTrip3e.v [stage3_generic], Proofs/RoundTripModes3.v
   [modes3_decode]): [open_raw], [open_resolved], [open_resolved_record] and their list, defaulted-governing and
   absent-member versions hold for every record type of the stage-3 universe with an open member that is not
   declared DEFAULT (nor the governing member, except in the [_d] theorems), every governing value, every inner type of the universe and every inner value.  Outside: a
   SET with a scalar open member under the CER encoder ([keeps_order ce T \/ ce = DER]).  The two list theorems
   that Props/C18.v states with the premise ([raw_list_is_complete_encodings], [resolved_list_elements]) are
   proved here too, since they need [aval_eqb] -> [aeq].

   The codec theorems give the first pass on the bytes [enc_open] writes: those of the plain record encoder on
   the record holding the inner encoding(s) - for a DER SET with a scalar open member a re-ordering of them,
   which the SET decoder reads all the same (RoundTrip3d.v [set_any_order]).  What they say of the decoded record
   is the relation [obs]; [first_pass_facts] of Proofs/OpenType.v turns it into what the second pass needs (the
   member read, what it holds, the governing value), and the [second_pass_*] lemmas there give the outcome. *)
From Coq Require Import Lia Permutation.
From PV Require Import Base.Bytes Model.Tag Model.TableTypes Model.Types Model.Proc Model.Enc Model.Dec Model.Obs Gen.Tables
     Model.OpenType Model.OpenTypeDef Proofs.Basics Proofs.OpenType Proofs.OpenTypeDef
     Proofs.ProcBind Proofs.RunLemmas Proofs.RoundTrip3a Proofs.RoundTrip3d Proofs.TagOctets Proofs.TagAlgebra Proofs.DecFrame Proofs.TagsetShape
     Proofs.ContainerCodecSort Proofs.RoundTrip1 Proofs.RoundTrip2 Proofs.RoundTrip3 Proofs.RoundTrip3b Proofs.RoundTrip3c Proofs.RoundTrip3e Proofs.RoundTrip3f
     Proofs.AcceptedWellFormed Proofs.RoundTripModesC Proofs.RoundTripModes Proofs.RoundTripModes3b Proofs.RoundTripModes3c Proofs.RoundTripModes3f Proofs.RoundTripModes3.
Local Open Scope N_scope.

(* abstract contents equal up to the order of SET OF elements ([aeq]), and plainly equal where no sorting
   encoder met a SET OF ([srt = false]): a relation of the kind Proofs/OpenType.v asks for *)
Definition obs (srt: bool) (a b: aval) : Prop := aeq a b /\ (srt = false -> a = b).

Lemma aeq_to_leaf a b : aeq a b -> aleaf b -> a = b.
Proof. intros H Hl. apply aeq_sym in H. exact (aeq_leaf_inv b a H Hl). Qed.

Lemma aeq_to_rec a ys : aeq a (ARec ys) -> exists xs, a = ARec xs /\ Forall2 (RoundTrip3.opt_rel aeq) xs ys.
Proof.
  intros H. apply aeq_sym in H. destruct (aeq_rec_inv ys a H) as (xs & -> & HF).
  exists xs. split; [reflexivity|].
  clear H. induction HF as [|x y l1 l2 Hxy HF IH]; constructor; [|exact IH].
  destruct Hxy as [|x y Hxy]; [apply RoundTrip3.opt_rel_none|apply RoundTrip3.opt_rel_some; apply aeq_sym; exact Hxy].
Qed.

Lemma aeq_to_list a ys : aeq a (AList ys) -> exists xs, a = AList xs /\ Forall2 aeq ys xs.
Proof. intros H. apply aeq_sym in H. destruct (aeq_list_inv ys a H) as (xs & -> & HF). eauto. Qed.

Lemma aeq_to_bag a ys : aeq a (ABag ys) -> exists xs zs, a = ABag xs /\ Permutation ys zs /\ Forall2 aeq zs xs.
Proof. intros H. apply aeq_sym in H. destruct (aeq_bag_inv ys a H) as (xs & zs & -> & Hp & HF). eauto. Qed.

Lemma obs_rec srt a ys : obs srt a (ARec ys) ->
  exists xs, a = ARec xs /\ forall i, opt_match (obs srt) (nth i xs None) (nth i ys None).
Proof.
  intros [Ha He]. destruct (aeq_to_rec a ys Ha) as (xs & -> & HF). exists xs. split; [reflexivity|].
  assert (Hm: forall i, opt_match aeq (nth i xs None) (nth i ys None)).
  { clear He Ha. induction HF as [|x y l1 l2 Hxy _ IH]; intros [|i]; cbn [nth]; try exact I; [|apply IH].
    destruct Hxy; [exact I|assumption]. }
  intros i. specialize (Hm i). destruct srt.
  - destruct (nth i xs None), (nth i ys None); try exact Hm. split; [exact Hm|discriminate].
  - injection (He eq_refl) as ->. destruct (nth i ys None); [split; [apply aeq_refl|reflexivity]|exact I].
Qed.

Lemma obs_leaf srt a b : obs srt a b -> match b with AInt _ | AOid _ | AAny _ => a = b | _ => True end.
Proof. intros [H _]. destruct b; try exact I; exact (aeq_to_leaf _ _ H I). Qed.

(* a statement proved for every relation the codec theorems admit holds of [obs] *)
Lemma obs_of_rel srt (Q: val -> Prop) (f: val -> aval) a :
  (forall R, rel_ok R srt -> exists v', Q v' /\ R (f v') a) -> exists v', Q v' /\ obs srt (f v') a.
Proof.
  intros H. destruct srt.
  - destruct (H aeq rel_ok_aeq) as (v' & H1 & H2). exists v'. split; [exact H1|]. split; [exact H2|discriminate].
  - destruct (H eq rel_ok_eq) as (v' & H1 & H2). exists v'. split; [exact H1|]. rewrite H2. split; [apply aeq_refl|reflexivity].
Qed.

(* the encoder/decoder modes the codec theorems cover:
   - the BER or DER encoder, definite lengths, unsegmented, read by any decoder (RoundTrip3e.v);
   - any encoder in options its fixed options leave alone - BER with any defMode/maxChunkSize, CER with
     (False, 1000), DER with (True, 0) - read by the BER or the CER decoder (RoundTripModes3.v) *)
Inductive mode_ok (ce cd: codec) (d: bool) (k: N) : Prop :=
| mode_def : enc_ok ce -> d = true -> k = 0 -> mode_ok ce cd d k
| mode_any : stable ce d k -> dec_ok cd -> mode_ok ce cd d k.

Lemma mode_stable ce cd d k : mode_ok ce cd d k -> stable ce d k.
Proof. intros [[-> | ->] -> -> | H _]; [reflexivity|reflexivity|exact H]. Qed.

Lemma mode_der cd d k : mode_ok DER cd d k -> d = true /\ k = 0.
Proof.
  intros [_ -> -> | Hst _]; [split; reflexivity|].
  unfold stable, fix_opts, mo in Hst. cbn in Hst. inversion Hst. split; reflexivity.
Qed.

(* [srt = false]: no SET OF under an encoder that sorts its elements, abstract contents come back equal;
   [srt = true]: they come back equal up to the order of SET OF elements *)
Theorem codec_rt ce cd d k srt : mode_ok ce cd d k -> forall T v b,
  stage3_ty srt ce T = true -> (d = false -> no_f01 T = true) ->
  stage3_val ce cd T v = true -> (d = false -> anys_ok T v = true) ->
  encode ce d k T v = Ok b -> N.of_nat (length b) <= index_max ->
  exists v', decode cd (Some T) b = Ok (DV T v', []) /\ aeq (abs T v') (abs T v) /\ (srt = false -> abs T v' = abs T v).
Proof.
  intros Hm T v b Hty Hf Hv Ha He Hmax. apply (obs_of_rel srt (fun v' => decode cd (Some T) b = Ok (DV T v', [])) (abs T)).
  intros R HR. assert (H: exists v', decode cd (Some T) (b ++ []) = Ok (DV T v', []) /\ R (abs T v') (abs T v)).
  { destruct Hm as [Hce -> -> | Hst Hcd].
    - exact (stage3_generic ce cd R srt Hce HR T v b [] Hty Hv He Hmax).
    - exact (modes3_decode ce cd d k Hst Hcd R srt HR T v b [] Hty Hf Hv Ha He Hmax). }
  rewrite app_nil_r in H. exact H.
Qed.

(* the value of the enclosing record: every member but the open one (whose slot [enc_open]
   overwrites) is a value of its type in the sense of the codec theorems *)

Definition field_ok (ce cd: codec) (p: presence) (ft: ty) (ov: option val) : bool :=
  match p, ov with
  | Req, Some x => stage3_val ce cd ft x
  | Req, None => false
  | Opt, None | Def _, None => true
  | Opt, Some x => stage3_val ce cd ft x && (negb (omits ce) || nonempty_enc ce ft x)
  | Def _, Some x => stage3_val ce cd ft x
  end.

Lemma sv3_fields_cons ce cd p ft fs ov vs :
  sv3_fields ce cd ((p, ft) :: fs) (ov :: vs) = (field_ok ce cd p ft ov && sv3_fields ce cd fs vs)%bool.
Proof. reflexivity. Qed.

Fixpoint sv3_hole (ce cd: codec) (oi: nat) (fs: list (presence * ty)) (vs: list (option val)) : bool :=
  match fs, vs with
  | (p, ft) :: fs', ov :: vs' =>
      match oi with
      | O => sv3_fields ce cd fs' vs'
      | S j => field_ok ce cd p ft ov && sv3_hole ce cd j fs' vs'
      end
  | _, _ => false
  end.

Lemma sv3_fill ce cd : forall oi fs vs p ft ov,
  sv3_hole ce cd oi fs vs = true -> nth_error fs oi = Some (p, ft) -> field_ok ce cd p ft ov = true ->
  sv3_fields ce cd fs (set_nth oi ov vs) = true.
Proof.
  induction oi as [|j IH]; intros fs vs p ft y Hh Hn Hy; destruct fs as [|[q gt] fs]; try discriminate Hn;
    destruct vs as [|ov vs]; try discriminate Hh; cbn [nth_error] in Hn; cbn [sv3_hole] in Hh; cbn [set_nth].
  - inversion Hn; subst q gt. rewrite sv3_fields_cons, Hy, Hh. reflexivity.
  - apply Bool.andb_true_iff in Hh. destruct Hh as [H0 Hh]. rewrite sv3_fields_cons, H0. cbn [andb].
    exact (IH fs vs p ft y Hh Hn Hy).
Qed.

Lemma sv3_hole_length ce cd : forall oi fs vs, sv3_hole ce cd oi fs vs = true -> (oi < length vs)%nat.
Proof.
  induction oi as [|j IH]; intros fs vs Hh; destruct fs as [|[q gt] fs]; try discriminate Hh;
    destruct vs as [|ov vs]; try discriminate Hh; cbn [sv3_hole] in Hh; cbn [length]; [lia|].
  apply Bool.andb_true_iff in Hh. specialize (IH fs vs (proj2 Hh)). lia.
Qed.

(* indefinite lengths: the octets of the other tagged ANYs *)
Definition anys_opt (ft: ty) (ov: option val) : bool := match ov with Some x => anys_ok ft x | None => true end.

Lemma anys_fields_cons p ft fs ov vs : anys_fields ((p, ft) :: fs) (ov :: vs) = (anys_opt ft ov && anys_fields fs vs)%bool.
Proof. destruct ov; reflexivity. Qed.

(* on lists shorter than the hole's position [sv3_hole] answers false, so this one may answer true: it only
   ever stands beside [sv3_hole] in [hole_val] *)
Fixpoint anys_hole (oi: nat) (fs: list (presence * ty)) (vs: list (option val)) : bool :=
  match fs, vs with
  | (p, ft) :: fs', ov :: vs' =>
      match oi with
      | O => anys_fields fs' vs'
      | S j => (match ov with Some x => anys_ok ft x | None => true end) && anys_hole j fs' vs'
      end
  | _, _ => true
  end.

Lemma anys_fill : forall oi fs vs p ft ov,
  anys_hole oi fs vs = true -> nth_error fs oi = Some (p, ft) -> anys_opt ft ov = true ->
  anys_fields fs (set_nth oi ov vs) = true.
Proof.
  induction oi as [|j IH]; intros fs vs p ft y Hh Hn Hy; destruct fs as [|[q gt] fs]; try discriminate Hn;
    destruct vs as [|ov vs]; try reflexivity; cbn [nth_error] in Hn; cbn [anys_hole] in Hh; cbn [set_nth].
  - inversion Hn; subst q gt. rewrite anys_fields_cons, Hy, Hh. reflexivity.
  - apply Bool.andb_true_iff in Hh. destruct Hh as [H0 Hh]. rewrite anys_fields_cons. unfold anys_opt at 1. rewrite H0. cbn [andb].
    exact (IH fs vs p ft y Hh Hn Hy).
Qed.

(* the well-formedness of the enclosing record value, computable: [d] = definite lengths *)
Definition hole_val (ce cd: codec) (d: bool) (T: ty) (oi: nat) (vs: list (option val)) : bool :=
  match rec_fields T with
  | Some fs => sv3_hole ce cd oi fs vs && (d || anys_hole oi fs vs)
  | None => false
  end.

Lemma rec_fields_base T fs : rec_fields T = Some fs -> base_of T = TSeq fs \/ base_of T = TSet fs.
Proof. unfold rec_fields. destruct (base_of T); intros H; try discriminate H; inversion H; auto. Qed.

Lemma list_elem_base ft t : list_elem ft = Some t -> base_of ft = TSeqOf t \/ base_of ft = TSetOf t.
Proof. unfold list_elem. destruct (base_of ft); intros H; try discriminate H; inversion H; auto. Qed.

Lemma hole_length ce cd d T fs oi vs : rec_fields T = Some fs -> hole_val ce cd d T oi vs = true -> (oi < length vs)%nat.
Proof.
  intros Hrec Hvs. unfold hole_val in Hvs. rewrite Hrec in Hvs. apply Bool.andb_true_iff in Hvs.
  exact (sv3_hole_length ce cd oi fs vs (proj1 Hvs)).
Qed.

Lemma hole_filled ce cd d T fs oi vs p ft ov :
  rec_fields T = Some fs -> nth_error fs oi = Some (p, ft) -> hole_val ce cd d T oi vs = true ->
  field_ok ce cd p ft ov = true -> (d = false -> anys_opt ft ov = true) ->
  stage3_val ce cd T (VRec (set_nth oi ov vs)) = true
  /\ (d = false -> anys_ok T (VRec (set_nth oi ov vs)) = true).
Proof.
  intros Hrec Hoi Hh Hy Ha. unfold hole_val in Hh. rewrite Hrec in Hh.
  apply Bool.andb_true_iff in Hh. destruct Hh as [H1 H2].
  assert (Hna: base_of T <> TAny) by (destruct (rec_fields_base T fs Hrec) as [E|E]; rewrite E; discriminate).
  split.
  - rewrite (stage3_val_base ce cd T _ Hna).
    rewrite (stage3_val_rec ce cd (base_of T) fs _ (rec_fields_base T fs Hrec)).
    exact (sv3_fill ce cd oi fs vs p ft ov H1 Hoi Hy).
  - intros Hd. rewrite Hd in H2. cbn [orb] in H2.
    rewrite (anys_ok_base T _ Hna). rewrite (anys_ok_rec (base_of T) fs _ (rec_fields_base T fs Hrec)).
    exact (anys_fill oi fs vs p ft ov H2 Hoi (Ha Hd)).
Qed.


Lemma is_any_cases ft : is_any ft = true -> ft = TAny \/ (base_of ft = TAny /\ is_wrapped ft = true).
Proof.
  unfold is_any. intros H. destruct ft; cbn [base_of] in H; try discriminate H; auto.
  - right. split; [|reflexivity]. cbn [base_of]. destruct (base_of ft); try discriminate H; reflexivity.
  - right. split; [|reflexivity]. cbn [base_of]. destruct (base_of ft); try discriminate H; reflexivity.
Qed.

(* the untagged ANY holds one TLV; a tagged ANY takes any octets *)
Lemma any_fill_val ce cd ft chunk : is_any ft = true -> (ft = TAny -> tlv_ok chunk = true) -> stage3_val ce cd ft (VAny chunk) = true.
Proof.
  intros Ha Ht. destruct (is_any_cases ft Ha) as [-> | [Hb Hw]]; [exact (Ht eq_refl)|].
  rewrite (stage3_val_tagged_any ce cd ft _ Hb Hw). reflexivity.
Qed.

Lemma tlv_any_payload b : tlv_ok b = true -> any_payload_ok b = true.
Proof.
  intros H. destruct (tlv_ok_inv b H) as (t & r1 & r2 & Hid & Hdl & Hne).
  pose proof (dec_ident_len _ _ _ Hid) as L1. pose proof (dec_len_len _ _ _ Hdl) as L2.
  unfold any_payload_ok. destruct b as [|o b']; [discriminate Hid|].
  cbn [tlvs_ok]. rewrite Hid, Hdl. cbv zeta. rewrite Nat2N.id.
  replace (length (o :: b') - length r2 + length r2)%nat with (length (o :: b')) by lia.
  rewrite firstn_all, skipn_all, H. destruct (length (o :: b')); reflexivity.
Qed.

Lemma any_fill_anys ft chunk : is_any ft = true -> tlv_ok chunk = true -> anys_ok ft (VAny chunk) = true.
Proof.
  intros Ha Ht. destruct (is_any_cases ft Ha) as [-> | [Hb Hw]]; [reflexivity|].
  rewrite (anys_ok_tagged_any ft _ Hb Hw). exact (tlv_any_payload chunk Ht).
Qed.

Lemma frame_one_len t c d si sub b : frame_one t c d si sub = Ok b -> (length sub <= length b)%nat.
Proof.
  unfold frame_one. intros H. destruct (enc_len _ _) as [l|e]; cbn [bind] in H; [|discriminate].
  inversion H; subst. rewrite !app_length. lia.
Qed.

Lemma frame_outer_len : forall r c d si sub b, frame_outer r c d si sub = Ok b -> (length sub <= length b)%nat.
Proof.
  induction r as [|t r IH]; intros c d si sub b H; cbn [frame_outer] in H.
  - inversion H; subst. lia.
  - destruct (frame_one t c d si sub) as [s1|e] eqn:E1; cbn [bind] in H; [|discriminate].
    pose proof (frame_one_len _ _ _ _ _ _ E1). pose proof (IH _ _ _ _ _ H). lia.
Qed.

Lemma frame_len ts content cns o si b : frame ts content cns o si = Ok b -> (length content <= length b)%nat.
Proof.
  intros H. destruct ts as [|t0 r]; cbn [frame] in H; [inversion H; subst; lia|].
  destruct content as [|x content]; [cbn [length]; lia|]. cbn [andb] in H.
  destruct (frame_one t0 cns (if cns then o_def o else true) si (x :: content)) as [s0|e] eqn:E0; cbn [bind] in H; [|discriminate].
  pose proof (frame_one_len _ _ _ _ _ _ E0). pose proof (frame_outer_len _ _ _ _ _ _ H). lia.
Qed.

Lemma any_enc_len ce ft o chunk b : is_any ft = true ->
  enc_with ce (enc_content ce) ft o (VAny chunk) = Ok b -> (length chunk <= length b)%nat.
Proof.
  intros Ha H. unfold enc_with in H.
  destruct (concrete_encoder ce ft) as [[ec fl]|e]; cbn [bind] in H; [|discriminate].
  destruct (tagset_of ft) as [ts|e]; cbn [bind] in H; [|discriminate].
  rewrite enc_content_base in H. unfold is_any in Ha. destruct (base_of ft); try discriminate Ha.
  cbn [enc_content] in H. destruct ec; cbn [bind] in H; try discriminate H.
  cbn [octets_of bind] in H. exact (frame_len _ _ _ _ _ _ H).
Qed.

Lemma any_fill_nonempty ce ft chunk : is_any ft = true -> chunk <> [] -> nonempty_enc ce ft (VAny chunk) = true.
Proof.
  intros Ha Hne. unfold nonempty_enc, encw.
  destruct (enc_with ce (enc_content ce) ft ifne_opts (VAny chunk)) as [b|e] eqn:E; [|reflexivity].
  pose proof (any_enc_len ce ft _ chunk b Ha E). destruct b; [|reflexivity]. destruct chunk; [congruence|cbn [length] in *; lia].
Qed.

Lemma tlv_ne b : tlv_ok b = true -> b <> [].
Proof. intros H. destruct (tlv_ok_facts b H) as [Hl _]. destruct b; [cbn in Hl; lia|discriminate]. Qed.

Lemma tlv_no_eoo_prefix b : tlv_ok b = true -> no_eoo_prefix b = true.
Proof.
  intros H. destruct (tlv_ok_facts b H) as [Hl Hh]. destruct b as [|x [|y r]]; try (cbn in Hl; lia).
  cbn [hd] in Hh. cbn [no_eoo_prefix]. destruct (N.eqb_spec x 0); [congruence|reflexivity].
Qed.

Lemma any_fill_octets ce cd p ft chunk : is_any ft = true -> (ft = TAny -> tlv_ok chunk = true) -> chunk <> [] -> not_def p ->
  field_ok ce cd p ft (Some (VAny chunk)) = true.
Proof.
  intros Ha Ht Hne Hp. pose proof (any_fill_val ce cd ft chunk Ha Ht) as Hv.
  destruct p as [| |dv]; cbn [field_ok]; [exact Hv| |contradiction].
  rewrite Hv, (any_fill_nonempty ce ft chunk Ha Hne). apply Bool.orb_true_r.
Qed.

Lemma any_fill_field ce cd p ft chunk : is_any ft = true -> tlv_ok chunk = true -> not_def p ->
  field_ok ce cd p ft (Some (VAny chunk)) = true.
Proof. intros Ha Ht Hp. exact (any_fill_octets ce cd p ft chunk Ha (fun _ => Ht) (tlv_ne chunk Ht) Hp). Qed.

(* a tagged ANY member, definite lengths: any non-empty octets *)
Lemma any_fill_field_tagged ce cd p ft chunk : is_any ft = true -> ft <> TAny -> chunk <> [] -> not_def p ->
  field_ok ce cd p ft (Some (VAny chunk)) = true.
Proof. intros Ha Hn Hne Hp. exact (any_fill_octets ce cd p ft chunk Ha (fun E => match Hn E with end) Hne Hp). Qed.


(* with definite lengths, the encoding of a value of the universe is one complete TLV of definite
   length, not the end-of-octets marker: what an untagged ANY may hold.  Only the outermost tag matters: the
   one an IMPLICIT or EXPLICIT tag puts there, else the type's own *)

Definition eoo_tag (t: tag) : bool := cls_eqb (tcls t) Univ && N.eqb (tnum t) 0.

Lemma frame_one_tlv t c si sub b : frame_one t c true si sub = Ok b -> eoo_tag t = false -> tlv_ok b = true.
Proof.
  unfold frame_one. cbn [negb andb]. intros H Ht.
  destruct (enc_len (N.of_nat (length sub)) false) as [l|e] eqn:El; cbn [bind] in H; [|discriminate].
  inversion H; subst b; clear H. rewrite app_nil_r. unfold tlv_ok.
  rewrite dec_enc_tag. rewrite (dec_enc_len _ l sub El). rewrite N.eqb_refl. cbn [tcls tnum andb].
  unfold eoo_tag in Ht. rewrite Ht. reflexivity.
Qed.

Lemma frame_def_tlv ts tl content cns k si b : frame (ts ++ [tl]) content cns (mo true k) si = Ok b ->
  eoo_tag tl = false -> tlv_ok b = true.
Proof.
  intros H Ht. destruct ts as [|t0 r]; cbn [app frame] in H; rewrite Bool.andb_false_r in H; cbn [o_def mo] in H;
    (assert (Hd: (if cns then true else true) = true) by (destruct cns; reflexivity)); rewrite Hd in H;
    destruct (frame_one _ cns true si content) as [s0|e] eqn:E0; cbn [bind] in H; try discriminate.
  - cbn [frame_outer] in H. inversion H; subst. exact (frame_one_tlv _ _ _ _ _ E0 Ht).
  - rewrite frame_outer_snoc in H. destruct (frame_outer r cns true si s0) as [s1|e]; cbn [bind] in H; [|discriminate].
    exact (frame_one_tlv _ _ _ _ _ H Ht).
Qed.

Lemma known_string_nonzero ce cd n : known_string ce cd n = true -> n <> 0.
Proof. intros H ->. destruct ce, cd; vm_compute in H; discriminate H. Qed.

Lemma outer_tag ce cd T v ts : wf_tags T = true -> stage3_val ce cd T v = true -> tagset_of T = Ok ts ->
  match T with TChoice _ | TAny => True | _ => exists ts' tl, ts = ts' ++ [tl] /\ eoo_tag tl = false end.
Proof.
  intros Hw Hv Hts.
  assert (Hnew: forall tg cf, negb (cls_eqb (tcls tg) Univ) = true -> eoo_tag (mkTag (tcls tg) cf (tnum tg)) = false).
  { intros tg cf Hcl. unfold eoo_tag. cbn [tcls tnum]. destruct (cls_eqb (tcls tg) Univ); [discriminate Hcl|reflexivity]. }
  destruct T as [| | | | | | | | n|fs|fs|t|t|alts| |tg x|tg x]; try exact I; cbn [tagset_of] in Hts;
    try (inversion Hts; exists []; eexists; split; [reflexivity|reflexivity]).
  - inversion Hts. exists []. eexists. split; [reflexivity|].
    cbn [stage3_val] in Hv. unfold stage1_val in Hv. cbn [base_of] in Hv.
    destruct v; try discriminate Hv. apply Bool.andb_true_iff in Hv. destruct Hv as [Hk _].
    pose proof (known_string_nonzero ce cd n Hk) as Hn. unfold eoo_tag, utag. cbn [tcls tnum cls_eqb andb].
    destruct (N.eqb_spec n 0); [congruence|reflexivity].
  - cbn [wf_tags] in Hw. apply Bool.andb_true_iff in Hw. destruct Hw as [Hcl _].
    destruct (tagset_of x) as [ts0|e]; cbn [bind] in Hts; [|discriminate]. inversion Hts. unfold tag_implicitly.
    destruct (rev ts0) as [|lastt r']; [exists []|exists (rev r')]; eexists; (split; [reflexivity|]).
    + destruct tg as [cl cf nm]. exact (Hnew _ cf Hcl).
    + exact (Hnew tg _ Hcl).
  - destruct (tagset_of x) as [ts0|e]; cbn [bind] in Hts; [|discriminate]. unfold tag_explicitly in Hts.
    destruct (tcls tg); inversion Hts; exists ts0; eexists; split; reflexivity.
Qed.

Theorem definite_encoding_is_tlv ce cd srt k : stable ce true k -> forall T v b,
  stage3_ty srt ce T = true -> stage3_val ce cd T v = true ->
  encode ce true k T v = Ok b -> tlv_ok b = true.
Proof.
  intros Hst.
  induction T as [| | | | | | | | n|fs IH|fs IH|t IH|t IH|alts IH| |tg x IH|tg x IH] using ty_ind';
    intros v b Hty Hv He;
    destruct (RoundTripModesC.enc_with_inv_g ce _ true k v b Hst He) as (ec & fl & ts & content & cns & Hcenc & Hts & Hcont & Hfr).
  14: { (* untagged CHOICE: the encoding of the alternative *)
    cbn [tagset_of] in Hts. inversion Hts; try subst ts. cbn [frame] in Hfr. inversion Hfr; subst content; clear Hfr.
    destruct v as [bb|z|bs|bo|cs| |arcs|r|vfs|xs|i x|ab]; try discriminate Hv.
    rewrite stage3_val_choice in Hv. cbn [stage3_ty] in Hty. apply Bool.andb_true_iff in Hty. destruct Hty as [Halts _].
    cbn [enc_content] in Hcont. destruct ec; try discriminate Hcont.
    clear Hcenc He. revert i Hv Hcont. rewrite forallb_forall in Halts.
    induction alts as [|a alts IHa]; intros i Hv Hcont; [destruct i; discriminate Hcont|].
    inversion IH as [|? ? IH0 IH']; subst.
    destruct i as [|i]; cbn [nth_error] in Hv; cbv beta iota fix in Hcont; fold enc_content in Hcont.
    - destruct (enc_with ce (enc_content ce) a (mo true k) x) as [pb|e] eqn:Ea;
        cbn [bind] in Hcont; [|discriminate]. inversion Hcont; subst pb.
      exact (IH0 x b (Halts a (or_introl eq_refl)) Hv Ea).
    - apply (IHa IH' (fun y Hy => Halts y (or_intror Hy)) i Hv Hcont). }
  14: { (* untagged ANY: the octets themselves *)
    cbn [tagset_of] in Hts. inversion Hts; try subst ts. cbn [frame] in Hfr. inversion Hfr; subst content; clear Hfr.
    cbn [enc_content] in Hcont. destruct ec; try discriminate Hcont.
    cbn [stage3_val] in Hv. destruct v; try discriminate Hv; cbn [octets_of] in Hcont; inversion Hcont; subst; exact Hv. }
  all: destruct (outer_tag ce cd _ v ts (proj1 (stage3_ty_base srt ce _ Hty)) Hv Hts) as (ts' & tl & -> & Htl);
    exact (frame_def_tlv _ _ _ _ _ _ _ Hfr Htl).
Qed.


Lemma rec_encoder ce T fs : rec_fields T = Some fs ->
  exists ec fl, concrete_encoder ce T = Ok (ec, fl) /\ (omit_flag ec fl = true -> omits ce = true)
    /\ (sorts_members ec = true -> ce <> BER /\ base_of T = TSet fs).
Proof.
  intros H. rewrite concrete_encoder_base.
  destruct (rec_fields_base T fs H) as [-> | ->]; destruct ce; eexists; eexists;
    (split; [vm_compute; reflexivity|]); split; intros E; try discriminate E; try reflexivity;
    split; try reflexivity; discriminate.
Qed.

(* the members of the record are not re-ordered by the encoder: a SEQUENCE, or any record under BER *)
Definition keeps_order (ce: codec) (T: ty) : Prop := ce = BER \/ exists fs, base_of T = TSeq fs.

Lemma keeps_order_plain ce T fs ec : rec_fields T = Some fs -> keeps_order ce T ->
  concrete_encoder ce T = Ok ec -> sorts_members (fst ec) = false.
Proof.
  intros Hrec Hk Hc. destruct (rec_encoder ce T fs Hrec) as (ec' & fl & Hc' & _ & Hs).
  rewrite Hc in Hc'. inversion Hc'; subst ec. cbn [fst].
  destruct (sorts_members ec') eqn:E; [|reflexivity]. destruct (Hs eq_refl) as [Hnb Hset].
  destruct Hk as [-> | [fs' Hseq]]; [congruence|]. rewrite Hseq in Hset. discriminate Hset.
Qed.

(* the F24 class for the inner value of an OPTIONAL open member: under the encoders that omit empty OPTIONAL
   components the member's encode call gets ifNotEmpty, which must not empty the inner encoding *)
Definition inner_kept (ce: codec) (p: presence) (Ti: ty) (xi: val) : Prop :=
  is_opt p = true -> omits ce = true -> nonempty_enc ce Ti xi = true.

Lemma member_chunk ce d k T fs p Ti xi mo' chunk : stable ce d k -> rec_fields T = Some fs ->
  member_opts ce d k T p = Ok mo' -> enc ce Ti mo' xi = Ok chunk -> inner_kept ce p Ti xi ->
  encode ce d k Ti xi = Ok chunk.
Proof.
  intros Hst Hrec Hmo Hch Hk. unfold member_opts in Hmo.
  destruct (rec_encoder ce T fs Hrec) as (ec & fl & Hc & Hom & _). rewrite Hc in Hmo. cbn [bind fst snd] in Hmo.
  change (mkOpts d k false) with (mo d k) in Hmo. unfold stable in Hst. rewrite Hst in Hmo. cbn [o_def o_chunk mo] in Hmo.
  inversion Hmo; subst mo'; clear Hmo.
  destruct (omit_flag ec fl && is_opt p)%bool eqn:E; [|exact Hch].
  apply Bool.andb_true_iff in E. destruct E as [E1 E2]. specialize (Hk E2 (Hom E1)).
  assert (Hne: chunk <> []).
  { intros ->. unfold nonempty_enc in Hk. unfold enc in Hch.
    rewrite (omits_ifne_opts ce Ti d k xi (Hom E1) Hst) in Hch. rewrite Hch in Hk. discriminate Hk. }
  exact (encm_ifne ce d k Hst Ti xi chunk Hch Hne).
Qed.

(* the inner encoding has a definite length (always so with definite lengths) *)
Definition inner_definite (ce: codec) (d: bool) (k: N) (Ti: ty) (xi: val) : Prop :=
  forall chunk, encode ce d k Ti xi = Ok chunk -> tlv_ok chunk = true.

Lemma inner_tlv ce cd srt d k Ti xi chunk : stable ce d k ->
  stage3_ty srt ce Ti = true -> stage3_val ce cd Ti xi = true -> (d = false -> inner_definite ce d k Ti xi) ->
  encode ce d k Ti xi = Ok chunk -> tlv_ok chunk = true.
Proof.
  intros Hst Hty Hv Hdef He. destruct d.
  - exact (definite_encoding_is_tlv ce cd srt k Hst Ti xi chunk Hty Hv He).
  - exact (Hdef eq_refl chunk He).
Qed.

(* the encoding of a member is not longer than the encoding of the record: the size limit on the
   wire covers the inner encoding *)

Lemma enc_rec_fields_step ce ec omit o f fs ov vs parts :
  EncUnfold.enc_rec_fields_g ce ec omit o (f :: fs) (ov :: vs) = Ok parts ->
  exists rest, EncUnfold.enc_rec_fields_g ce ec omit o fs vs = Ok rest /\ (parts = rest \/ exists kb, parts = kb :: rest).
Proof.
  destruct f as [p ft]. cbn [EncUnfold.enc_rec_fields_g]. fold (EncUnfold.enc_rec_fields_g ce ec omit o).
  set (go := EncUnfold.enc_rec_fields_g ce ec omit o fs vs). intros He.
  assert (Hemit: forall b0 k, (do b <- b0; do rest <- go; Ok ((k, b) :: rest)) = Ok parts ->
            exists rest, go = Ok rest /\ (parts = rest \/ exists kb, parts = kb :: rest)).
  { intros [b|e] k H; cbn [bind] in H; [|discriminate]. destruct go as [rest|e]; cbn [bind] in H; [|discriminate].
    inversion H. eauto. }
  destruct p as [| |dv]; destruct ov as [x|]; try exact (Hemit _ _ He); try (exists parts; auto; fail).
  - destruct (all_optional_container ft); [exact (Hemit _ _ He)|discriminate He].
  - destruct (val_py_eq x dv) as [[|]|]; [exists parts; auto|exact (Hemit _ _ He)|discriminate He].
Qed.

Lemma rec_parts_member ce ec omit o : forall oi fs vs p ft y parts,
  nth_error fs oi = Some (p, ft) -> not_def p -> (oi < length vs)%nat ->
  EncUnfold.enc_rec_fields_g ce ec omit o fs (set_nth oi (Some y) vs) = Ok parts ->
  exists o' pb, enc_with ce (enc_content ce) ft o' y = Ok pb /\ In pb (map snd parts).
Proof.
  induction oi as [|j IH]; intros fs vs p ft y parts Hn Hp Hl He; destruct fs as [|f fs]; try discriminate Hn;
    destruct vs as [|ov vs]; try (cbn [length] in Hl; lia); cbn [nth_error] in Hn; cbn [set_nth] in He.
  - inversion Hn; subst f. cbn [EncUnfold.enc_rec_fields_g] in He. unfold enc in He.
    assert (Hemit: exists o', (do b <- enc_with ce (enc_content ce) ft o' y;
                               do rest <- EncUnfold.enc_rec_fields_g ce ec omit o fs vs;
                               Ok ((set_sort_key (match ec with EcSetDer => true | _ => false end) ft y, b) :: rest)) = Ok parts).
    { destruct p; [eexists; exact He|eexists; exact He|contradiction]. }
    destruct Hemit as (o' & Hemit). destruct (enc_with ce (enc_content ce) ft o' y) as [b|e] eqn:Eb; cbn [bind] in Hemit; [|discriminate].
    destruct (EncUnfold.enc_rec_fields_g ce ec omit o fs vs) as [rest|e]; cbn [bind] in Hemit; [|discriminate].
    inversion Hemit. exists o', b. split; [exact Eb|left; reflexivity].
  - destruct (enc_rec_fields_step ce ec omit o f fs ov _ parts He) as (rest & Hr & Hparts). cbn [length] in Hl.
    destruct (IH fs vs p ft y rest Hn Hp ltac:(lia) Hr) as (o' & pb & Hpb & Hin).
    exists o', pb. split; [exact Hpb|]. destruct Hparts as [-> | [kb ->]]; [exact Hin|right; exact Hin].
Qed.

Lemma member_in_wire ce d k T fs oi p ft vs y wire : stable ce d k ->
  rec_fields T = Some fs -> nth_error fs oi = Some (p, ft) -> not_def p -> (oi < length vs)%nat ->
  encode ce d k T (VRec (set_nth oi (Some y) vs)) = Ok wire ->
  exists o' pb, enc_with ce (enc_content ce) ft o' y = Ok pb /\ (length pb <= length wire)%nat.
Proof.
  intros Hst Hrec Hoi Hp Hl He.
  destruct (RoundTripModesC.enc_with_inv_g ce T d k _ wire Hst He) as (ec & fl & ts & content & cns & _ & _ & Hcont & Hfr).
  rewrite enc_content_base in Hcont.
  rewrite (enc_content_rec ce (base_of T) fs ec fl _ _ (rec_fields_base T fs Hrec)) in Hcont.
  set (om := match ec with EcSeq => ef_omit_empty fl | EcSetCer | EcSetDer => true | _ => false end) in Hcont.
  destruct (EncUnfold.enc_rec_fields_g ce ec om (mo d k) fs (set_nth oi (Some y) vs)) as [parts|e] eqn:Ep; cbn [bind] in Hcont; [|discriminate].
  destruct (rec_parts_member ce ec om (mo d k) oi fs vs p ft y parts Hoi Hp Hl Ep) as (o' & pb & Hpb & Hin).
  exists o', pb. split; [exact Hpb|]. pose proof (frame_len _ _ _ _ _ _ Hfr) as H3.
  enough (length pb <= length content)%nat by lia.
  pose proof (Permutation_in pb (Permutation_map snd (sort_by_perm_self tagset_ltb fst parts)) Hin) as Hin'.
  destruct ec; try discriminate Hcont; inversion Hcont; subst content; apply in_concat_le; assumption.
Qed.

Theorem chunk_in_wire ce d k T fs oi p ft vs chunk wire : stable ce d k ->
  rec_fields T = Some fs -> nth_error fs oi = Some (p, ft) -> not_def p -> is_any ft = true -> (oi < length vs)%nat ->
  encode ce d k T (VRec (set_nth oi (Some (VAny chunk)) vs)) = Ok wire -> (length chunk <= length wire)%nat.
Proof.
  intros Hst Hrec Hoi Hp Ha Hl He.
  destruct (member_in_wire ce d k T fs oi p ft vs _ wire Hst Hrec Hoi Hp Hl He) as (o' & pb & Hpb & Hle).
  pose proof (any_enc_len ce ft o' chunk pb Ha Hpb). lia.
Qed.

Lemma enc_elems_any ce t o : is_any t = true -> forall chunks parts,
  EncUnfold.enc_elems_g ce t o (map VAny chunks) = Ok parts ->
  Forall2 (fun ch pb => length ch <= length pb)%nat chunks parts.
Proof.
  intros Ha. induction chunks as [|c0 chunks IH]; intros parts H; cbn [map] in H.
  - inversion H. constructor.
  - rewrite EncUnfold.enc_elems_g_cons in H. unfold enc in H.
    destruct (enc_with ce (enc_content ce) t o (VAny c0)) as [pb|e] eqn:Ep; cbn [bind] in H; [|discriminate].
    destruct (EncUnfold.enc_elems_g ce t o (map VAny chunks)) as [ps|e] eqn:Eps; cbn [bind] in H; [|discriminate].
    inversion H. constructor; [exact (any_enc_len ce t o c0 pb Ha Ep)|exact (IH ps eq_refl)].
Qed.

Lemma concat_len_le (l1 l2: list bytes) : Forall2 (fun a b => length a <= length b)%nat l1 l2 ->
  (length (concat l1) <= length (concat l2))%nat.
Proof. induction 1; cbn [concat]; rewrite ?app_length; lia. Qed.

Lemma list_enc_len ce ft t o chunks b : list_elem ft = Some t -> is_any t = true ->
  enc_with ce (enc_content ce) ft o (VList (map VAny chunks)) = Ok b -> (length (concat chunks) <= length b)%nat.
Proof.
  intros Hle Ha Hpb. pose proof (list_elem_base ft t Hle) as Hb. unfold enc_with in Hpb.
  destruct (concrete_encoder ce ft) as [[ec fl]|e]; cbn [bind] in Hpb; [|discriminate].
  destruct (tagset_of ft) as [ts|e]; cbn [bind] in Hpb; [|discriminate].
  rewrite enc_content_base in Hpb. rewrite (enc_content_listof ce (base_of ft) t ec fl _ _ Hb) in Hpb.
  destruct (EncUnfold.enc_elems_g ce t _ (map VAny chunks)) as [parts|e] eqn:Ep; cbn [bind] in Hpb; [|discriminate].
  pose proof (concat_len_le _ _ (enc_elems_any ce t _ Ha chunks parts Ep)) as H1.
  pose proof (concat_perm_length _ _ (sort_setof_perm_self parts)) as H2.
  destruct ec; try discriminate Hpb; cbn [bind] in Hpb; pose proof (frame_len _ _ _ _ _ _ Hpb); lia.
Qed.

Theorem chunks_in_wire ce d k T fs oi p ft t vs chunks wire : stable ce d k ->
  rec_fields T = Some fs -> nth_error fs oi = Some (p, ft) -> not_def p -> list_elem ft = Some t -> is_any t = true ->
  (oi < length vs)%nat ->
  encode ce d k T (VRec (set_nth oi (Some (VList (map VAny chunks))) vs)) = Ok wire ->
  forall ch, In ch chunks -> (length ch <= length wire)%nat.
Proof.
  intros Hst Hrec Hoi Hp Hle Ha Hl He ch Hin.
  destruct (member_in_wire ce d k T fs oi p ft vs _ wire Hst Hrec Hoi Hp Hl He) as (o' & pb & Hpb & Hlen).
  pose proof (list_enc_len ce ft t o' chunks pb Hle Ha Hpb). pose proof (in_concat_le ch chunks Hin). lia.
Qed.

(* a non-empty list of ANYs holding octets is never emptied by ifNotEmpty (the F24 class) *)
Lemma list_fill_nonempty ce ft t chunks : list_elem ft = Some t -> is_any t = true ->
  chunks <> [] -> Forall (fun ch => ch <> []) chunks -> nonempty_enc ce ft (VList (map VAny chunks)) = true.
Proof.
  intros Hl Ha Hne HF. unfold nonempty_enc, encw.
  destruct (enc_with ce (enc_content ce) ft ifne_opts (VList (map VAny chunks))) as [b|e] eqn:E; [|reflexivity].
  pose proof (list_enc_len ce ft t _ chunks b Hl Ha E) as Hlen. destruct b; [|reflexivity].
  destruct chunks as [|ch chunks]; [congruence|]. inversion HF as [|? ? Hch _]; subst.
  destruct ch; [congruence|]. cbn [concat app length] in Hlen. lia.
Qed.

Lemma base_subst_field : forall T oi X, base_of (subst_field T oi X) = subst_field (base_of T) oi X.
Proof. induction T; intros oi X; try reflexivity; cbn [subst_field base_of]; auto. Qed.

Lemma rec_fields_subst T fs oi p ft X : rec_fields T = Some fs -> nth_error fs oi = Some (p, ft) ->
  rec_fields (subst_field T oi X) = Some (set_nth oi (p, X) fs).
Proof.
  intros Hrec Hoi. unfold rec_fields. rewrite base_subst_field.
  destruct (rec_fields_base T fs Hrec) as [-> | ->]; cbn [subst_field]; unfold set_field; rewrite Hoi; reflexivity.
Qed.

Lemma abs_fields_cons2 p ft fs ov vs :
  OpenType.abs_fields ((p, ft) :: fs) (ov :: vs)
  = (match ov, p with Some x, _ => Some (abs ft x) | None, Def dv => Some (abs ft dv) | None, _ => None end)
    :: OpenType.abs_fields fs vs.
Proof. reflexivity. Qed.

Lemma abs_fields_subst (R: aval -> aval -> Prop) X w xi : R (abs X w) (abs X xi) ->
  forall oi fs vs' vs p ft a,
  nth_error fs oi = Some (p, ft) -> (oi < length vs')%nat -> (oi < length vs)%nat ->
  Forall2 (RoundTrip3.opt_rel R) (OpenType.abs_fields fs vs') (OpenType.abs_fields fs (set_nth oi (Some a) vs)) ->
  Forall2 (RoundTrip3.opt_rel R) (OpenType.abs_fields (set_nth oi (p, X) fs) (set_nth oi (Some w) vs'))
                                 (OpenType.abs_fields (set_nth oi (p, X) fs) (set_nth oi (Some xi) vs)).
Proof.
  intros HR. induction oi as [|j IH]; intros fs vs' vs p ft a Hn Hl' Hl HF;
    destruct fs as [|[q gt] fs]; try discriminate Hn; destruct vs' as [|ov' vs']; try (cbn [length] in Hl'; lia);
    destruct vs as [|ov vs]; try (cbn [length] in Hl; lia); cbn [nth_error] in Hn; cbn [set_nth] in *;
    rewrite !abs_fields_cons2 in *; inversion HF as [|? ? ? ? H0 HF']; subst.
  - constructor; [apply RoundTrip3.opt_rel_some; exact HR|exact HF'].
  - constructor; [exact H0|]. cbn [length] in Hl', Hl. exact (IH fs vs' vs p ft a Hn ltac:(lia) ltac:(lia) HF').
Qed.

(* the first-pass record reads like the record sent with [a] in the open member, the resolved member reads
   like the inner value: the resolved record reads like the record sent with the inner value there *)
Lemma record_subst srt T fs oi p ft vs' vs a X w xi :
  rec_fields T = Some fs -> nth_error fs oi = Some (p, ft) -> not_def p -> (oi < length vs)%nat ->
  obs srt (abs T (VRec vs')) (abs T (VRec (set_nth oi (Some a) vs))) -> obs srt (abs X w) (abs X xi) ->
  obs srt (abs (subst_field T oi X) (VRec (set_nth oi (Some w) vs')))
          (abs (subst_field T oi X) (VRec (set_nth oi (Some xi) vs))).
Proof.
  intros Hrec Hoi Hp Hl Hobs [Hwa Hwe]. pose proof (rec_fields_subst T fs oi p ft X Hrec Hoi) as Hrec'.
  assert (Hl': (oi < length vs')%nat).
  { destruct (record_members _ (obs_rec srt) T fs _ _ Hrec Hobs) as (vs2 & E & Hm). inversion E; subst vs2.
    specialize (Hm oi p ft Hoi). rewrite (nth_set_nth_same _ vs oi (Some a) None Hl), !(effective_not_def p _ Hp) in Hm.
    destruct (nth oi vs' None) as [fv|] eqn:Hfv; [exact (nth_some_lt _ vs' oi fv Hfv)|contradiction]. }
  destruct Hobs as [Ha He]. rewrite !(abs_record _ _ _ Hrec'). rewrite !(abs_record T fs _ Hrec) in Ha, He. split.
  - destruct (aeq_to_rec _ _ Ha) as (l & Hl1 & HF). inversion Hl1; subst l.
    apply aeq_rec. exact (abs_fields_subst aeq X w xi Hwa oi fs vs' vs p ft a Hoi Hl' Hl HF).
  - intros Hs. specialize (He Hs). inversion He as [He']. f_equal. apply Forall2_opt_eq.
    apply (abs_fields_subst eq X w xi (Hwe Hs) oi fs vs' vs p ft a Hoi Hl' Hl).
    rewrite He'. apply Forall2_refl. apply opt_rel_refl. reflexivity.
Qed.

(* the CER/DER SET encoder with a scalar open member orders the members by the tag of the typed inner
   value, not of the ANY that wraps it: the bytes are not those of the plain record encoder, but a re-ordering
   of the same member encodings - and the SET decoder takes the members in any order (RoundTrip3d.v
   [set_any_order]).  Definite lengths (the DER encoder), any decoder. *)

(* sorted(comps, key=...) rearranges *)
Lemma ins_stable_perm {A K} (ltb: K -> K -> bool) (key: A -> K) x : forall l, Permutation (x :: l) (ins_stable ltb key x l).
Proof.
  induction l as [|y l IH]; cbn [ins_stable]; [apply Permutation_refl|].
  destruct (ltb (key x) (key y)); [apply Permutation_refl|].
  eapply perm_trans; [apply perm_swap|]. apply perm_skip. exact IH.
Qed.

Lemma sort_stable_perm {A K} (ltb: K -> K -> bool) (key: A -> K) (l: list A) : Permutation l (sort_stable ltb key l).
Proof.
  unfold sort_stable.
  assert (H: forall l acc, Permutation (l ++ acc) (fold_left (fun acc x => ins_stable ltb key x acc) l acc)).
  { induction l0 as [|x l0 IH]; intros acc; cbn [fold_left app]; [apply Permutation_refl|].
    eapply perm_trans; [|apply IH]. eapply perm_trans; [apply Permutation_middle|].
    apply Permutation_app_head. apply ins_stable_perm. }
  specialize (H l []). rewrite app_nil_r in H. exact H.
Qed.

(* the parts of the CER/DER SET encoder with an open member and those of the plain record encoder on the record
   with the wrapped chunk in the member: the same member encodings in the same (declaration) order *)
Section SetParts.
  Variables (c: codec) (dyn: bool) (o: eopts) (ec: enc_codec) (oi: nat) (kx: tagset) (bo: bytes).

  Lemma set_parts_step i q gt fs vs L sparts : Nat.eqb i oi = false -> hd None L = hd None vs ->
    set_parts c dyn o oi (Some (kx, bo)) i ((q, gt) :: fs) vs = Ok sparts ->
    (forall sp, set_parts c dyn o oi (Some (kx, bo)) (S i) fs (tl vs) = Ok sp ->
       exists pp, EncUnfold.enc_rec_fields_g c ec true o fs (tl L) = Ok pp /\ map snd pp = map snd sp) ->
    exists pparts, EncUnfold.enc_rec_fields_g c ec true o ((q, gt) :: fs) L = Ok pparts /\ map snd pparts = map snd sparts.
  Proof.
    intros Hi Hhd H Hrest. cbn [set_parts] in H. rewrite Hi in H.
    cbn [EncUnfold.enc_rec_fields_g]. fold (EncUnfold.enc_rec_fields_g c ec true o). unfold enc.
    change (match L with x :: _ => x | [] => None end) with (hd None L).
    change (match L with _ :: r => r | [] => [] end) with (tl L).
    change (match vs with x :: _ => x | [] => None end) with (hd None vs) in H.
    change (match vs with _ :: r => r | [] => [] end) with (tl vs) in H.
    rewrite Hhd.
    destruct q as [| |dv]; destruct (hd None vs) as [x|]; try discriminate H; try exact (Hrest sparts H).
    3: destruct (val_py_eq x dv) as [[|]|]; [exact (Hrest sparts H)| |discriminate H].
    (* a part is written: the same octets, then the rest *)
    all: unfold enc in H; cbn [is_opt] in H; destruct (enc_with c (enc_content c) gt _ x) as [b|e]; cbn [bind] in *; [|discriminate];
      destruct (set_parts c dyn o oi (Some (kx, bo)) (S i) fs (tl vs)) as [rest|e] eqn:Er; cbn [bind] in H; [|discriminate];
      inversion H; subst sparts; destruct (Hrest rest eq_refl) as (pr & Hpr & Hm);
      rewrite Hpr; cbn [bind]; eexists; (split; [reflexivity|]); cbn [map snd]; rewrite Hm; reflexivity.
  Qed.

  Variable w : val.

  (* from component [i] on; [vs] the values from there *)
  Lemma set_parts_plain : forall fs i vs sparts,
    set_parts c dyn o oi (Some (kx, bo)) i fs vs = Ok sparts ->
    ((i <= oi)%nat -> (oi - i < length vs)%nat) ->
    (forall p ft, (i <= oi)%nat -> nth_error fs (oi - i) = Some (p, ft) ->
       not_def p /\ enc c ft (mkOpts (o_def o) (o_chunk o) (is_opt p)) w = Ok bo) ->
    exists pparts,
      EncUnfold.enc_rec_fields_g c ec true o fs (if Nat.leb i oi then set_nth (oi - i) (Some w) vs else vs) = Ok pparts
      /\ map snd pparts = map snd sparts.
  Proof.
    induction fs as [|[q gt] fs IH]; intros i vs sparts H Hlen Hopen.
    - cbn [set_parts] in H. inversion H. exists []. split; reflexivity.
    - destruct (Nat.eqb_spec i oi) as [->|Hio].
      + (* the open member: its part is the encoding of w *)
        rewrite Nat.leb_refl. rewrite Nat.sub_diag in *. destruct (Hopen q gt (le_n _) eq_refl) as [Hq Hbo].
        specialize (Hlen (le_n _)). destruct vs as [|ov vs]; [cbn [length] in Hlen; lia|].
        cbn [set_parts] in H. rewrite Nat.eqb_refl in H.
        destruct (set_parts c dyn o oi (Some (kx, bo)) (S oi) fs vs) as [rest|e] eqn:Er; cbn [bind] in H; [|discriminate].
        inversion H; subst sparts.
        destruct (IH (S oi) vs rest Er ltac:(lia) ltac:(intros; lia)) as (pr & Hpr & Hm).
        rewrite (proj2 (Nat.leb_gt (S oi) oi) (Nat.lt_succ_diag_r oi)) in Hpr.
        cbn [set_nth EncUnfold.enc_rec_fields_g]. fold (EncUnfold.enc_rec_fields_g c ec true o). unfold enc.
        change (is_opt q) with (match q with Opt => true | _ => false end) in Hbo. unfold enc in Hbo.
        assert (Hemit: (do b <- enc_with c (enc_content c) gt (mkOpts (o_def o) (o_chunk o) (match q with Opt => true | _ => false end)) w;
                        do rest0 <- EncUnfold.enc_rec_fields_g c ec true o fs vs;
                        Ok ((set_sort_key (match ec with EcSetDer => true | _ => false end) gt w, b) :: rest0))
                       = Ok ((set_sort_key (match ec with EcSetDer => true | _ => false end) gt w, bo) :: pr)).
        { rewrite Hbo, Hpr. reflexivity. }
        eexists. split; [destruct q; [exact Hemit|exact Hemit|contradiction]|]. cbn [map snd]. rewrite Hm. reflexivity.
      + (* before or after it: the head of the values is the same, the rest by induction *)
        assert (Htl: tl (if Nat.leb i oi then set_nth (oi - i) (Some w) vs else vs)
                     = if Nat.leb (S i) oi then set_nth (oi - S i) (Some w) (tl vs) else tl vs).
        { destruct (Nat.leb_spec i oi) as [Hle|Hgt].
          - rewrite (proj2 (Nat.leb_le (S i) oi)) by lia. replace (oi - i)%nat with (S (oi - S i)) by lia.
            destruct vs; [specialize (Hlen Hle); cbn [length] in Hlen; lia|reflexivity].
          - rewrite (proj2 (Nat.leb_gt (S i) oi)) by lia. reflexivity. }
        apply (set_parts_step i q gt fs vs _ sparts (proj2 (Nat.eqb_neq i oi) Hio)); [|exact H|].
        * destruct (Nat.leb_spec i oi) as [Hle|Hgt]; [|reflexivity].
          replace (oi - i)%nat with (S (oi - S i)) by lia. destruct vs; [specialize (Hlen Hle); cbn [length] in Hlen; lia|reflexivity].
        * intros sp Hsp. rewrite Htl. apply (IH (S i) (tl vs) sp Hsp).
          -- intros Hle. specialize (Hlen ltac:(lia)). destruct vs; cbn [length tl] in *; lia.
          -- intros p ft Hle Hn. apply (Hopen p ft ltac:(lia)). replace (oi - i)%nat with (S (oi - S i)) by lia. exact Hn.
  Qed.
End SetParts.

(* the first pass on the bytes of the DER SET encoder with a scalar open member *)
Lemma sorted_first_pass cd srt T fs oi p ft vs Ti xi wire :
  stage3_ty srt DER T = true -> rec_fields T = Some fs -> base_of T = TSet fs ->
  nth_error fs oi = Some (p, ft) -> is_any ft = true -> not_def p ->
  hole_val DER cd true T oi vs = true ->
  stage3_ty srt DER Ti = true -> stage3_val DER cd Ti xi = true -> holds_blob ft Ti = false ->
  inner_kept DER p Ti xi ->
  enc_open DER true 0 T oi (VRec vs) true [(Ti, xi)] = Ok wire -> N.of_nat (length wire) <= index_max ->
  exists chunk v', encode DER true 0 Ti xi = Ok chunk /\ tlv_ok chunk = true /\ (length chunk <= length wire)%nat /\
    decode cd (Some T) wire = Ok (DV T v', []) /\
    aeq (abs T v') (abs T (VRec (set_nth oi (Some (VAny chunk)) vs))) /\
    (srt = false -> abs T v' = abs T (VRec (set_nth oi (Some (VAny chunk)) vs))).
Proof.
  intros Hty Hrec Hb Hoi Hany Hp Hvs Hti Hxi Hblob Hkept Henc Hmax.
  assert (Hce: enc_ok DER) by (right; reflexivity).
  pose proof (hole_length DER cd true T fs oi vs Hrec Hvs) as Hlen.
  assert (Hcenc: exists fl, concrete_encoder DER T = Ok (EcSetDer, fl) /\ ef_indef fl = true).
  { rewrite concrete_encoder_base, Hb. eexists. split; [vm_compute; reflexivity|reflexivity]. }
  destruct Hcenc as (fl & Hcenc & Hsi).
  unfold enc_open in Henc. rewrite Hrec, Hoi in Henc. cbn [negb] in Henc. cbv iota in Henc.
  rewrite Hcenc in Henc. cbn [bind fst sorts_members] in Henc. rewrite (list_elem_any ft Hany) in Henc. cbn [andb] in Henc.
  rewrite Hany in Henc. cbn [negb] in Henc. cbv iota in Henc.
  unfold enc_sorted_set in Henc. rewrite Hcenc in Henc. cbn [bind] in Henc.
  destruct (tagset_of T) as [ts|e] eqn:Hts; cbn [bind] in Henc; [|discriminate].
  destruct (member_opts DER true 0 T p) as [mo'|e] eqn:Hmo; cbn [bind] in Henc; [|discriminate].
  unfold wrap_inner in Henc. rewrite Hblob in Henc.
  destruct (enc DER Ti mo' xi) as [chunk|e] eqn:Hch; cbn [bind] in Henc; [|discriminate].
  destruct (enc DER ft mo' (VAny chunk)) as [bo|e] eqn:Hbo; cbn [bind] in Henc; [|discriminate].
  change (fix_opts DER (mkOpts true 0 false)) with def_opts in Henc.
  destruct (set_parts DER true def_opts oi (Some (set_sort_key true Ti xi, bo)) 0 fs vs) as [sparts|e] eqn:Esp; cbn [bind] in Henc; [|discriminate].
  rewrite Hsi in Henc.
  pose proof (member_chunk DER true 0 T fs p Ti xi mo' chunk stable_der Hrec Hmo Hch Hkept) as Hchunk.
  pose proof (definite_encoding_is_tlv DER cd srt 0 stable_der Ti xi chunk Hti Hxi Hchunk) as Htlv.
  assert (Hmo': mo' = mkOpts (o_def def_opts) (o_chunk def_opts) (is_opt p)).
  { unfold member_opts in Hmo. rewrite Hcenc in Hmo. cbn [bind fst snd omit_flag andb] in Hmo. inversion Hmo. reflexivity. }
  rewrite Hmo' in Hbo.
  (* the same member encodings as the plain encoder writes for the record holding the chunk, re-ordered *)
  destruct (set_parts_plain DER true def_opts EcSetDer oi (set_sort_key true Ti xi) bo (VAny chunk) fs 0%nat vs sparts Esp)
    as (pparts & Hpp & Hmap).
  { intros _. rewrite Nat.sub_0_r. exact Hlen. }
  { intros p0 ft0 _ Hn. rewrite Nat.sub_0_r, Hoi in Hn. inversion Hn; subst p0 ft0. split; [exact Hp|exact Hbo]. }
  cbn [Nat.leb] in Hpp. rewrite Nat.sub_0_r in Hpp.
  set (sentvs := set_nth oi (Some (VAny chunk)) vs) in *.
  set (wbytes := map snd (sort_stable tagset_ltb fst sparts)) in *.
  assert (Hperm: Permutation wbytes (map snd pparts)).
  { rewrite Hmap. subst wbytes. apply Permutation_map. apply Permutation_sym. apply sort_stable_perm. }
  assert (Hlenw: (length chunk <= length wire)%nat).
  { destruct (rec_parts_member DER EcSetDer true def_opts oi fs vs p ft (VAny chunk) pparts Hoi Hp Hlen Hpp) as (o' & pb & Hpb & Hin).
    pose proof (any_enc_len DER ft o' chunk pb Hany Hpb) as H1.
    pose proof (in_concat_le pb wbytes (Permutation_in pb (Permutation_sym Hperm) Hin)) as H2.
    pose proof (frame_len _ _ _ _ _ _ Henc). lia. }
  exists chunk. enough (Hd: exists v', decode cd (Some T) wire = Ok (DV T v', []) /\ obs srt (abs T v') (abs T (VRec sentvs))).
  { destruct Hd as (v' & Hd & Ho). exists v'. auto. }
  apply (obs_of_rel srt (fun v' => decode cd (Some T) wire = Ok (DV T v', [])) (abs T)). intros R HR.
  (* the value of the record, and of its members *)
  destruct (hole_filled DER cd true T fs oi vs p ft _ Hrec Hoi Hvs
              (any_fill_field DER cd p ft chunk Hany Htlv Hp) (fun E => match Bool.diff_true_false E with end)) as [Hsv _].
  fold sentvs in Hsv.
  assert (Hna: base_of T <> TAny) by (rewrite Hb; discriminate).
  destruct (stage3_ty_base srt DER T Hty) as [Hw Htb]. rewrite Hb in Htb. cbn [stage3_ty] in Htb.
  apply Bool.andb_true_iff in Htb. destruct Htb as [Hfs HK]. rewrite forallb_forall in Hfs.
  assert (HCV: comp_vals DER (Pv3 DER cd) fs sentvs).
  { rewrite (stage3_val_base DER cd T _ Hna), Hb in Hsv. rewrite (stage3_val_rec DER cd (TSet fs) fs sentvs (or_intror eq_refl)) in Hsv.
    apply (comp_vals_of_bool DER cd fs); [|exact Hsv]. apply forallb_forall. intros f Hin.
    specialize (Hfs f Hin). apply Bool.andb_true_iff in Hfs. exact (proj2 Hfs). }
  assert (Hcomp: Forall (comp_ok DER cd R (Pv3 DER cd)) fs).
  { apply Forall_forall. intros f Hin.
    assert (HKf: keys_ok (ckeys (snd f)) = true).
    { apply (keys_ok_sub (snd f) (map snd fs)); [apply in_map; exact Hin|exact HK]. }
    split; [intros _; exact HKf|]. intros x Hx.
    assert (Hval: val_ok DER cd R (snd f) x).
    { specialize (Hfs f Hin). apply Bool.andb_true_iff in Hfs.
      apply (stage3_val_ok DER cd Hce R srt HR true true
               (fun _ T' fs' => set_val DER cd Hce R srt HR (Pv3 DER cd) T' fs')
               (fun _ y Hy => any_item DER cd Hce R srt HR y Hy)
               (fun _ T' Hb' Hwr Hty' y Hy => any_val_tagged DER cd Hce R srt HR srt T' Hb' Hwr Hty' y Hy)
               (snd f) (snd f) eq_refl (proj1 Hfs) (frag_all _) (keys_not_any _ HKf) x Hx). }
    split; [intros _; exact Hval|]. intros _.
    apply (item_sty_of_val DER cd R); [exact Hval|].
    apply resolves_sty; [exact HKf|exact (wire_nonempty DER cd (snd f) x HKf Hx)]. }
  (* the SET decoder on the re-ordered members *)
  destruct (set_any_order DER cd Hce R srt HR (Pv3 DER cd) T fs Hb Hw HK Hcomp sentvs HCV EcSetDer true pparts wbytes ts wire
              (fun _ => eq_refl) Hpp Hperm Hts Henc Hmax)
    as (t0 & r & content & si & v' & Hwt & Hex & _ & Hfr & _ & HRv & dcd & dfl & Hby & Hc).
  assert (HKT: keys_ok (ckeys T) = true).
  { apply (top_keys DER srt T Hty). intros E. rewrite E in Hb. discriminate Hb. }
  destruct (resolves_sty T _ HKT (wire_nonempty DER cd T _ HKT Hsv)) as [Hhit Hmiss].
  rewrite Hwt in Hhit, Hmiss. cbn [tl] in Hmiss.
  exists v'. split; [|exact HRv].
  pose proof (frame_len_r _ _ _ _ _ _ Hfr) as Hlr.
  pose proof (consumes_decode_with cd (S (dec_fuel (Some T) wire - 1 - length r) + length r) (Some T) wire [] (DV T v')) as Hdw.
  rewrite app_nil_r in Hdw. unfold decode_with in Hdw. unfold decode.
  replace (dec_fuel (Some T) wire) with (S (dec_fuel (Some T) wire - 1 - length r) + length r)%nat by (unfold dec_fuel; lia).
  apply Hdw.
  apply (framed_consumes_sp cd (STy T) T t0 r si content wire _ dcd dfl _ Hex Hhit Hmiss Hby Hfr); [unfold dec_fuel; lia|].
  apply Hc. unfold dec_fuel. lia.
Qed.


Section OpenScalar.
  Variables (ce cd: codec) (d: bool) (k: N) (srt: bool).
  Hypothesis Hmode : mode_ok ce cd d k.
  (* the record type: in the stage-3 universe, an ANY member governed by an INTEGER/ENUMERATED/OID member *)
  Variables (T: ty) (fs: list (presence * ty)) (gi oi: nat) (p: presence) (ft: ty) (pg: presence) (gT: ty).
  Hypothesis Hty : stage3_ty srt ce T = true.
  Hypothesis Hf01 : d = false -> no_f01 T = true.
  Hypothesis Hrec : rec_fields T = Some fs.
  Hypothesis Hoi : nth_error fs oi = Some (p, ft).
  Hypothesis Hgi : nth_error fs gi = Some (pg, gT).
  Hypothesis Hany : is_any ft = true.
  Hypothesis Hp : not_def p.
  Hypothesis Hpg : not_def pg.
  Hypothesis Hne : gi <> oi.
  (* the encoder does not re-order the members - or it is the DER encoder, whose re-ordering is covered *)
  Hypothesis Hkeep : keeps_order ce T \/ ce = DER.
  (* the record value: the other members are values of their types; the governing member holds g *)
  Variables (vs: list (option val)) (g: val).
  Hypothesis Hvs : hole_val ce cd d T oi vs = true.
  Hypothesis Hg : nth gi vs None = Some g.
  Hypothesis Hgok : gov_ok gT g = true.
  (* the inner type and value: of the universe; not already a value of the wrapping ANY type *)
  Variables (Ti: ty) (xi: val).
  Hypothesis Hti : stage3_ty srt ce Ti = true.
  Hypothesis Hxi : stage3_val ce cd Ti xi = true.
  Hypothesis Hblob : holds_blob ft Ti = false.
  Hypothesis Hkept : inner_kept ce p Ti xi.
  Hypothesis Hidef : d = false -> inner_definite ce d k Ti xi.
  Variable wire : bytes.
  Hypothesis Henc : enc_open ce d k T oi (VRec vs) true [(Ti, xi)] = Ok wire.
  Hypothesis Hmax : N.of_nat (length wire) <= index_max.

  Lemma open_first_pass :
    exists chunk v', encode ce d k Ti xi = Ok chunk /\ tlv_ok chunk = true /\ (length chunk <= length wire)%nat /\
      decode cd (Some T) wire = Ok (DV T v', []) /\
      obs srt (abs T v') (abs T (VRec (set_nth oi (Some (VAny chunk)) vs))).
  Proof.
    pose proof (mode_stable ce cd d k Hmode) as Hst.
    assert (Hcase: keeps_order ce T \/ (ce = DER /\ base_of T = TSet fs)).
    { destruct Hkeep as [H|H]; [left; exact H|]. destruct (rec_fields_base T fs Hrec) as [E|E]; [left; right; eauto|right; auto]. }
    destruct Hcase as [Hko | [Hder Hset]].
    - destruct (rec_encoder ce T fs Hrec) as (ec & fl & Hc & _ & _).
      destruct (enc_open_plain ce d k T fs oi p ft vs Ti xi (ec, fl) wire Hrec Hoi Hany Hc
                  (keeps_order_plain ce T fs (ec, fl) Hrec Hko Hc) Hblob Henc) as (mo' & chunk & Hmo & Hch & Hplain).
      pose proof (member_chunk ce d k T fs p Ti xi mo' chunk Hst Hrec Hmo Hch Hkept) as Hchunk.
      pose proof (inner_tlv ce cd srt d k Ti xi chunk Hst Hti Hxi Hidef Hchunk) as Htlv.
      destruct (hole_filled ce cd d T fs oi vs p ft _ Hrec Hoi Hvs
                  (any_fill_field ce cd p ft chunk Hany Htlv Hp) (fun _ => any_fill_anys ft chunk Hany Htlv)) as [Hsv Hsa].
      destruct (codec_rt ce cd d k srt Hmode T _ wire Hty Hf01 Hsv Hsa Hplain Hmax) as (v' & Hdec & Hobs).
      pose proof (chunk_in_wire ce d k T fs oi p ft vs chunk wire Hst Hrec Hoi Hp Hany (hole_length ce cd d T fs oi vs Hrec Hvs) Hplain) as Hcw.
      exists chunk, v'. auto.
    - subst ce. destruct (mode_der cd d k Hmode) as [-> ->].
      exact (sorted_first_pass cd srt T fs oi p ft vs Ti xi wire Hty Hrec Hset Hoi Hany Hp Hvs Hti Hxi Hblob Hkept Henc Hmax).
  Qed.

  (* resolution off, or the governing value in neither map: the member holds exactly the complete
         encoding of the inner value; the rest of the record is what was sent *)
  Theorem open_raw : forall dflt override dot,
    (dot = false /\ override = []) \/ resolve_type override dflt g = None ->
    exists chunk vs' fv,
      encode ce d k Ti xi = Ok chunk /\
      dec_open cd T gi oi dflt override dot wire = Ok (DV T (VRec vs'), []) /\
      nth oi vs' None = Some fv /\ octets_of fv = Some chunk /\
      aeq (abs T (VRec vs')) (abs T (VRec (set_nth oi (Some (VAny chunk)) vs))) /\
      (srt = false -> abs T (VRec vs') = abs T (VRec (set_nth oi (Some (VAny chunk)) vs))).
  Proof.
    intros dflt override dot Hoff.
    destruct open_first_pass as (chunk & v' & Hchunk & _ & _ & Hdec & Hobs).
    destruct (first_pass_any _ (obs_rec srt) (obs_leaf srt) T fs gi oi p ft pg gT vs g chunk v' Hrec Hoi Hgi Hany Hp (f_equal (effective_gov pg) Hg) Hgok Hne
                (hole_length ce cd d T fs oi vs Hrec Hvs) Hobs) as (vs' & fv & -> & Hfv & Ho & Hg').
    rewrite (effective_not_def pg _ Hpg) in Hg'.
    exists chunk, vs', fv. split; [exact Hchunk|]. split; [|split; [exact Hfv|split; [exact Ho|exact Hobs]]].
    unfold dec_open. rewrite Hdec. exact (second_pass_raw cd T fs gi oi p ft Hrec Hoi dflt override dot wire vs' fv g Hfv Hg' Hoff).
  Qed.

  (* resolution on (decodeOpenTypes, or a caller's map) and the governing value mapped to the inner type:
         the member comes back as the inner value - same abstract content - read against the mapped type *)
  Hypothesis Hif01 : d = false -> no_f01 Ti = true.
  Hypothesis Hianys : d = false -> anys_ok Ti xi = true.

  Theorem open_resolved : forall dflt override dot,
    (dot = true \/ override <> []) -> resolve_type override dflt g = Some Ti ->
    exists chunk w vs',
      encode ce d k Ti xi = Ok chunk /\
      dec_open cd T gi oi dflt override dot wire
        = Ok (DV (subst_field T oi Ti) (VRec (set_nth oi (Some w) vs')), []) /\
      aeq (abs Ti w) (abs Ti xi) /\ (srt = false -> abs Ti w = abs Ti xi) /\
      nth gi vs' None = Some g /\
      aeq (abs T (VRec vs')) (abs T (VRec (set_nth oi (Some (VAny chunk)) vs))) /\
      (srt = false -> abs T (VRec vs') = abs T (VRec (set_nth oi (Some (VAny chunk)) vs))).
  Proof.
    intros dflt override dot Hon Hmap.
    destruct open_first_pass as (chunk & v' & Hchunk & Htlv & Hcw & Hdec & Hobs).
    destruct (codec_rt ce cd d k srt Hmode Ti xi chunk Hti Hif01 Hxi Hianys Hchunk ltac:(lia)) as (w & Hdw & Haw & Hew).
    destruct (first_pass_any _ (obs_rec srt) (obs_leaf srt) T fs gi oi p ft pg gT vs g chunk v' Hrec Hoi Hgi Hany Hp (f_equal (effective_gov pg) Hg) Hgok Hne
                (hole_length ce cd d T fs oi vs Hrec Hvs) Hobs) as (vs' & fv & -> & Hfv & Ho & Hg').
    rewrite (effective_not_def pg _ Hpg) in Hg'.
    exists chunk, w, vs'. split; [exact Hchunk|]. split; [|split; [exact Haw|split; [exact Hew|split; [exact Hg'|exact Hobs]]]].
    unfold dec_open. rewrite Hdec.
    exact (second_pass_scalar cd T fs gi oi p ft Hrec Hoi dflt override dot wire vs' fv g Hfv Hg' Ti Hon Hmap chunk w Hany Ho
             (tlv_no_eoo_prefix chunk Htlv) Hdw).
  Qed.

  (* the caller's map wins over the type's own map, whatever that says, and switches resolution on by
         itself (no decodeOpenTypes needed) *)
  Theorem open_override_wins : forall dflt override dot,
    omap_find g override = Some Ti ->
    exists chunk w vs',
      encode ce d k Ti xi = Ok chunk /\
      dec_open cd T gi oi dflt override dot wire
        = Ok (DV (subst_field T oi Ti) (VRec (set_nth oi (Some w) vs')), []) /\
      aeq (abs Ti w) (abs Ti xi) /\ (srt = false -> abs Ti w = abs Ti xi) /\
      nth gi vs' None = Some g /\
      aeq (abs T (VRec vs')) (abs T (VRec (set_nth oi (Some (VAny chunk)) vs))) /\
      (srt = false -> abs T (VRec vs') = abs T (VRec (set_nth oi (Some (VAny chunk)) vs))).
  Proof.
    intros dflt override dot Hov.
    exact (open_resolved dflt override dot (override_on override g Ti dot Hov) (override_wins override dflt g Ti Hov)).
  Qed.
  (* resolution on, in one statement: decoding returns - read against the type whose open member has the mapped
          type - the record that was sent with the typed inner value in the open member *)
  Theorem open_resolved_record : forall dflt override dot,
    (dot = true \/ override <> []) -> resolve_type override dflt g = Some Ti ->
    exists rv,
      dec_open cd T gi oi dflt override dot wire = Ok (DV (subst_field T oi Ti) rv, []) /\
      aeq (abs (subst_field T oi Ti) rv) (abs (subst_field T oi Ti) (VRec (set_nth oi (Some xi) vs))) /\
      (srt = false -> abs (subst_field T oi Ti) rv = abs (subst_field T oi Ti) (VRec (set_nth oi (Some xi) vs))).
  Proof.
    intros dflt override dot Hon Hmap.
    destruct (open_resolved dflt override dot Hon Hmap) as (chunk & w & vs' & _ & Hd & Haw & Hew & _ & Hobs).
    exists (VRec (set_nth oi (Some w) vs')). split; [exact Hd|].
    exact (record_subst srt T fs oi p ft vs' vs (VAny chunk) Ti w xi Hrec Hoi Hp (hole_length ce cd d T fs oi vs Hrec Hvs) Hobs (conj Haw Hew)).
  Qed.

  Theorem open_override_wins_record : forall dflt override dot,
    omap_find g override = Some Ti ->
    exists rv,
      dec_open cd T gi oi dflt override dot wire = Ok (DV (subst_field T oi Ti) rv, []) /\
      aeq (abs (subst_field T oi Ti) rv) (abs (subst_field T oi Ti) (VRec (set_nth oi (Some xi) vs))) /\
      (srt = false -> abs (subst_field T oi Ti) rv = abs (subst_field T oi Ti) (VRec (set_nth oi (Some xi) vs))).
  Proof.
    intros dflt override dot Hov.
    exact (open_resolved_record dflt override dot (override_on override g Ti dot Hov) (override_wins override dflt g Ti Hov)).
  Qed.
End OpenScalar.


Lemma list_fill_val ce cd ft t chunks : list_elem ft = Some t -> is_any t = true ->
  Forall (fun ch => tlv_ok ch = true) chunks -> stage3_val ce cd ft (VList (map VAny chunks)) = true.
Proof.
  intros Hl Ha HF. pose proof (list_elem_base ft t Hl) as Hb.
  assert (Hna: base_of ft <> TAny) by (destruct Hb as [E|E]; rewrite E; discriminate).
  rewrite (stage3_val_base ce cd ft _ Hna).
  assert (H: forallb (stage3_val ce cd t) (map VAny chunks) = true).
  { apply forallb_forall. intros x Hx. apply in_map_iff in Hx. destruct Hx as (ch & <- & Hc).
    rewrite Forall_forall in HF. exact (any_fill_val ce cd t ch Ha (fun _ => HF ch Hc)). }
  destruct Hb as [-> | ->]; exact H.
Qed.

Lemma list_fill_anys ft t chunks : list_elem ft = Some t -> is_any t = true ->
  Forall (fun ch => tlv_ok ch = true) chunks -> anys_ok ft (VList (map VAny chunks)) = true.
Proof.
  intros Hl Ha HF. pose proof (list_elem_base ft t Hl) as Hb.
  assert (Hna: base_of ft <> TAny) by (destruct Hb as [E|E]; rewrite E; discriminate).
  rewrite (anys_ok_base ft _ Hna). rewrite (anys_ok_list (base_of ft) t _ Hb).
  apply forallb_forall. intros x Hx. apply in_map_iff in Hx. destruct Hx as (ch & <- & Hc).
  rewrite Forall_forall in HF. exact (any_fill_anys t ch Ha (HF ch Hc)).
Qed.

(* the decoded list member, element by element against the chunks - against a rearrangement of them where a
   sorting encoder met a SET OF *)
Lemma list_member_pos srt ft t fv chunks :
  list_elem ft = Some t -> is_any t = true ->
  obs srt (abs ft fv) (abs ft (VList (map VAny chunks))) ->
  exists ys chunks', fv = VList ys /\ Permutation chunks chunks' /\
    (base_of ft = TSeqOf t \/ srt = false -> chunks' = chunks) /\
    Forall2 (fun ch y => octets_of y = Some ch) chunks' ys.
Proof.
  intros Hl Ht [E Ee]. rewrite (abs_base ft fv), (abs_base ft (VList _)) in E, Ee.
  assert (Hpos: forall cs ys, Forall2 aeq (map (abs t) (map VAny cs)) (map (abs t) ys) ->
             Forall2 (fun ch y => octets_of y = Some ch) cs ys).
  { intros cs ys H. rewrite map_map in H. apply (proj1 (Forall2_map _ _ _ cs ys)) in H.
    refine (Basics.Forall2_impl_in _ _ _ _ _ H). intros ch y _ _ Hy. cbn beta in Hy. apply aeq_sym in Hy.
    exact (any_fixed _ (obs_leaf true) t y ch Ht (conj Hy (fun E0 => match Bool.diff_true_false E0 with end))). }
  destruct (list_elem_base ft t Hl) as [Hb|Hb]; rewrite Hb in E, Ee; cbn [abs] in E, Ee.
  - apply aeq_to_list in E. destruct E as (xs & Hx & HF).
    destruct fv; cbn [abs] in Hx; try discriminate Hx. inversion Hx; subst xs.
    exists xs0, chunks. split; [reflexivity|]. split; [apply Permutation_refl|]. split; [reflexivity|]. exact (Hpos chunks xs0 HF).
  - destruct srt.
    + apply aeq_to_bag in E. destruct E as (xs & zs & Hx & Hperm & HF).
      destruct fv; cbn [abs] in Hx; try discriminate Hx. inversion Hx; subst xs.
      rewrite map_map in Hperm. apply Permutation_sym in Hperm.
      destruct (Permutation_map_inv _ _ Hperm) as (chunks' & -> & Hp').
      exists xs0, chunks'. split; [reflexivity|]. split; [exact Hp'|]. split.
      * intros [Hc|Hc]; [rewrite Hc in Hb|]; discriminate.
      * apply Hpos. rewrite map_map. exact HF.
    + specialize (Ee eq_refl). destruct fv; cbn [abs] in Ee; try discriminate Ee. inversion Ee as [E'].
      exists xs, chunks. split; [reflexivity|]. split; [apply Permutation_refl|]. split; [reflexivity|].
      apply Hpos. rewrite E'. apply Forall2_refl. exact aeq_refl.
Qed.

Lemma resolve_elems_map c allow E (dec1: bytes -> val) : forall chunks ys,
  Forall2 (fun ch y => octets_of y = Some ch) chunks ys ->
  Forall (fun ch => no_eoo_prefix ch = true /\ decode c (Some E) ch = Ok (DV E (dec1 ch), [])) chunks ->
  resolve_elems c allow E ys = Ok (map dec1 chunks).
Proof.
  induction 1 as [|ch y chunks ys Ho _ IH]; intros HF; [reflexivity|]. inversion HF as [|? ? [Hpre Hd] HF']; subst.
  cbn [resolve_elems map]. rewrite Ho, (decode_eoo_any c allow (Some E) ch Hpre), Hd. cbn [bind fst].
  rewrite (IH HF'). reflexivity.
Qed.

(* the second pass over a list member whose elements hold, in some order, chunks that all decode: the resolved
   elements are the decoded chunks in that order *)
Lemma second_pass_chunks {X} c T fs gi oi p ft t dflt override dot wire vs' g E (Q: val -> X -> Prop) xs chunks chunks' ys :
  rec_fields T = Some fs -> nth_error fs oi = Some (p, ft) -> list_elem ft = Some t ->
  nth oi vs' None = Some (VList ys) -> nth gi vs' None = Some g ->
  dot = true \/ override <> [] -> resolve_type override dflt g = Some E ->
  Forall2 (fun x ch => no_eoo_prefix ch = true /\ exists w, decode c (Some E) ch = Ok (DV E w, []) /\ Q w x) xs chunks ->
  Permutation chunks chunks' -> Forall2 (fun ch y => octets_of y = Some ch) chunks' ys ->
  exists ws ws0,
    dec_open_after c T gi oi dflt override dot wire (Ok (DV T (VRec vs'), []))
      = Ok (DV (subst_field T oi (retype_list ft E)) (VRec (set_nth oi (Some (VList ws)) vs')), []) /\
    Permutation ws0 ws /\ (chunks' = chunks -> ws = ws0) /\ Forall2 Q ws0 xs.
Proof.
  intros Hrec Hoi Hl Hfv Hg' Hon Hmap HF Hperm Hpos.
  set (dec1 := fun ch => match decode c (Some E) ch with Ok (DV _ w, _) => w | _ => VNull end).
  assert (Hd: Forall2 (fun x ch => no_eoo_prefix ch = true /\ decode c (Some E) ch = Ok (DV E (dec1 ch), []) /\ Q (dec1 ch) x) xs chunks).
  { refine (Basics.Forall2_impl_in _ _ _ _ _ HF). intros x ch _ _ (Hpre & w & Hdw & Hq). unfold dec1. rewrite Hdw. auto. }
  exists (map dec1 chunks'), (map dec1 chunks). split; [|split; [apply Permutation_map; exact Hperm|split]].
  - apply (second_pass_list c T fs gi oi p ft Hrec Hoi dflt override dot wire vs' _ g Hfv Hg' E Hon Hmap t ys _ Hl eq_refl).
    apply (resolve_elems_map c _ E dec1 chunks' ys Hpos). apply Forall_forall. intros ch Hc.
    destruct (Forall2_in_r _ _ _ ch Hd (Permutation_in ch (Permutation_sym Hperm) Hc)) as (x & _ & H1 & H2 & _). auto.
  - intros ->. reflexivity.
  - clear - Hd. induction Hd as [|x ch xs chunks (_ & _ & H) _ IH]; cbn [map]; constructor; assumption.
Qed.

Lemma retype_list_base : forall ft t E, list_elem ft = Some t ->
  (base_of ft = TSeqOf t -> base_of (retype_list ft E) = TSeqOf E) /\
  (base_of ft = TSetOf t -> base_of (retype_list ft E) = TSetOf E).
Proof.
  unfold list_elem. induction ft; intros t0 E Hl; cbn [base_of retype_list] in *; try discriminate Hl;
    try (split; intros H; try discriminate H; reflexivity).
  - exact (IHft t0 E Hl).
  - exact (IHft t0 E Hl).
Qed.

(* the resolved list member against the inner values: SEQUENCE OF in order, SET OF as a multiset *)
Lemma list_obs srt ft t E ws ws0 xs : list_elem ft = Some t ->
  Permutation ws0 ws -> (base_of ft = TSeqOf t \/ srt = false -> ws = ws0) ->
  Forall2 (fun w x => obs srt (abs E w) (abs E x)) ws0 xs ->
  obs srt (abs (retype_list ft E) (VList ws)) (abs (retype_list ft E) (VList xs)).
Proof.
  intros Hl Hperm Hsame HF. destruct (retype_list_base ft t E Hl) as [Hq1 Hq2].
  assert (Ha0: Forall2 aeq (map (abs E) ws0) (map (abs E) xs)).
  { apply Forall2_map_abs. refine (Basics.Forall2_impl_in _ _ _ _ _ HF). intros w x _ _ [H _]. exact H. }
  assert (He0: srt = false -> map (abs E) ws0 = map (abs E) xs).
  { intros Hs. apply Forall2_eq. apply Forall2_map_abs. refine (Basics.Forall2_impl_in _ _ _ _ _ HF). intros w x _ _ [_ H]. exact (H Hs). }
  rewrite (abs_base _ (VList ws)), (abs_base _ (VList xs)).
  destruct (list_elem_base ft t Hl) as [Hb|Hb].
  - rewrite (Hsame (or_introl Hb)), (Hq1 Hb). cbn [abs]. split; [apply aeq_list; exact Ha0|].
    intros Hs. rewrite (He0 Hs). reflexivity.
  - rewrite (Hq2 Hb). cbn [abs]. split.
    + apply (aeq_bag _ _ (map (abs E) ws0)); [apply Permutation_map; apply Permutation_sym; exact Hperm|exact Ha0].
    + intros Hs. rewrite (Hsame (or_intror Hs)), (He0 Hs). reflexivity.
Qed.

Lemma elems_hold ce d k (inners: list (ty * val)) chunks chunks' ys :
  Forall2 (fun i ch => encode ce d k (fst i) (snd i) = Ok ch) inners chunks -> Permutation chunks chunks' ->
  Forall2 (fun ch y => octets_of y = Some ch) chunks' ys ->
  length ys = length inners /\
  Forall (fun y => exists Ti xi ch, In (Ti, xi) inners /\ encode ce d k Ti xi = Ok ch /\ octets_of y = Some ch) ys.
Proof.
  intros HF2 Hperm Hpos. split.
  - rewrite <- (Forall2_length _ _ _ Hpos), <- (Permutation_length Hperm). symmetry. exact (Forall2_length _ _ _ HF2).
  - apply Forall_forall. intros y Hy. destruct (Forall2_in_r _ _ _ y Hpos Hy) as (ch & Hc & Hoct).
    destruct (Forall2_in_r _ _ _ ch HF2 (Permutation_in ch (Permutation_sym Hperm) Hc)) as ([Ti xi] & Hi & He).
    exists Ti, xi, ch. auto.
Qed.

(* the well-formedness of the inner values *)
Definition inner_ok (ce cd: codec) (srt d: bool) (k: N) (t: ty) (i: ty * val) : Prop :=
  stage3_ty srt ce (fst i) = true /\ stage3_val ce cd (fst i) (snd i) = true /\ holds_blob t (fst i) = false
  /\ (d = false -> inner_definite ce d k (fst i) (snd i)).

Section OpenList.
  Variables (ce cd: codec) (d: bool) (k: N) (srt: bool).
  Hypothesis Hmode : mode_ok ce cd d k.
  Variables (T: ty) (fs: list (presence * ty)) (gi oi: nat) (p: presence) (ft t: ty) (pg: presence) (gT: ty).
  Hypothesis Hty : stage3_ty srt ce T = true.
  Hypothesis Hf01 : d = false -> no_f01 T = true.
  Hypothesis Hrec : rec_fields T = Some fs.
  Hypothesis Hoi : nth_error fs oi = Some (p, ft).
  Hypothesis Hgi : nth_error fs gi = Some (pg, gT).
  Hypothesis Hlist : list_elem ft = Some t.
  Hypothesis Hany : is_any t = true.
  Hypothesis Hp : not_def p.
  Hypothesis Hpg : not_def pg.
  Hypothesis Hne : gi <> oi.
  Variables (vs: list (option val)) (g: val).
  Hypothesis Hvs : hole_val ce cd d T oi vs = true.
  Hypothesis Hg : nth gi vs None = Some g.
  Hypothesis Hgok : gov_ok gT g = true.
  Variable inners : list (ty * val).
  Hypothesis Hinners : Forall (inner_ok ce cd srt d k t) inners.
  (* an OPTIONAL list member with no element is left out by the CER/DER encoders (the F24 class) *)
  Hypothesis Hkept : is_opt p = true -> omits ce = true -> inners <> [].
  Variable wire : bytes.
  Hypothesis Henc : enc_open ce d k T oi (VRec vs) true inners = Ok wire.
  Hypothesis Hmax : N.of_nat (length wire) <= index_max.

  Lemma open_first_pass_list :
    exists chunks vs' fv, Forall2 (fun i ch => encode ce d k (fst i) (snd i) = Ok ch) inners chunks /\
      Forall (fun ch => tlv_ok ch = true) chunks /\
      encode ce d k T (VRec (set_nth oi (Some (VList (map VAny chunks))) vs)) = Ok wire /\
      decode cd (Some T) wire = Ok (DV T (VRec vs'), []) /\
      obs srt (abs T (VRec vs')) (abs T (VRec (set_nth oi (Some (VList (map VAny chunks))) vs))) /\
      nth oi vs' None = Some fv /\ obs srt (abs ft fv) (abs ft (VList (map VAny chunks))) /\ nth gi vs' None = Some g.
  Proof.
    pose proof (mode_stable ce cd d k Hmode) as Hst.
    assert (HFb: Forall (fun i : ty * val => holds_blob t (fst i) = false) inners).
    { eapply Forall_impl; [|exact Hinners]. intros i (_ & _ & H & _). exact H. }
    destruct (enc_open_plain_list ce d k T fs oi p ft t vs inners wire Hrec Hoi Hlist Hany HFb Henc) as (chunks & HF2 & Hplain).
    assert (Htlv: Forall (fun ch => tlv_ok ch = true) chunks).
    { clear - HF2 Hinners Hst. induction HF2 as [|i ch inners chunks Hi HF2 IH]; [constructor|].
      inversion Hinners as [|? ? (H1 & H2 & _ & H4) Hin']; subst. constructor; [|exact (IH Hin')].
      exact (inner_tlv ce cd srt d k (fst i) (snd i) ch Hst H1 H2 H4 Hi). }
    assert (Hfield: field_ok ce cd p ft (Some (VList (map VAny chunks))) = true).
    { pose proof (list_fill_val ce cd ft t chunks Hlist Hany Htlv) as Hv.
      destruct p as [| |dv]; cbn [field_ok]; [exact Hv| |contradiction].
      rewrite Hv. cbn [andb]. destruct (omits ce) eqn:Eo; [|reflexivity]. cbn [negb orb].
      apply (list_fill_nonempty ce ft t chunks Hlist Hany).
      - intros ->. inversion HF2; subst. exact (Hkept eq_refl eq_refl eq_refl).
      - eapply Forall_impl; [|exact Htlv]. intros ch Hc. exact (tlv_ne ch Hc). }
    destruct (hole_filled ce cd d T fs oi vs p ft _ Hrec Hoi Hvs Hfield
                (fun _ => list_fill_anys ft t chunks Hlist Hany Htlv)) as [Hsv Hsa].
    destruct (codec_rt ce cd d k srt Hmode T _ wire Hty Hf01 Hsv Hsa Hplain Hmax) as (v' & Hdec & Hobs).
    destruct (first_pass_facts _ (obs_rec srt) (obs_leaf srt) T fs gi oi p ft pg gT vs g _ v' Hrec Hoi Hgi Hp
                (f_equal (effective_gov pg) Hg) Hgok Hne (hole_length ce cd d T fs oi vs Hrec Hvs) Hobs) as (vs' & fv & -> & Hfv & Ho & Hg').
    rewrite (effective_not_def pg _ Hpg) in Hg'. exists chunks, vs', fv. auto 10.
  Qed.

  (* resolution off or the governing value unmapped: every element holds exactly the complete encoding of
         an inner value (SET OF: in the order the encoder wrote them) *)
  Theorem open_raw_list : forall dflt override dot,
    (dot = false /\ override = []) \/ resolve_type override dflt g = None ->
    exists vs' ys,
      dec_open cd T gi oi dflt override dot wire = Ok (DV T (VRec vs'), []) /\
      nth oi vs' None = Some (VList ys) /\ length ys = length inners /\
      Forall (fun y => exists Ti xi ch, In (Ti, xi) inners /\ encode ce d k Ti xi = Ok ch /\ octets_of y = Some ch) ys.
  Proof.
    intros dflt override dot Hoff.
    destruct open_first_pass_list as (chunks & vs' & fv & HF2 & _ & _ & Hdec & _ & Hfv & Ho & Hg').
    destruct (list_member_pos srt ft t fv chunks Hlist Hany Ho) as (ys & chunks' & -> & Hperm & _ & Hpos).
    exists vs', ys. split; [|split; [exact Hfv|exact (elems_hold ce d k inners chunks chunks' ys HF2 Hperm Hpos)]].
    unfold dec_open. rewrite Hdec. exact (second_pass_raw cd T fs gi oi p ft Hrec Hoi dflt override dot wire vs' _ g Hfv Hg' Hoff).
  Qed.

  (* resolution on and the governing value mapped to E, all inner values of type E: every element comes back
         as one of the inner values (same abstract content), read against the mapped type *)
  Variables (E: ty) (xs: list val).
  Hypothesis Hsame : inners = map (fun x => (E, x)) xs.
  Hypothesis Hif01 : d = false -> no_f01 E = true.
  Hypothesis Hianys : d = false -> forall x, In x xs -> anys_ok E x = true.

  (* the resolved elements [ws] are the decoded inner encodings [ws0], each reading like its inner value, in the
     order of the elements on the wire: that of the inner values, unless a sorting encoder met a SET OF *)
  Lemma open_list_resolved : forall dflt override dot,
    (dot = true \/ override <> []) -> resolve_type override dflt g = Some E ->
    exists vs' ws ws0 a,
      dec_open cd T gi oi dflt override dot wire
        = Ok (DV (subst_field T oi (retype_list ft E)) (VRec (set_nth oi (Some (VList ws)) vs')), []) /\
      nth gi vs' None = Some g /\
      obs srt (abs T (VRec vs')) (abs T (VRec (set_nth oi (Some a) vs))) /\
      Permutation ws0 ws /\ (base_of ft = TSeqOf t \/ srt = false -> ws = ws0) /\
      Forall2 (fun w x => obs srt (abs E w) (abs E x)) ws0 xs.
  Proof.
    intros dflt override dot Hon Hmap.
    destruct open_first_pass_list as (chunks & vs' & fv & HF2 & Htlv & Hplain & Hdec & Hobs & Hfv & Ho & Hg').
    destruct (list_member_pos srt ft t fv chunks Hlist Hany Ho) as (ys & chunks' & -> & Hperm & Hord & Hpos).
    (* every chunk decodes to a value that reads like the inner value it encodes *)
    assert (HF: Forall2 (fun x ch => no_eoo_prefix ch = true /\
                           exists w, decode cd (Some E) ch = Ok (DV E w, []) /\ obs srt (abs E w) (abs E x)) xs chunks).
    { rewrite Hsame in HF2, Hinners. rewrite <- (map_id chunks) in HF2. apply (proj1 (Forall2_map _ _ _ xs chunks)) in HF2.
      refine (Basics.Forall2_impl_in _ _ _ _ _ HF2). intros x ch Hx Hc He. cbn [fst snd] in He.
      rewrite Forall_forall in Hinners, Htlv. destruct (Hinners (E, x) (in_map _ _ _ Hx)) as (H1 & H2 & _ & _). cbn [fst snd] in H1, H2.
      pose proof (chunks_in_wire ce d k T fs oi p ft t vs chunks wire (mode_stable ce cd d k Hmode) Hrec Hoi Hp Hlist Hany
                    (hole_length ce cd d T fs oi vs Hrec Hvs) Hplain ch Hc) as Hcw.
      destruct (codec_rt ce cd d k srt Hmode E x ch H1 Hif01 H2 (fun Hd => Hianys Hd x Hx) He ltac:(lia)) as (w & Hdw & Hw).
      split; [exact (tlv_no_eoo_prefix ch (Htlv ch Hc))|eauto]. }
    destruct (second_pass_chunks cd T fs gi oi p ft t dflt override dot wire vs' g E _ xs chunks chunks' ys
                Hrec Hoi Hlist Hfv Hg' Hon Hmap HF Hperm Hpos) as (ws & ws0 & Hd & Hp' & Heq & HFq).
    exists vs', ws, ws0, (VList (map VAny chunks)). unfold dec_open. rewrite Hdec. auto 10.
  Qed.

  Theorem open_resolved_list : forall dflt override dot,
    (dot = true \/ override <> []) -> resolve_type override dflt g = Some E ->
    exists vs' ws,
      dec_open cd T gi oi dflt override dot wire
        = Ok (DV (subst_field T oi (retype_list ft E)) (VRec (set_nth oi (Some (VList ws)) vs')), []) /\
      length ws = length xs /\
      Forall (fun w => exists x, In x xs /\ aeq (abs E w) (abs E x) /\ (srt = false -> abs E w = abs E x)) ws /\
      nth gi vs' None = Some g.
  Proof.
    intros dflt override dot Hon Hmap.
    destruct (open_list_resolved dflt override dot Hon Hmap) as (vs' & ws & ws0 & a & Hd & Hg' & _ & Hperm & _ & HF).
    exists vs', ws. split; [exact Hd|]. split; [|split; [|exact Hg']].
    - rewrite <- (Permutation_length Hperm). exact (Forall2_length _ _ _ HF).
    - apply Forall_forall. intros w Hw.
      exact (Forall2_in_r _ _ _ w (Forall2_flip _ _ _ HF) (Permutation_in w (Permutation_sym Hperm) Hw)).
  Qed.

  Theorem open_override_wins_list : forall dflt override dot,
    omap_find g override = Some E ->
    exists vs' ws,
      dec_open cd T gi oi dflt override dot wire
        = Ok (DV (subst_field T oi (retype_list ft E)) (VRec (set_nth oi (Some (VList ws)) vs')), []) /\
      length ws = length xs /\
      Forall (fun w => exists x, In x xs /\ aeq (abs E w) (abs E x) /\ (srt = false -> abs E w = abs E x)) ws /\
      nth gi vs' None = Some g.
  Proof.
    intros dflt override dot Hov.
    exact (open_resolved_list dflt override dot (override_on override g E dot Hov) (override_wins override dflt g E Hov)).
  Qed.
  (* resolution on, in one statement: the resolved record is the record that was sent with the typed inner values in the
          open member (SEQUENCE OF: in order; SET OF: as a multiset) *)
  Theorem open_resolved_list_record : forall dflt override dot,
    (dot = true \/ override <> []) -> resolve_type override dflt g = Some E ->
    exists rv,
      dec_open cd T gi oi dflt override dot wire = Ok (DV (subst_field T oi (retype_list ft E)) rv, []) /\
      aeq (abs (subst_field T oi (retype_list ft E)) rv)
          (abs (subst_field T oi (retype_list ft E)) (VRec (set_nth oi (Some (VList xs)) vs))) /\
      (srt = false -> abs (subst_field T oi (retype_list ft E)) rv
                      = abs (subst_field T oi (retype_list ft E)) (VRec (set_nth oi (Some (VList xs)) vs))).
  Proof.
    intros dflt override dot Hon Hmap.
    destruct (open_list_resolved dflt override dot Hon Hmap) as (vs' & ws & ws0 & a & Hd & _ & Hobs & Hperm & Hord & HF).
    exists (VRec (set_nth oi (Some (VList ws)) vs')). split; [exact Hd|].
    exact (record_subst srt T fs oi p ft vs' vs a (retype_list ft E) (VList ws) (VList xs) Hrec Hoi Hp
             (hole_length ce cd d T fs oi vs Hrec Hvs) Hobs (list_obs srt ft t E ws ws0 xs Hlist Hperm Hord HF)).
  Qed.
End OpenList.

(* the list theorems of Props/C18.v, whose premise is a round trip under the model's own comparison:
   [aval_eqb] implies [aeq] (RoundTrip3f.v), so the first pass is read as above *)

Lemma first_pass_list_eqb c defm ck T fs gi oi p ft t pg gT vs g chunks wire :
  rec_fields T = Some fs -> nth_error fs oi = Some (p, ft) -> nth_error fs gi = Some (pg, gT) ->
  list_elem ft = Some t -> is_any t = true -> not_def p -> not_def pg -> gi <> oi -> (oi < length vs)%nat ->
  nth gi vs None = Some g -> gov_ok gT g = true -> roundtrips c defm ck T ->
  encode c defm ck T (VRec (set_nth oi (Some (VList (map VAny chunks))) vs)) = Ok wire ->
  exists vs' ys chunks', decode c (Some T) wire = Ok (DV T (VRec vs'), []) /\ nth oi vs' None = Some (VList ys) /\
    nth gi vs' None = Some g /\ Permutation chunks chunks' /\ Forall2 (fun ch y => octets_of y = Some ch) chunks' ys.
Proof.
  intros Hrec Hoi Hgi Hl Hany Hp Hpg Hne Hlen Hg Hgok RT Hplain.
  destruct (RT _ _ Hplain) as (v' & Hfirst & Hobs).
  assert (Hobs': obs true (abs T v') (abs T (VRec (set_nth oi (Some (VList (map VAny chunks))) vs)))).
  { split; [exact (proj1 (aval_eqb_aeq _) _ Hobs)|discriminate]. }
  destruct (first_pass_facts _ (obs_rec true) (obs_leaf true) T fs gi oi p ft pg gT vs g _ v' Hrec Hoi Hgi Hp
              (f_equal (effective_gov pg) Hg) Hgok Hne Hlen Hobs') as (vs' & fv & -> & Hfv & Ho & Hg').
  rewrite (effective_not_def pg _ Hpg) in Hg'.
  destruct (list_member_pos true ft t fv chunks Hl Hany Ho) as (ys & chunks' & -> & Hperm & _ & Hpos).
  exists vs', ys, chunks'. auto.
Qed.

Theorem raw_list_is_complete_encodings :
  forall c defm ck T fs gi oi p ft t pg gT vs g inners dflt override dot wire,
  rec_fields T = Some fs -> nth_error fs oi = Some (p, ft) -> nth_error fs gi = Some (pg, gT) ->
  list_elem ft = Some t -> is_any t = true -> not_def p -> not_def pg -> gi <> oi -> (oi < length vs)%nat ->
  nth gi vs None = Some g -> gov_ok gT g = true ->
  Forall (fun i => holds_blob t (fst i) = false) inners ->
  roundtrips c defm ck T ->
  enc_open c defm ck T oi (VRec vs) true inners = Ok wire ->
  ((dot = false /\ override = []) \/ resolve_type override dflt g = None) ->
  exists vs' ys,
    dec_open c T gi oi dflt override dot wire = Ok (DV T (VRec vs'), []) /\
    nth oi vs' None = Some (VList ys) /\ length ys = length inners /\
    Forall (fun y => exists Ti xi ch, In (Ti, xi) inners /\ encode c defm ck Ti xi = Ok ch /\ octets_of y = Some ch) ys.
Proof.
  intros c defm ck T fs gi oi p ft t pg gT vs g inners dflt override dot wire
         Hrec Hoi Hgi Hl Hany Hp Hpg Hne Hlen Hg Hgok HF RT Henc Hoff.
  destruct (enc_open_plain_list c defm ck T fs oi p ft t vs inners wire Hrec Hoi Hl Hany HF Henc) as [chunks [HF2 Hplain]].
  destruct (first_pass_list_eqb c defm ck T fs gi oi p ft t pg gT vs g chunks wire Hrec Hoi Hgi Hl Hany Hp Hpg Hne Hlen Hg Hgok RT Hplain)
    as (vs' & ys & chunks' & Hd & Hfv & Hg' & Hperm & Hpos).
  exists vs', ys. split; [|split; [exact Hfv|exact (elems_hold c defm ck inners chunks chunks' ys HF2 Hperm Hpos)]].
  unfold dec_open. rewrite Hd. exact (second_pass_raw c T fs gi oi p ft Hrec Hoi dflt override dot wire vs' _ g Hfv Hg' Hoff).
Qed.

Theorem resolved_list_elements :
  forall c defm ck T fs gi oi p ft t pg gT vs g E xs dflt override dot wire,
  rec_fields T = Some fs -> nth_error fs oi = Some (p, ft) -> nth_error fs gi = Some (pg, gT) ->
  list_elem ft = Some t -> is_any t = true -> not_def p -> not_def pg -> gi <> oi -> (oi < length vs)%nat ->
  nth gi vs None = Some g -> gov_ok gT g = true ->
  holds_blob t E = false ->
  roundtrips c defm ck T -> roundtrips c defm ck E ->
  enc_open c defm ck T oi (VRec vs) true (map (fun x => (E, x)) xs) = Ok wire ->
  (forall x ch, In x xs -> encode c defm ck E x = Ok ch -> no_eoo_prefix ch = true) ->
  (dot = true \/ override <> []) -> resolve_type override dflt g = Some E ->
  exists vs' ws,
    dec_open c T gi oi dflt override dot wire
      = Ok (DV (subst_field T oi (retype_list ft E)) (VRec (set_nth oi (Some (VList ws)) vs')), []) /\
    length ws = length xs /\
    Forall (fun w => exists x, In x xs /\ aval_eqb (abs E w) (abs E x) = true) ws.
Proof.
  intros c defm ck T fs gi oi p ft t pg gT vs g E xs dflt override dot wire
         Hrec Hoi Hgi Hl Hany Hp Hpg Hne Hlen Hg Hgok Hb RT RTe Henc Hpre Hon Hmap.
  assert (HF: Forall (fun i : ty * val => holds_blob t (fst i) = false) (map (fun x => (E, x)) xs)).
  { apply Forall_forall. intros i Hi. apply in_map_iff in Hi. destruct Hi as [x [<- _]]. exact Hb. }
  destruct (enc_open_plain_list c defm ck T fs oi p ft t vs _ wire Hrec Hoi Hl Hany HF Henc) as [chunks [HF2 Hplain]].
  destruct (first_pass_list_eqb c defm ck T fs gi oi p ft t pg gT vs g chunks wire Hrec Hoi Hgi Hl Hany Hp Hpg Hne Hlen Hg Hgok RT Hplain)
    as (vs' & ys & chunks' & Hd & Hfv & Hg' & Hperm & Hpos).
  assert (HFd: Forall2 (fun x ch => no_eoo_prefix ch = true /\
                          exists w, decode c (Some E) ch = Ok (DV E w, []) /\ aval_eqb (abs E w) (abs E x) = true) xs chunks).
  { rewrite <- (map_id chunks) in HF2. apply (proj1 (Forall2_map _ _ _ xs chunks)) in HF2. refine (Basics.Forall2_impl_in _ _ _ _ _ HF2).
    intros x ch Hx _ He. cbn [fst snd] in He. split; [exact (Hpre x ch Hx He)|exact (RTe _ _ He)]. }
  destruct (second_pass_chunks c T fs gi oi p ft t dflt override dot wire vs' g E _ xs chunks chunks' ys
              Hrec Hoi Hl Hfv Hg' Hon Hmap HFd Hperm Hpos) as (ws & ws0 & Hd' & Hp' & _ & HFq).
  exists vs', ws. unfold dec_open. rewrite Hd. split; [exact Hd'|]. split.
  - rewrite <- (Permutation_length Hp'). exact (Forall2_length _ _ _ HFq).
  - apply Forall_forall. intros w Hw.
    exact (Forall2_in_r _ _ _ w (Forall2_flip _ _ _ HFq) (Permutation_in w (Permutation_sym Hp') Hw)).
Qed.

(* the governing member declared DEFAULT (or OPTIONAL): the decoder of Model/OpenTypeDef.v
   ([dec_open_d]: resolves by the declared default when the governing member is not in the encoding - every
   encoder leaves it out when its value equals the default).  [g] is the governing value of the
   specification: the explicit one, else the default ([effective_gov]). *)

Lemma val_of_rec_length T fs vs : rec_fields T = Some fs -> val_of T (VRec vs) = true -> length vs = length fs.
Proof.
  intros Hrec Hv. rewrite val_of_base in Hv.
  assert (H: forall fs vs, fields_ok val_of fs vs = true -> length vs = length fs).
  { induction fs0 as [|[q gt] fs0 IH]; intros [|ov vs0] H; try discriminate H; [reflexivity|].
    apply Bool.andb_true_iff in H. cbn [length]. f_equal. exact (IH vs0 (proj2 H)). }
  destruct (rec_fields_base T fs Hrec) as [E|E]; rewrite E in Hv; exact (H fs vs Hv).
Qed.

(* storing the governing value the decoder read (explicit, or the default) does not change the abstract content *)
Lemma abs_fields_store_gov : forall gi fs vs pg gT g,
  nth_error fs gi = Some (pg, gT) -> effective_gov pg (nth gi vs None) = Some g -> (gi < length vs)%nat ->
  OpenType.abs_fields fs (set_nth gi (Some g) vs) = OpenType.abs_fields fs vs.
Proof.
  induction gi as [|j IH]; intros fs0 vs0 pg gT g Hgi0 Hgv0 Hgl0; destruct fs0 as [|[q t0] fs0]; try discriminate Hgi0;
    destruct vs0 as [|ov vs0]; try (cbn [length] in Hgl0; lia); cbn [nth_error nth] in *; cbn [set_nth];
    rewrite !abs_fields_cons2.
  - inversion Hgi0; subst q t0. destruct ov as [g0|]; [|destruct pg]; inversion Hgv0; reflexivity.
  - f_equal. cbn [length] in Hgl0. apply (IH fs0 vs0 pg gT g Hgi0 Hgv0). lia.
Qed.

Lemma scalar_first_pass_d cd srt T fs gi oi p ft pg gT vs g chunk wire v' :
  rec_fields T = Some fs -> nth_error fs oi = Some (p, ft) -> nth_error fs gi = Some (pg, gT) ->
  is_any ft = true -> not_def p -> frag T = true ->
  effective_gov pg (nth gi vs None) = Some g -> gov_ok gT g = true -> gi <> oi -> (oi < length vs)%nat ->
  decode cd (Some T) wire = Ok (DV T v', []) ->
  obs srt (abs T v') (abs T (VRec (set_nth oi (Some (VAny chunk)) vs))) ->
  exists vs' fv, v' = VRec vs' /\ nth oi vs' None = Some fv /\ octets_of fv = Some chunk /\ gov_value fs gi vs' = Ok g /\
    nth oi (set_nth gi (Some g) vs') None = Some fv /\ nth gi (set_nth gi (Some g) vs') None = Some g /\
    abs T (VRec (set_nth gi (Some g) vs')) = abs T (VRec vs').
Proof.
  intros Hrec Hoi Hgi Hany Hp Hfrag Hg Hgok Hne Hlen Hdec Hobs.
  destruct (first_pass_any _ (obs_rec srt) (obs_leaf srt) T fs gi oi p ft pg gT vs g chunk v' Hrec Hoi Hgi Hany Hp Hg Hgok Hne Hlen Hobs)
    as (vs' & fv & -> & Hfv & Ho & Hg').
  assert (Hgl: (gi < length vs')%nat).
  { destruct (accepted_is_well_formed_decode cd T wire _ [] Hfrag Hdec) as (v0 & Hv0 & Hval & _). inversion Hv0; subst v0.
    rewrite (val_of_rec_length T fs vs' Hrec Hval). apply nth_error_Some. rewrite Hgi. discriminate. }
  exists vs', fv. split; [reflexivity|]. split; [exact Hfv|]. split; [exact Ho|].
  split; [exact (gov_value_of_effective fs gi vs' pg gT g Hgi Hg')|].
  split; [rewrite nth_set_nth_other; [exact Hfv|congruence]|]. split; [exact (nth_set_nth_same _ vs' gi (Some g) None Hgl)|].
  rewrite !(abs_record T fs _ Hrec), (abs_fields_store_gov gi fs vs' pg gT g Hgi Hg' Hgl). reflexivity.
Qed.

Section OpenScalarD.
  Variables (ce cd: codec) (d: bool) (k: N) (srt: bool).
  Hypothesis Hmode : mode_ok ce cd d k.
  Variables (T: ty) (fs: list (presence * ty)) (gi oi: nat) (p: presence) (ft: ty) (pg: presence) (gT: ty).
  Hypothesis Hty : stage3_ty srt ce T = true.
  Hypothesis Hfrag : frag T = true.
  Hypothesis Hf01 : d = false -> no_f01 T = true.
  Hypothesis Hrec : rec_fields T = Some fs.
  Hypothesis Hoi : nth_error fs oi = Some (p, ft).
  Hypothesis Hgi : nth_error fs gi = Some (pg, gT).
  Hypothesis Hany : is_any ft = true.
  Hypothesis Hp : not_def p.
  Hypothesis Hne : gi <> oi.
  Hypothesis Hkeep : keeps_order ce T \/ ce = DER.
  Variables (vs: list (option val)) (g: val).
  Hypothesis Hvs : hole_val ce cd d T oi vs = true.
  (* the governing value: the one in the record, else the declared default *)
  Hypothesis Hg : effective_gov pg (nth gi vs None) = Some g.
  Hypothesis Hgok : gov_ok gT g = true.
  Variables (Ti: ty) (xi: val).
  Hypothesis Hti : stage3_ty srt ce Ti = true.
  Hypothesis Hxi : stage3_val ce cd Ti xi = true.
  Hypothesis Hblob : holds_blob ft Ti = false.
  Hypothesis Hkept : inner_kept ce p Ti xi.
  Hypothesis Hidef : d = false -> inner_definite ce d k Ti xi.
  Variable wire : bytes.
  Hypothesis Henc : enc_open ce d k T oi (VRec vs) true [(Ti, xi)] = Ok wire.
  Hypothesis Hmax : N.of_nat (length wire) <= index_max.

  Theorem open_raw_d : forall dflt override dot,
    (dot = false /\ override = []) \/ resolve_type override dflt g = None ->
    exists chunk vs' fv,
      encode ce d k Ti xi = Ok chunk /\
      dec_open_d cd T gi oi dflt override dot wire = Ok (DV T (VRec vs'), []) /\
      nth oi vs' None = Some fv /\ octets_of fv = Some chunk /\
      aeq (abs T (VRec vs')) (abs T (VRec (set_nth oi (Some (VAny chunk)) vs))) /\
      (srt = false -> abs T (VRec vs') = abs T (VRec (set_nth oi (Some (VAny chunk)) vs))).
  Proof.
    intros dflt override dot Hoff.
    destruct (open_first_pass ce cd d k srt Hmode T fs oi p ft Hty Hf01 Hrec Hoi Hany Hp Hkeep vs Hvs Ti xi Hti Hxi Hblob
                Hkept Hidef wire Henc Hmax) as (chunk & v' & Hchunk & _ & _ & Hdec & Hobs).
    destruct (scalar_first_pass_d cd srt T fs gi oi p ft pg gT vs g chunk wire v' Hrec Hoi Hgi Hany Hp Hfrag Hg Hgok Hne
                (hole_length ce cd d T fs oi vs Hrec Hvs) Hdec Hobs) as (vs' & fv & -> & Hfv & Ho & Hgv & Hfv' & Hg' & Habs).
    unfold dec_open_d. rewrite Hdec.
    destruct (dot || match override with [] => false | _ :: _ => true end) eqn:Eon.
    - (* resolution on: the governing value is unmapped, the record holding it stays *)
      destruct Hoff as [[-> ->]|Hun]; [discriminate Eon|].
      exists chunk, (set_nth gi (Some g) vs'), fv. rewrite Habs. split; [exact Hchunk|]. split; [|auto].
      rewrite (dec_open_d_stored cd T fs gi oi p ft dflt override dot wire vs' fv g Hrec Hoi Hfv Hgv Eon).
      exact (second_pass_raw cd T fs gi oi p ft Hrec Hoi dflt override dot wire _ fv g Hfv' Hg' (or_intror Hun)).
    - exists chunk, vs', fv. split; [exact Hchunk|]. split; [|auto].
      unfold dec_open_after_d. cbn [bind]. rewrite Eon. reflexivity.
  Qed.

  Hypothesis Hif01 : d = false -> no_f01 Ti = true.
  Hypothesis Hianys : d = false -> anys_ok Ti xi = true.

  Theorem open_resolved_d : forall dflt override dot,
    (dot = true \/ override <> []) -> resolve_type override dflt g = Some Ti ->
    exists rv,
      dec_open_d cd T gi oi dflt override dot wire = Ok (DV (subst_field T oi Ti) rv, []) /\
      aeq (abs (subst_field T oi Ti) rv) (abs (subst_field T oi Ti) (VRec (set_nth oi (Some xi) vs))) /\
      (srt = false -> abs (subst_field T oi Ti) rv = abs (subst_field T oi Ti) (VRec (set_nth oi (Some xi) vs))).
  Proof.
    intros dflt override dot Hon Hmap.
    pose proof (hole_length ce cd d T fs oi vs Hrec Hvs) as Hlen.
    destruct (open_first_pass ce cd d k srt Hmode T fs oi p ft Hty Hf01 Hrec Hoi Hany Hp Hkeep vs Hvs Ti xi Hti Hxi Hblob
                Hkept Hidef wire Henc Hmax) as (chunk & v' & Hchunk & Htlv & Hcw & Hdec & Hobs).
    destruct (codec_rt ce cd d k srt Hmode Ti xi chunk Hti Hif01 Hxi Hianys Hchunk ltac:(lia)) as (w & Hdw & Hw).
    destruct (scalar_first_pass_d cd srt T fs gi oi p ft pg gT vs g chunk wire v' Hrec Hoi Hgi Hany Hp Hfrag Hg Hgok Hne Hlen Hdec Hobs)
      as (vs' & fv & -> & Hfv & Ho & Hgv & Hfv' & Hg' & Habs).
    exists (VRec (set_nth oi (Some w) (set_nth gi (Some g) vs'))). split.
    - unfold dec_open_d. rewrite Hdec.
      rewrite (dec_open_d_stored cd T fs gi oi p ft dflt override dot wire vs' fv g Hrec Hoi Hfv Hgv (resolution_on _ _ Hon)).
      exact (second_pass_scalar cd T fs gi oi p ft Hrec Hoi dflt override dot wire _ fv g Hfv' Hg' Ti Hon Hmap chunk w Hany Ho
               (tlv_no_eoo_prefix chunk Htlv) Hdw).
    - rewrite <- Habs in Hobs.
      exact (record_subst srt T fs oi p ft _ vs (VAny chunk) Ti w xi Hrec Hoi Hp Hlen Hobs Hw).
  Qed.
End OpenScalarD.

(* the OPTIONAL open member left out ([present] = false): nothing to resolve - the second pass leaves
   the record alone whatever the maps say *)

Theorem open_absent ce cd d k srt T fs gi oi ft vs inners wire dflt override dot :
  mode_ok ce cd d k -> stage3_ty srt ce T = true -> (d = false -> no_f01 T = true) ->
  rec_fields T = Some fs -> nth_error fs oi = Some (Opt, ft) ->
  hole_val ce cd d T oi vs = true ->
  enc_open ce d k T oi (VRec vs) false inners = Ok wire -> N.of_nat (length wire) <= index_max ->
  exists vs', dec_open cd T gi oi dflt override dot wire = Ok (DV T (VRec vs'), []) /\ nth oi vs' None = None /\
    aeq (abs T (VRec vs')) (abs T (VRec (set_nth oi None vs))) /\
    (srt = false -> abs T (VRec vs') = abs T (VRec (set_nth oi None vs))).
Proof.
  intros Hmode Hty Hf01 Hrec Hoi Hvs Henc Hmax.
  unfold enc_open in Henc. rewrite Hrec, Hoi in Henc. cbn [negb] in Henc. cbv iota in Henc.
  destruct (hole_filled ce cd d T fs oi vs Opt ft None Hrec Hoi Hvs eq_refl (fun _ => eq_refl)) as [Hsv Hsa].
  destruct (codec_rt ce cd d k srt Hmode T _ wire Hty Hf01 Hsv Hsa Henc Hmax) as (v' & Hdec & Hobs).
  destruct (record_members _ (obs_rec srt) T fs v' _ Hrec Hobs) as (vs' & -> & Hm).
  specialize (Hm oi Opt ft Hoi).
  rewrite (nth_set_nth_same _ vs oi None None (hole_length ce cd d T fs oi vs Hrec Hvs)), !(effective_not_def Opt _ I) in Hm.
  destruct (nth oi vs' None) as [fv|] eqn:Hnone; [contradiction|].
  exists vs'. split; [|split; [exact Hnone|exact Hobs]].
  unfold dec_open, dec_open_after. rewrite Hdec. cbn [bind].
  destruct (negb _); [reflexivity|]. rewrite Hrec. unfold second_pass. rewrite Hoi, Hnone. reflexivity.
Qed.

(* the CER and DER encoders fix their options: whatever defMode / maxChunkSize the caller passes, the open record
   is written as with (False, 1000) resp. (True, 0) - the modes of [mode_ok] *)
Lemma enc_open_der_fixed d k T oi v pr inners : enc_open DER d k T oi v pr inners = enc_open DER true 0 T oi v pr inners.
Proof. reflexivity. Qed.
Lemma enc_open_cer_fixed d k T oi v pr inners : enc_open CER d k T oi v pr inners = enc_open CER false 1000 T oi v pr inners.
Proof. reflexivity. Qed.

Print Assumptions codec_rt.
Print Assumptions definite_encoding_is_tlv.
Print Assumptions open_raw.
Print Assumptions open_resolved.
Print Assumptions open_override_wins.
Print Assumptions open_raw_list.
Print Assumptions open_resolved_list.
Print Assumptions open_override_wins_list.
Print Assumptions open_resolved_record.
Print Assumptions open_override_wins_record.
Print Assumptions open_absent.
Print Assumptions open_resolved_list_record.
Print Assumptions sorted_first_pass.
Print Assumptions open_raw_d.
Print Assumptions open_resolved_d.
Print Assumptions chunk_in_wire.

(* the hypotheses are satisfiable: the theorems applied to concrete records *)

(* closes an equation by evaluation; fails on any other goal, so [try vmc] leaves those alone *)
Ltac vmc := match goal with |- _ = _ => vm_compute; reflexivity end.

(* (A) DER encoder, BER decoder; [APPLICATION 3] EXPLICIT SEQUENCE { id OBJECT IDENTIFIER, flag BOOLEAN OPTIONAL,
       value [0] EXPLICIT ANY DEFINED BY id OPTIONAL }; the inner value is a SEQUENCE { INTEGER, BOOLEAN } *)
Definition exA_ty : ty :=
  TExp (mkTag Appl false 3) (TSeq [(Req, TOid); (Opt, TBool); (Opt, TExp (mkTag Ctx false 0) TAny)]).
Definition exA_in : ty := TSeq [(Req, TInt); (Req, TBool)].
Definition exA_map : omap := [(VOid [1;3;6;1;1], TStr 12); (VOid [1;3;6;1;2], exA_in)].
Definition exA_wire : bytes := [99;18;48;16;6;4;43;6;1;2;160;8;48;6;2;1;5;1;1;255].

Example exA_wire_ok :
  enc_open DER true 0 exA_ty 2 (VRec [Some (VOid [1;3;6;1;2]); None; None]) true [(exA_in, VRec [Some (VInt 5); Some (VBool true)])]
  = Ok exA_wire.
Proof. vmc. Qed.

Example open_resolved_nonvacuous_A :
  exists chunk w vs',
    encode DER true 0 exA_in (VRec [Some (VInt 5); Some (VBool true)]) = Ok chunk /\
    dec_open BER exA_ty 0 2 exA_map [] true exA_wire
      = Ok (DV (subst_field exA_ty 2 exA_in) (VRec (set_nth 2 (Some w) vs')), []) /\
    aeq (abs exA_in w) (abs exA_in (VRec [Some (VInt 5); Some (VBool true)])) /\
    (false = false -> abs exA_in w = abs exA_in (VRec [Some (VInt 5); Some (VBool true)])) /\
    nth 0 vs' None = Some (VOid [1;3;6;1;2]) /\
    aeq (abs exA_ty (VRec vs')) (abs exA_ty (VRec (set_nth 2 (Some (VAny chunk)) [Some (VOid [1;3;6;1;2]); None; None]))) /\
    (false = false -> abs exA_ty (VRec vs') = abs exA_ty (VRec (set_nth 2 (Some (VAny chunk)) [Some (VOid [1;3;6;1;2]); None; None]))).
Proof.
  eapply (open_resolved DER BER true 0 false (mode_def DER BER true 0 (or_intror eq_refl) eq_refl eq_refl)
           exA_ty _ 0%nat 2%nat);
    try vmc; try exact I; try (intros E; discriminate E).
  - left. right. eexists. reflexivity.
  - intros _ _. vmc.
  - left. reflexivity.
Qed.

(* with decodeOpenTypes off, and with an unmapped governing value, the same record keeps the complete encoding *)
Example open_raw_nonvacuous_A :
  exists chunk vs' fv,
    encode DER true 0 exA_in (VRec [Some (VInt 5); Some (VBool true)]) = Ok chunk /\
    dec_open BER exA_ty 0 2 exA_map [] false exA_wire = Ok (DV exA_ty (VRec vs'), []) /\
    nth 2 vs' None = Some fv /\ octets_of fv = Some chunk /\
    aeq (abs exA_ty (VRec vs')) (abs exA_ty (VRec (set_nth 2 (Some (VAny chunk)) [Some (VOid [1;3;6;1;2]); None; None]))) /\
    (false = false -> abs exA_ty (VRec vs') = abs exA_ty (VRec (set_nth 2 (Some (VAny chunk)) [Some (VOid [1;3;6;1;2]); None; None]))).
Proof.
  eapply (open_raw DER BER true 0 false (mode_def DER BER true 0 (or_intror eq_refl) eq_refl eq_refl)
           exA_ty _ 0%nat 2%nat)
    with (g := VOid [1;3;6;1;2]);
    try vmc; try exact I; try (intros E; discriminate E).
  - left. right. eexists. reflexivity.
  - intros _ _. vmc.
  - left. split; reflexivity.
Qed.

(* (B) the documented example, BER: SEQUENCE { id INTEGER, blob ANY DEFINED BY id } - the ANY untagged; the caller's
       map re-maps id 1 to OCTET STRING though the type's own map says INTEGER *)
Definition exB_ty : ty := TSeq [(Req, TInt); (Req, TAny)].
Definition exB_map : omap := [(VInt 1, TInt); (VInt 2, TOcts)].

Example open_override_wins_nonvacuous_B :
  exists chunk w vs',
    encode BER true 0 TOcts (VOcts [104; 105]) = Ok chunk /\
    dec_open CER exB_ty 0 1 exB_map [(VInt 1, TOcts)] false [48; 7; 2; 1; 1; 4; 2; 104; 105]
      = Ok (DV (subst_field exB_ty 1 TOcts) (VRec (set_nth 1 (Some w) vs')), []) /\
    aeq (abs TOcts w) (abs TOcts (VOcts [104; 105])) /\
    (false = false -> abs TOcts w = abs TOcts (VOcts [104; 105])) /\
    nth 0 vs' None = Some (VInt 1) /\
    aeq (abs exB_ty (VRec vs')) (abs exB_ty (VRec (set_nth 1 (Some (VAny chunk)) [Some (VInt 1); None]))) /\
    (false = false -> abs exB_ty (VRec vs') = abs exB_ty (VRec (set_nth 1 (Some (VAny chunk)) [Some (VInt 1); None]))).
Proof.
  eapply (open_override_wins BER CER true 0 false (mode_def BER CER true 0 (or_introl eq_refl) eq_refl eq_refl)
           exB_ty _ 0%nat 1%nat);
    try vmc; try exact I; try (intros E; discriminate E).
  - left. left. reflexivity.
Qed.

(* (C) the CER encoder (indefinite lengths) read by the BER decoder: SEQUENCE { id ENUMERATED, value [1] EXPLICIT ANY
       DEFINED BY id } (a SEQUENCE: the CER encoder would re-order the members of a SET); the inner value is
       primitive, so its encoding has a definite length, which is what [inner_definite] asks for where lengths are
       indefinite *)
Definition exC_ty : ty := TSeq [(Req, TEnum); (Req, TExp (mkTag Ctx false 1) TAny)].
Definition exC_map : omap := [(VInt 7, TOid)].

Example open_resolved_nonvacuous_C :
  enc_open CER false 1000 exC_ty 1 (VRec [Some (VInt 7); None]) true [(TOid, VOid [1; 3; 6; 1])]
    = Ok [48; 128; 10; 1; 7; 161; 128; 6; 3; 43; 6; 1; 0; 0; 0; 0] /\
  exists chunk w vs',
    encode CER false 1000 TOid (VOid [1; 3; 6; 1]) = Ok chunk /\
    dec_open BER exC_ty 0 1 exC_map [] true [48; 128; 10; 1; 7; 161; 128; 6; 3; 43; 6; 1; 0; 0; 0; 0]
      = Ok (DV (subst_field exC_ty 1 TOid) (VRec (set_nth 1 (Some w) vs')), []) /\
    aeq (abs TOid w) (abs TOid (VOid [1; 3; 6; 1])) /\
    (false = false -> abs TOid w = abs TOid (VOid [1; 3; 6; 1])) /\
    nth 0 vs' None = Some (VInt 7) /\
    aeq (abs exC_ty (VRec vs')) (abs exC_ty (VRec (set_nth 1 (Some (VAny chunk)) [Some (VInt 7); None]))) /\
    (false = false -> abs exC_ty (VRec vs') = abs exC_ty (VRec (set_nth 1 (Some (VAny chunk)) [Some (VInt 7); None]))).
Proof.
  split; [vmc|].
  eapply (open_resolved CER BER false 1000 false (mode_any CER BER false 1000 stable_cer (or_introl eq_refl))
           exC_ty _ 0%nat 1%nat);
    try vmc; try exact I; try (intros _; vmc); try (intros E; discriminate E).
  - left. right. eexists. reflexivity.
  - intros _ chunk H. vm_compute in H. inversion H; subst. vmc.
  - left. reflexivity.
Qed.

(* (D) a SET OF [3] EXPLICIT ANY member in a SET under the DER encoder (members and elements sorted), DER decoder:
       [srt = true], abstract contents equal up to the order of the SET OF elements *)
Definition exD_ty : ty := TSet [(Req, TInt); (Opt, TSetOf (TExp (mkTag Ctx false 3) TAny))].
Definition exD_map : omap := [(VInt 1, TInt)].
Definition exD_wire : bytes := [49; 16; 2; 1; 1; 49; 11; 163; 3; 2; 1; 1; 163; 4; 2; 2; 1; 0].

Example open_resolved_list_nonvacuous_D :
  enc_open DER true 0 exD_ty 1 (VRec [Some (VInt 1); None]) true [(TInt, VInt 256); (TInt, VInt 1)] = Ok exD_wire /\
  exists vs' ws,
    dec_open DER exD_ty 0 1 exD_map [] true exD_wire
      = Ok (DV (subst_field exD_ty 1 (retype_list (TSetOf (TExp (mkTag Ctx false 3) TAny)) TInt))
               (VRec (set_nth 1 (Some (VList ws)) vs')), []) /\
    length ws = length [VInt 256; VInt 1] /\
    Forall (fun w => exists x, In x [VInt 256; VInt 1] /\ aeq (abs TInt w) (abs TInt x) /\ (true = false -> abs TInt w = abs TInt x)) ws /\
    nth 0 vs' None = Some (VInt 1).
Proof.
  split; [vmc|].
  eapply (open_resolved_list DER DER true 0 true (mode_def DER DER true 0 (or_intror eq_refl) eq_refl eq_refl) exD_ty _ 0%nat 1%nat)
    with (inners := [(TInt, VInt 256); (TInt, VInt 1)]) (E := TInt) (xs := [VInt 256; VInt 1])
         (vs := [Some (VInt 1); None]);
    try vmc; try exact I; try (intros E; discriminate E).
  - repeat constructor; try vmc; intros E; discriminate E.
  - intros _ _ E. discriminate E.
  - left. reflexivity.
Qed.

Example open_raw_list_nonvacuous_D :
  exists vs' ys,
    dec_open DER exD_ty 0 1 exD_map [] false exD_wire = Ok (DV exD_ty (VRec vs'), []) /\
    nth 1 vs' None = Some (VList ys) /\ length ys = length [(TInt, VInt 256); (TInt, VInt 1)] /\
    Forall (fun y => exists Ti xi ch, In (Ti, xi) [(TInt, VInt 256); (TInt, VInt 1)] /\ encode DER true 0 Ti xi = Ok ch /\ octets_of y = Some ch) ys.
Proof.
  eapply (open_raw_list DER DER true 0 true (mode_def DER DER true 0 (or_intror eq_refl) eq_refl eq_refl) exD_ty _ 0%nat 1%nat)
    with (g := VInt 1) (vs := [Some (VInt 1); None]) (inners := [(TInt, VInt 256); (TInt, VInt 1)]); try vmc; try exact I; try (intros E; discriminate E).
  - repeat constructor; try vmc; intros E; discriminate E.
  - intros _ _ E. discriminate E.
  - left. split; reflexivity.
Qed.

(* (A') the same record in one statement: what comes back is the record with the typed inner value *)
Example open_resolved_record_nonvacuous_A :
  exists rv,
    dec_open BER exA_ty 0 2 exA_map [] true exA_wire = Ok (DV (subst_field exA_ty 2 exA_in) rv, []) /\
    aeq (abs (subst_field exA_ty 2 exA_in) rv)
        (abs (subst_field exA_ty 2 exA_in)
             (VRec (set_nth 2 (Some (VRec [Some (VInt 5); Some (VBool true)])) [Some (VOid [1;3;6;1;2]); None; None]))) /\
    (false = false -> abs (subst_field exA_ty 2 exA_in) rv
                      = abs (subst_field exA_ty 2 exA_in)
                            (VRec (set_nth 2 (Some (VRec [Some (VInt 5); Some (VBool true)])) [Some (VOid [1;3;6;1;2]); None; None]))).
Proof.
  eapply (open_resolved_record DER BER true 0 false (mode_def DER BER true 0 (or_intror eq_refl) eq_refl eq_refl)
           exA_ty _ 0%nat 2%nat)
    with (g := VOid [1;3;6;1;2]);
    try vmc; try exact I; try (intros E; discriminate E).
  - left. right. eexists. reflexivity.
  - intros _ _. vmc.
  - left. reflexivity.
Qed.

(* (E) the governing member declared DEFAULT and left out of the encoding (its value is the default): BER,
       SEQUENCE { kind INTEGER DEFAULT 1, body [0] EXPLICIT ANY DEFINED BY kind }, decoder of Model/OpenTypeDef.v *)
Definition exE_ty : ty := TSeq [(Def (VInt 1), TInt); (Req, TExp (mkTag Ctx false 0) TAny)].
Definition exE_in : ty := TSeq [(Req, TInt); (Req, TInt)].
Definition exE_map : omap := [(VInt 1, exE_in); (VInt 2, TOcts)].

Example open_resolved_d_nonvacuous_E :
  enc_open BER true 0 exE_ty 1 (VRec [None; None]) true [(exE_in, VRec [Some (VInt 3); Some (VInt (-4))])]
    = Ok [48; 10; 160; 8; 48; 6; 2; 1; 3; 2; 1; 252] /\
  exists rv,
    dec_open_d BER exE_ty 0 1 exE_map [] true [48; 10; 160; 8; 48; 6; 2; 1; 3; 2; 1; 252] = Ok (DV (subst_field exE_ty 1 exE_in) rv, []) /\
    aeq (abs (subst_field exE_ty 1 exE_in) rv)
        (abs (subst_field exE_ty 1 exE_in) (VRec (set_nth 1 (Some (VRec [Some (VInt 3); Some (VInt (-4))])) [None; None]))) /\
    (false = false -> abs (subst_field exE_ty 1 exE_in) rv
                      = abs (subst_field exE_ty 1 exE_in) (VRec (set_nth 1 (Some (VRec [Some (VInt 3); Some (VInt (-4))])) [None; None]))).
Proof.
  split; [vmc|].
  eapply (open_resolved_d BER BER true 0 false (mode_def BER BER true 0 (or_introl eq_refl) eq_refl eq_refl)
           exE_ty _ 0%nat 1%nat)
    with (g := VInt 1);
    try vmc; try exact I; try (intros E; discriminate E).
  - left. left. reflexivity.
  - left. reflexivity.
Qed.

Example open_raw_d_nonvacuous_E :
  exists chunk vs' fv,
    encode BER true 0 exE_in (VRec [Some (VInt 3); Some (VInt (-4))]) = Ok chunk /\
    dec_open_d BER exE_ty 0 1 exE_map [] false [48; 10; 160; 8; 48; 6; 2; 1; 3; 2; 1; 252] = Ok (DV exE_ty (VRec vs'), []) /\
    nth 1 vs' None = Some fv /\ octets_of fv = Some chunk /\
    aeq (abs exE_ty (VRec vs')) (abs exE_ty (VRec (set_nth 1 (Some (VAny chunk)) [None; None]))) /\
    (false = false -> abs exE_ty (VRec vs') = abs exE_ty (VRec (set_nth 1 (Some (VAny chunk)) [None; None]))).
Proof.
  eapply (open_raw_d BER BER true 0 false (mode_def BER BER true 0 (or_introl eq_refl) eq_refl eq_refl)
           exE_ty _ 0%nat 1%nat)
    with (g := VInt 1);
    try vmc; try exact I; try (intros E; discriminate E).
  - left. left. reflexivity.
  - left. split; reflexivity.
Qed.

(* (F) a SET with an EXPLICITly tagged ANY member under the DER encoder: the SET encoder orders the members by the
       tag of the typed inner value (BOOLEAN before INTEGER), so the bytes are not those of the plain record
       encoder (which would put [3] after INTEGER); the theorems cover them all the same *)
Definition exF_ty : ty := TSet [(Req, TInt); (Req, TExp (mkTag Ctx false 3) TAny)].

Example open_resolved_record_nonvacuous_F :
  enc_open DER true 0 exF_ty 1 (VRec [Some (VInt 1); None]) true [(TBool, VBool true)] = Ok [49; 8; 163; 3; 1; 1; 255; 2; 1; 1] /\
  encode DER true 0 exF_ty (VRec [Some (VInt 1); Some (VAny [1; 1; 255])]) = Ok [49; 8; 2; 1; 1; 163; 3; 1; 1; 255] /\
  exists rv,
    dec_open CER exF_ty 0 1 [(VInt 1, TBool)] [] true [49; 8; 163; 3; 1; 1; 255; 2; 1; 1] = Ok (DV (subst_field exF_ty 1 TBool) rv, []) /\
    aeq (abs (subst_field exF_ty 1 TBool) rv) (abs (subst_field exF_ty 1 TBool) (VRec (set_nth 1 (Some (VBool true)) [Some (VInt 1); None]))) /\
    (false = false -> abs (subst_field exF_ty 1 TBool) rv
                      = abs (subst_field exF_ty 1 TBool) (VRec (set_nth 1 (Some (VBool true)) [Some (VInt 1); None]))).
Proof.
  split; [vmc|]. split; [vmc|].
  eapply (open_resolved_record DER CER true 0 false (mode_def DER CER true 0 (or_intror eq_refl) eq_refl eq_refl)
           exF_ty _ 0%nat 1%nat)
    with (g := VInt 1);
    try vmc; try exact I; try (intros E; discriminate E).
  - right. reflexivity.
  - left. reflexivity.
Qed.

(* (D') the SET OF member in one statement (DER: the elements re-ordered; contents equal as multisets) *)
Example open_resolved_list_record_nonvacuous_D :
  exists rv,
    dec_open DER exD_ty 0 1 exD_map [] true exD_wire
      = Ok (DV (subst_field exD_ty 1 (retype_list (TSetOf (TExp (mkTag Ctx false 3) TAny)) TInt)) rv, []) /\
    aeq (abs (subst_field exD_ty 1 (retype_list (TSetOf (TExp (mkTag Ctx false 3) TAny)) TInt)) rv)
        (abs (subst_field exD_ty 1 (retype_list (TSetOf (TExp (mkTag Ctx false 3) TAny)) TInt))
             (VRec (set_nth 1 (Some (VList [VInt 256; VInt 1])) [Some (VInt 1); None]))) /\
    (true = false -> abs (subst_field exD_ty 1 (retype_list (TSetOf (TExp (mkTag Ctx false 3) TAny)) TInt)) rv
                     = abs (subst_field exD_ty 1 (retype_list (TSetOf (TExp (mkTag Ctx false 3) TAny)) TInt))
                           (VRec (set_nth 1 (Some (VList [VInt 256; VInt 1])) [Some (VInt 1); None]))).
Proof.
  eapply (open_resolved_list_record DER DER true 0 true (mode_def DER DER true 0 (or_intror eq_refl) eq_refl eq_refl) exD_ty _ 0%nat 1%nat)
    with (g := VInt 1) (inners := [(TInt, VInt 256); (TInt, VInt 1)]);
    try vmc; try exact I; try (intros E; discriminate E).
  - repeat constructor; try vmc; intros E; discriminate E.
  - intros _ _ E. discriminate E.
  - left. reflexivity.
Qed.

(* what the conditions exclude is false of the model *)

(* [inner_kept] (the F24 class showing through an open type): under the DER (and CER) encoder the encode call of an
   OPTIONAL open member gets ifNotEmpty, and hands it on to the inner value: an empty SEQUENCE OF is written as NO
   octets at all - the member holds nothing instead of the complete encoding 30 00, and resolution fails *)
Example inner_kept_needed :
  let T := TSeq [(Req, TInt); (Opt, TExp (mkTag Ctx false 0) TAny)] in
  stage3_ty false DER T = true /\ hole_val DER DER true T 1 [Some (VInt 1); None] = true
  /\ stage3_ty false DER (TSeqOf TInt) = true /\ stage3_val DER DER (TSeqOf TInt) (VList []) = true
  /\ nonempty_enc DER (TSeqOf TInt) (VList []) = false
  /\ encode DER true 0 (TSeqOf TInt) (VList []) = Ok [48; 0]
  /\ enc_open DER true 0 T 1 (VRec [Some (VInt 1); None]) true [(TSeqOf TInt, VList [])] = Ok [48; 5; 2; 1; 1; 160; 0]
  /\ dec_open DER T 0 1 [(VInt 1, TSeqOf TInt)] [] false [48; 5; 2; 1; 1; 160; 0]
     = Ok (DV T (VRec [Some (VInt 1); Some (VAny [])]), [])
  /\ dec_open DER T 0 1 [(VInt 1, TSeqOf TInt)] [] true [48; 5; 2; 1; 1; 160; 0] = Err EEndOfStream
  /\ (* the BER encoder does not pass ifNotEmpty *)
     enc_open BER true 0 T 1 (VRec [Some (VInt 1); None]) true [(TSeqOf TInt, VList [])] = Ok [48; 7; 2; 1; 1; 160; 2; 48; 0].
Proof. vm_compute. repeat split; reflexivity. Qed.

(* [inner_definite] is a limit of the codec theorem (RoundTripModes3.v asks for definite-length TLVs inside an ANY
   where lengths are indefinite), not of the model: a constructed inner value under indefinite lengths resolves *)
Example inner_definite_not_necessary :
  let Tin := TSeq [(Req, TInt); (Req, TBool)] in
  let vin := VRec [Some (VInt 5); Some (VBool true)] in
  encode BER false 0 Tin vin = Ok [48; 128; 2; 1; 5; 1; 1; 1; 0; 0]
  /\ tlv_ok [48; 128; 2; 1; 5; 1; 1; 1; 0; 0] = false
  /\ enc_open BER false 0 exC_ty 1 (VRec [Some (VInt 7); None]) true [(Tin, vin)]
     = Ok [48; 128; 10; 1; 7; 161; 128; 48; 128; 2; 1; 5; 1; 1; 1; 0; 0; 0; 0; 0; 0]
  /\ dec_open BER exC_ty 0 1 [(VInt 7, Tin)] [] true [48; 128; 10; 1; 7; 161; 128; 48; 128; 2; 1; 5; 1; 1; 1; 0; 0; 0; 0; 0; 0]
     = Ok (DV (subst_field exC_ty 1 Tin) (VRec [Some (VInt 7); Some vin]), []).
Proof. vm_compute. repeat split; reflexivity. Qed.

(* the OPTIONAL open member left out *)
Example open_absent_nonvacuous_A :
  enc_open DER true 0 exA_ty 2 (VRec [Some (VOid [1;3;6;1;2]); Some (VBool true); None]) false [] = Ok [99; 11; 48; 9; 6; 4; 43; 6; 1; 2; 1; 1; 255] /\
  exists vs', dec_open BER exA_ty 0 2 exA_map [] true [99; 11; 48; 9; 6; 4; 43; 6; 1; 2; 1; 1; 255] = Ok (DV exA_ty (VRec vs'), []) /\
    nth 2 vs' None = None /\
    aeq (abs exA_ty (VRec vs')) (abs exA_ty (VRec (set_nth 2 None [Some (VOid [1;3;6;1;2]); Some (VBool true); None]))) /\
    (false = false -> abs exA_ty (VRec vs') = abs exA_ty (VRec (set_nth 2 None [Some (VOid [1;3;6;1;2]); Some (VBool true); None]))).
Proof.
  split; [vmc|].
  eapply (open_absent DER BER true 0 false exA_ty _ 0%nat 2%nat _ _ [] _ exA_map [] true
            (mode_def DER BER true 0 (or_intror eq_refl) eq_refl eq_refl));
    try vmc; try (intros E; discriminate E).
Qed.
