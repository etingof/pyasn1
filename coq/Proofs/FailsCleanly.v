(* C08, part 3: malformed input fails cleanly.

   Putting Proofs/NeverCrashes.v (no built-in exception: every [Raise (ECrash _)] of the decoder model is
   unreachable) and Proofs/NeverStarves.v (the fuel is always sufficient) together: for EVERY byte string,
   every codec, with or without a guiding type (no condition on it), one-shot decoding ends in a value
   object plus a strictly shorter remainder, or in an error of the PyAsn1Error family - or the model
   declines to predict ([EUnmodelled]: decimal REAL, components under a member-less SEQUENCE), which the
   harness counts separately and never compares. *)
From PV Require Import Base.Bytes Model.Tag Model.TableTypes Model.Types Model.Proc Model.Enc Model.Dec Gen.Tables
     Proofs.NeverCrashes Proofs.NeverStarves.
Local Open Scope nat_scope.

Lemma clean_error e : good_err e -> e <> EOutOfFuel -> is_library e = true \/ e = EUnmodelled.
Proof. destruct e; cbn [good_err is_library]; intros H1 H2; try contradiction; try congruence; auto. Qed.

Theorem decode_with_fails_cleanly c fuel sp b : 2 * length b + 2 * odepth sp <= fuel ->
  match decode_with c fuel sp b with
  | Ok (d, tl) => is_value d /\ length tl < length b
  | Err e => is_library e = true \/ e = EUnmodelled
  end.
Proof.
  intros Hf. pose proof (decode_with_never_crashes c fuel sp b) as H1.
  pose proof (decode_with_run c fuel sp b Hf) as H2.
  destruct (decode_with c fuel sp b) as [[d tl]|e]; [split; assumption|apply clean_error; assumption].
Qed.

(* Decoder.__call__ as modelled, with its own fuel *)
Theorem FAILS_CLEANLY : forall c sp b,
  match decode c sp b with
  | Ok (d, tl) => is_value d /\ length tl < length b
  | Err e => is_library e = true \/ e = EUnmodelled
  end.
Proof. intros c sp b. exact (decode_with_fails_cleanly c (dec_fuel sp b) sp b (dec_fuel_enough sp b)). Qed.

(* whenever the model predicts at all, the error is a library error *)
Corollary only_library_errors : forall c sp b, decode c sp b <> Err EUnmodelled ->
  match decode c sp b with Ok _ => True | Err e => is_library e = true end.
Proof.
  intros c sp b Hn. pose proof (FAILS_CLEANLY c sp b) as H.
  destruct (decode c sp b) as [x|e]; [exact I|]. destruct H as [H|H]; [exact H|congruence].
Qed.

(* never: a built-in exception, the cleanliness marker, lack of fuel *)
Corollary never_crash_unclean_or_starved : forall c sp b k,
  decode c sp b <> Err (ECrash k) /\ decode c sp b <> Err EUnclean /\ decode c sp b <> Err EOutOfFuel.
Proof.
  intros c sp b k. pose proof (decode_never_crashes c sp b) as H.
  split; [|split; [|apply NO_STARVATION]]; intros E; rewrite E in H; exact H.
Qed.

Print Assumptions FAILS_CLEANLY.
Print Assumptions only_library_errors.
Print Assumptions never_crash_unclean_or_starved.

Local Open Scope N_scope.

(* the side condition of [only_library_errors] is needed: the model does decline on some inputs *)
Example model_declines :
  decode BER None [9;2;3;49] = Err EUnmodelled               (* REAL in decimal form *)
  /\ is_library EUnmodelled = false
  (* UTF8String with non-ASCII octets is answered, by the UTF-8 checker (Model/Dec.v utf8_ok) *)
  /\ decode BER None [12;2;200;200] = Err EUnicode
  /\ decode BER None [12;2;195;169] = Ok (DV (TStr 12) (VOcts [195;169]), []).
Proof. repeat split; vm_compute; reflexivity. Qed.

(* one malformed input of each kind, each ending in a library error, under all three codecs where it applies *)
Example malformed_inputs_end_in_library_errors :
  (* nothing at all; a lone identifier octet; a header whose content is missing *)
  decode BER None [] = Err EEndOfStream
  /\ decode DER None [2] = Err EEndOfStream
  /\ decode CER None [4;5;1;2] = Err EEndOfStream
  (* a length that no read can satisfy; a length of 127 length octets *)
  /\ decode BER None [4;136;255;255;255;255;255;255;255;255] = Err EMalformed
  /\ decode BER None [4;255;1;2;3] = Err EEndOfStream
  (* end-of-octets where an item is expected; a tag no decoder knows *)
  /\ decode BER None [0;0] = Err EMalformed
  /\ decode BER None [14;0] = Err EMalformed
  (* the wrong type for the guiding type *)
  /\ decode DER (Some TInt) [4;1;0] = Err EMalformed
  /\ decode BER (Some (TSeq [(Req,TInt);(Req,TBool)])) [48;3;2;1;5] = Err EMalformed
  (* BOOLEAN / NULL / INTEGER in constructed form; NULL with content; BIT STRING with 9 unused bits *)
  /\ decode BER None [33;1;255] = Err EMalformed
  /\ decode BER None [5;1;0] = Err EMalformed
  /\ decode BER None [3;2;9;0] = Err EMalformed
  (* a definite constructed item whose components overrun it *)
  /\ decode BER None [48;3;2;2;0;0] = Err EMalformed
  (* non-ASCII octets in an IA5String *)
  /\ decode BER None [22;1;200] = Err EUnicode
  /\ is_library EEndOfStream = true /\ is_library EMalformed = true /\ is_library EUnicode = true.
Proof. repeat split; vm_compute; reflexivity. Qed.
