(* The encoder model (Model/Enc.v) through equations: [enc_content] recurses through local fixpoints
   over elements, components and alternatives; they are named here, for every codec, with the equations
   by which proofs take one step of the encoder without unfolding it. *)
From PV Require Import Base.Bytes Model.Tag Model.TableTypes Model.Types Model.Enc Proofs.Basics.

(* SingleItemEncoder.__call__ around encodeValue *)
Lemma enc_unfold c T o v :
  enc c T o v =
  (do ce <- concrete_encoder c T;
   do ts <- tagset_of T;
   do cc <- enc_content c T (fst ce) (snd ce) (mkOpts (o_def (fix_opts c o)) (o_chunk (fix_opts c o)) false) v;
   frame ts (fst cc) (snd cc) (fix_opts c o) (ef_indef (snd ce))).
Proof.
  unfold enc, enc_with.
  destruct (concrete_encoder c T) as [[cd fl]|]; cbn [bind fst snd]; [|reflexivity].
  destruct (tagset_of T) as [ts|]; cbn [bind]; [|reflexivity].
  destruct (enc_content c T cd fl _ v) as [[content ic]|]; reflexivity.
Qed.

(* SEQUENCE OF / SET OF: the encodings of the elements *)
Definition enc_elems_g (c: codec) (t: ty) (o: eopts) : list val -> res (list bytes) :=
  fix go (xs: list val) : res (list bytes) :=
  match xs with
  | [] => Ok []
  | x :: r => do p <- enc c t o x; do ps <- go r; Ok (p :: ps)
  end.

Definition listof_finish (cd: enc_codec) (parts: list bytes) : res (bytes * bool) :=
  match cd with
  | EcSeqOfBer | EcSeqOfCer => Ok (concat parts, true)
  | EcSetOfCer => Ok (concat (sort_setof parts), true)
  | _ => Err EMalformed
  end.

Lemma enc_content_seqof_g c t cd fl o xs :
  enc_content c (TSeqOf t) cd fl o (VList xs) = (do parts <- enc_elems_g c t o xs; listof_finish cd parts).
Proof. reflexivity. Qed.

Lemma enc_content_setof_g c t cd fl o xs :
  enc_content c (TSetOf t) cd fl o (VList xs) = (do parts <- enc_elems_g c t o xs; listof_finish cd parts).
Proof. reflexivity. Qed.

Lemma enc_elems_g_cons c t o x r :
  enc_elems_g c t o (x :: r) = (do p <- enc c t o x; do ps <- enc_elems_g c t o r; Ok (p :: ps)).
Proof. reflexivity. Qed.

Lemma enc_elems_g_Forall2 c t o : forall xs ps,
  enc_elems_g c t o xs = Ok ps <-> Forall2 (fun x p => enc c t o x = Ok p) xs ps.
Proof.
  induction xs as [|x r IH]; intros ps.
  - split; intros H; [injection H as <-; constructor|inversion H; reflexivity].
  - rewrite enc_elems_g_cons. split; intros H.
    + destruct (enc c t o x) as [p|] eqn:Ep; cbn [bind] in H; [|discriminate H].
      destruct (enc_elems_g c t o r) as [ps'|] eqn:Er; cbn [bind] in H; [|discriminate H].
      injection H as <-. constructor; [exact Ep|exact (proj1 (IH ps') eq_refl)].
    + inversion H as [|? p ? ps' Hp Hr]; subst. rewrite Hp, (proj2 (IH ps') Hr). reflexivity.
Qed.

(* SEQUENCE / SET: (sort key, encoding) of every component that is written, in declaration order *)
Definition enc_rec_fields_g (c: codec) (cd: enc_codec) (omit: bool) (o: eopts)
  : list (presence * ty) -> list (option val) -> res (list (tagset * bytes)) :=
  fix go (fs: list (presence * ty)) (vs: list (option val)) : res (list (tagset * bytes)) :=
    match fs with
    | [] => Ok []
    | (p, ft) :: fs' =>
        let ov := match vs with x :: _ => x | [] => None end in
        let vs' := match vs with _ :: r => r | [] => [] end in
        let o' := if omit then mkOpts (o_def o) (o_chunk o) (match p with Opt => true | _ => false end) else o in
        let emit (x: val) := do b <- enc c ft o' x; do rest <- go fs' vs';
                             Ok ((set_sort_key (match cd with EcSetDer => true | _ => false end) ft x, b) :: rest) in
        match p, ov with
        | Opt, None => go fs' vs'
        | Def d, None => go fs' vs'
        | Def d, Some x => match val_py_eq x d with
                           | Some true => go fs' vs'
                           | Some false => emit x
                           | None => Err EUnmodelled end
        | Req, None => if all_optional_container ft then emit (VRec []) else Err EMalformed
        | _, Some x => emit x
        end
    end.

Lemma enc_rec_fields_g_cons c cd omit o p ft fs' vs :
  enc_rec_fields_g c cd omit o ((p, ft) :: fs') vs =
  let ov := match vs with x :: _ => x | [] => None end in
  let vs' := match vs with _ :: r => r | [] => [] end in
  let emit (x: val) :=
    do b <- enc c ft (if omit then mkOpts (o_def o) (o_chunk o) (match p with Opt => true | _ => false end) else o) x;
    do rest <- enc_rec_fields_g c cd omit o fs' vs';
    Ok ((set_sort_key (match cd with EcSetDer => true | _ => false end) ft x, b) :: rest) in
  match p, ov with
  | Opt, None => enc_rec_fields_g c cd omit o fs' vs'
  | Def d, None => enc_rec_fields_g c cd omit o fs' vs'
  | Def d, Some x => match val_py_eq x d with
                     | Some true => enc_rec_fields_g c cd omit o fs' vs'
                     | Some false => emit x
                     | None => Err EUnmodelled end
  | Req, None => if all_optional_container ft then emit (VRec []) else Err EMalformed
  | _, Some x => emit x
  end.
Proof. reflexivity. Qed.

Definition omit_empty (cd: enc_codec) (fl: enc_flags) : bool :=
  match cd with EcSeq => ef_omit_empty fl | EcSetCer | EcSetDer => true | _ => false end.

Definition record_finish (cd: enc_codec) (parts: list (tagset * bytes)) : res (bytes * bool) :=
  match cd with
  | EcSeq => Ok (concat (map snd parts), true)
  | EcSetCer | EcSetDer => Ok (concat (map snd (sort_by tagset_ltb fst parts)), true)
  | _ => Err EMalformed
  end.

Lemma enc_content_seq_g c fs cd fl o vs :
  enc_content c (TSeq fs) cd fl o (VRec vs) =
  (do parts <- enc_rec_fields_g c cd (omit_empty cd fl) o fs vs; record_finish cd parts).
Proof. reflexivity. Qed.

Lemma enc_content_set_g c fs cd fl o vs :
  enc_content c (TSet fs) cd fl o (VRec vs) =
  (do parts <- enc_rec_fields_g c cd (omit_empty cd fl) o fs vs; record_finish cd parts).
Proof. reflexivity. Qed.

(* CHOICE: the chosen alternative *)
Lemma enc_content_choice_g c alts fl o i x :
  enc_content c (TChoice alts) EcChoice fl o (VChoice i x) =
  match nth_error alts i with Some a => (do p <- enc c a o x; Ok (p, true)) | None => Err EMalformed end.
Proof. exact (nth_loop (fun a => do p <- enc c a o x; Ok (p, true)) (Err EMalformed) alts i). Qed.

(* tagging does not reach the contents *)
Lemma enc_content_base c : forall T cd fl o v, enc_content c T cd fl o v = enc_content c (base_of T) cd fl o v.
Proof. induction T; intros; try reflexivity; cbn [enc_content base_of]; apply IHT. Qed.

Lemma base_of_idem T : base_of (base_of T) = base_of T.
Proof. induction T; try reflexivity; assumption. Qed.

(* the dispatch tables are keyed by the base type *)
Lemma concrete_encoder_base c T : concrete_encoder c T = concrete_encoder c (base_of T).
Proof. unfold concrete_encoder, tag_fallback_key, key_of. rewrite base_of_idem. reflexivity. Qed.

(* an answer of the encoder, taken apart: the encoder and the contents are those of the base type, the
   framing is over the tag set of the type itself *)
Lemma enc_inv c T o v b : enc c T o v = Ok b ->
  exists cd fl ts content ic,
    concrete_encoder c (base_of T) = Ok (cd, fl) /\ tagset_of T = Ok ts /\
    enc_content c (base_of T) cd fl (mkOpts (o_def (fix_opts c o)) (o_chunk (fix_opts c o)) false) v = Ok (content, ic) /\
    frame ts content ic (fix_opts c o) (ef_indef fl) = Ok b.
Proof.
  rewrite enc_unfold, concrete_encoder_base. intros He.
  destruct (concrete_encoder c (base_of T)) as [[cd fl]|] eqn:Ece; cbn [bind fst snd] in He; [|discriminate He].
  destruct (tagset_of T) as [ts|] eqn:Ets; cbn [bind] in He; [|discriminate He].
  rewrite enc_content_base in He.
  destruct (enc_content c (base_of T) cd fl _ v) as [[content ic]|] eqn:Ec; cbn [bind fst snd] in He; [|discriminate He].
  exists cd, fl, ts, content, ic. auto.
Qed.
