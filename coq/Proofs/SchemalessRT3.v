(* C16 in the other modes: what the BER encoder wrote with indefinite lengths and / or segmented
   strings (encode BER d chunk), and what the CER encoder wrote, for the container fragment of
   SchemalessRT2.v, read WITHOUT a guiding type by the BER and the CER decoder; and values with absent
   OPTIONAL components, compared with the value pruned to the components present.  In all of them the
   DER re-encoding of the result is the DER encoding of the original (pruned) value.  The F01 class is
   excluded in indefinite mode (schemaless_f01_refuted). *)
From Coq Require Import Lia Sorting.Permutation.
From PV Require Import Base.Bytes Model.Tag Model.TableTypes Model.Types Model.Proc Model.Enc Model.Dec Gen.Tables
     Proofs.DecFrame Proofs.TagsetShape Proofs.Schemaless Proofs.RoundTrip1 Proofs.RoundTrip2
     Proofs.RoundTripModesC Proofs.RoundTripModes
     Proofs.SchemalessRT Proofs.SchemalessRT2.
Local Open Scope N_scope.

(* the constructed form of a string type is looked up in the tag map like the primitive one *)
Lemma by_tag_wire cd b0 cns : by_tag cd [wire b0 cns] = by_tag cd [b0].
Proof. reflexivity. Qed.

Definition item_res_m := item_res.

(* C16 in every mode of the BER encoder - definite or indefinite lengths, strings whole or cut into
   segments of [chunk] octets - for the whole container fragment (SET OF and SET included: the BER
   encoder keeps the order), F01 class excluded in indefinite mode; decoders BER and CER *)
Theorem schemaless_roundtrip_ber_modes : forall cd d chunk T v b tl,
  dec_ok cd -> sl_frag true T = true -> (d = false -> no_f01 T = true) -> sl_val BER cd T v = true ->
  encode BER d chunk T v = Ok b -> N.of_nat (length b) <= index_max ->
  exists T0 v0, decode cd None (b ++ tl) = Ok (DV T0 v0, tl)
    /\ tagset_of T0 = tagset_of T
    /\ skel T0 v0 = skel T v
    /\ leaves T0 v0 = leaves T v
    /\ encode DER true 0 T0 v0 = encode DER true 0 T v.
Proof.
  intros cd d chunk T v b tl Hcd.
  exact (schemaless_roundtrip_same BER cd d chunk true T v b tl (stable_ber d chunk) (or_introl Hcd) (fun _ => eq_refl)).
Qed.

(* the CER encoder (always indefinite lengths, segments of 1000 octets, whatever options are passed),
   types without SET OF / SET *)
Theorem schemaless_roundtrip_cer_encoder : forall cd d k T v b tl,
  dec_ok cd -> sl_frag false T = true -> no_f01 T = true -> sl_val CER cd T v = true ->
  encode CER d k T v = Ok b -> N.of_nat (length b) <= index_max ->
  exists T0 v0, decode cd None (b ++ tl) = Ok (DV T0 v0, tl)
    /\ tagset_of T0 = tagset_of T
    /\ skel T0 v0 = skel T v
    /\ leaves T0 v0 = leaves T v
    /\ encode DER true 0 T0 v0 = encode DER true 0 T v.
Proof.
  intros cd d k T v b tl Hcd Hfr Hno Hv He. rewrite encode_cer_fixed in He.
  exact (schemaless_roundtrip_same CER cd false 1000 false T v b tl stable_cer (or_introl Hcd) ltac:(discriminate)
           Hfr (fun _ => Hno) Hv He).
Qed.

(* the CER encoder, SET OF and SET included: it sorts their members, so the decoded object lists
   them in CER's order; same skeleton up to the order under SET OF / SET nodes, the leaves a
   permutation, and the DER re-encoding still is the DER encoding of the original *)
Theorem schemaless_roundtrip_cer_encoder_sets : forall cd d k T v b tl,
  dec_ok cd -> sl_frag true T = true -> no_f01 T = true -> sl_val CER cd T v = true ->
  encode CER d k T v = Ok b -> N.of_nat (length b) <= index_max ->
  exists T0 v0, decode cd None (b ++ tl) = Ok (DV T0 v0, tl)
    /\ tagset_of T0 = tagset_of T
    /\ sk_sim (skel T v) (skel T0 v0)
    /\ Permutation (leaves T v) (leaves T0 v0)
    /\ encode DER true 0 T0 v0 = encode DER true 0 T v.
Proof.
  intros cd d k T v b tl Hcd Hfr Hno Hv He. rewrite encode_cer_fixed in He.
  exact (schemaless_roundtrip_sorted CER cd false 1000 T v b tl stable_cer (or_introl Hcd) Hfr (fun _ => Hno) Hv He).
Qed.

Print Assumptions schemaless_roundtrip_ber_modes.
Print Assumptions schemaless_roundtrip_cer_encoder.
Print Assumptions schemaless_roundtrip_cer_encoder_sets.

(* indefinite lengths and 2-octet segments, BER encoder, CER decoder; SET OF and SET inside *)
Example schemaless_roundtrip_ber_modes_nonvacuous :
  sl_frag true sl2_example_ty = true /\ no_f01 sl2_example_ty = false
  /\ (let T := TExp (mkTag Appl false 7)
                 (TSeq [ (Req, TExp (mkTag Ctx false 0) (TSeqOf TInt));
                         (Req, TSetOf (TExp (mkTag Ctx false 1) TOcts));
                         (Req, TSet [(Req, TOcts); (Req, TExp (mkTag Ctx false 2) (TSeqOf (TSeqOf TNull))); (Req, TBool)]);
                         (Req, TSeq []); (Req, TReal); (Req, TSet [(Req, TStr 12)]); (Req, TExp (mkTag Priv false 40) TBits) ]) in
      let v := VRec [ Some (VList [VInt 5; VInt (-129)]);
                      Some (VList [VOcts [7; 7; 7]; VOcts [3]; VOcts []]);
                      Some (VRec [Some (VOcts [1; 2; 3]); Some (VList [VList [VNull; VNull]; VList []]); Some (VBool false)]);
                      Some (VRec []); Some (VReal (RBin 10 0)); Some (VRec [Some (VOcts [104; 105; 106])]);
                      Some (VBits [true; false; true; true; false; false; true; false; true; true; true; false; false; false; false; false; true]) ] in
      sl_frag true T = true /\ no_f01 T = true /\ sl_val BER CER T v = true
      /\ exists b, encode BER false 2 T v = Ok b /\ N.of_nat (length b) <= index_max /\ length b = 135%nat
           /\ exists T0 v0, decode CER None (b ++ [9]) = Ok (DV T0 v0, [9])
                /\ leaves T0 v0 = leaves T v /\ length (leaves T v) = 12%nat
                /\ encode DER true 0 T0 v0 = encode DER true 0 T v).
Proof.
  split; [vm_compute; reflexivity|]. split; [vm_compute; reflexivity|]. cbv zeta.
  split; [vm_compute; reflexivity|]. split; [vm_compute; reflexivity|]. split; [vm_compute; reflexivity|].
  eexists. split; [vm_compute; reflexivity|]. split; [vm_compute; discriminate|]. split; [reflexivity|].
  eexists; eexists. split; [vm_compute; reflexivity|]. split; [vm_compute; reflexivity|].
  split; [vm_compute; reflexivity|]. vm_compute. reflexivity.
Qed.

(* the CER encoder with SET OF and SET: the decoded object has the members in CER's order *)
Example schemaless_roundtrip_cer_sets_nonvacuous :
  let T := TSeq [ (Req, TSetOf TInt); (Req, TSet [(Req, TOcts); (Req, TBool); (Req, TExp (mkTag Ctx false 0) TOcts)]) ] in
  let v := VRec [ Some (VList [VInt 300; VInt 6; VInt 5]); Some (VRec [Some (VOcts [1]); Some (VBool true); Some (VOcts [2])]) ] in
  sl_frag true T = true /\ no_f01 T = true /\ sl_val CER BER T v = true
  /\ exists b, encode CER true 0 T v = Ok b /\ N.of_nat (length b) <= index_max
       /\ exists T0 v0, decode BER None b = Ok (DV T0 v0, [])
            /\ leaves T0 v0 <> leaves T v
            /\ encode DER true 0 T0 v0 = encode DER true 0 T v.
Proof.
  cbv zeta. split; [vm_compute; reflexivity|]. split; [vm_compute; reflexivity|]. split; [vm_compute; reflexivity|].
  eexists. split; [vm_compute; reflexivity|]. split; [vm_compute; discriminate|].
  eexists; eexists. split; [vm_compute; reflexivity|]. split; [vm_compute; discriminate|]. vm_compute. reflexivity.
Qed.

(* why the F01 class is excluded in indefinite mode: [1] EXPLICIT INTEGER is written A1 03 02 01 05 00 00
   (definite length AND end-of-octets); without a schema, too, the decoder stops before the 00 00,
   and inside a SEQUENCE the spurious 00 00 ends the SEQUENCE early *)
Example schemaless_f01_refuted :
  let T := TSeq [(Req, TExp (mkTag Ctx false 1) TInt); (Req, TNull)] in
  let v := VRec [Some (VInt 5); Some VNull] in
  sl_frag true T = true /\ no_f01 T = false /\ sl_val BER BER T v = true
  /\ encode BER false 0 T v = Ok [48; 128; 161; 3; 2; 1; 5; 0; 0; 5; 0; 0; 0]
  /\ decode BER None [48; 128; 161; 3; 2; 1; 5; 0; 0; 5; 0; 0; 0]
     = Ok (DV (TSeq [(Req, TExp (mkTag Ctx true 1) TInt)]) (VRec [Some (VInt 5)]), [5; 0; 0; 0]).
Proof. cbv zeta. repeat split; vm_compute; reflexivity. Qed.

Print Assumptions schemaless_roundtrip_ber_modes_nonvacuous.
Print Assumptions schemaless_roundtrip_cer_sets_nonvacuous.

(* Absent OPTIONAL components.  Without a schema they are simply not there: what the decoder reads is
   the encoding of the value PRUNED to the components present, each of them mandatory. *)

Definition pres_ok (p: presence) : bool := match p with Def _ => false | _ => true end.
Definition is_opt (p: presence) : bool := match p with Opt => true | _ => false end.

(* SEQUENCE / SET values with every mandatory component present, OPTIONAL ones present or not, no DEFAULT *)
Fixpoint prunable (T: ty) (v: val) {struct T} : bool :=
  match T with
  | TImp _ x | TExp _ x => prunable x v
  | TSeq fs | TSet fs =>
      match v with
      | VRec vs =>
          (fix go (fs: list (presence * ty)) (vs: list (option val)) : bool :=
             match fs, vs with
             | [], [] => true
             | f :: fs', Some x :: vs' => pres_ok (fst f) && prunable (snd f) x && go fs' vs'
             | f :: fs', None :: vs' => is_opt (fst f) && go fs' vs'
             | _, _ => false
             end) fs vs
      | _ => false
      end
  | _ => true
  end.

(* the type and value with the absent components removed and the present ones made mandatory,
   in SEQUENCE / SET at any depth outside SEQUENCE OF / SET OF *)
Fixpoint prune (T: ty) (v: val) {struct T} : ty * val :=
  match T with
  | TImp t x => (TImp t (fst (prune x v)), snd (prune x v))
  | TExp t x => (TExp t (fst (prune x v)), snd (prune x v))
  | TSeq fs =>
      match v with
      | VRec vs =>
          let ms := (fix go (fs: list (presence * ty)) (vs: list (option val)) : list (ty * val) :=
                       match fs, vs with
                       | f :: fs', Some x :: vs' => prune (snd f) x :: go fs' vs'
                       | _ :: fs', None :: vs' => go fs' vs'
                       | _, _ => []
                       end) fs vs in
          (TSeq (rec_ty_of ms), VRec (rec_val_of ms))
      | _ => (T, v)
      end
  | TSet fs =>
      match v with
      | VRec vs =>
          let ms := (fix go (fs: list (presence * ty)) (vs: list (option val)) : list (ty * val) :=
                       match fs, vs with
                       | f :: fs', Some x :: vs' => prune (snd f) x :: go fs' vs'
                       | _ :: fs', None :: vs' => go fs' vs'
                       | _, _ => []
                       end) fs vs in
          (TSet (rec_ty_of ms), VRec (rec_val_of ms))
      | _ => (T, v)
      end
  | _ => (T, v)
  end.

Definition prune_fields : list (presence * ty) -> list (option val) -> list (ty * val) :=
  fix go (fs: list (presence * ty)) (vs: list (option val)) : list (ty * val) :=
    match fs, vs with
    | f :: fs', Some x :: vs' => prune (snd f) x :: go fs' vs'
    | _ :: fs', None :: vs' => go fs' vs'
    | _, _ => []
    end.

Definition prunable_fields : list (presence * ty) -> list (option val) -> bool :=
  fix go (fs: list (presence * ty)) (vs: list (option val)) : bool :=
    match fs, vs with
    | [], [] => true
    | f :: fs', Some x :: vs' => pres_ok (fst f) && prunable (snd f) x && go fs' vs'
    | f :: fs', None :: vs' => is_opt (fst f) && go fs' vs'
    | _, _ => false
    end.

Lemma prune_seq fs vs : prune (TSeq fs) (VRec vs) = (TSeq (rec_ty_of (prune_fields fs vs)), VRec (rec_val_of (prune_fields fs vs))).
Proof. reflexivity. Qed.
Lemma prune_set fs vs : prune (TSet fs) (VRec vs) = (TSet (rec_ty_of (prune_fields fs vs)), VRec (rec_val_of (prune_fields fs vs))).
Proof. reflexivity. Qed.
Lemma prunable_seq fs vs : prunable (TSeq fs) (VRec vs) = prunable_fields fs vs. Proof. reflexivity. Qed.
Lemma prunable_set fs vs : prunable (TSet fs) (VRec vs) = prunable_fields fs vs. Proof. reflexivity. Qed.

Lemma cenc_total ce T : exists cd fl, concrete_encoder ce T = Ok (cd, fl).
Proof.
  rewrite concrete_encoder_base. pose proof (base_of_plain T) as Hpl.
  destruct (base_of T) eqn:Hb; try contradiction;
    try (destruct ce; eexists; eexists; vm_compute; reflexivity).
  unfold concrete_encoder. cbn [key_of base_of].
  destruct (lookup3 (KStr n) (enc_type_map ce)) as [[a b]|]; [eexists; eexists; reflexivity|].
  destruct ce; eexists; eexists; vm_compute; reflexivity.
Qed.

Section Same.
  Variable ce : codec.
  Variable d : bool.
  Variable k : N.
  Hypothesis Hst : stable ce d k.

  (* (T', v') in the place of (T, v): the same tags, and contents octets that go with them *)
  Definition content_same (T: ty) (v: val) (T': ty) (v': val) : Prop :=
    tagset_of T' = tagset_of T
    /\ forall cd fl, concrete_encoder ce T = Ok (cd, fl) ->
       exists cd' fl', concrete_encoder ce T' = Ok (cd', fl') /\ ef_indef fl' = ef_indef fl
         /\ enc_content ce T' cd' fl' (mo d k) v' = enc_content ce T cd fl (mo d k) v.

  Lemma content_same_enc T v T' v' : content_same T v T' v' ->
    enc_with ce (enc_content ce) T' (mo d k) v' = enc_with ce (enc_content ce) T (mo d k) v.
  Proof.
    intros [Hts Hc]. unfold enc_with. rewrite Hst.
    destruct (cenc_total ce T) as (cd & fl & Hcd). destruct (Hc cd fl Hcd) as (cd' & fl' & Hcd' & Hsi & Hcont).
    rewrite Hcd, Hcd', Hts. cbn [bind].
    destruct (tagset_of T) as [ts|e]; cbn [bind]; [|reflexivity].
    change (mkOpts (o_def (mo d k)) (o_chunk (mo d k)) false) with (mo d k).
    rewrite Hcont, Hsi. reflexivity.
  Qed.

  Lemma content_same_refl T v : content_same T v T v.
  Proof. split; [reflexivity|]. intros cd fl Hc. exists cd, fl. repeat split. exact Hc. Qed.

  (* IMPLICIT and EXPLICIT tagging alike: the same tag around both *)
  Lemma content_same_tagged (W: ty -> ty) tg T v T' v' : W = TImp tg \/ W = TExp tg ->
    content_same T v T' v' -> content_same (W T) v (W T') v'.
  Proof.
    intros HW [Hts Hcont].
    assert (Henc: forall y, concrete_encoder ce (W y) = concrete_encoder ce y)
      by (intros y; rewrite (concrete_encoder_base ce (W y)), (concrete_encoder_base ce y); destruct HW as [-> | ->]; reflexivity).
    assert (Hcon: forall y cd fl u, enc_content ce (W y) cd fl (mo d k) u = enc_content ce y cd fl (mo d k) u)
      by (destruct HW as [-> | ->]; reflexivity).
    split; [destruct HW as [-> | ->]; cbn [tagset_of]; rewrite Hts; reflexivity|].
    intros cd fl Hc. rewrite Henc in Hc. destruct (Hcont cd fl Hc) as (cd' & fl' & Hc' & Hsi & He).
    exists cd', fl'. rewrite Henc, !Hcon. repeat split; assumption.
  Qed.
End Same.

Section PruneBer.
  Variable d : bool.
  Variable k : N.

  (* the BER encoder does not treat OPTIONAL components specially *)
  Definition prune_ok (T: ty) (v: val) : Prop := content_same BER d k T v (fst (prune T v)) (snd (prune T v)).

  (* the contents octets of a BER SEQUENCE / SET *)
  Definition seq_content (fs: list (presence * ty)) (vs: list (option val)) : res (bytes * bool) :=
    do parts <- enc_rec_fields_g BER EcSeq false (mo d k) fs vs; Ok (concat (map snd parts), true).

  Lemma seq_content_prune : forall fs vs,
    Forall (fun f => forall x, prunable (snd f) x = true -> prune_ok (snd f) x) fs ->
    prunable_fields fs vs = true ->
    seq_content (rec_ty_of (prune_fields fs vs)) (rec_val_of (prune_fields fs vs)) = seq_content fs vs.
  Proof.
    unfold seq_content.
    induction fs as [|[p ft] fs IH]; intros vs HF Hp.
    - destruct vs; [reflexivity|discriminate Hp].
    - inversion HF as [|? ? Hf HFr]; subst. cbn [snd] in Hf.
      destruct vs as [|[x|] vs]; try discriminate Hp.
      + change (prunable_fields ((p, ft) :: fs) (Some x :: vs)) with (pres_ok p && prunable ft x && prunable_fields fs vs)%bool in Hp.
        apply Bool.andb_true_iff in Hp. destruct Hp as [Hp Hps]. apply Bool.andb_true_iff in Hp. destruct Hp as [Hpo Hpx].
        change (prune_fields ((p, ft) :: fs) (Some x :: vs)) with (prune ft x :: prune_fields fs vs).
        specialize (IH vs HFr Hps).
        change (rec_ty_of (prune ft x :: prune_fields fs vs)) with ((Req, fst (prune ft x)) :: rec_ty_of (prune_fields fs vs)).
        change (rec_val_of (prune ft x :: prune_fields fs vs)) with (Some (snd (prune ft x)) :: rec_val_of (prune_fields fs vs)).
        rewrite fields_emit_req, (fields_emit BER EcSeq false (mo d k) p ft fs x vs ltac:(intros dv ->; discriminate Hpo)).
        unfold enc. rewrite (content_same_enc BER d k (stable_ber d k) _ _ _ _ (Hf x Hpx)).
        destruct (enc_with BER (enc_content BER) ft (mo d k) x) as [b|e]; cbn [bind]; [|reflexivity].
        destruct (enc_rec_fields_g BER EcSeq false (mo d k) (rec_ty_of (prune_fields fs vs)) (rec_val_of (prune_fields fs vs))) as [r1|e1];
          destruct (enc_rec_fields_g BER EcSeq false (mo d k) fs vs) as [r2|e2]; cbn [bind] in *; try discriminate IH.
        * injection IH as IH. cbn [map snd concat]. rewrite IH. reflexivity.
        * exact IH.
      + change (prunable_fields ((p, ft) :: fs) (None :: vs)) with (is_opt p && prunable_fields fs vs)%bool in Hp.
        apply Bool.andb_true_iff in Hp. destruct Hp as [Hpo Hps]. destruct p; try discriminate Hpo.
        change (prune_fields ((Opt, ft) :: fs) (None :: vs)) with (prune_fields fs vs).
        rewrite (fields_skip_none BER EcSeq false (mo d k) Opt ft fs vs eq_refl). exact (IH vs HFr Hps).
  Qed.

  Theorem prune_ok_all : forall T v, prunable T v = true -> prune_ok T v.
  Proof.
    induction T as [| | | | | | | | n|fs IH|fs IH|t IH|t IH|alts IH| |tg x IH|tg x IH] using ty_ind';
      intros v Hp; try apply content_same_refl.
    - destruct v; try apply content_same_refl. rewrite prunable_seq in Hp. unfold prune_ok. rewrite prune_seq.
      split; [reflexivity|]. intros cd fl Hc. exists cd, fl. split; [exact Hc|]. split; [reflexivity|].
      vm_compute in Hc. inversion Hc; subst cd fl. exact (seq_content_prune fs fs0 IH Hp).
    - destruct v; try apply content_same_refl. rewrite prunable_set in Hp. unfold prune_ok. rewrite prune_set.
      split; [reflexivity|]. intros cd fl Hc. exists cd, fl. split; [exact Hc|]. split; [reflexivity|].
      vm_compute in Hc. inversion Hc; subst cd fl. exact (seq_content_prune fs fs0 IH Hp).
    - exact (content_same_tagged BER d k (TImp tg) tg _ _ _ _ (or_introl eq_refl) (IH v Hp)).
    - exact (content_same_tagged BER d k (TExp tg) tg _ _ _ _ (or_intror eq_refl) (IH v Hp)).
  Qed.
End PruneBer.

(* pruning keeps the skeleton: absent components have none *)
Lemma prune_skel : forall T v W W', tagset_of' W' = tagset_of' W -> prunable T v = true ->
  skel_aux W' (fst (prune T v)) (snd (prune T v)) = skel_aux W T v.
Proof.
  assert (Hfields: forall fs, Forall (fun f => forall v W W', tagset_of' W' = tagset_of' W -> prunable (snd f) v = true ->
                      skel_aux W' (fst (prune (snd f) v)) (snd (prune (snd f) v)) = skel_aux W (snd f) v) fs ->
            forall vs, prunable_fields fs vs = true -> map skelm (prune_fields fs vs) = skel_fields fs vs).
  { induction fs as [|[p ft] fs IHfs]; intros HF vs Hp.
    - destruct vs; [reflexivity|discriminate Hp].
    - inversion HF as [|? ? Hf HFr]; subst. cbn [snd] in Hf.
      destruct vs as [|[x|] vs]; try discriminate Hp.
      + change (prunable_fields ((p, ft) :: fs) (Some x :: vs)) with (pres_ok p && prunable ft x && prunable_fields fs vs)%bool in Hp.
        apply Bool.andb_true_iff in Hp. destruct Hp as [Hp Hps]. apply Bool.andb_true_iff in Hp. destruct Hp as [_ Hpx].
        change (prune_fields ((p, ft) :: fs) (Some x :: vs)) with (prune ft x :: prune_fields fs vs).
        change (skel_fields ((p, ft) :: fs) (Some x :: vs)) with (skel ft x :: skel_fields fs vs).
        cbn [map]. rewrite (IHfs HFr vs Hps). f_equal. unfold skelm, skel.
        apply Hf; [|exact Hpx]. (* the tag set does not depend on the mode: any will do *)
        destruct (prune_ok_all true 0 ft x Hpx) as [Hts _]. unfold tagset_of'. rewrite Hts. reflexivity.
      + change (prunable_fields ((p, ft) :: fs) (None :: vs)) with (is_opt p && prunable_fields fs vs)%bool in Hp.
        apply Bool.andb_true_iff in Hp. destruct Hp as [_ Hps].
        change (prune_fields ((p, ft) :: fs) (None :: vs)) with (prune_fields fs vs).
        change (skel_fields ((p, ft) :: fs) (None :: vs)) with (skel_fields fs vs).
        exact (IHfs HFr vs Hps). }
  induction T as [| | | | | | | | n|fs IH|fs IH|t IH|t IH|alts IH| |tg x IH|tg x IH] using ty_ind';
    intros v W W' Hw Hp; try (cbn [prune fst snd skel_aux]; rewrite Hw; reflexivity).
  - destruct v; try discriminate Hp. rewrite prunable_seq in Hp. rewrite prune_seq. cbn [fst snd].
    change (skel_aux W' (TSeq (rec_ty_of (prune_fields fs fs0))) (VRec (rec_val_of (prune_fields fs fs0))))
      with (SNode (tagset_of' W') (skel_fields (rec_ty_of (prune_fields fs fs0)) (rec_val_of (prune_fields fs fs0)))).
    change (skel_aux W (TSeq fs) (VRec fs0)) with (SNode (tagset_of' W) (skel_fields fs fs0)).
    rewrite (skel_fields_members _ _ (rec_of_full _)), rec_of_members, Hw, (Hfields fs IH fs0 Hp). reflexivity.
  - destruct v; try discriminate Hp. rewrite prunable_set in Hp. rewrite prune_set. cbn [fst snd].
    change (skel_aux W' (TSet (rec_ty_of (prune_fields fs fs0))) (VRec (rec_val_of (prune_fields fs fs0))))
      with (SNode (tagset_of' W') (skel_fields (rec_ty_of (prune_fields fs fs0)) (rec_val_of (prune_fields fs fs0)))).
    change (skel_aux W (TSet fs) (VRec fs0)) with (SNode (tagset_of' W) (skel_fields fs fs0)).
    rewrite (skel_fields_members _ _ (rec_of_full _)), rec_of_members, Hw, (Hfields fs IH fs0 Hp). reflexivity.
  - cbn [prune fst snd]. reflexivity.
  - cbn [prunable] in Hp. cbn [prune fst snd skel_aux]. exact (IH v W W' Hw Hp).
  - cbn [prunable] in Hp. cbn [prune fst snd skel_aux]. exact (IH v W W' Hw Hp).
Qed.

Lemma prune_skel_top T v : prunable T v = true -> skel (fst (prune T v)) (snd (prune T v)) = skel T v.
Proof.
  intros Hp. unfold skel. apply prune_skel; [|exact Hp].
  destruct (prune_ok_all true 0 T v Hp) as [Hts _]. unfold tagset_of'. rewrite Hts. reflexivity.
Qed.

(* C16 with absent OPTIONAL components (BER encoder, every mode).  T may have OPTIONAL components
   in SEQUENCE / SET at any depth outside SEQUENCE OF / SET OF, absent or present in v; (T', v') is
   the pruned pair: the components present, each mandatory.  When that is in the fragment, the
   decoder - which sees no trace of the absent components - returns an object with the tags, the
   skeleton and the leaves of v, which are those of the pruned value ([prune_skel_top]: absent
   components have no skeleton); its DER re-encoding is the DER encoding of the pruned value, not of
   v (schemaless_optional_empty_differs). *)
Theorem schemaless_roundtrip_optional : forall cd d chunk T v b tl,
  dec_ok cd -> prunable T v = true ->
  sl_frag true (fst (prune T v)) = true -> (d = false -> no_f01 (fst (prune T v)) = true) ->
  sl_val BER cd (fst (prune T v)) (snd (prune T v)) = true ->
  encode BER d chunk T v = Ok b -> N.of_nat (length b) <= index_max ->
  exists T0 v0, decode cd None (b ++ tl) = Ok (DV T0 v0, tl)
    /\ tagset_of T0 = tagset_of T
    /\ skel T0 v0 = skel T v
    /\ leaves T0 v0 = leaves T v
    /\ encode DER true 0 T0 v0 = encode DER true 0 (fst (prune T v)) (snd (prune T v)).
Proof.
  intros cd d chunk T v b tl Hcd Hp Hfr Hno Hv He Hmax.
  pose proof (prune_ok_all d chunk T v Hp) as Hok.
  assert (He': encode BER d chunk (fst (prune T v)) (snd (prune T v)) = Ok b).
  { exact (eq_trans (content_same_enc BER d chunk (stable_ber d chunk) _ _ _ _ Hok) He). }
  destruct (schemaless_roundtrip_ber_modes cd d chunk _ _ b tl Hcd Hfr Hno Hv He' Hmax) as (T0 & v0 & Hd & Hts & Hsk & Hl & Hder).
  exists T0, v0. split; [exact Hd|]. split; [rewrite Hts; exact (proj1 Hok)|].
  split; [rewrite Hsk; exact (prune_skel_top T v Hp)|].
  split; [unfold leaves in *; rewrite Hsk, (prune_skel_top T v Hp); reflexivity|exact Hder].
Qed.

(* SEQUENCE { a [0] EXPLICIT OCTET STRING OPTIONAL, b SEQUENCE OF INTEGER OPTIONAL, c SET { x BOOLEAN OPTIONAL, y OCTET STRING },
              d NULL OPTIONAL } with a and x absent, in indefinite mode with 1-octet segments *)
Example schemaless_roundtrip_optional_nonvacuous :
  let T := TSeq [ (Opt, TExp (mkTag Ctx false 0) TOcts); (Opt, TSeqOf TInt);
                  (Req, TSet [(Opt, TBool); (Req, TOcts)]); (Opt, TNull) ] in
  let v := VRec [ None; Some (VList [VInt 1; VInt 2]); Some (VRec [None; Some (VOcts [8; 9])]); Some VNull ] in
  prunable T v = true
  /\ prune T v = (TSeq [ (Req, TSeqOf TInt); (Req, TSet [(Req, TOcts)]); (Req, TNull) ],
                  VRec [ Some (VList [VInt 1; VInt 2]); Some (VRec [Some (VOcts [8; 9])]); Some VNull ])
  /\ sl_frag true (fst (prune T v)) = true /\ no_f01 (fst (prune T v)) = true
  /\ sl_val BER BER (fst (prune T v)) (snd (prune T v)) = true
  /\ exists b, encode BER false 1 T v = Ok b /\ N.of_nat (length b) <= index_max
       /\ exists T0 v0, decode BER None b = Ok (DV T0 v0, []) /\ leaves T0 v0 = leaves T v /\ length (leaves T v) = 4%nat
            /\ encode DER true 0 T0 v0 = Ok [48; 16; 48; 6; 2; 1; 1; 2; 1; 2; 49; 4; 4; 2; 8; 9; 5; 0].
Proof.
  cbv zeta. split; [vm_compute; reflexivity|]. split; [vm_compute; reflexivity|]. split; [vm_compute; reflexivity|].
  split; [vm_compute; reflexivity|]. split; [vm_compute; reflexivity|].
  eexists. split; [vm_compute; reflexivity|]. split; [vm_compute; discriminate|].
  eexists; eexists. split; [vm_compute; reflexivity|]. split; [vm_compute; reflexivity|]. split; vm_compute; reflexivity.
Qed.

(* the DER conclusion is about the pruned value: DER itself leaves out a PRESENT optional component
   that is an empty SEQUENCE OF / SET OF / SEQUENCE / SET (finding F24), so for such a value the
   re-encoding of the schemaless result (which has the component) is not the DER encoding of the
   original *)
Example schemaless_optional_empty_differs :
  let T := TSeq [(Opt, TSeqOf TInt); (Req, TNull)] in
  let v := VRec [Some (VList []); Some VNull] in
  prunable T v = true
  /\ encode BER true 0 T v = Ok [48; 4; 48; 0; 5; 0]
  /\ decode BER None [48; 4; 48; 0; 5; 0] = Ok (DV (TSeq [(Req, TSeqOf TNull); (Req, TNull)]) (VRec [Some (VList []); Some VNull]), [])
  /\ encode DER true 0 (TSeq [(Req, TSeqOf TNull); (Req, TNull)]) (VRec [Some (VList []); Some VNull]) = Ok [48; 4; 48; 0; 5; 0]
  /\ encode DER true 0 (fst (prune T v)) (snd (prune T v)) = Ok [48; 4; 48; 0; 5; 0]
  /\ encode DER true 0 T v = Ok [48; 2; 5; 0].
Proof. cbv zeta. repeat split; vm_compute; reflexivity. Qed.

Print Assumptions schemaless_roundtrip_optional.
Print Assumptions schemaless_roundtrip_optional_nonvacuous.
