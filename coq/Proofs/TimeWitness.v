(* C20: executable witnesses (findings F11, F12, F27, the UTCTime year window, the millisecond
   convention) and the facts read off the regenerated codec tables. *)
From PV Require Import Base.Bytes Spec.X680Time Model.Time Gen.Tables Proofs.TimeText Proofs.TimeEnc Proofs.TimeRoundTrip.
Local Open Scope N_scope.

(* the full statements, as the property words them *)
Definition roundtrip_full (from: tkind -> dt -> text) : Prop :=
  forall k d, valid_dt d = true -> in_domain k d = true ->
  exists d', as_dt k (from k d) = Ok d' /\ dt_instant d' = dt_instant d /\ off d' = Some (dt_offset d).

Definition canonical_full : Prop :=
  forall a b tt s s' i, time_enc a b s = Ok s' -> instant tt s = Some i ->
  canonical s' = true /\ instant tt s' = Some i.

Theorem roundtrip_full_holds : roundtrip_full from_dt.
Proof.
  intros k d Hv Hd. destruct (roundtrip k d Hv Hd) as (d' & A & B & _ & D).
  exists d'. repeat split; assumption.
Qed.

(* F11: the offset text before the fix *)

(* 2017-07-11T00:01:02.003-01:00 was written '...+2300' and came back with offset +23:00 *)
Definition w_neg : dt := mkDT 2017 7 11 0 1 2 3000 (Some (-60)%Z).
(* 2017-07-11T00:01:02.003+01:30 was written '...+011800' and is refused *)
Definition w_half : dt := mkDT 2017 7 11 0 1 2 3000 (Some 90%Z).

Lemma unfixed_negative_offset :
  valid_dt w_neg = true /\ in_domain GenT w_neg = true /\ f11_free (off w_neg) = false
  /\ from_dt_unfixed GenT w_neg = [50;48;49;55;48;55;49;49;48;48;48;49;48;50;46;51;43;50;51;48;48]
  /\ as_dt GenT (from_dt_unfixed GenT w_neg) = Ok (mkDT 2017 7 11 0 1 2 3000 (Some 1380%Z)).
Proof. repeat split; vm_compute; reflexivity. Qed.

Lemma unfixed_half_hour_offset :
  valid_dt w_half = true /\ in_domain UtcT (mkDT 2017 7 11 0 1 2 0 (Some 90%Z)) = true
  /\ f11_free (off w_half) = false
  /\ from_dt_unfixed GenT w_half = [50;48;49;55;48;55;49;49;48;48;48;49;48;50;46;51;43;48;49;49;56;48;48]
  /\ as_dt GenT (from_dt_unfixed GenT w_half) = Err EMalformed
  /\ as_dt UtcT (from_dt_unfixed UtcT (mkDT 2017 7 11 0 1 2 0 (Some 90%Z))) = Err EMalformed.
Proof. repeat split; vm_compute; reflexivity. Qed.

Theorem roundtrip_unfixed_refuted : ~ roundtrip_full from_dt_unfixed.
Proof.
  intros H. destruct (H GenT w_half) as (d' & E & _); [reflexivity|reflexivity|].
  destruct unfixed_half_hour_offset as (_ & _ & _ & _ & E2 & _). rewrite E2 in E. discriminate.
Qed.

Theorem roundtrip_unfixed_refuted_negative :
  exists d d', valid_dt d = true /\ in_domain GenT d = true
    /\ as_dt GenT (from_dt_unfixed GenT d) = Ok d' /\ off d' <> Some (dt_offset d)
    /\ dt_instant d' <> dt_instant d.
Proof.
  destruct unfixed_negative_offset as (V & D & _ & _ & E).
  exists w_neg, (mkDT 2017 7 11 0 1 2 3000 (Some 1380%Z)).
  split; [exact V|]. split; [exact D|]. split; [exact E|]. split; vm_compute; discriminate.
Qed.

(* the UTCTime window: outside 1969..2068 two year digits cannot bring the year back *)
Theorem utctime_outside_window :
  exists d d', valid_dt d = true /\ us d = 0 /\ yr d = 1950
    /\ as_dt UtcT (from_dt UtcT d) = Ok d' /\ yr d' = 2050.
Proof.
  exists (mkDT 1950 1 1 0 0 0 0 None), (mkDT 2050 1 1 0 0 0 0 (Some 0%Z)).
  repeat split; vm_compute; reflexivity.
Qed.

(* F12: '20170801120112.099Z' -> '20170801120112.99Z' *)
Definition w_f12 : text := [50;48;49;55;48;56;48;49;49;50;48;49;49;50;46;48;57;57;90].
Definition w_f12_out : text := [50;48;49;55;48;56;48;49;49;50;48;49;49;50;46;57;57;90].

Theorem f12_witness :
  time_enc 12 20 w_f12 = Ok w_f12_out
  /\ zeros_only_trailing 4 (frac_of w_f12) = false
  /\ canonical w_f12_out = true
  /\ exists i, instant GenT w_f12 = Some i /\ instant GenT w_f12_out <> Some i.
Proof.
  split; [vm_compute; reflexivity|]. split; [vm_compute; reflexivity|]. split; [vm_compute; reflexivity|].
  eexists. split; [vm_compute; reflexivity|]. vm_compute. discriminate.
Qed.

(* F27: '201708011201.12340Z' is emitted as it is *)
Definition w_f27 : text := [50;48;49;55;48;56;48;49;49;50;48;49;46;49;50;51;52;48;90].

Theorem f27_witness :
  time_enc 12 20 w_f27 = Ok w_f27
  /\ no_far_trailing_zero (frac_of w_f27) = false
  /\ canonical w_f27 = false
  /\ instant GenT w_f27 <> None.
Proof. repeat split; vm_compute; try reflexivity; discriminate. Qed.

Theorem canonical_full_refuted : ~ canonical_full.
Proof.
  intros H. destruct f27_witness as (E & _ & C & I).
  destruct (instant GenT w_f27) as [i|] eqn:Ei; [|congruence].
  destruct (H 12 20 GenT w_f27 w_f27 i E Ei) as [C' _]. congruence.
Qed.

Theorem same_instant_full_refuted :
  ~ (forall a b tt s s' i, time_enc a b s = Ok s' -> instant tt s = Some i -> instant tt s' = Some i).
Proof.
  intros H. destruct f12_witness as (E & _ & _ & i & Ei & Ni).
  apply Ni. exact (H 12 20 GenT w_f12 w_f12_out i E Ei).
Qed.

(* the millisecond convention (recorded; not a claim of C20):
   5 ms is written '.5', which X.680 reads as half a second *)
Theorem millisecond_convention :
  let d := mkDT 2017 7 11 0 1 2 5000 (Some 0%Z) in
  from_dt GenT d = [50;48;49;55;48;55;49;49;48;48;48;49;48;50;46;53;90]
  /\ instant GenT (from_dt GenT d)
     = instant GenT [50;48;49;55;48;55;49;49;48;48;48;49;48;50;46;53;48;48;90].
Proof. split; vm_compute; reflexivity. Qed.

(* the regenerated tables give both time types a time encoder with these limits *)
Theorem table_limits :
  time_limits cer_enc_tag_map GenT = Some (12, 20) /\ time_limits cer_enc_tag_map UtcT = Some (10, 14)
  /\ time_limits der_enc_tag_map GenT = Some (12, 20) /\ time_limits der_enc_tag_map UtcT = Some (10, 14)
  /\ time_limits cer_enc_type_map GenT = Some (12, 20) /\ time_limits cer_enc_type_map UtcT = Some (10, 14)
  /\ time_limits der_enc_type_map GenT = Some (12, 20) /\ time_limits der_enc_type_map UtcT = Some (10, 14).
Proof. repeat split; vm_compute; reflexivity. Qed.

Definition time_tables := [cer_enc_tag_map; cer_enc_type_map; der_enc_tag_map; der_enc_type_map].

Theorem tables_use_time_enc tbl k s : In tbl time_tables ->
  exists a b, time_enc_tbl tbl k s = time_enc a b s.
Proof.
  destruct table_limits as (A & B & C & D & E & F & G & H).
  intros Hin. cbn [time_tables In] in Hin. unfold time_enc_tbl.
  destruct Hin as [<-|[<-|[<-|[<-|[]]]]]; destruct k;
    rewrite ?A, ?B, ?C, ?D, ?E, ?F, ?G, ?H; eexists; eexists; reflexivity.
Qed.

Theorem tables_refuse_non_utc tbl k s : In tbl time_tables -> non_utc s = true ->
  time_enc_tbl tbl k s = Err (match s with [] => ECrash IndexError | _ => EMalformed end).
Proof.
  intros Hin Hn. destruct (tables_use_time_enc tbl k s Hin) as (a & b & ->).
  apply refuses_non_utc. assumption.
Qed.
