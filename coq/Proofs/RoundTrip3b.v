(* Stage 3 of the round trip: SEQUENCE with mandatory, OPTIONAL and DEFAULT components ([record_val]); the
   domain of stage 3 for every later file ([stage3_ty], [stage3_val] and what they are built from); and the
   theorems for the types without SET, CHOICE and ANY ([roundtrip_stage3b], [roundtrip_stage3a]). *)
From Coq Require Import Lia Permutation.
From PV Require Import Base.Bytes Model.Tag Model.TableTypes Model.Types Model.Proc Model.Enc Model.Dec Gen.Tables Proofs.RunLemmas Proofs.DecFrame Proofs.TagsetShape Proofs.RoundTrip1 Proofs.RoundTrip2 Proofs.RoundTrip3 Proofs.RoundTrip3a.
(* the component loop [enc_rec_fields_g] in the statements below is EncUnfold's *)
From PV Require Export Proofs.EncUnfold.
Local Open Scope N_scope.

Lemma wire_tags_choice alts i x :
  wire_tags (TChoice alts) (VChoice i x) = match nth_error alts i with Some a => wire_tags a x | None => [] end.
Proof. exact (nth_loop (fun a => wire_tags a x) [] alts i). Qed.

Lemma wire_in_ckeys : forall T v, wire_tags T v <> [] -> In (wire_tags T v) (ckeys T).
Proof.
  induction T as [| | | | | | | | n|fs IH|fs IH|t IH|t IH|alts IH| |tg x IH|tg x IH] using ty_ind'; intros v Hne;
    try (left; reflexivity).
  - (* CHOICE *)
    destruct v as [bb|z|bs|bo|cs| |arcs|r|vfs|xs|i x|ab]; try (exfalso; apply Hne; reflexivity).
    rewrite wire_tags_choice in *. rewrite ckeys_choice.
    destruct (nth_error alts i) as [a|] eqn:En; [|exfalso; apply Hne; reflexivity].
    apply in_flat_map. exists a. split; [eapply nth_error_In; exact En|].
    rewrite Forall_forall in IH. apply (IH a (nth_error_In _ _ En)). exact Hne.
Qed.

Lemma depth_alt alts i a : nth_error alts i = Some a -> (S (ty_depth a) <= ty_depth (TChoice alts))%nat.
Proof.
  intros En. cbn [ty_depth]. pose proof (nth_error_In _ _ En) as Hin.
  assert (Hle: (ty_depth a <= fold_right (fun a0 acc => Nat.max (ty_depth a0) acc) 0%nat alts)%nat).
  { clear - Hin. induction alts as [|y r IH]; [destruct Hin|]. cbn [fold_right]. destruct Hin as [<-|Hin]; [lia|]. specialize (IH Hin). lia. }
  lia.
Qed.

Lemma effective_wire : forall f T v, (ty_depth T <= f)%nat -> wire_tags T v <> [] -> effective_tagset f T v = wire_tags T v.
Proof.
  induction f as [|f IHf]; intros T v Hd Hne.
  - destruct T; cbn [ty_depth] in Hd; lia.
  - destruct T; try reflexivity.
    destruct v as [bb|z|bs|bo|cs| |arcs|r|vfs|xs|i x|ab]; try reflexivity.
    cbn [effective_tagset]. rewrite wire_tags_choice in *.
    destruct (nth_error alts i) as [a|] eqn:En; [|exfalso; apply Hne; reflexivity].
    rewrite (nth_error_nth _ _ TNull En). apply IHf; [|exact Hne].
    pose proof (depth_alt alts i a En). lia.
Qed.

(* a type guiding the decoder directly: every type whose keys are good (that excludes the untagged ANY) *)
Lemma resolves_sty T v : keys_ok (ckeys T) = true -> wire_tags T v <> [] -> resolves (STy T) T v.
Proof.
  intros HK Hne.
  pose proof (wire_in_ckeys T v Hne) as Hin.
  destruct (tagmap_good T HK) as (Hp & Hd & Hm).
  split.
  - cbn [sp_hit]. split; [reflexivity|]. split; [|exact Hp].
    apply Bool.orb_true_iff. right. unfold tm_contains.
    specialize (Hm (wire_tags T v)). rewrite (tm_mem_in _ _ Hin) in Hm. unfold mkeys in Hm. rewrite <- find_mem in Hm.
    unfold tm_find. destruct (assoc tagset_eqb (wire_tags T v) (tm_present (tagmap_of T))); [reflexivity|discriminate].
  - intros r1 r2 Hr Hne2. cbn [sp_miss].
    destruct (wire_tags T v) as [|t0 r] eqn:Ew; [congruence|]. cbn [tl] in Hr.
    assert (Hnk: tm_mem r2 (ckeys T) = false).
    { apply (suffix_not_key _ (t0 :: r) (t0 :: r1) r2 HK Hin); [rewrite Hr; reflexivity|discriminate|exact Hne2]. }
    split.
    + destruct (tagset_eqb r2 (tagset_of' T)) eqn:E; [|reflexivity]. exfalso.
      (* the type's own tag set is a key unless the type is an untagged CHOICE, whose tag set is empty *)
      destruct T; try (cbn [ckeys] in Hnk; unfold tm_mem in Hnk; cbn [existsb] in Hnk; rewrite E in Hnk; discriminate Hnk).
      * apply tagset_eqb_length in E. cbn in E. destruct r2; [congruence|discriminate].
      * discriminate HK.
    + unfold tm_contains. rewrite Hd.
      specialize (Hm r2). rewrite Hnk in Hm. unfold mkeys in Hm. rewrite <- find_mem in Hm.
      unfold tm_find. destruct (assoc tagset_eqb r2 (tm_present (tagmap_of T))); [discriminate|reflexivity].
Qed.

Lemma resolves_sib u l i A v : keys_ok (flat_map ckeys l) = true -> nth_error l i = Some A -> wire_tags A v <> [] ->
  resolves (SMap (fields_tagmap u l)) A v.
Proof.
  intros HK Hn Hne. pose proof (wire_in_ckeys A v Hne) as Hin. split.
  - cbn [sp_hit]. apply (sib_hit u l HK i A _ Hn). apply tm_mem_in. exact Hin.
  - intros r1 r2 Hr Hne2. cbn [sp_miss].
    destruct (wire_tags A v) as [|t0 r] eqn:Ew; [congruence|]. cbn [tl] in Hr.
    apply (sib_suffix_miss u l HK A (t0 :: r) (t0 :: r1) r2 (nth_error_In _ _ Hn) Hin); [rewrite Hr; reflexivity|discriminate|exact Hne2].
Qed.

(* well-formedness of a SEQUENCE: every run of OPTIONAL/DEFAULT components together with the mandatory
   component that ends it has good keys *)

Fixpoint seq_wf (fs: list (presence * ty)) : bool :=
  match fs with
  | [] => true
  | (p, t) :: r => (is_req p || keys_ok (flat_map ckeys (ambiguous_run fs))) && seq_wf r
  end.

Lemma seq_wf_app a : forall b, seq_wf (a ++ b) = true -> seq_wf b = true.
Proof.
  induction a as [|[p t] a IH]; intros b H; [exact H|].
  cbn [app seq_wf] in H. apply Bool.andb_true_iff in H. apply IH. exact (proj2 H).
Qed.

Lemma seq_wf_head p t r : seq_wf ((p, t) :: r) = true -> is_req p = false ->
  keys_ok (flat_map ckeys (ambiguous_run ((p, t) :: r))) = true.
Proof.
  intros H Hp. cbn [seq_wf] in H. apply Bool.andb_true_iff in H. destruct H as [H _]. rewrite Hp in H. exact H.
Qed.

Definition nonreq (f: presence * ty) : Prop := is_req (fst f) = false.

Lemma ambiguous_run_skipped sk rest : Forall nonreq sk -> ambiguous_run (sk ++ rest) = map snd sk ++ ambiguous_run rest.
Proof.
  induction 1 as [|[p t] sk Hp _ IH]; [reflexivity|]. unfold nonreq in Hp. cbn [fst] in Hp.
  cbn [app ambiguous_run map snd]. destruct p; [discriminate Hp| |]; rewrite IH; reflexivity.
Qed.

Lemma ambiguous_run_head p ft rest : exists r, ambiguous_run ((p, ft) :: rest) = ft :: r.
Proof. destruct p; eexists; reflexivity. Qed.

Lemma required_seen_app fs1 vs1 fs2 vs2 : length vs1 = length fs1 ->
  required_seen (fs1 ++ fs2) (vs1 ++ vs2) = (required_seen fs1 vs1 && required_seen fs2 vs2)%bool.
Proof.
  intros Hl. unfold required_seen.
  assert (Hc: combine (fs1 ++ fs2) (vs1 ++ vs2) = combine fs1 vs1 ++ combine fs2 vs2).
  { revert vs1 Hl. induction fs1 as [|f fs1 IH]; intros [|v vs1] Hl; try discriminate; [reflexivity|].
    cbn [app combine]. rewrite IH by (cbn [length] in Hl; lia). reflexivity. }
  rewrite Hc. apply forallb_app.
Qed.

Lemma required_seen_nonreq sk : Forall nonreq sk -> required_seen sk (map (fun _ => None) sk) = true.
Proof.
  induction 1 as [|[p t] sk Hp _ IH]; [reflexivity|]. unfold nonreq in Hp. cbn [fst] in Hp.
  unfold required_seen in *. cbn [map combine forallb fst snd]. rewrite IH. destruct p; [discriminate Hp|reflexivity|reflexivity].
Qed.

(* a component decoded after the omitted ones [skipped]: where its value is put, and that every mandatory
   component up to it has then been seen *)
Lemma emit_placed (done skipped todo: list (presence * ty)) pf (vdone: list (option val)) x' : length vdone = length done ->
  set_nth (length done + length skipped) (Some x') (vdone ++ map (fun _ => None) skipped ++ map (fun _ => None) (pf :: todo))
  = (vdone ++ map (fun _ => None) skipped ++ [Some x']) ++ map (fun _ => None) todo.
Proof.
  intros Hvd. rewrite app_assoc. cbn [map].
  rewrite <- Hvd, <- (map_length (fun _ : presence * ty => @None val) skipped), <- app_length, set_nth_app.
  rewrite <- !app_assoc. reflexivity.
Qed.

Lemma emit_seen done skipped p (ft: ty) vdone (x': val) : length vdone = length done -> Forall nonreq skipped ->
  required_seen done vdone = true ->
  required_seen (done ++ skipped ++ [(p, ft)]) (vdone ++ map (fun _ => None) skipped ++ [Some x']) = true.
Proof.
  intros Hvd Hsk Hseen. rewrite required_seen_app by exact Hvd. rewrite Hseen. cbn [andb].
  rewrite required_seen_app by apply map_length. rewrite (required_seen_nonreq skipped Hsk). cbn [andb].
  unfold required_seen. cbn [combine forallb fst snd]. destruct p; reflexivity.
Qed.

Lemma forallb_req_false (fs: list (presence * ty)) f : In f fs -> is_req (fst f) = false -> forallb (fun f => is_req (fst f)) fs = false.
Proof.
  intros Hin Hf. destruct (forallb (fun f0 => is_req (fst f0)) fs) eqn:E; [|reflexivity].
  rewrite forallb_forall in E. rewrite (E f Hin) in Hf. discriminate.
Qed.

Section RecordLoopOpt.
  Variable rec : spec -> tagset -> option (option N) -> bool -> bool -> proc dval.
  Variable lf : nat.

  (* which components were written, their encodings, and what they decode to; [S lf] is the fuel
     [seq_position] gives [effective_tagset] *)
  Inductive fplan : list (presence * ty) -> list (option val) -> list bytes -> list (option val) -> Prop :=
  | fp_nil : fplan [] [] [] []
  | fp_skip p ft fs ov vs ps ds : is_req p = false -> fplan fs vs ps ds -> fplan ((p, ft) :: fs) (ov :: vs) ps (None :: ds)
  | fp_emit p ft fs x vs pb x' ps ds :
      (0 < length pb)%nat ->
      (is_req p = true -> consumes (rec (STy ft) [] None false false) pb (DV ft x')) ->
      (keys_ok (ckeys ft) = true ->
         (forall sp, resolves sp ft x -> consumes (rec sp [] None false false) pb (DV ft x'))
         /\ effective_tagset (S lf) ft x' = wire_tags ft x /\ wire_tags ft x <> []) ->
      fplan fs vs ps ds -> fplan ((p, ft) :: fs) (Some x :: vs) (pb :: ps) (Some x' :: ds).

  Local Notation nones fs := (map (fun _ : presence * ty => @None val) fs).

  Lemma nones_length (fs: list (presence * ty)) : length (nones fs) = length fs. Proof. apply map_length. Qed.
  Lemma nones_app (a b: list (presence * ty)) : nones (a ++ b) = nones a ++ nones b. Proof. apply map_app. Qed.

  (* A written component after a run of omitted ones: the specification the component loop hands the decoder
     at position [length done] (the type when the component is mandatory and nothing was skipped, the tag map
     of the ambiguous run otherwise), and the position [seq_position] then computes, past the run. *)
  Lemma emit_step fs done skipped p ft todo x pb x' :
    seq_wf fs = true -> fs = done ++ skipped ++ (p, ft) :: todo -> Forall nonreq skipped ->
    (is_req p = true -> consumes (rec (STy ft) [] None false false) pb (DV ft x')) ->
    (keys_ok (ckeys ft) = true ->
       (forall sp, resolves sp ft x -> consumes (rec sp [] None false false) pb (DV ft x'))
       /\ effective_tagset (S lf) ft x' = wire_tags ft x /\ wire_tags ft x <> []) ->
    let det := forallb (fun f => is_req (fst f)) fs in
    exists sp, seq_component_spec fs det (length done) = Some sp
      /\ consumes (rec sp [] None false false) pb (DV ft x')
      /\ seq_position lf fs false det (length done) ft x' = Ok (length done + length skipped)%nat.
  Proof.
    intros Hwf Hfs Hsk Hreq Hkeys det.
    assert (Hnth: nth_error fs (length done) = nth_error (skipped ++ (p, ft) :: todo) 0).
    { rewrite Hfs. rewrite nth_error_app2 by lia. rewrite Nat.sub_diag. reflexivity. }
    assert (Hskip: skipn (length done) fs = skipped ++ (p, ft) :: todo).
    { rewrite Hfs. apply skipn_app_exact. }
    destruct (match skipped with [] => is_req p | _ => false end) eqn:Ehead.
    - (* a mandatory component, none skipped: the type guides the decoder *)
      destruct skipped as [|sk0 skr]; [|discriminate Ehead]. cbn [app nth_error] in Hnth.
      cbn [length]. rewrite Nat.add_0_r.
      exists (STy ft). unfold seq_component_spec, seq_position. rewrite Hnth, Ehead, Bool.orb_true_r.
      split; [reflexivity|]. split; [exact (Hreq Ehead)|]. destruct det; reflexivity.
    - (* otherwise the tag map of the run resolves the tags met *)
      assert (Hhd: exists hp ht rest, skipped ++ (p, ft) :: todo = (hp, ht) :: rest /\ is_req hp = false).
      { destruct skipped as [|[p0 t0] skr].
        - exists p, ft, todo. split; [reflexivity|exact Ehead].
        - inversion Hsk as [|? ? H0 _]; subst. exists p0, t0, (skr ++ (p, ft) :: todo). split; [reflexivity|exact H0]. }
      destruct Hhd as (hp & ht & rest & Hhd & Hhp).
      assert (Hdet: det = false).
      { subst det. apply (forallb_req_false fs (hp, ht)); [|exact Hhp].
        rewrite Hfs. apply in_or_app. right. rewrite Hhd. left. reflexivity. }
      set (run := ambiguous_run (skipped ++ (p, ft) :: todo)).
      assert (HKrun: keys_ok (flat_map ckeys run) = true).
      { subst run. rewrite Hhd. apply seq_wf_head; [|exact Hhp]. rewrite <- Hhd, <- Hskip.
        rewrite <- (firstn_skipn (length done) fs) in Hwf. exact (seq_wf_app _ _ Hwf). }
      assert (Hrun_nth: nth_error run (length skipped) = Some ft).
      { subst run. rewrite (ambiguous_run_skipped skipped _ Hsk).
        destruct (ambiguous_run_head p ft todo) as (rr & ->).
        rewrite nth_error_app2 by (rewrite map_length; lia). rewrite map_length, Nat.sub_diag. reflexivity. }
      destruct (Hkeys (keys_ok_sub ft run (nth_error_In _ _ Hrun_nth) HKrun)) as (Hdec & Heff & Hwne).
      exists (SMap (fields_tagmap false run)). unfold seq_component_spec, seq_position.
      rewrite Hnth, Hhd. cbn [nth_error]. rewrite Hdet, Hhp, Hskip. fold run. cbn [orb].
      split; [reflexivity|]. split; [exact (Hdec _ (resolves_sib false run (length skipped) ft x HKrun Hrun_nth Hwne))|].
      rewrite Heff, (sib_pos run HKrun (length skipped) ft (wire_tags ft x) Hrun_nth (tm_mem_in _ _ (wire_in_ckeys ft x Hwne))).
      reflexivity.
  Qed.

  Lemma record_loop_opt T fs :
    (match fs with [] => true | _ => false end) = false -> seq_wf fs = true ->
    forall todo vtodo parts ds, fplan todo vtodo parts ds ->
    forall done skipped vdone n start total s tl,
      fs = done ++ skipped ++ todo -> length vdone = length done ->
      Forall nonreq skipped ->
      required_seen done vdone = true ->
      (length parts < n)%nat ->
      avail s = concat parts ++ tl ->
      (start <= pos s)%nat ->
      (pos s - start + length (concat parts) = total)%nat ->
      exists s', resume (record_loop rec lf T fs false (Some (N.of_nat total)) start n (length done)
                                     (vdone ++ nones skipped ++ nones todo) 0%nat) s
                 = inr (Ok (DV T (VRec (vdone ++ nones skipped ++ ds))), s')
        /\ pos s' = (pos s + length (concat parts))%nat /\ arrived s' = arrived s /\ closed s' = closed s.
  Proof.
    intros Hne Hwf todo vtodo parts ds HP.
    induction HP as [|p ft todo ov vtodo parts ds Hp HP IH|p ft todo x vtodo pb x' parts ds Hpl Hreq Hkeys HP IH];
      intros done skipped vdone n start total s tl Hfs Hvd Hsk Hseen Hn Hav Hst Htot.
    - (* nothing more was written *)
      destruct n as [|n']; [cbn [length] in Hn; lia|]. cbn [concat length map] in *.
      rewrite record_loop_end; [|exact Hne|lia|].
      + exists s. repeat split. lia.
      + rewrite Hfs, !app_nil_r, required_seen_app by exact Hvd. rewrite Hseen. apply required_seen_nonreq. exact Hsk.
    - (* a component that was not written: it joins the run the decoder will skip *)
      assert (Hfs': fs = done ++ (skipped ++ [(p, ft)]) ++ todo) by (rewrite <- app_assoc; exact Hfs).
      assert (Hsk': Forall nonreq (skipped ++ [(p, ft)])).
      { apply Forall_app. split; [exact Hsk|]. constructor; [exact Hp|constructor]. }
      destruct (IH done (skipped ++ [(p, ft)]) vdone n start total s tl Hfs' Hvd Hsk' Hseen Hn Hav Hst Htot) as (s' & Hrun & Hrest).
      exists s'. split; [|exact Hrest].
      rewrite nones_app in Hrun. cbn [map] in Hrun. rewrite <- !app_assoc in Hrun. cbn [app] in Hrun.
      cbn [map]. exact Hrun.
    - (* a component that was written: it lands at position i, past the run that was skipped *)
      destruct n as [|n']; [cbn [length] in Hn; lia|].
      cbn [concat] in Htot, Hav |- *. rewrite app_length in Htot. rewrite <- app_assoc in Hav.
      set (i := (length done + length skipped)%nat).
      assert (Hilt: (i < length fs)%nat) by (subst i; rewrite Hfs, !app_length; cbn [length]; lia).
      destruct (emit_step fs done skipped p ft todo x pb x' Hwf Hfs Hsk Hreq Hkeys) as (sp & Hsp & Hdec & Hposn).
      destruct (record_loop_next rec lf T fs false total start n' (length done) (vdone ++ nones skipped ++ nones ((p, ft) :: todo))
                  s sp pb (concat parts ++ tl) ft x' i Hne ltac:(lia) Hsp Hdec Hav) as (s1 & -> & Hav1 & Hp1 & Ha1 & Hc1);
        [apply Nat.leb_gt; rewrite Hfs, !app_length; cbn [length]; lia|exact Hposn|exact Hilt|].
      subst i. rewrite (emit_placed done skipped todo (p, ft) vdone x' Hvd).
      destruct (IH (done ++ skipped ++ [(p, ft)]) [] (vdone ++ nones skipped ++ [Some x']) n' start total s1 tl) as (s2 & Hrun2 & Hpos2 & Harr2 & Hcl2);
        [rewrite Hfs, <- !app_assoc; reflexivity|rewrite !app_length, nones_length; cbn [length]; lia|constructor
        |exact (emit_seen done skipped p ft vdone x' Hvd Hsk Hseen)|cbn [length] in Hn; lia|exact Hav1|lia|lia|].
      exists s2. split; [|rewrite app_length; split; [lia|split; congruence]].
      cbn [map app] in Hrun2.
      replace (length (done ++ skipped ++ [(p, ft)])) with (S (length done + length skipped)) in Hrun2 by (rewrite !app_length; cbn [length]; lia).
      replace (vdone ++ nones skipped ++ Some x' :: ds) with ((vdone ++ nones skipped ++ [Some x']) ++ ds) by (rewrite <- !app_assoc; reflexivity).
      exact Hrun2.
  Qed.

  Lemma dec_record_opt T fs vs parts ds :
    seq_wf fs = true -> fplan fs vs parts ds -> (length parts < lf)%nat ->
    consumes (dec_record rec lf T fs false (Some (N.of_nat (length (concat parts))))) (concat parts) (DV T (VRec ds)).
  Proof.
    intros Hwf HP Hlf s tl Hav. unfold dec_record. rewrite resume_tell.
    destruct fs as [|f0 fs0].
    - inversion HP; subst. destruct lf as [|n]; [cbn [length] in Hlf; lia|].
      cbn [record_loop]. cbv zeta. rewrite resume_tell. cbn [concat length]. rewrite Nat.sub_diag.
      cbn [N.of_nat N.ltb N.compare negb map resume]. exists s. repeat split. lia.
    - destruct (record_loop_opt T (f0 :: fs0) eq_refl Hwf (f0 :: fs0) vs parts ds HP [] [] [] lf (pos s)
                  (length (concat parts)) s tl eq_refl eq_refl (Forall_nil _) eq_refl Hlf Hav ltac:(lia) ltac:(lia))
        as (s' & Hrun & Hpos & Harr & Hcl).
      exists s'. split; [exact Hrun|]. repeat split; assumption.
  Qed.
End RecordLoopOpt.

Section Stage3b.
  Variables ce cd : codec.
  Hypothesis Hce : enc_ok ce.
  Variable R : aval -> aval -> Prop.
  Variable srt : bool.
  Hypothesis HR : rel_ok R srt.

  Lemma enc_content_rec T fs ec fl o vs : T = TSeq fs \/ T = TSet fs ->
    enc_content ce T ec fl o (VRec vs) =
    (do parts <- enc_rec_fields_g ce ec (match ec with EcSeq => ef_omit_empty fl | EcSetCer | EcSetDer => true | _ => false end) o fs vs;
     match ec with
     | EcSeq => Ok (concat (map snd parts), true)
     | EcSetCer | EcSetDer => Ok (concat (map snd (sort_by tagset_ltb fst parts)), true)
     | _ => Err EMalformed
     end).
  Proof. intros [-> | ->]; reflexivity. Qed.

  Definition ifne_opts : eopts := mkOpts true 0 true.

  (* the ifNotEmpty option only matters when it empties the encoding (defect F24) *)
  Lemma encw_ifne T v b : encw ce T ifne_opts v = Ok b -> b <> [] -> encw ce T def_opts v = Ok b.
  Proof.
    unfold encw, enc_with. intros H Hne.
    assert (Hf1: fix_opts ce ifne_opts = ifne_opts) by (destruct Hce as [E|E]; rewrite E; reflexivity).
    rewrite Hf1 in H. rewrite (enc_ok_def_opts ce Hce).
    destruct (concrete_encoder ce T) as [[ec fl]|e]; cbn [bind] in *; [|discriminate].
    destruct (tagset_of T) as [ts|e]; cbn [bind] in *; [|discriminate].
    change (mkOpts (o_def ifne_opts) (o_chunk ifne_opts) false) with def_opts in H.
    change (mkOpts (o_def def_opts) (o_chunk def_opts) false) with def_opts.
    destruct (enc_content ce T ec fl def_opts v) as [[content cns]|e]; cbn [bind] in *; [|discriminate].
    destruct ts as [|t0 r]; [exact H|].
    cbn [frame] in *. cbn [o_ifne o_def ifne_opts def_opts] in *. rewrite Bool.andb_false_r.
    destruct content as [|c0 content]; [|exact H].
    destruct cns; [|exact H]. cbn [andb] in H. inversion H; subst. congruence.
  Qed.

  (* the encoder omits empty OPTIONAL components, and sorts SET components: every encoder but BER's *)
  Definition omits : bool := match ce with BER => false | _ => true end.

  (* the values a component list may hold, relative to a predicate on component values *)
  Inductive comp_vals (Pv: ty -> val -> Prop) : list (presence * ty) -> list (option val) -> Prop :=
  | cv_nil : comp_vals Pv [] []
  | cv_req ft x fs vs : Pv ft x -> comp_vals Pv fs vs -> comp_vals Pv ((Req, ft) :: fs) (Some x :: vs)
  | cv_opt_none ft fs vs : comp_vals Pv fs vs -> comp_vals Pv ((Opt, ft) :: fs) (None :: vs)
  | cv_opt_some ft x fs vs : Pv ft x -> (omits = true -> encw ce ft ifne_opts x <> Ok []) ->
      comp_vals Pv fs vs -> comp_vals Pv ((Opt, ft) :: fs) (Some x :: vs)
  | cv_def_none d ft fs vs : comp_vals Pv fs vs -> comp_vals Pv ((Def d, ft) :: fs) (None :: vs)
  | cv_def_some d ft x fs vs : Pv ft x -> (val_py_eq x d = Some true -> abs ft x = abs ft d) ->
      comp_vals Pv fs vs -> comp_vals Pv ((Def d, ft) :: fs) (Some x :: vs).

  Lemma abs_fields_cons p ft fs ov vs :
    abs_fields ((p, ft) :: fs) (ov :: vs) =
    (match ov, p with Some x, _ => Some (abs ft x) | None, Def d => Some (abs ft d) | None, _ => None end) :: abs_fields fs vs.
  Proof. reflexivity. Qed.

  (* what the induction over the type supplies for each component: the invariant when the component's
     keys are good, the directly guided item when it is mandatory *)
  Definition comp_ok (Pv: ty -> val -> Prop) (f: presence * ty) : Prop :=
    (is_req (fst f) = false -> keys_ok (ckeys (snd f)) = true) /\
    forall x, Pv (snd f) x ->
      (keys_ok (ckeys (snd f)) = true -> val_ok ce cd R (snd f) x) /\
      (is_req (fst f) = true -> item_sty ce cd R (snd f) x).

  Definition plan_ok (fs: list (presence * ty)) (vs: list (option val)) (parts: list (tagset * bytes)) : Prop :=
    N.of_nat (length (concat (map snd parts))) <= index_max ->
    exists ds, Forall2 (opt_rel R) (abs_fields fs ds) (abs_fields fs vs) /\
      forall f, (length (concat (map snd parts)) + max_depth fs <= f)%nat ->
                fplan (dec_call cd f) f fs vs (map snd parts) ds.

  (* a component that is not written: absent, or equal to its DEFAULT *)
  Lemma plan_skip p ft fs ov vs parts : is_req p = false ->
    opt_rel R (match @None val, p with Some x, _ => Some (abs ft x) | None, Def d => Some (abs ft d) | None, _ => None end)
              (match ov, p with Some x, _ => Some (abs ft x) | None, Def d => Some (abs ft d) | None, _ => None end) ->
    plan_ok fs vs parts -> plan_ok ((p, ft) :: fs) (ov :: vs) parts.
  Proof.
    intros Hp Hrel IH Hmax. destruct (IH Hmax) as (ds & Hads & Hplan). exists (None :: ds). split.
    - rewrite !abs_fields_cons. constructor; [exact Hrel|exact Hads].
    - intros f Hf. constructor; [exact Hp|]. apply Hplan. cbn [max_depth fold_right] in Hf. unfold max_depth. lia.
  Qed.

  Lemma plan_emit (Pv: ty -> val -> Prop) ec omit p ft fs x vs o' parts :
    (o' = def_opts \/ (o' = ifne_opts /\ encw ce ft ifne_opts x <> Ok [])) ->
    Pv ft x -> comp_ok Pv (p, ft) ->
    (forall rest, enc_rec_fields_g ce ec omit def_opts fs vs = Ok rest -> plan_ok fs vs rest) ->
    (do b <- encw ce ft o' x; do rest <- enc_rec_fields_g ce ec omit def_opts fs vs;
     Ok ((set_sort_key (match ec with EcSetDer => true | _ => false end) ft x, b) :: rest)) = Ok parts ->
    plan_ok ((p, ft) :: fs) (Some x :: vs) parts.
  Proof.
    intros Ho' HPx [Hkopt Hcomp] IH He Hmax. cbn [fst snd] in Hkopt, Hcomp.
    destruct (Hcomp x HPx) as [Hval Hsty].
    destruct (encw ce ft o' x) as [pb|e] eqn:Ep; cbn [bind] in He; [|discriminate].
    destruct (enc_rec_fields_g ce ec omit def_opts fs vs) as [rest|e] eqn:Er; cbn [bind] in He; [|discriminate].
    inversion He; subst parts; clear He.
    assert (Ep': encw ce ft def_opts x = Ok pb).
    { destruct Ho' as [-> | [-> Hne]]; [exact Ep|]. apply encw_ifne; [exact Ep|]. intros ->. apply Hne. exact Ep. }
    cbn [map snd concat] in Hmax |- *. rewrite app_length in Hmax.
    destruct (IH rest eq_refl ltac:(lia)) as (ds & Hads & Hplan).
    assert (Hx': exists x', R (abs ft x') (abs ft x) /\
              forall f, (length pb + ty_depth ft <= f)%nat -> forall ps ds0, fplan (dec_call cd f) f fs vs ps ds0 ->
                fplan (dec_call cd f) f ((p, ft) :: fs) (Some x :: vs) (pb :: ps) (Some x' :: ds0)).
    { destruct (keys_ok (ckeys ft)) eqn:HK.
      - (* good keys: the invariant gives everything *)
        destruct (item_of_val ce cd R ft x pb (Hval eq_refl) Ep' ltac:(lia)) as (x' & Hax & Hwx & Hwne & Hit).
        exists x'. split; [exact Hax|]. intros f Hf ps ds0 HP.
        destruct (Hit (STy ft) (resolves_sty ft x HK Hwne)) as [Hl Hc].
        constructor; [exact Hl|intros _; apply Hc; unfold fuel_ok; lia| |exact HP].
        intros _. split; [|split; [|exact Hwne]].
        + intros sp Hres. apply (proj2 (Hit sp Hres)). unfold fuel_ok. lia.
        + rewrite <- Hwx. apply effective_wire; [lia|]. rewrite Hwx. exact Hwne.
      - (* otherwise the component is mandatory and guided by its type *)
        assert (Hr: is_req p = true) by (destruct (is_req p) eqn:E; [reflexivity|specialize (Hkopt eq_refl); discriminate Hkopt]).
        destruct (Hsty Hr pb Ep' ltac:(lia)) as (x' & Hax & Hl & Hc).
        exists x'. split; [exact Hax|]. intros f Hf ps ds0 HP.
        constructor; [exact Hl|intros _; apply Hc; unfold fuel_ok; lia| |exact HP].
        intros E. rewrite HK in E. discriminate E. }
    destruct Hx' as (x' & Hax & Hfp). exists (Some x' :: ds). split.
    - rewrite !abs_fields_cons. constructor; [constructor; exact Hax|exact Hads].
    - intros f Hf. cbn [max_depth fold_right snd] in Hf. rewrite app_length in Hf.
      apply Hfp; [lia|]. apply Hplan. unfold max_depth. lia.
  Qed.

  Lemma fields_plan (Pv: ty -> val -> Prop) ec omit : (omit = true -> omits = true) -> forall fs,
    Forall (comp_ok Pv) fs ->
    forall vs parts, comp_vals Pv fs vs -> enc_rec_fields_g ce ec omit def_opts fs vs = Ok parts ->
    N.of_nat (length (concat (map snd parts))) <= index_max ->
    exists ds, Forall2 (opt_rel R) (abs_fields fs ds) (abs_fields fs vs) /\
      forall f, (length (concat (map snd parts)) + max_depth fs <= f)%nat ->
                fplan (dec_call cd f) f fs vs (map snd parts) ds.
  Proof.
    intros Homit fs HF vs parts HCV. revert parts HF.
    induction HCV as [|ft x fs vs HPx HCV IH|ft fs vs HCV IH|ft x fs vs HPx Hne HCV IH|d ft fs vs HCV IH|d ft x fs vs HPx Hpy HCV IH];
      intros parts HF He; [|inversion HF as [|? ? Hcomp HF']; subst;
                            cbn [enc_rec_fields_g] in He; fold (enc_rec_fields_g ce ec omit def_opts) in He ..].
    - intros _. inversion He; subst. exists []. split; [constructor|]. intros f _. constructor.
    - (* mandatory *)
      apply (plan_emit Pv ec omit Req ft fs x vs _ parts) with (5 := He); [destruct omit; left; reflexivity|exact HPx|exact Hcomp|].
      intros rest Er. exact (IH rest HF' Er).
    - (* OPTIONAL, absent *)
      apply plan_skip; [reflexivity|constructor|exact (IH parts HF' He)].
    - (* OPTIONAL, present *)
      apply (plan_emit Pv ec omit Opt ft fs x vs _ parts) with (5 := He); [|exact HPx|exact Hcomp|intros rest Er; exact (IH rest HF' Er)].
      destruct omit; [right; split; [reflexivity|exact (Hne (Homit eq_refl))]|left; reflexivity].
    - (* DEFAULT, absent *)
      apply plan_skip; [reflexivity|constructor; apply (r_refl _ _ HR)|exact (IH parts HF' He)].
    - (* DEFAULT, present: written unless it equals the default *)
      destruct (val_py_eq x d) as [[|]|] eqn:Epy; [| |discriminate He].
      + apply plan_skip; [reflexivity|constructor; rewrite (Hpy eq_refl); apply (r_refl _ _ HR)|exact (IH parts HF' He)].
      + apply (plan_emit Pv ec omit (Def d) ft fs x vs _ parts) with (5 := He); [destruct omit; left; reflexivity|exact HPx|exact Hcomp|].
        intros rest Er. exact (IH rest HF' Er).
  Qed.

  Lemma fplan_count rec lf fs vs ps ds : fplan rec lf fs vs ps ds -> (length ps <= length (concat ps))%nat.
  Proof.
    induction 1 as [| |p ft fs x vs pb x' ps ds Hl _ _ _ IH]; [cbn; lia|assumption|].
    cbn [length concat]. rewrite app_length. lia.
  Qed.

  Lemma record_val (Pv: ty -> val -> Prop) T' fs : base_of T' = TSeq fs -> wf_tags T' = true -> seq_wf fs = true ->
    Forall (comp_ok Pv) fs ->
    forall vs, comp_vals Pv fs vs -> val_ok ce cd R T' (VRec vs).
  Proof.
    intros Hb Hw Hwf IHfs vs HCV.
    apply (val_ok_constructed ce cd Hce R); [exact Hw|unfold constructed_base; rewrite Hb; reflexivity|].
    rewrite Hb. intros ec fl content cns Hcenc Hcont Hmax.
    rewrite (enc_content_rec (TSeq fs) fs ec fl def_opts vs (or_introl eq_refl)) in Hcont.
    assert (Hec: ec = EcSeq /\ (ef_omit_empty fl = true -> omits = true)).
    { unfold omits. destruct Hce as [E|E]; rewrite E in Hcenc |- *; vm_compute in Hcenc;
        inversion Hcenc; subst ec fl; split; try reflexivity. discriminate. }
    destruct Hec as (-> & Homit).
    destruct (enc_rec_fields_g ce EcSeq (ef_omit_empty fl) def_opts fs vs) as [parts|e] eqn:Eparts; cbn [bind] in Hcont; [|discriminate].
    inversion Hcont; subst content cns; clear Hcont. split; [reflexivity|].
    destruct (fields_plan Pv EcSeq (ef_omit_empty fl) Homit fs IHfs vs parts HCV Eparts Hmax) as (ds & Habs & Hplan).
    exists (VRec ds). split; [rewrite !abs_seq; apply (r_rec _ _ HR); exact Habs|].
    exists DcSeq, (mkDecFlags true (Some KSeq)). split; [destruct cd; vm_compute; reflexivity|].
    intros t0 r f Hcon Hf. cbn [dec_value tag0_cons]. rewrite Hcon. cbn [negb]. rewrite Hb.
    cbn [ty_depth] in Hf. fold (max_depth fs) in Hf.
    assert (HP: fplan (dec_call cd f) f fs vs (map snd parts) ds) by (apply Hplan; lia).
    apply (dec_record_opt (dec_call cd f) f T' fs vs (map snd parts) ds Hwf HP).
    pose proof (fplan_count _ _ _ _ _ _ HP). lia.
  Qed.
End Stage3b.

(* the type may guide the decoder directly (element of SEQUENCE OF / SET OF, mandatory component of a
   SEQUENCE): its keys are good, or it is the untagged ANY *)
Definition direct_ok (T: ty) : bool := keys_ok (ckeys T) || (match T with TAny => true | _ => false end).

Definition plain_top (T: ty) : bool := match T with TChoice _ | TAny => false | _ => true end.

(* a DEFAULT given as text belongs to a character string type *)
Definition def_ok (f: presence * ty) : bool :=
  match fst f with
  | Def (VChars _) => match base_of (snd f) with TStr _ => true | _ => false end
  | _ => true
  end.

(* [srt]: SET OF may be written by an encoder that sorts the elements (the DER encoder) *)
Fixpoint stage3_ty (srt: bool) (ce: codec) (T: ty) : bool :=
  match T with
  | TBool | TInt | TEnum | TBits | TOcts | TNull | TOid | TReal | TStr _ => true
  | TSeqOf t => stage3_ty srt ce t && direct_ok t
  | TSetOf t => stage3_ty srt ce t && direct_ok t && (srt || negb (sorts_setof ce))
  | TSeq fs => forallb (fun f => stage3_ty srt ce (snd f) && (negb (is_req (fst f)) || direct_ok (snd f)) && def_ok f) fs && seq_wf fs
  | TSet fs => forallb (fun f => stage3_ty srt ce (snd f) && def_ok f) fs && keys_ok (flat_map ckeys (map snd fs))
  | TChoice alts => forallb (stage3_ty srt ce) alts && keys_ok (flat_map ckeys alts)
  | TAny => true
  | TImp t x => non_univ t && stage3_ty srt ce x && plain_top x
  | TExp t x => non_univ t && stage3_ty srt ce x
  end.

(* the encoding of a present OPTIONAL component is not emptied by the ifNotEmpty option (defect F24) *)
Definition nonempty_enc (ce: codec) (T: ty) (v: val) : bool :=
  match encw ce T ifne_opts v with Ok [] => false | _ => true end.

(* the octets of an untagged ANY are one complete TLV with a definite length (in any form, minimal
   or not), other than the end-of-octets marker *)
Definition tlv_ok (b: bytes) : bool :=
  match dec_ident b with
  | Some (t, r1) =>
      match dec_len r1 with
      | Some (Some n, r2) =>
          N.eqb (N.of_nat (length r2)) n && negb (cls_eqb (tcls t) Univ && N.eqb (tnum t) 0)
      | _ => false
      end
  | None => false
  end.

Fixpoint stage3_val (ce cd: codec) (T: ty) (v: val) {struct T} : bool :=
  match T with
  | TImp _ x | TExp _ x =>
      match base_of x with
      | TAny => match v with VAny _ | VOcts _ => true | _ => false end       (* a tagged ANY holds any octets *)
      | _ => stage3_val ce cd x v
      end
  | TSeqOf t | TSetOf t => match v with VList xs => forallb (stage3_val ce cd t) xs | _ => false end
  | TSeq fs | TSet fs =>
      match v with
      | VRec vs =>
          (fix go (fs: list (presence * ty)) (vs: list (option val)) : bool :=
             match fs, vs with
             | [], [] => true
             | (p, ft) :: fs', ov :: vs' =>
                 (match p, ov with
                  | Req, Some x => stage3_val ce cd ft x
                  | Req, None => false
                  | Opt, None | Def _, None => true
                  | Opt, Some x => stage3_val ce cd ft x && (negb (omits ce) || nonempty_enc ce ft x)
                  | Def _, Some x => stage3_val ce cd ft x
                  end) && go fs' vs'
             | _, _ => false
             end) fs vs
      | _ => false
      end
  | TChoice alts =>
      match v with
      | VChoice i x =>
          (fix go (l: list ty) (k: nat) : bool :=
             match l, k with
             | a :: _, O => stage3_val ce cd a x
             | _ :: r, S k' => go r k'
             | [], _ => false
             end) alts i
      | _ => false
      end
  | TAny => match v with VAny b | VOcts b => tlv_ok b | _ => false end
  | _ => stage1_val ce cd T v
  end.

Definition sv3_fields (ce cd: codec) : list (presence * ty) -> list (option val) -> bool :=
  fix go (fs: list (presence * ty)) (vs: list (option val)) : bool :=
    match fs, vs with
    | [], [] => true
    | (p, ft) :: fs', ov :: vs' =>
        (match p, ov with
         | Req, Some x => stage3_val ce cd ft x
         | Req, None => false
         | Opt, None | Def _, None => true
         | Opt, Some x => stage3_val ce cd ft x && (negb (omits ce) || nonempty_enc ce ft x)
         | Def _, Some x => stage3_val ce cd ft x
         end) && go fs' vs'
    | _, _ => false
    end.

Lemma stage3_val_rec ce cd T fs vs : T = TSeq fs \/ T = TSet fs -> stage3_val ce cd T (VRec vs) = sv3_fields ce cd fs vs.
Proof. intros [-> | ->]; reflexivity. Qed.

Lemma stage3_val_base ce cd : forall T v, base_of T <> TAny -> stage3_val ce cd T v = stage3_val ce cd (base_of T) v.
Proof.
  induction T as [| | | | | | | | n|fs IH|fs IH|t IH|t IH|alts IH| |tg x IH|tg x IH] using ty_ind'; intros v Hb; try reflexivity.
  - cbn [base_of] in *. cbn [stage3_val]. destruct (base_of x) eqn:E; try (apply IH; exact Hb). congruence.
  - cbn [base_of] in *. cbn [stage3_val]. destruct (base_of x) eqn:E; try (apply IH; exact Hb). congruence.
Qed.

Lemma stage3_val_not_chars ce cd : forall T cs, stage3_val ce cd T (VChars cs) = false.
Proof.
  induction T as [| | | | | | | | n|fs IH|fs IH|t IH|t IH|alts IH| |tg x IH|tg x IH] using ty_ind'; intros cs; try reflexivity.
  - cbn [stage3_val]. destruct (base_of x); try apply IH; reflexivity.
  - cbn [stage3_val]. destruct (base_of x); try apply IH; reflexivity.
Qed.

(* Python == on the values of a component and its DEFAULT, and their abstract contents *)
Lemma py_eq_abs ft x d : val_py_eq x d = Some true -> (forall cs, x <> VChars cs) -> def_ok (Def d, ft) = true ->
  abs ft x = abs ft d.
Proof.
  intros H Hx Hd.
  destruct x as [bb|z|bs|bo|cs| |arcs|r|vfs|xs|i x|ab]; destruct d as [bb'|z'|bs'|bo'|cs'| |arcs'|r'|vfs'|xs'|i' x'|ab'];
    try discriminate H; cbn [val_py_eq] in H; inversion H as [H1]; clear H.
  - apply Bool.eqb_prop in H1. subst. reflexivity.
  - apply Z.eqb_eq in H1. subst. reflexivity.
  - apply (list_eqb_eq Bool.eqb Bool.eqb_prop) in H1. subst. reflexivity.
  - apply bytes_eqb_eq in H1. subst. reflexivity.
  - (* octets against a text default *)
    apply bytes_eqb_eq in H1. subst bo. unfold def_ok in Hd. cbn [fst snd] in Hd.
    rewrite (abs_wrappers ft (VOcts (concat cs'))), (abs_wrappers ft (VChars cs')).
    destruct (base_of ft); try discriminate Hd. reflexivity.
  - exfalso. apply (Hx cs). reflexivity.
  - exfalso. apply (Hx cs). reflexivity.
  - reflexivity.
  - apply (list_eqb_eq N.eqb (fun a b => proj1 (N.eqb_eq a b))) in H1. subst. reflexivity.
Qed.

Lemma comp_vals_of_bool ce cd fs : forallb def_ok fs = true ->
  forall vs, sv3_fields ce cd fs vs = true -> comp_vals ce (fun t x => stage3_val ce cd t x = true) fs vs.
Proof.
  induction fs as [|[p ft] fs IH]; intros Hd vs Hs.
  - destruct vs; [constructor|discriminate Hs].
  - cbn [forallb] in Hd. apply Bool.andb_true_iff in Hd. destruct Hd as [Hd0 Hd].
    destruct vs as [|ov vs]; [discriminate Hs|].
    change (sv3_fields ce cd ((p, ft) :: fs) (ov :: vs)) with
      ((match p, ov with
        | Req, Some x => stage3_val ce cd ft x
        | Req, None => false
        | Opt, None | Def _, None => true
        | Opt, Some x => stage3_val ce cd ft x && (negb (omits ce) || nonempty_enc ce ft x)
        | Def _, Some x => stage3_val ce cd ft x
        end) && sv3_fields ce cd fs vs)%bool in Hs.
    apply Bool.andb_true_iff in Hs. destruct Hs as [H0 Hs]. specialize (IH Hd vs Hs).
    destruct p as [| |d]; destruct ov as [x|]; try discriminate H0.
    + constructor; assumption.
    + apply Bool.andb_true_iff in H0. destruct H0 as [Hx Hne]. constructor; [exact Hx| |exact IH].
      intros Hom. rewrite Hom in Hne. cbn [negb orb] in Hne. unfold nonempty_enc in Hne. intros E. rewrite E in Hne. discriminate.
    + constructor. exact IH.
    + constructor; [exact H0| |exact IH].
      intros Hpy. apply py_eq_abs; [exact Hpy| |exact Hd0].
      intros cs ->. rewrite stage3_val_not_chars in H0. discriminate.
    + constructor. exact IH.
Qed.

Lemma stage3_val_choice ce cd alts i x :
  stage3_val ce cd (TChoice alts) (VChoice i x) = match nth_error alts i with Some a => stage3_val ce cd a x | None => false end.
Proof. exact (nth_loop (fun a => stage3_val ce cd a x) false alts i). Qed.

(* valid values of types with good keys carry at least one tag on the wire *)
Lemma wire_nonempty ce cd : forall T v, keys_ok (ckeys T) = true -> stage3_val ce cd T v = true -> wire_tags T v <> [].
Proof.
  induction T as [| | | | | | | | n|fs IH|fs IH|t IH|t IH|alts IH| |tg x IH|tg x IH] using ty_ind'; intros v HK Hv;
    try (rewrite wire_tags_plain by exact I; apply (keys_ok_nonempty _ _ HK); left; reflexivity).
  - destruct v as [bb|z|bs|bo|cs| |arcs|r|vfs|xs|i x|ab]; try discriminate Hv.
    rewrite stage3_val_choice in Hv. rewrite wire_tags_choice.
    destruct (nth_error alts i) as [a|] eqn:En; [|discriminate Hv].
    rewrite Forall_forall in IH. apply (IH a (nth_error_In _ _ En)); [|exact Hv].
    rewrite ckeys_choice in HK. exact (keys_ok_sub a alts (nth_error_In _ _ En) HK).
Qed.

(* the fragment of parts (a) and (b): no SET, CHOICE, ANY *)

Fixpoint frag_b (T: ty) : bool :=
  match T with
  | TSet _ | TChoice _ | TAny => false
  | TSeq fs => forallb (fun f => frag_b (snd f)) fs
  | TSeqOf t | TSetOf t => frag_b t
  | TImp _ x | TExp _ x => frag_b x
  | _ => true
  end.

Lemma stage3_ty_base srt ce : forall T, stage3_ty srt ce T = true ->
  wf_tags T = true /\ stage3_ty srt ce (base_of T) = true.
Proof.
  induction T as [| | | | | | | | n|fs IH|fs IH|t IH|t IH|alts IH| |tg x IH|tg x IH] using ty_ind'; intros H;
    try (split; [reflexivity|exact H]).
  - cbn [stage3_ty] in H. apply Bool.andb_true_iff in H. destruct H as [H _]. apply Bool.andb_true_iff in H. destruct H as [Hn Hx].
    destruct (IH Hx) as [Hw Hb]. cbn [wf_tags base_of]. unfold non_univ in Hn. rewrite Hn, Hw. split; [reflexivity|exact Hb].
  - cbn [stage3_ty] in H. apply Bool.andb_true_iff in H. destruct H as [Hn Hx].
    destruct (IH Hx) as [Hw Hb]. cbn [wf_tags base_of]. unfold non_univ in Hn. rewrite Hn, Hw. split; [reflexivity|exact Hb].
Qed.

Lemma frag_b_base : forall T, frag_b T = true -> frag_b (base_of T) = true.
Proof.
  induction T as [| | | | | | | | n|fs IH|fs IH|t IH|t IH|alts IH| |tg x IH|tg x IH] using ty_ind'; intros H; try exact H.
  - exact (IH H).
  - exact (IH H).
Qed.

Lemma frag_b_not_any T : frag_b T = true -> base_of T <> TAny.
Proof. intros H E. apply frag_b_base in H. rewrite E in H. discriminate. Qed.

Lemma direct_ok_keys T : direct_ok T = true -> T <> TAny -> keys_ok (ckeys T) = true.
Proof. unfold direct_ok. intros H Hn. apply Bool.orb_true_iff in H. destruct H as [H|H]; [exact H|]. destruct T; try discriminate. congruence. Qed.

Lemma seq_wf_nonreq_keys : forall fs, seq_wf fs = true -> forall f, In f fs -> is_req (fst f) = false ->
  keys_ok (ckeys (snd f)) = true.
Proof.
  induction fs as [|[p t] fs IH]; intros Hwf f Hin Hnr; [destruct Hin|].
  destruct Hin as [<-|Hin].
  - cbn [fst snd] in *. pose proof (seq_wf_head p t fs Hwf Hnr) as HK.
    destruct (ambiguous_run_head p t fs) as (rr & Hrr). rewrite Hrr in HK. cbn [flat_map] in HK.
    exact (proj1 (keys_ok_app _ _ HK)).
  - cbn [seq_wf] in Hwf. apply Bool.andb_true_iff in Hwf. exact (IH (proj2 Hwf) f Hin Hnr).
Qed.

Section Induction3b.
  Variables ce cd : codec.
  Hypothesis Hce : enc_ok ce.
  Variable R : aval -> aval -> Prop.
  Variable srt : bool.
  Hypothesis HR : rel_ok R srt.

  Lemma listof_stage3 T' t v : (base_of T' = TSeqOf t \/ base_of T' = TSetOf t) ->
    stage3_ty srt ce T' = true -> stage3_val ce cd T' v = true ->
    (stage3_ty srt ce t = true -> direct_ok t = true -> forall x, stage3_val ce cd t x = true -> item_sty ce cd R t x) ->
    val_ok ce cd R T' v.
  Proof.
    intros Hb Hty Hv Hitem. destruct (stage3_ty_base srt ce T' Hty) as [Hw Htb].
    assert (Hna: base_of T' <> TAny) by (destruct Hb as [-> | ->]; discriminate).
    rewrite (stage3_val_base ce cd T' v Hna) in Hv.
    assert (Ht: stage3_ty srt ce t = true /\ direct_ok t = true
                /\ (base_of T' = TSetOf t -> sorts_setof ce = true -> srt = true)
                /\ exists xs, v = VList xs /\ forallb (stage3_val ce cd t) xs = true).
    { destruct Hb as [Hb|Hb]; rewrite Hb in Htb, Hv |- *; cbn [stage3_ty] in Htb; destruct v; try discriminate Hv; cbn [stage3_val] in Hv;
        apply Bool.andb_true_iff in Htb; destruct Htb as [H1 H2].
      - split; [exact H1|]. split; [exact H2|]. split; [discriminate|]. eexists. split; [reflexivity|exact Hv].
      - apply Bool.andb_true_iff in H1. destruct H1 as [H1 H3].
        split; [exact H1|]. split; [exact H3|]. split; [|eexists; split; [reflexivity|exact Hv]].
        intros _ Hs. rewrite Hs in H2. cbn [negb] in H2. rewrite Bool.orb_false_r in H2. exact H2. }
    destruct Ht as (Hty_t & Hdir & Hsrt & xs & -> & Hxs).
    apply (listof_val ce cd Hce R srt HR T' t Hb Hw Hsrt). apply Forall_forall. intros x Hin.
    rewrite forallb_forall in Hxs. exact (Hitem Hty_t Hdir x (Hxs x Hin)).
  Qed.

  Lemma seq_stage3 T' fs v : base_of T' = TSeq fs -> stage3_ty srt ce T' = true -> stage3_val ce cd T' v = true ->
    (forall f, In f fs -> stage3_ty srt ce (snd f) = true -> forall x, stage3_val ce cd (snd f) x = true ->
       keys_ok (ckeys (snd f)) = true -> val_ok ce cd R (snd f) x) ->
    (forall f, In f fs -> stage3_ty srt ce (snd f) = true -> direct_ok (snd f) = true ->
       forall x, stage3_val ce cd (snd f) x = true -> item_sty ce cd R (snd f) x) ->
    val_ok ce cd R T' v.
  Proof.
    intros Hb Hty Hv Hval Hitem. destruct (stage3_ty_base srt ce T' Hty) as [Hw Htb].
    assert (Hna: base_of T' <> TAny) by (rewrite Hb; discriminate).
    rewrite Hb in Htb. cbn [stage3_ty] in Htb. apply Bool.andb_true_iff in Htb. destruct Htb as [Hfs Hwf].
    rewrite (stage3_val_base ce cd T' v Hna), Hb in Hv. destruct v as [| | | | | | | |vs| | |]; try discriminate Hv.
    rewrite (stage3_val_rec ce cd (TSeq fs) fs vs (or_introl eq_refl)) in Hv.
    rewrite forallb_forall in Hfs.
    apply (record_val ce cd Hce R srt HR (fun t x => stage3_val ce cd t x = true) T' fs Hb Hw Hwf).
    - apply Forall_forall. intros f Hin.
      pose proof (Hfs f Hin) as Hf1. apply Bool.andb_true_iff in Hf1. destruct Hf1 as [Hf1 _].
      apply Bool.andb_true_iff in Hf1. destruct Hf1 as [Hfty Hdir].
      split; [intros Hnr; exact (seq_wf_nonreq_keys fs Hwf f Hin Hnr)|].
      intros x Hx. split; [exact (Hval f Hin Hfty x Hx)|].
      intros Hreq. rewrite Hreq in Hdir. exact (Hitem f Hin Hfty Hdir x Hx).
    - apply comp_vals_of_bool; [|exact Hv]. apply forallb_forall. intros f Hin.
      specialize (Hfs f Hin). apply Bool.andb_true_iff in Hfs. exact (proj2 Hfs).
  Qed.

  Lemma keyed_item T v : keys_ok (ckeys T) = true -> stage3_val ce cd T v = true -> val_ok ce cd R T v -> item_sty ce cd R T v.
  Proof.
    intros HK Hv Hval. apply (item_sty_of_val ce cd R); [exact Hval|].
    apply resolves_sty; [exact HK|exact (wire_nonempty ce cd T v HK Hv)].
  Qed.

  Theorem stage3b_val_ok : forall T T', base_of T' = base_of T -> stage3_ty srt ce T' = true -> frag_b T' = true ->
    forall v, stage3_val ce cd T' v = true -> val_ok ce cd R T' v.
  Proof.
    induction T as [| | | | | | | | n|fs IH|fs IH|t IH|t IH|alts IH| |tg x IH|tg x IH] using ty_ind';
      intros T' Hb Hty Hfr v Hv; cbn [base_of] in Hb;
      destruct (stage3_ty_base srt ce T' Hty) as [Hw Htb]; pose proof (frag_b_base T' Hfr) as Hfb;
      pose proof (frag_b_not_any T' Hfr) as Hna;
      try (assert (Hp: prim_base T' = true) by (unfold prim_base; rewrite Hb; reflexivity);
           apply (prim_val ce cd Hce R srt HR T' v Hp Hw); rewrite (stage1_val_base ce cd T' v), Hb;
           rewrite (stage3_val_base ce cd T' v Hna), Hb in Hv; exact Hv);
      try (rewrite Hb in Hfb; discriminate Hfb); rewrite Hb in Hfb; cbn [frag_b] in Hfb.
    - (* SEQUENCE *)
      rewrite forallb_forall in Hfb. rewrite Forall_forall in IH.
      apply (seq_stage3 T' fs v Hb Hty Hv).
      + intros f Hin Hfty x Hx _. exact (IH f Hin (snd f) eq_refl Hfty (Hfb f Hin) x Hx).
      + intros f Hin Hfty Hdir x Hx. apply keyed_item; [|exact Hx|exact (IH f Hin (snd f) eq_refl Hfty (Hfb f Hin) x Hx)].
        apply direct_ok_keys; [exact Hdir|]. intros E. specialize (Hfb f Hin). rewrite E in Hfb. discriminate.
    - (* SEQUENCE OF *)
      apply (listof_stage3 T' t v (or_introl Hb) Hty Hv). intros Hty_t Hdir x Hx.
      apply keyed_item; [|exact Hx|exact (IH t eq_refl Hty_t Hfb x Hx)].
      apply direct_ok_keys; [exact Hdir|]. intros E. rewrite E in Hfb. discriminate.
    - (* SET OF *)
      apply (listof_stage3 T' t v (or_intror Hb) Hty Hv). intros Hty_t Hdir x Hx.
      apply keyed_item; [|exact Hx|exact (IH t eq_refl Hty_t Hfb x Hx)].
      apply direct_ok_keys; [exact Hdir|]. intros E. rewrite E in Hfb. discriminate.
    - exact (IH T' Hb Hty Hfr v Hv).
    - exact (IH T' Hb Hty Hfr v Hv).
  Qed.
End Induction3b.

Lemma val_ok_decode ce cd R T v b tl : val_ok ce cd R T v -> resolves (STy T) T v ->
  encode ce true 0 T v = Ok b -> N.of_nat (length b) <= index_max ->
  exists v', decode cd (Some T) (b ++ tl) = Ok (DV T v', tl) /\ R (abs T v') (abs T v).
Proof.
  intros Hv Hres He Hmax.
  destruct (item_of_val ce cd R T v b Hv He Hmax) as (v' & HRv & _ & _ & Hit).
  exists v'. split; [exact (item_dec_decode cd T b v' tl (Hit (STy T) Hres))|exact HRv].
Qed.

Lemma Forall2_opt_eq {A} (xs ys: list (option A)) : Forall2 (opt_rel eq) xs ys -> xs = ys.
Proof. induction 1 as [|x y xs ys Hxy _ IH]; [reflexivity|]. destruct Hxy; congruence. Qed.

Lemma rel_ok_eq : rel_ok eq false.
Proof.
  constructor.
  - reflexivity.
  - intros xs ys H. rewrite (Forall2_eq _ _ H). reflexivity.
  - intros xs ys H. rewrite (Forall2_eq _ _ H). reflexivity.
  - intros xs ys H. rewrite (Forall2_opt_eq _ _ H). reflexivity.
  - intros i a b ->. reflexivity.
  - discriminate.
Qed.

Lemma plain_keys T : wf_tags T = true -> tagged_base T = true -> plain_top T = true -> keys_ok (ckeys T) = true.
Proof.
  intros Hw Htb Hpt. destruct (tagset_shape T Htb Hw) as (t0 & r & b0 & _ & Hts & _).
  assert (Hck: ckeys T = [tagset_of' T]) by (destruct T; try reflexivity; discriminate Hpt).
  rewrite Hck, (tagset_of'_ok T _ Hts). reflexivity.
Qed.

Lemma frag_b_tagged T : frag_b T = true -> tagged_base T = true /\ plain_top T = true.
Proof.
  intros H. split.
  - pose proof (frag_b_base T H) as Hb. unfold tagged_base. destruct (base_of T); try reflexivity; discriminate Hb.
  - destruct T; try reflexivity; discriminate H.
Qed.

(* Round trip, stage 3 (b): every type built to any depth from the simple types, SEQUENCE OF, SET OF,
   SEQUENCE with mandatory, OPTIONAL and DEFAULT components and IMPLICIT/EXPLICIT tagging; written by
   the BER or the DER encoder (definite lengths; SET OF not by DER, which sorts the elements), read by
   the BER, the CER or the DER decoder. *)
Theorem roundtrip_stage3b : forall ce cd T v b tl,
  enc_ok ce -> stage3_ty false ce T = true -> frag_b T = true -> stage3_val ce cd T v = true ->
  encode ce true 0 T v = Ok b -> N.of_nat (length b) <= index_max ->
  exists v', decode cd (Some T) (b ++ tl) = Ok (DV T v', tl) /\ abs T v' = abs T v.
Proof.
  intros ce cd T v b tl Hce Hty Hfr Hv He Hmax.
  pose proof (stage3b_val_ok ce cd Hce eq false rel_ok_eq T T eq_refl Hty Hfr v Hv) as Hval.
  destruct (stage3_ty_base false ce T Hty) as [Hw _]. destruct (frag_b_tagged T Hfr) as [Htb Hpt].
  pose proof (plain_keys T Hw Htb Hpt) as HK.
  apply (val_ok_decode ce cd eq T v b tl Hval); try assumption.
  apply resolves_sty; [exact HK|]. exact (wire_nonempty ce cd T v HK Hv).
Qed.

Print Assumptions roundtrip_stage3b.

(* the hypotheses are met: DER encoder, CER decoder;
   SEQUENCE { INTEGER OPTIONAL, [0] EXPLICIT BOOLEAN DEFAULT TRUE, OCTET STRING, [1] IMPLICIT SEQUENCE OF NULL OPTIONAL,
              UTF8String DEFAULT "x", SEQUENCE { INTEGER OPTIONAL, SEQUENCE OF INTEGER } OPTIONAL,
              [PRIVATE 40] EXPLICIT SEQUENCE OF BOOLEAN } *)
Definition stage3b_example_ty : ty :=
  TSeq [ (Opt, TInt);
         (Def (VBool true), TExp (mkTag Ctx false 0) TBool);
         (Req, TOcts);
         (Opt, TImp (mkTag Ctx false 1) (TSeqOf TNull));
         (Def (VChars [[120]]), TStr 12);
         (Opt, TSeq [(Opt, TInt); (Req, TSeqOf TInt)]);
         (Req, TExp (mkTag Priv false 40) (TSeqOf TBool)) ].
(* first optional present, default overridden, second optional absent, text default given as equal octets
   (omitted), nested optional absent *)
Definition stage3b_example_val : val :=
  VRec [ Some (VInt (-1)); Some (VBool false); Some (VOcts [1;2]); None; Some (VOcts [120]);
         Some (VRec [None; Some (VList [VInt 3; VInt 1])]); Some (VList [VBool true]) ].

Example roundtrip_stage3b_nonvacuous :
  stage3_ty false DER stage3b_example_ty = true /\ frag_b stage3b_example_ty = true
  /\ stage3_val DER CER stage3b_example_ty stage3b_example_val = true
  /\ encode DER true 0 stage3b_example_ty stage3b_example_val
     = Ok [48; 30; 2; 1; 255; 160; 3; 1; 1; 0; 4; 2; 1; 2; 48; 8; 48; 6; 2; 1; 3; 2; 1; 1; 255; 40; 5; 48; 3; 1; 1; 255]
  /\ N.of_nat 32 <= index_max.
Proof. vm_compute. repeat split; try reflexivity; discriminate. Qed.

(* the excluded case is false of the model (known defect F24): the DER encoder drops a present but empty
   OPTIONAL SEQUENCE OF, so the decoder reports the component absent *)
Definition f24_ty : ty := TSeq [(Opt, TSeqOf TInt); (Req, TNull)].
Definition f24_val : val := VRec [Some (VList []); Some VNull].
Example f24_witness :
  stage3_ty false DER f24_ty = true /\ frag_b f24_ty = true
  /\ stage3_val DER DER f24_ty f24_val = false              (* only because of the non-emptiness condition *)
  /\ encode DER true 0 f24_ty f24_val = Ok [48; 2; 5; 0]
  /\ decode DER (Some f24_ty) [48; 2; 5; 0] = Ok (DV f24_ty (VRec [None; Some VNull]), [])
  /\ abs f24_ty (VRec [None; Some VNull]) <> abs f24_ty f24_val
  /\ (* the BER encoder keeps it *) encode BER true 0 f24_ty f24_val = Ok [48; 4; 48; 0; 5; 0].
Proof. vm_compute. repeat split; try reflexivity; discriminate. Qed.

Fixpoint no_setof (T: ty) : bool :=
  match T with
  | TSetOf _ => false
  | TSeqOf t => no_setof t
  | TSeq fs | TSet fs => forallb (fun f => no_setof (snd f)) fs
  | TChoice alts => forallb no_setof alts
  | TImp _ x | TExp _ x => no_setof x
  | _ => true
  end.

Lemma seq_wf_req fs : forallb (fun f => is_req (fst f)) fs = true -> seq_wf fs = true.
Proof.
  induction fs as [|[p t] fs IH]; intros H; [reflexivity|].
  cbn [forallb fst] in H. apply Bool.andb_true_iff in H. destruct H as [Hp H].
  cbn [seq_wf]. rewrite Hp, (IH H). reflexivity.
Qed.

Lemma frag_b_direct srt ce T : stage3_ty srt ce T = true -> frag_b T = true -> direct_ok T = true.
Proof.
  intros H3 Hf. destruct (stage3_ty_base srt ce T H3) as [Hw _]. destruct (frag_b_tagged T Hf) as [Htb Hpt].
  unfold direct_ok. rewrite (plain_keys T Hw Htb Hpt). reflexivity.
Qed.

Lemma stage2_stage3 ce : forall T, stage2_ty T = true -> (sorts_setof ce = true -> no_setof T = true) ->
  stage3_ty false ce T = true /\ frag_b T = true.
Proof.
  induction T as [| | | | | | | | n|fs IH|fs IH|t IH|t IH|alts IH| |tg x IH|tg x IH] using ty_ind'; intros H2 Hns;
    try (split; reflexivity); try discriminate H2.
  - (* SEQUENCE *)
    cbn [stage2_ty] in H2. cbn [no_setof] in Hns. rewrite forallb_forall in H2.
    assert (Hall: forall f, In f fs -> is_req (fst f) = true /\ stage3_ty false ce (snd f) = true /\ frag_b (snd f) = true).
    { intros f Hin. specialize (H2 f Hin). apply Bool.andb_true_iff in H2. destruct H2 as [Hr H2]. split; [exact Hr|].
      rewrite Forall_forall in IH. apply (IH f Hin H2). intros Hs. specialize (Hns Hs). rewrite forallb_forall in Hns. exact (Hns f Hin). }
    split.
    + cbn [stage3_ty]. apply Bool.andb_true_iff. split.
      * apply forallb_forall. intros f Hin. destruct (Hall f Hin) as (Hr & H3 & Hf).
        rewrite H3, Hr, (frag_b_direct false ce (snd f) H3 Hf). cbn [negb orb andb].
        unfold def_ok. destruct (fst f); [reflexivity|discriminate Hr|discriminate Hr].
      * apply seq_wf_req. apply forallb_forall. intros f Hin. exact (proj1 (Hall f Hin)).
    + cbn [frag_b]. apply forallb_forall. intros f Hin. exact (proj2 (proj2 (Hall f Hin))).
  - (* SEQUENCE OF *)
    cbn [stage2_ty] in H2. cbn [no_setof] in Hns. destruct (IH H2 Hns) as [H3 Hf]. split; [|exact Hf].
    cbn [stage3_ty]. rewrite H3. exact (frag_b_direct false ce t H3 Hf).
  - (* SET OF *)
    cbn [stage2_ty] in H2. cbn [no_setof] in Hns.
    assert (Hs: sorts_setof ce = false) by (destruct (sorts_setof ce); [specialize (Hns eq_refl); discriminate Hns|reflexivity]).
    destruct (IH H2) as [H3 Hf]; [rewrite Hs; discriminate|]. split; [|exact Hf].
    cbn [stage3_ty]. rewrite H3, Hs, (frag_b_direct false ce t H3 Hf). reflexivity.
  - (* IMPLICIT *)
    cbn [stage2_ty] in H2. cbn [no_setof] in Hns. apply Bool.andb_true_iff in H2. destruct H2 as [Hn H2].
    destruct (IH H2 Hns) as [H3 Hf]. split; [|exact Hf].
    cbn [stage3_ty]. rewrite Hn, H3. cbn [andb]. exact (proj2 (frag_b_tagged x Hf)).
  - (* EXPLICIT *)
    cbn [stage2_ty] in H2. cbn [no_setof] in Hns. apply Bool.andb_true_iff in H2. destruct H2 as [Hn H2].
    destruct (IH H2 Hns) as [H3 Hf]. split; [|exact Hf].
    cbn [stage3_ty]. rewrite Hn, H3. reflexivity.
Qed.

(* Round trip, stage 3 (a): the types of stage 2 (simple types, SEQUENCE OF, SET OF, SEQUENCE with mandatory
   components, tagging), BER or DER encoder (SET OF: BER only, the DER encoder sorts the elements),
   BER, CER or DER decoder *)
Theorem roundtrip_stage3a : forall ce cd T v b tl,
  enc_ok ce -> stage2_ty T = true -> (sorts_setof ce = true -> no_setof T = true) -> stage3_val ce cd T v = true ->
  encode ce true 0 T v = Ok b -> N.of_nat (length b) <= index_max ->
  exists v', decode cd (Some T) (b ++ tl) = Ok (DV T v', tl) /\ abs T v' = abs T v.
Proof.
  intros ce cd T v b tl Hce H2 Hns Hv He Hmax.
  destruct (stage2_stage3 ce T H2 Hns) as [H3 Hf].
  exact (roundtrip_stage3b ce cd T v b tl Hce H3 Hf Hv He Hmax).
Qed.

Print Assumptions roundtrip_stage3a.

Example roundtrip_stage3a_nonvacuous :
  stage2_ty stage2_example_ty = true /\ (sorts_setof BER = true -> no_setof stage2_example_ty = true)
  /\ stage3_val BER DER stage2_example_ty
       (VRec [ Some (VList [VInt 5; VInt (-129)]);
               Some (VList [VRec [Some (VBool false); Some (VOcts [1;2;3])]; VRec [Some (VBool false); Some (VOcts [])]]);
               Some (VList [VList [VNull; VNull]; VList []]);
               Some (VRec []) ]) = true
  /\ no_setof (TSeqOf (TSeq [(Req, TBool); (Req, TOcts)])) = true
  /\ stage3_val DER CER (TSeqOf (TSeq [(Req, TBool); (Req, TOcts)])) (VList [VRec [Some (VBool true); Some (VOcts [7])]]) = true
  /\ encode DER true 0 (TSeqOf (TSeq [(Req, TBool); (Req, TOcts)])) (VList [VRec [Some (VBool true); Some (VOcts [7])]])
     = Ok [48; 8; 48; 6; 1; 1; 255; 4; 1; 7].
Proof. vm_compute. repeat split; try reflexivity; discriminate. Qed.
