(* Round trip under every encoder mode (C01/C02): the framing the encoder wrote - definite or indefinite
   lengths, primitive or constructed contents - is taken apart by the decoder under ANY guiding
   specification (a type, or the tag map of a run of OPTIONAL components, of a SET, of a CHOICE) that
   resolves the wire tags to the type, wherever end-of-octets is or is not allowed.  The definite levels
   are those of Proofs/RoundTrip3.v ([peel_all_sp], [match_level_sp]); here are the levels written as
   80 ... 00 00, and [framed_modes_sp] for both. *)
From Coq Require Import Lia Permutation.
From PV Require Import Base.Bytes Model.Tag Model.TableTypes Model.Types Model.Proc Model.Enc Model.Dec Gen.Tables
     Proofs.ProcBind Proofs.RunLemmas Proofs.TagOctets Proofs.TagAlgebra Proofs.DecHeader Proofs.DecFrame Proofs.DecPrim
     Proofs.TagsetShape Proofs.Schemaless Proofs.RoundTrip1 Proofs.RoundTrip2 Proofs.TagReject Proofs.ContainerCodecSort
     Proofs.RoundTripModesA Proofs.RoundTripModesB Proofs.RoundTripModesC
     Proofs.RoundTrip3 Proofs.RoundTrip3a.
Local Open Scope N_scope.

Lemma tm_get_eqb m k k' : tagset_eqb k k' = true -> tm_get m k = tm_get m k'.
Proof.
  intros H. unfold tm_get, tm_find. rewrite (assoc_tagset_eqb k k' _ H), (tm_mem_eqb k k' _ H). reflexivity.
Qed.

Lemma tm_contains_eqb m k k' : tagset_eqb k k' = true -> tm_contains m k = tm_contains m k'.
Proof.
  intros H. unfold tm_contains, tm_find. rewrite (assoc_tagset_eqb k k' _ H), (tm_mem_eqb k k' _ H). reflexivity.
Qed.

Lemma sp_hit_eqb sp k k' T : tagset_eqb k k' = true -> sp_hit sp k' T -> sp_hit sp k T.
Proof.
  intros H. destruct sp as [|T'|m]; cbn [sp_hit]; [tauto| |].
  - intros (E & Hc & Hp). split; [exact E|]. split; [|exact Hp].
    rewrite (tagset_eqb_left k k' _ H), (tm_contains_eqb _ k k' H). exact Hc.
  - intros Hg. rewrite (tm_get_eqb m k k' H). exact Hg.
Qed.

Lemma sp_hit_wire sp t0 cns r T : sp_hit sp (t0 :: r) T -> sp_hit sp (wire t0 cns :: r) T.
Proof. apply sp_hit_eqb. apply wire_tagset_eqb. Qed.

Lemma explicit_level_indef_sp : forall c f sp acc0 t inner Tv vv,
  support_indef c = true ->
  tcon t = true -> tcls t <> Univ ->
  sp_miss sp (t :: acc0) ->
  (length (enc_tag t false) <= S f)%nat -> (2 <= f)%nat ->
  consumes (dec_call c f sp (t :: acc0) None true false) inner (DV Tv vv) ->
  consumes (dec_call c (S f) sp acc0 None false false) (enc_tag t false ++ [128] ++ inner ++ [0; 0]) (DV Tv vv).
Proof.
  intros c f sp acc0 t inner Tv vv Hsi Hcon Hcls Hmiss Hlen Hf2 Hin s tl Hav.
  rewrite <- !app_assoc in Hav.
  rewrite (dec_call_header_indef c f sp acc0 false t false (inner ++ [0; 0] ++ tl) s Hsi Hav Hlen).
  rewrite wire_false.
  set (s1 := adv (setmark s (pos s)) (length (enc_tag t false) + 1)).
  assert (Hav1: avail s1 = inner ++ [0; 0] ++ tl).
  { subst s1. rewrite avail_adv, avail_setmark, Hav.
    change (enc_tag t false ++ [128] ++ inner ++ [0; 0] ++ tl) with (enc_tag t false ++ [128] ++ (inner ++ [0; 0] ++ tl)).
    rewrite app_assoc. replace (length (enc_tag t false) + 1)%nat with (length (enc_tag t false ++ [128])) by (rewrite app_length; reflexivity).
    apply skipn_app_exact. }
  assert (Hp1: pos s1 = (pos s + (length (enc_tag t false) + 1))%nat) by reflexivity.
  assert (Ha1: arrived s1 = arrived s) by reflexivity.
  assert (Hc1: closed s1 = closed s) by reflexivity.
  clearbody s1.
  assert (Hnu: negb (cls_eqb (tcls t) Univ) = true) by (destruct (tcls t); [congruence|reflexivity|reflexivity|reflexivity]).
  destruct (Hin s1 _ Hav1) as (s2 & Hrun & Hpos & Harr & Hcl).
  pose proof (consumes_avail inner s1 _ s2 Hav1 Hpos Harr) as Hav2.
  assert (Hraw: resume (dec_raw (dec_call c f) f sp (t :: acc0) None false) s1 = inr (Ok (DV Tv vv), adv s2 2)).
  { unfold dec_raw. destruct f as [|[|f']]; try lia. cbn [raw_loop].
    rewrite (resume_pbind_done _ _ _ _ _ Hrun).
    rewrite (resume_pbind_done _ _ _ _ _ (eoo_read c (S f') sp (t :: acc0) None false s2 tl Hsi Hav2)). reflexivity. }
  exists (adv s2 2). split.
  - destruct sp as [|T|m]; [contradiction| |].
    + destruct Hmiss as [Hne Hnm]. unfold dispatch. rewrite Hne, Hnm. cbn [orb]. rewrite Hcon, Hnu. cbn [andb]. exact Hraw.
    + cbn [sp_miss] in Hmiss. unfold dispatch. rewrite Hmiss. cbn [lift pbind]. rewrite Hcon, Hnu. cbn [andb]. exact Hraw.
  - rewrite !app_length. cbn [length]. rewrite pos_adv, arrived_adv, closed_adv.
    repeat split; [lia|congruence|congruence].
Qed.

Lemma match_level_indef_sp : forall c f sp T acc0 t0 cns content v cd fl,
  support_indef c = true ->
  sp_hit sp (wire t0 cns :: acc0) T ->
  by_type c T = Some (cd, fl) ->
  (length (enc_tag t0 cns) <= S f)%nat ->
  consumes (dec_value (dec_call c f) f cd fl (Some T) (wire t0 cns :: acc0) None false) (content ++ [0; 0]) v ->
  consumes (dec_call c (S f) sp acc0 None false false) (enc_tag t0 cns ++ [128] ++ content ++ [0; 0]) v.
Proof.
  intros c f sp T acc0 t0 cns content v cd fl Hsi Hhit Hby Hlen Hin s tl Hav.
  rewrite <- !app_assoc in Hav.
  rewrite (dec_call_header_indef c f sp acc0 false t0 cns (content ++ [0; 0] ++ tl) s Hsi Hav Hlen).
  set (s1 := adv (setmark s (pos s)) (length (enc_tag t0 cns) + 1)).
  assert (Hav1: avail s1 = (content ++ [0; 0]) ++ tl).
  { subst s1. rewrite avail_adv, avail_setmark, Hav.
    change (enc_tag t0 cns ++ [128] ++ content ++ [0; 0] ++ tl) with (enc_tag t0 cns ++ [128] ++ (content ++ [0; 0] ++ tl)).
    rewrite app_assoc. replace (length (enc_tag t0 cns) + 1)%nat with (length (enc_tag t0 cns ++ [128])) by (rewrite app_length; reflexivity).
    rewrite skipn_app_exact. rewrite <- app_assoc. reflexivity. }
  assert (Hp1: pos s1 = (pos s + (length (enc_tag t0 cns) + 1))%nat) by reflexivity.
  assert (Ha1: arrived s1 = arrived s) by reflexivity.
  assert (Hc1: closed s1 = closed s) by reflexivity.
  clearbody s1.
  destruct (Hin s1 tl Hav1) as (s2 & Hrun & Hpos & Harr & Hcl).
  exists s2. split.
  - destruct sp as [|T'|m]; [contradiction| |].
    + destruct Hhit as (-> & Hc & Hpp). unfold dispatch. rewrite Hc, Hpp, Hby. exact Hrun.
    + cbn [sp_hit] in Hhit. unfold dispatch. rewrite Hhit. cbn [lift pbind]. rewrite Hby. exact Hrun.
  - rewrite !app_length in *. cbn [length] in *. repeat split; [lia|congruence|congruence].
Qed.

(* all the EXPLICIT levels of an indefinite-length encoding: the specification misses every non-empty
   proper suffix of the wire tags *)
Lemma peel_all_indef_sp : forall c sp f r acc0 sub b Tv vv,
  support_indef c = true ->
  frame_outer r false false true sub = Ok b ->
  Forall explicit_like r ->
  Forall (fun t => (length (enc_tag t false) <= S f)%nat) r ->
  (forall r1 r2, r = r1 ++ r2 -> r2 <> [] -> sp_miss sp (r2 ++ acc0)) ->
  (2 <= f)%nat ->
  (forall ae, consumes (dec_call c f sp (r ++ acc0) None ae false) sub (DV Tv vv)) ->
  forall ae, consumes (dec_call c (f + length r) sp acc0 None ae false) b (DV Tv vv).
Proof.
  intros c sp f r. induction r as [|tn r' IH] using rev_ind; intros acc0 sub b Tv vv Hsi Hfr Hex Hlen Hmiss Hf2 Hin.
  - cbn [frame_outer] in Hfr. inversion Hfr; subst. cbn [length app] in *. rewrite Nat.add_0_r. exact Hin.
  - rewrite frame_outer_snoc in Hfr.
    destruct (frame_outer r' false false true sub) as [inner|e] eqn:Ein; cbn [bind] in Hfr; [|discriminate].
    apply Forall_app in Hex. destruct Hex as [Hex' Hexn]. inversion Hexn as [|? ? [Hcon Hcls] _]; subst.
    apply Forall_app in Hlen. destruct Hlen as [Hlen' Hlenn]. inversion Hlenn as [|? ? Hl _]; subst.
    assert (Hb: b = enc_tag tn false ++ [128] ++ inner ++ [0; 0]) by (inversion Hfr; reflexivity).
    rewrite app_length in *. cbn [length] in *.
    replace (f + (length r' + 1))%nat with (S (f + length r')) by lia.
    apply ae_any; [exact Hsi| | |].
    + subst b. pose proof (enc_tag_nonempty tn false). rewrite !app_length. cbn [length]. lia.
    + subst b. rewrite hd_app by apply enc_tag_ne. apply enc_tag_hd. left. exact Hcls.
    + subst b.
      apply (explicit_level_indef_sp c (f + length r') sp acc0 tn inner Tv vv Hsi Hcon Hcls); [|lia|lia|].
      * apply (Hmiss r' [tn] eq_refl). discriminate.
      * apply (IH (tn :: acc0) sub inner Tv vv Hsi Ein Hex' Hlen').
        -- intros r1 r2 Hr Hne. replace (r2 ++ tn :: acc0) with ((r2 ++ [tn]) ++ acc0) by (rewrite <- app_assoc; reflexivity).
           apply (Hmiss r1 (r2 ++ [tn])); [rewrite Hr, app_assoc; reflexivity|]. destruct r2; discriminate.
        -- exact Hf2.
        -- intros ae. rewrite <- app_assoc in Hin. exact (Hin ae).
Qed.

Theorem framed_modes_sp : forall c sp T t0 r cns si d k content b f0 dcd dfl Tv vv,
  support_indef c = true ->
  (tcls t0 <> Univ \/ tnum t0 <> 0) ->
  Forall explicit_like r ->
  sp_hit sp (t0 :: r) T ->
  (forall r1 r2, r = r1 ++ r2 -> r2 <> [] -> sp_miss sp r2) ->
  by_type c T = Some (dcd, dfl) ->
  (d = false -> (cns = true \/ r <> []) -> si = true) ->
  frame (t0 :: r) content cns (mkOpts d k false) si = Ok b ->
  (length b <= S f0)%nat ->
  (if cns && negb d
   then consumes (dec_value (dec_call c f0) f0 dcd dfl (Some T) (wire t0 cns :: r) None false) (content ++ [0; 0]) (DV Tv vv)
   else consumes (dec_value (dec_call c f0) f0 dcd dfl (Some T) (wire t0 cns :: r) (Some (N.of_nat (length content))) false) content (DV Tv vv)) ->
  forall ae, consumes (dec_call c (S f0 + length r) sp [] None ae false) b (DV Tv vv).
Proof.
  intros c sp T t0 r cns si d k content b f0 dcd dfl Tv vv Hsi Hnz Hex Hhit0 Hmiss Hby Hmode He Hb Hval.
  pose proof (sp_hit_wire sp t0 cns r T Hhit0) as Hhit.
  cbn [frame] in He. rewrite Bool.andb_false_r in He. cbn [o_def] in He.
  destruct (frame_one t0 cns (if cns then d else true) si content) as [s0|e] eqn:E0; cbn [bind] in He; [|discriminate].
  rewrite (frame_outer_con r cns d si s0 Hex) in He.
  destruct (frame_outer_facts _ _ _ _ _ _ He Hex) as (Hlen0 & Hhd & Htl).
  destruct (frame_one_facts _ _ _ _ _ _ E0 Hnz) as (F1 & F2 & F3).
  specialize (Hhd F3). specialize (Htl (S (S f0)) ltac:(lia)).
  assert (Hmiss': forall r1 r2, r = r1 ++ r2 -> r2 <> [] -> sp_miss sp (r2 ++ [])).
  { intros r1 r2 Hr Hne. rewrite app_nil_r. exact (Hmiss r1 r2 Hr Hne). }
  assert (Hhit': sp_hit sp (wire t0 cns :: r ++ []) T) by (rewrite app_nil_r; exact Hhit).
  destruct d.
  - (* definite lengths throughout *)
    rewrite Bool.andb_false_r in Hval.
    assert (E0': frame_one t0 cns true si content = Ok s0) by (destruct cns; exact E0).
    assert (H0: consumes (dec_call c (S f0 + length r) sp [] None false false) b (DV Tv vv)).
    { apply (peel_all_sp c sp (S f0) si r [] s0 b _ He Hex Htl Hmiss').
      apply (match_level_sp c f0 sp T (r ++ []) t0 cns si content s0 _ dcd dfl E0' Hhit' Hby); [lia|].
      rewrite app_nil_r. exact Hval. }
    apply ae_any; [exact Hsi|lia|exact Hhd|exact H0].
  - destruct cns.
    + (* constructed: 80 ... 00 00 at every level *)
      cbn [andb negb] in Hval.
      assert (Hsit: si = true) by (apply Hmode; [reflexivity|left; reflexivity]). subst si.
      assert (Hs0: s0 = enc_tag t0 true ++ [128] ++ content ++ [0; 0]) by (inversion E0; reflexivity).
      apply (peel_all_indef_sp c sp (S f0) r [] s0 b Tv vv Hsi He Hex Htl Hmiss'); [lia|].
      apply ae_any; [exact Hsi|lia|exact F3|]. subst s0.
      apply (match_level_indef_sp c f0 sp T (r ++ []) t0 true content _ dcd dfl Hsi Hhit' Hby); [lia|].
      rewrite app_nil_r. exact Hval.
    + (* primitive contents: definite innermost level *)
      cbn [andb] in Hval.
      assert (Hin: forall ae, consumes (dec_call c (S f0) sp (r ++ []) None ae false) s0 (DV Tv vv)).
      { apply ae_any; [exact Hsi|lia|exact F3|].
        apply (match_level_sp c f0 sp T (r ++ []) t0 false si content s0 _ dcd dfl E0 Hhit' Hby); [lia|].
        rewrite app_nil_r. exact Hval. }
      destruct r as [|r1 r'].
      * cbn [frame_outer] in He. inversion He; subst b. cbn [length]. rewrite Nat.add_0_r. exact Hin.
      * assert (Hsit: si = true) by (apply Hmode; [reflexivity|right; discriminate]). subst si.
        apply (peel_all_indef_sp c sp (S f0) (r1 :: r') [] s0 b Tv vv Hsi He Hex Htl Hmiss'); [lia|exact Hin].
Qed.
