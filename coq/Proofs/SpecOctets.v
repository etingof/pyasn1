(* The independent reference's identifier and length octets (positional digits, Spec/X690.v)
   coincide with what the model of pyasn1's encoder writes (shifts and masks, Model/Tag.v). *)
From Coq Require Import Lia.
From PV Require Import Base.Bytes Model.Tag Spec.X690 Proofs.Bits.
Local Open Scope N_scope.

(* with enough fuel the digits do not depend on it *)
Lemma digits_fuel (k: N) (Hk: 0 < k) : forall f1 f2 n,
  (N.size_nat n <= f1)%nat -> (N.size_nat n <= f2)%nat ->
  digits f1 (2 ^ k) n = digits f2 (2 ^ k) n.
Proof.
  assert (Hpos: 0 < 2 ^ k) by (apply N.neq_0_lt_0, N.pow_nonzero; lia).
  assert (Hz: forall f, digits f (2 ^ k) 0 = [0]).
  { intros [|f]; cbn [digits]; [reflexivity|]. destruct (N.ltb_spec 0 (2 ^ k)); [reflexivity|lia]. }
  induction f1 as [|f1 IH]; intros f2 n H1 H2.
  - rewrite (size_nat_0 n H1), !Hz. reflexivity.
  - destruct f2 as [|f2]; [rewrite (size_nat_0 n H2), !Hz; reflexivity|].
    cbn [digits]. destruct (N.ltb_spec n (2 ^ k)) as [Hs|Hl]; [reflexivity|].
    pose proof (size_nat_div n k ltac:(lia) Hk) as Hd.
    rewrite (IH f2 (n / 2 ^ k)) by lia. reflexivity.
Qed.

Lemma digits_nonempty f b n : digits f b n <> [].
Proof.
  destruct f; cbn [digits]; [discriminate|].
  destruct (N.ltb n b); [discriminate|].
  intros H. apply app_eq_nil in H. destruct H as [_ H]. discriminate.
Qed.

Lemma mark_continuation_snoc l d : l <> [] ->
  mark_continuation (l ++ [d]) = map (N.add 128) l ++ [d].
Proof.
  induction l as [|x l IH]; intros Hne; [congruence|].
  destruct l as [|y l'].
  - reflexivity.
  - change (mark_continuation ((x :: y :: l') ++ [d])) with ((128 + x) :: mark_continuation ((y :: l') ++ [d])).
    rewrite IH by discriminate. reflexivity.
Qed.

Lemma b128_hi_digits : forall fuel n acc, (N.size_nat n <= fuel)%nat ->
  b128_hi fuel n acc = (if N.eqb n 0 then [] else map (N.add 128) (digits fuel 128 n)) ++ acc.
Proof.
  induction fuel as [|f IH]; intros n acc Hf.
  - assert (n = 0) as -> by (apply size_nat_0; lia). reflexivity.
  - cbn [b128_hi]. destruct (N.eqb_spec n 0) as [->|Hn]; [reflexivity|].
    assert (Hm: N.land n 127 < 128) by (rewrite land127; apply N.mod_lt; lia).
    rewrite (lor128 _ Hm), shiftr7, land127.
    pose proof (size_nat_div n 7 Hn eq_refl) as Hd. change (2 ^ 7) with 128 in Hd.
    rewrite IH by lia. cbn [digits].
    destruct (N.ltb_spec n 128) as [Hs|Hl].
    + rewrite N.div_small by assumption. cbn [N.eqb app map]. rewrite N.mod_small by assumption. reflexivity.
    + destruct (N.eqb_spec (n / 128) 0) as [Hz|Hnz].
      { apply N.div_small_iff in Hz; lia. }
      rewrite map_app. cbn [map]. rewrite <- app_assoc. reflexivity.
Qed.

Lemma digits_of_128_is_b128 n : mark_continuation (digits_of 128 n) = b128 n.
Proof.
  unfold digits_of, b128. rewrite shiftr7, land127.
  destruct (N.eq_dec n 0) as [->|Hn]; [reflexivity|].
  pose proof (size_nat_div n 7 Hn eq_refl) as Hd. change (2 ^ 7) with 128 in Hd.
  rewrite b128_hi_digits by lia.
  destruct (N.size_nat n) as [|f] eqn:Ef; [elim Hn; apply size_nat_0; lia|].
  cbn [digits]. destruct (N.ltb_spec n 128) as [Hs|Hl].
  - rewrite N.div_small by assumption. cbn [N.eqb app mark_continuation].
    rewrite N.mod_small by assumption. reflexivity.
  - destruct (N.eqb_spec (n / 128) 0) as [Hz|Hnz].
    { apply N.div_small_iff in Hz; lia. }
    rewrite mark_continuation_snoc by apply digits_nonempty.
    pose proof (digits_fuel 7 eq_refl f (S f) (n / 128)) as E. change (2 ^ 7) with 128 in E.
    rewrite E by lia. reflexivity.
Qed.

Lemma lead_octet (c: tclass) (pc: bool) (n: N) : n < 32 ->
  64 * class_no c + (if pc then 32 else 0) + n = N.lor (N.lor (cls_bits c) (if pc then 32 else 0)) n.
Proof.
  intros Hn. destruct n as [|p]; [|do 5 (try destruct p as [p|p|])]; try lia; destruct c, pc; reflexivity.
Qed.

Theorem ident_is_enc_tag (c: tclass) (pc: bool) (n: N) : ident c pc n = enc_tag (mkTag c pc n) false.
Proof.
  unfold ident, enc_tag. cbn [tcls tcon tnum]. rewrite Bool.orb_false_r.
  destruct (N.ltb_spec n 31) as [Hs|Hl].
  - rewrite lead_octet by lia. reflexivity.
  - rewrite (lead_octet c pc 31) by lia. rewrite digits_of_128_is_b128. reflexivity.
Qed.

Lemma b256_hi_digits : forall fuel n acc, (N.size_nat n <= fuel)%nat ->
  b256_hi fuel n acc = (if N.eqb n 0 then [] else digits fuel 256 n) ++ acc.
Proof.
  induction fuel as [|f IH]; intros n acc Hf.
  - assert (n = 0) as -> by (apply size_nat_0; lia). reflexivity.
  - cbn [b256_hi]. destruct (N.eqb_spec n 0) as [->|Hn]; [reflexivity|].
    rewrite shiftr8, land255.
    pose proof (size_nat_div n 8 Hn eq_refl) as Hd. change (2 ^ 8) with 256 in Hd.
    rewrite IH by lia. cbn [digits].
    destruct (N.ltb_spec n 256) as [Hs|Hl].
    + rewrite N.div_small by assumption. cbn [N.eqb app]. rewrite N.mod_small by assumption. reflexivity.
    + destruct (N.eqb_spec (n / 256) 0) as [Hz|Hnz].
      { apply N.div_small_iff in Hz; lia. }
      rewrite <- app_assoc. reflexivity.
Qed.

Lemma digits_of_256_is_b256 n : n <> 0 -> digits_of 256 n = b256 n.
Proof.
  intros Hn. unfold digits_of, b256. rewrite b256_hi_digits by lia.
  destruct (N.eqb_spec n 0); [congruence|]. rewrite app_nil_r. reflexivity.
Qed.

Theorem length_octets_is_enc_len (n: N) (l: bytes) : enc_len n false = Ok l -> length_octets n = l.
Proof.
  unfold enc_len, length_octets. destruct (N.ltb_spec n 128) as [Hs|Hl].
  - intros H. apply (f_equal (fun x => match x with Ok a => a | Err _ => [] end)) in H. exact H.
  - destruct (Nat.ltb_spec 126 (length (b256 n))) as [Hbig|Hok]; [discriminate|].
    intros H. apply (f_equal (fun x => match x with Ok a => a | Err _ => [] end)) in H. cbv beta iota in H.
    subst l. rewrite digits_of_256_is_b256 by lia.
    rewrite lor128 by lia. reflexivity.
Qed.
