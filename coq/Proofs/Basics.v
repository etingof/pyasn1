(* Facts about lists, about the boolean equalities of the model (tags, tag sets, table keys, octet
   strings) and about the tag set of a type, which proofs of every layer use. *)
From Coq Require Import Lia Permutation.
From PV Require Import Base.Bytes Model.Tag Model.TableTypes Model.Types.

Lemma firstn_app_exact {X} (a b: list X) : firstn (length a) (a ++ b) = a.
Proof. rewrite firstn_app, Nat.sub_diag, firstn_all, app_nil_r. reflexivity. Qed.

Lemma skipn_app_exact {X} (a b: list X) : skipn (length a) (a ++ b) = b.
Proof. rewrite skipn_app, Nat.sub_diag, skipn_all. reflexivity. Qed.

Lemma firstn_app_le {X} (a b: list X) n : n <= length a -> firstn n (a ++ b) = firstn n a.
Proof. intros H. rewrite firstn_app. replace (n - length a) with 0 by lia. apply app_nil_r. Qed.

Lemma skipn_app_le {X} (a b: list X) n : n <= length a -> skipn n (a ++ b) = skipn n a ++ b.
Proof. intros H. rewrite skipn_app. replace (n - length a) with 0 by lia. reflexivity. Qed.

Lemma firstn_app_ge {X} (a b: list X) n : length a <= n -> firstn n (a ++ b) = a ++ firstn (n - length a) b.
Proof. intros H. rewrite firstn_app, firstn_all2 by exact H. reflexivity. Qed.

Lemma skipn_app_ge {X} (a b: list X) n : length a <= n -> skipn n (a ++ b) = skipn (n - length a) b.
Proof. intros H. rewrite skipn_app, skipn_all2 by exact H. reflexivity. Qed.

Lemma skipn_add {X} (a b: nat) (l: list X) : skipn (a + b) l = skipn b (skipn a l).
Proof.
  revert l. induction a as [|a IH]; intros l; [reflexivity|].
  destruct l as [|x l]; [destruct b; reflexivity|apply IH].
Qed.

(* a loop that walks to the k-th element: the shape of every "alternative by index" fix of the model *)
Lemma nth_loop {A B} (f: A -> B) (d: B) : forall l k,
  (fix go (l: list A) (k: nat) : B :=
     match l, k with
     | a :: _, O => f a
     | _ :: r, S k' => go r k'
     | [], _ => d
     end) l k
  = match nth_error l k with Some a => f a | None => d end.
Proof. induction l as [|a l IH]; destruct k; try reflexivity. apply IH. Qed.

Lemma last_app_ne {A} (a b: list A) d : b <> [] -> last (a ++ b) d = last b d.
Proof.
  intros Hb. induction a as [|x a IH]; [reflexivity|]. cbn [app]. destruct (a ++ b) eqn:E; [|exact IH].
  apply app_eq_nil in E. destruct E as [_ E]. congruence.
Qed.

Lemma concat_perm_length {A} (l1 l2: list (list A)) : Permutation l1 l2 -> length (concat l1) = length (concat l2).
Proof. induction 1; cbn [concat]; rewrite ?app_length; lia. Qed.

Lemma Forall2_length {A B} (R: A -> B -> Prop) l1 l2 : Forall2 R l1 l2 -> length l1 = length l2.
Proof. induction 1; cbn [length]; congruence. Qed.

Lemma Forall2_refl {A} (R: A -> A -> Prop) : (forall x, R x x) -> forall l, Forall2 R l l.
Proof. intros H. induction l; constructor; auto. Qed.

Lemma Forall2_eq {A} (xs ys: list A) : Forall2 eq xs ys -> xs = ys.
Proof. induction 1; congruence. Qed.

Lemma Forall2_refl_in {A} (R: A -> A -> Prop) : forall l, (forall x, In x l -> R x x) -> Forall2 R l l.
Proof. induction l as [|x l IH]; intros H; constructor; [apply H; left; reflexivity|apply IH; intros y Hy; apply H; right; exact Hy]. Qed.

Lemma Forall2_in_r {A B} (P: A -> B -> Prop) l1 l2 y : Forall2 P l1 l2 -> In y l2 -> exists x, In x l1 /\ P x y.
Proof.
  induction 1 as [|a b l1 l2 Hab _ IH]; intros Hy; [destruct Hy|].
  destruct Hy as [<-|Hy]; [exists a; split; [left; reflexivity|exact Hab]|].
  destruct (IH Hy) as (x & Hx & Hp). exists x. split; [right; exact Hx|exact Hp].
Qed.

Lemma Forall2_impl_in {A B} (P Q: A -> B -> Prop) l1 l2 :
  (forall x y, In x l1 -> In y l2 -> P x y -> Q x y) -> Forall2 P l1 l2 -> Forall2 Q l1 l2.
Proof.
  intros H F. induction F as [|a b l1 l2 Hab _ IH]; constructor.
  - apply H; [left; reflexivity..|exact Hab].
  - apply IH. intros x y Hx Hy. apply H; right; assumption.
Qed.

Lemma Forall2_map {A B C D} (R: C -> D -> Prop) (f: A -> C) (g: B -> D) l1 l2 :
  Forall2 R (map f l1) (map g l2) <-> Forall2 (fun a b => R (f a) (g b)) l1 l2.
Proof.
  split.
  - revert l2. induction l1 as [|a l1 IH]; intros [|b l2] H; inversion H; subst; constructor; auto.
  - induction 1; constructor; assumption.
Qed.

Lemma Forall2_perm_l {A B} (P: A -> B -> Prop) : forall l1 l1', Permutation l1 l1' ->
  forall l2, Forall2 P l1 l2 -> exists l2', Permutation l2 l2' /\ Forall2 P l1' l2'.
Proof.
  induction 1 as [|x l1 l1' _ IH|x y l1|l1 l1' l1'' _ IH1 _ IH2]; intros l2 F.
  - inversion F; subst. exists []. split; constructor.
  - inversion F as [|? b ? m2 Hxb F']; subst. destruct (IH _ F') as (m & Hp & Hf).
    exists (b :: m). split; [constructor; exact Hp|constructor; assumption].
  - inversion F as [|? b ? m2 Hb F']; subst. inversion F' as [|? c ? m3 Hc F'']; subst.
    exists (c :: b :: m3). split; [constructor|repeat constructor; assumption].
  - destruct (IH1 _ F) as (m & Hp & Hf). destruct (IH2 _ Hf) as (m' & Hp' & Hf').
    exists m'. split; [exact (Permutation_trans Hp Hp')|exact Hf'].
Qed.

Lemma Forall2_flip {A B} (P: A -> B -> Prop) l1 l2 : Forall2 P l1 l2 -> Forall2 (fun b a => P a b) l2 l1.
Proof. induction 1; constructor; assumption. Qed.

Lemma Forall2_perm_r {A B} (P: A -> B -> Prop) l1 l2 l2' :
  Forall2 P l1 l2 -> Permutation l2 l2' -> exists l1', Permutation l1 l1' /\ Forall2 P l1' l2'.
Proof.
  intros F Hp. destruct (Forall2_perm_l _ _ _ Hp _ (Forall2_flip _ _ _ F)) as (m & Hm & Hf).
  exists m. split; [exact Hm|exact (Forall2_flip _ _ _ Hf)].
Qed.

Lemma assoc_In {A B} (eqb: A -> A -> bool) k (l: list (A * B)) v :
  assoc eqb k l = Some v -> exists k', In (k', v) l /\ eqb k k' = true.
Proof.
  induction l as [|[a b] r IH]; cbn [assoc]; [discriminate|].
  destruct (eqb k a) eqn:E; intros H.
  - injection H as <-. exists a. split; [left; reflexivity|exact E].
  - destruct (IH H) as (k' & Hk & Ek). exists k'. split; [right; exact Hk|exact Ek].
Qed.

Lemma list_eqb_eq {A} (eqb: A -> A -> bool) : (forall a b, eqb a b = true -> a = b) ->
  forall x y, list_eqb eqb x y = true -> x = y.
Proof.
  intros Heq. induction x as [|a x IH]; intros [|b y] H; try discriminate; [reflexivity|].
  cbn [list_eqb] in H. apply andb_true_iff in H. destruct H as [H1 H2].
  rewrite (Heq _ _ H1), (IH _ H2). reflexivity.
Qed.

Lemma list_eqb_refl {A} (eqb: A -> A -> bool) : forall l, (forall a, In a l -> eqb a a = true) -> list_eqb eqb l l = true.
Proof.
  induction l as [|a l IH]; intros H; [reflexivity|]. cbn [list_eqb].
  rewrite (H a (or_introl eq_refl)), IH; [reflexivity|]. intros b Hb. apply H. right. exact Hb.
Qed.

Lemma list_eqb_sym {A} (eqb: A -> A -> bool) : (forall a b, eqb a b = eqb b a) ->
  forall x y, list_eqb eqb x y = list_eqb eqb y x.
Proof. intros Hs. induction x as [|a x IH]; intros [|b y]; try reflexivity. cbn [list_eqb]. rewrite Hs, IH. reflexivity. Qed.

Lemma list_eqb_length {A} (eqb: A -> A -> bool) : forall l1 l2, list_eqb eqb l1 l2 = true -> length l1 = length l2.
Proof.
  induction l1 as [|a l1 IH]; intros [|b l2] H; try discriminate; [reflexivity|].
  cbn [list_eqb] in H. apply andb_true_iff in H. cbn [length]. f_equal. apply IH, H.
Qed.

Lemma bytes_eqb_eq a b : bytes_eqb a b = true -> a = b.
Proof. apply list_eqb_eq. intros x y. apply N.eqb_eq. Qed.

Lemma bytes_eqb_refl a : bytes_eqb a a = true.
Proof. apply list_eqb_refl. intros x _. apply N.eqb_refl. Qed.

Lemma bytes_eqb_sym a b : bytes_eqb a b = bytes_eqb b a.
Proof. apply list_eqb_sym. apply N.eqb_sym. Qed.

Lemma remove_first_spec {A} (f: A -> bool) : forall l l', remove_first f l = Some l' ->
  exists l1 y l2, l = l1 ++ y :: l2 /\ l' = l1 ++ l2 /\ f y = true.
Proof.
  induction l as [|y r IH]; intros l' H; [discriminate|]. cbn in H. destruct (f y) eqn:E.
  - injection H as <-. exists [], y, r. auto.
  - destruct (remove_first f r) as [r'|] eqn:Er; [|discriminate]. injection H as <-.
    destruct (IH _ eq_refl) as (l1 & z & l2 & -> & -> & Hz). exists (y :: l1), z, l2. auto.
Qed.

Lemma remove_first_some {A} (f: A -> bool) : forall l y, In y l -> f y = true -> exists l', remove_first f l = Some l'.
Proof.
  induction l as [|x r IH]; intros y Hy Hf; [destruct Hy|]. cbn. destruct (f x) eqn:E; [eauto|].
  destruct Hy as [->|Hy]; [congruence|]. destruct (IH y Hy Hf) as (l' & ->). eauto.
Qed.

Lemma bag_eqb_cons {A} (eqb: A -> A -> bool) x a b :
  bag_eqb eqb (x :: a) b = match remove_first (eqb x) b with Some b' => bag_eqb eqb a b' | None => false end.
Proof. reflexivity. Qed.

Lemma cls_eqb_eq a b : cls_eqb a b = true <-> a = b.
Proof. split; [destruct a, b; (reflexivity || discriminate)|intros ->; destruct b; reflexivity]. Qed.

Lemma cls_eqb_refl c : cls_eqb c c = true.
Proof. apply cls_eqb_eq. reflexivity. Qed.

Lemma tag_eqb_refl t : tag_eqb t t = true.
Proof. unfold tag_eqb. rewrite cls_eqb_refl, N.eqb_refl. reflexivity. Qed.

Lemma tag_eqb_sym a b : tag_eqb a b = tag_eqb b a.
Proof. unfold tag_eqb. rewrite (N.eqb_sym (tnum a)). destruct (tcls a), (tcls b); reflexivity. Qed.

Lemma tag_eqb_trans a b c : tag_eqb a b = true -> tag_eqb b c = true -> tag_eqb a c = true.
Proof.
  unfold tag_eqb. rewrite !andb_true_iff, !cls_eqb_eq, !N.eqb_eq. intros [-> ->] [-> ->]. split; reflexivity.
Qed.

Lemma tagset_eqb_cons x a y b : tagset_eqb (x :: a) (y :: b) = (tag_eqb x y && tagset_eqb a b)%bool.
Proof. reflexivity. Qed.

Lemma tagset_eqb_refl ts : tagset_eqb ts ts = true.
Proof. apply list_eqb_refl. intros t _. apply tag_eqb_refl. Qed.

Lemma tagset_eqb_sym a b : tagset_eqb a b = tagset_eqb b a.
Proof. apply list_eqb_sym, tag_eqb_sym. Qed.

Lemma tagset_eqb_trans : forall a b c, tagset_eqb a b = true -> tagset_eqb b c = true -> tagset_eqb a c = true.
Proof.
  induction a as [|x a IH]; intros [|y b] [|z c] H1 H2; try discriminate; [reflexivity|].
  rewrite tagset_eqb_cons, andb_true_iff in *. destruct H1, H2. split; [eapply tag_eqb_trans|eapply IH]; eassumption.
Qed.

Lemma tagset_eqb_app a b c d : length a = length c ->
  tagset_eqb (a ++ b) (c ++ d) = (tagset_eqb a c && tagset_eqb b d)%bool.
Proof.
  revert c. induction a as [|x a IH]; intros [|y c] H; try discriminate; [reflexivity|].
  cbn. rewrite (IH c) by (cbn in H; lia). rewrite Bool.andb_assoc. reflexivity.
Qed.

(* equal tag sets answer every comparison alike *)
Lemma tagset_eqb_left k k' x : tagset_eqb k k' = true -> tagset_eqb k x = tagset_eqb k' x.
Proof.
  intros H. destruct (tagset_eqb k' x) eqn:E; [exact (tagset_eqb_trans _ _ _ H E)|].
  destruct (tagset_eqb k x) eqn:E'; [|reflexivity].
  rewrite tagset_eqb_sym in H. rewrite (tagset_eqb_trans _ _ _ H E') in E. discriminate.
Qed.

Lemma tagset_eqb_length a b : tagset_eqb a b = true -> length a = length b.
Proof. apply list_eqb_length. Qed.

Lemma assoc_tagset_eqb {B} k k' (l: list (tagset * B)) :
  tagset_eqb k k' = true -> assoc tagset_eqb k l = assoc tagset_eqb k' l.
Proof.
  intros H. induction l as [|[a b] r IH]; [reflexivity|]. cbn [assoc].
  rewrite (tagset_eqb_left _ _ a H), IH. reflexivity.
Qed.

Lemma tkey_eqb_eq a b : tkey_eqb a b = true -> a = b.
Proof. destruct a, b; cbn; try discriminate; try reflexivity. intros H. apply N.eqb_eq in H. congruence. Qed.

Lemma lookup3_in {B C} (k: tkey) (m: list (tkey * B * C)) b c : lookup3 k m = Some (b, c) -> In (k, b, c) m.
Proof.
  unfold lookup3. intros H. apply assoc_In in H. destruct H as (k' & Hi & E). apply tkey_eqb_eq in E. subst k'.
  apply in_map_iff in Hi. destruct Hi as ([[k0 b0] c0] & E & Hi). inversion E; subst. exact Hi.
Qed.

(* only CHOICE and ANY have an empty tag set *)
Lemma tagset_empty T : tagset_of T = Ok [] -> T = TAny \/ exists alts, T = TChoice alts.
Proof.
  destruct T; cbn [tagset_of]; intros H; try discriminate H.
  - right. eexists. reflexivity.
  - left. reflexivity.
  - destruct (tagset_of T) as [ts|e]; cbn [bind] in H; [|discriminate H]. inversion H as [H1]. exfalso.
    unfold tag_implicitly in H1. destruct (rev ts) as [|l r]; [discriminate H1|]. destruct (rev r); discriminate H1.
  - destruct (tagset_of T) as [ts|e]; cbn [bind] in H; [|discriminate H]. exfalso.
    unfold tag_explicitly in H. destruct (tcls t); [discriminate H| | |]; inversion H as [H1]; destruct ts; discriminate H1.
Qed.
