(* Tag algebra of pyasn1/type/tag.py: what implicit and explicit tagging do to a tag set. *)
From Coq Require Import Lia.
From PV Require Import Base.Bytes Model.Tag Model.Types.
Local Open Scope N_scope.

(* explicit tagging adds exactly one tag, constructed, outermost, and refuses UNIVERSAL *)
Theorem tag_explicitly_spec ts t :
  match tag_explicitly ts t with
  | Ok ts' => tcls t <> Univ /\ ts' = ts ++ [mkTag (tcls t) true (tnum t)]
  | Err e => tcls t = Univ /\ e = EMalformed
  end.
Proof. unfold tag_explicitly. destruct (tcls t); (split; [congruence|reflexivity]). Qed.

(* implicit tagging replaces only the outermost tag and keeps its primitive/constructed form *)
Theorem tag_implicitly_spec ts last t :
  tag_implicitly (ts ++ [last]) t = ts ++ [mkTag (tcls t) (tcon last) (tnum t)].
Proof. unfold tag_implicitly. rewrite rev_app_distr. cbn [rev app]. rewrite rev_involutive. reflexivity. Qed.

(* the tag set of a tagged type, from that of the type below *)
Lemma tagset_of_imp t x ts : tagset_of (TImp t x) = Ok ts ->
  exists ts', tagset_of x = Ok ts' /\ ts = tag_implicitly ts' t.
Proof.
  cbn [tagset_of]. destruct (tagset_of x) as [ts'|]; cbn [bind]; [|discriminate].
  intros H. injection H as <-. exists ts'. auto.
Qed.

Lemma tagset_of_exp t x ts : tagset_of (TExp t x) = Ok ts ->
  exists ts', tagset_of x = Ok ts' /\ tcls t <> Univ /\ ts = ts' ++ [mkTag (tcls t) true (tnum t)].
Proof.
  cbn [tagset_of]. destruct (tagset_of x) as [ts'|]; cbn [bind]; [|discriminate].
  intros H. pose proof (tag_explicitly_spec ts' t) as Hsp. rewrite H in Hsp. exists ts'. tauto.
Qed.

Theorem tag_implicitly_length ts t : ts <> [] -> length (tag_implicitly ts t) = length ts.
Proof.
  intros H. destruct (exists_last H) as (ts' & last & ->).
  rewrite tag_implicitly_spec, !app_length. reflexivity.
Qed.

Theorem tag_explicitly_length ts t ts' : tag_explicitly ts t = Ok ts' -> length ts' = S (length ts).
Proof.
  unfold tag_explicitly. destruct (tcls t); intros H; inversion H; rewrite app_length; simpl; lia.
Qed.

Example tag_algebra_nonvacuous :
  tag_implicitly [mkTag Univ false 2; mkTag Ctx true 0] (mkTag Appl false 40)
    = [mkTag Univ false 2; mkTag Appl true 40]
  /\ tag_explicitly [mkTag Univ false 2] (mkTag Priv false 31)
    = Ok [mkTag Univ false 2; mkTag Priv true 31]
  /\ tag_explicitly [mkTag Univ false 2] (mkTag Univ false 5) = Err EMalformed.
Proof. repeat split. Qed.
