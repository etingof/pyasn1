(* Bridging lemmas: Python's >>, <<, &, | on non-negative integers as arithmetic. *)
From Coq Require Import NArith ZArith Lia List Bool.
Import ListNotations.
Local Open Scope N_scope.

Lemma shiftr_div (n k: N) : N.shiftr n k = n / 2 ^ k.
Proof. apply N.shiftr_div_pow2. Qed.

Lemma shiftl_mul (n k: N) : N.shiftl n k = n * 2 ^ k.
Proof. apply N.shiftl_mul_pow2. Qed.

Lemma land_ones_mod (n k: N) : N.land n (2 ^ k - 1) = n mod 2 ^ k.
Proof. rewrite <- N.land_ones. f_equal. rewrite N.ones_equiv, N.pred_sub. reflexivity. Qed.

Lemma testbit_small (m k i: N) : m < 2 ^ k -> k <= i -> N.testbit m i = false.
Proof.
  intros Hm Hi. destruct (N.eq_dec m 0) as [->|Hz]; [apply N.bits_0|].
  apply N.bits_above_log2. apply N.lt_le_trans with k; [|assumption].
  apply N.log2_lt_pow2; [lia|assumption].
Qed.

Lemma land_shiftl_small (q m k: N) : m < 2 ^ k -> N.land (N.shiftl q k) m = 0.
Proof.
  intros Hm. apply N.bits_inj. intros i. rewrite N.land_spec, N.bits_0.
  destruct (N.lt_ge_cases i k) as [Hi|Hi].
  - rewrite N.shiftl_spec_low by assumption. reflexivity.
  - rewrite (testbit_small m k i Hm Hi). apply andb_false_r.
Qed.

Lemma lor_disjoint_add (a b: N) : N.land a b = 0 -> N.lor a b = a + b.
Proof. intros H. rewrite <- N.lxor_lor by assumption. symmetry. apply N.add_nocarry_lxor. assumption. Qed.

Lemma lor_shiftl_small (q m k: N) : m < 2 ^ k -> N.lor (N.shiftl q k) m = q * 2 ^ k + m.
Proof.
  intros Hm. rewrite lor_disjoint_add by (apply land_shiftl_small; assumption).
  rewrite shiftl_mul. reflexivity.
Qed.

(* the instances used by the codec: 7-bit and 8-bit groups, and the octet 0x80 | m *)
Lemma shiftr7 n : N.shiftr n 7 = n / 128. Proof. apply (shiftr_div n 7). Qed.
Lemma shiftr8 n : N.shiftr n 8 = n / 256. Proof. apply (shiftr_div n 8). Qed.
Lemma land127 n : N.land n 127 = n mod 128. Proof. apply (land_ones_mod n 7). Qed.
Lemma land255 n : N.land n 255 = n mod 256. Proof. apply (land_ones_mod n 8). Qed.
Lemma lor_shl7 q m : m < 128 -> N.lor (N.shiftl q 7) m = q * 128 + m.
Proof. apply (lor_shiftl_small q m 7). Qed.
Lemma lor_shl8 q m : m < 256 -> N.lor (N.shiftl q 8) m = q * 256 + m.
Proof. apply (lor_shiftl_small q m 8). Qed.

(* 0x80 | m for a 7-bit m *)
Lemma lor128 m : m < 128 -> N.lor 128 m = 128 + m.
Proof. intros H. change (N.lor (N.shiftl 1 7) m = 1 * 128 + m). apply lor_shl7. assumption. Qed.

Lemma land128_hi m : m < 128 -> N.land (128 + m) 128 = 128.
Proof.
  intros H. apply N.bits_inj. intros i. rewrite N.land_spec.
  destruct (N.eq_dec i 7) as [->|Hi].
  - rewrite <- lor128 by assumption. rewrite N.lor_spec. reflexivity.
  - replace (N.testbit 128 i) with false.
    + apply andb_false_r.
    + symmetry. change 128 with (2 ^ 7). apply N.pow2_bits_false. congruence.
Qed.

Lemma land128_lo m : m < 128 -> N.land m 128 = 0.
Proof.
  intros H. rewrite N.land_comm. change 128 with (N.shiftl 1 7).
  apply land_shiftl_small. assumption.
Qed.

(* the low seven bits of 0x80 + m *)
Lemma land127_hi m : m < 128 -> N.land (128 + m) 127 = m.
Proof.
  intros H. rewrite land127. replace (128 + m) with (m + 1 * 128) by lia.
  rewrite N.mod_add by lia. apply N.mod_small. exact H.
Qed.

Lemma size_nat_div (n: N) (k: N) : n <> 0 -> 0 < k ->
  (N.size_nat (n / 2 ^ k) < N.size_nat n)%nat.
Proof.
  intros Hn Hk.
  assert (Hs: forall x, N.size_nat x = N.to_nat (N.size x)).
  { destruct x as [|p]; [reflexivity|]. simpl. induction p; simpl; rewrite ?IHp; lia. }
  rewrite !Hs.
  destruct (N.eq_dec (n / 2 ^ k) 0) as [->|Hq].
  - simpl. destruct n; [congruence|]. simpl. lia.
  - assert (N.size (n / 2 ^ k) < N.size n); [|lia].
    rewrite !N.size_log2 by assumption.
    rewrite <- N.shiftr_div_pow2, N.log2_shiftr.
    assert (k <= N.log2 n).
    { destruct (N.le_gt_cases k (N.log2 n)); [assumption|].
      exfalso. apply Hq. apply N.div_small. apply N.log2_lt_pow2; lia. }
    lia.
Qed.

Lemma size_nat_shiftr (n k: N) : n <> 0 -> 0 < k -> (N.size_nat (N.shiftr n k) < N.size_nat n)%nat.
Proof. rewrite shiftr_div. apply size_nat_div. Qed.

Lemma size_nat_0 (n: N) : (N.size_nat n <= 0)%nat -> n = 0.
Proof. destruct n as [|[p|p|]]; cbn; [reflexivity|lia..]. Qed.

Lemma div_mod_back (n k: N) : k <> 0 -> n / k * k + n mod k = n.
Proof. intros Hk. rewrite N.mul_comm. symmetry. apply N.div_mod. exact Hk. Qed.

