(* C03, second half: the independent reference reads its own distinguished encodings.
   For every type of the fragment of Proofs/DerReference.v (simple types under any stack of tags;
   SEQUENCE with mandatory, OPTIONAL and DEFAULT components and SEQUENCE OF, nested to any depth)
   whose OPTIONAL/DEFAULT components can be told apart by their tags (the ASN.1 rule X.680 25.6),

       der T v = Some b  ->  read T (b ++ tl) = Some (abs T v, tl).

   A property of the specification alone.  With [der_is_reference_deep] it says: every DER encoder
   output, read by the independent reader guided by the same type, denotes the same abstract value. *)
From Coq Require Import Lia.
From PV Require Import Base.Bytes Model.Tag Model.TableTypes Model.Types Model.Enc Gen.Tables Spec.X690
     Proofs.Bits Proofs.SpecOctets Proofs.LeafInt Proofs.LeafOidBits Proofs.LeafReal Proofs.TagAlgebra
     Proofs.DerReference Proofs.DerReference2 Proofs.ReaderParse Proofs.ReaderInterp Proofs.ReaderLeafOidBits
     Proofs.ReaderLeafReal.
From PV Require Proofs.TagsetShape.
Local Open Scope N_scope.

(* what follows the identifier of e is below the limit of the length octets: kept by IMPLICIT tagging,
   which replaces the identifier only *)
Definition body_bound (e: bytes) : Prop :=
  forall c pc num rest, split_ident e = Some (c, pc, num, rest) -> N.of_nat (length rest) < max_len.

Lemma long_number_length : forall f acc b n r, long_number f acc b = Some (n, r) -> (length r <= length b)%nat.
Proof.
  induction f as [|f IH]; intros acc b n r H; [destruct b; discriminate H|].
  destruct b as [|o b']; [discriminate H|]. cbn [long_number] in H.
  destruct (N.ltb o 128).
  - injection H as _ <-. cbn [length]. lia.
  - apply IH in H. cbn [length]. lia.
Qed.

Lemma split_ident_length e c pc num rest : split_ident e = Some (c, pc, num, rest) -> (length rest <= length e)%nat.
Proof.
  unfold split_ident. destruct e as [|o r]; [discriminate|].
  destruct (N.eqb (o mod 32) 31).
  - destruct (long_number (length r) 0 r) as [[n r']|] eqn:E; [|discriminate].
    intros H. injection H as _ _ _ <-. apply long_number_length in E. cbn [length]. lia.
  - intros H. injection H as _ _ _ <-. cbn [length]. lia.
Qed.

Lemma bound_of_length e : N.of_nat (length e) < max_len -> body_bound e.
Proof. intros H c pc num rest Hs. apply split_ident_length in Hs. lia. Qed.

Lemma bound_tlv c pc num contents : body_bound (tlv c pc num contents) -> N.of_nat (length contents) < max_len.
Proof.
  intros H. unfold tlv in H. specialize (H c pc num _ (split_ident_ident c pc num _)).
  rewrite app_length in H. lia.
Qed.

Lemma bound_retag t ex e : retag t ex = Some e -> body_bound e -> body_bound ex.
Proof.
  unfold retag. destruct (split_ident ex) as [[[[c0 pc] n0] rest]|] eqn:E; [|discriminate].
  intros H Hb. injection H as <-. intros c pc' num rest' Hs. rewrite E in Hs. injection Hs as _ _ _ <-.
  apply (Hb _ _ _ _ (split_ident_ident (tcls t) pc (tnum t) rest)).
Qed.

Lemma concat_in_length (e: bytes) es : In e es -> (length e <= length (concat es))%nat.
Proof.
  induction es as [|x es IH]; intros H; [contradiction|]. cbn [concat]. rewrite app_length.
  destruct H as [->|H]; [lia|]. specialize (IH H). lia.
Qed.

(* the one tag ftj starts with is none ft can start with *)
Definition tags_disjoint (ft ftj: ty) : bool :=
  match first_tags ftj with Some [tg] => negb (may_start ft tg) | _ => false end.

(* every later component up to and including the next mandatory one starts with another tag *)
Fixpoint later_ok (ft: ty) (fs: list (presence * ty)) : bool :=
  match fs with
  | [] => true
  | (p, ftj) :: r => tags_disjoint ft ftj && (match p with Req => true | _ => later_ok ft r end)
  end.

(* X.680 25.6 at every SEQUENCE inside T: a reader can tell which OPTIONAL / DEFAULT components are absent *)
Fixpoint unamb (T: ty) : bool :=
  match T with
  | TImp _ x | TExp _ x => unamb x
  | TSeqOf t => unamb t
  | TSeq fs =>
      (fix go (fs: list (presence * ty)) : bool :=
         match fs with
         | [] => true
         | (p, ft) :: r => unamb ft && (match p with Req => true | _ => later_ok ft r end) && go r
         end) fs
  | _ => true
  end.

Definition unamb_fields : list (presence * ty) -> bool :=
  fix go (fs: list (presence * ty)) : bool :=
    match fs with
    | [] => true
    | (p, ft) :: r => unamb ft && (match p with Req => true | _ => later_ok ft r end) && go r
    end.

Lemma unamb_seq fs : unamb (TSeq fs) = unamb_fields fs.
Proof. reflexivity. Qed.

Definition abs_fields : list (presence * ty) -> list (option val) -> list (option aval) :=
  fix go (fs: list (presence * ty)) (vs: list (option val)) : list (option aval) :=
    match fs, vs with
    | (p, ft) :: fs', ov :: vs' =>
        (match ov, p with
         | Some x, _ => Some (abs ft x)
         | None, Def d => Some (abs ft d)
         | None, _ => None
         end) :: go fs' vs'
    | (p, ft) :: fs', [] =>
        (match p with Def d => Some (abs ft d) | _ => None end) :: go fs' []
    | [], _ => []
    end.

Lemma abs_seq fs vs : abs (TSeq fs) (VRec vs) = ARec (abs_fields fs vs).
Proof. reflexivity. Qed.

Lemma abs_fields_cons p ft fs' vs :
  abs_fields ((p, ft) :: fs') vs =
  (match ohd vs, p with
   | Some x, _ => Some (abs ft x)
   | None, Def d => Some (abs ft d)
   | None, _ => None
   end) :: abs_fields fs' (otl vs).
Proof. destruct vs as [|ov vs']; reflexivity. Qed.

Lemma areal_eqb_eq a b : areal_eqb a b = true -> a = b.
Proof.
  destruct a, b; intros H; try reflexivity; try discriminate H; cbn [areal_eqb] in H;
    apply andb_true_iff in H; destruct H as [H1 H2]; apply Z.eqb_eq in H1, H2; subst; reflexivity.
Qed.

Lemma default_is_equal ft x d : simple_base (base_of ft) = true ->
  der_ref_deep ft x = true -> der_ref_deep ft d = true -> is_default ft x d = true -> abs ft x = abs ft d.
Proof.
  intros Hs Hx Hd. unfold is_default.
  rewrite (TagsetShape.abs_wrappers ft x), (TagsetShape.abs_wrappers ft d). rewrite deep_base in Hx, Hd.
  destruct (base_of ft); try discriminate Hs;
    destruct x; try discriminate Hx; destruct d; try discriminate Hd; cbn [abs aval_eqb]; intros H.
  - f_equal. apply Bool.eqb_prop. exact H.
  - f_equal. apply Z.eqb_eq. exact H.
  - f_equal. apply Z.eqb_eq. exact H.
  - f_equal. apply (Basics.list_eqb_eq Bool.eqb); [intros a b; apply Bool.eqb_prop|exact H].
  - f_equal. apply Basics.bytes_eqb_eq. exact H.
  - reflexivity.
  - f_equal. apply (Basics.list_eqb_eq N.eqb); [intros a b E; apply N.eqb_eq; exact E|exact H].
  - f_equal. apply areal_eqb_eq. exact H.
  - f_equal. apply Basics.bytes_eqb_eq. exact H.
  - f_equal. apply Basics.bytes_eqb_eq. exact H.
  - f_equal. apply Basics.bytes_eqb_eq. exact H.
  - f_equal. apply Basics.bytes_eqb_eq. exact H.
Qed.

Lemma int_contents_cons z : exists o c, int_contents z = o :: c.
Proof.
  pose proof (twos_nonempty z) as H. rewrite int_contents_is_enc_integer, enc_integer_false.
  destruct (twos_bytes z) as [|o c]; [congruence|]. exists o, c. reflexivity.
Qed.

Lemma reads_int_contents z : N.of_nat (length (int_contents z)) < max_len ->
  reads_as TInt (AInt z) (tlv Univ false 2 (int_contents z)) /\
  reads_as TEnum (AInt z) (tlv Univ false 10 (int_contents z)).
Proof.
  intros Hb. destruct (int_contents_cons z) as (o & c & E). pose proof (signed_value_int_contents z) as Hsv.
  rewrite E in *. rewrite <- Hsv.
  split; [apply reads_int|apply reads_enum]; exact Hb.
Qed.

Lemma string_tlv_false n b : string_tlv false n b = tlv Univ false n b.
Proof. reflexivity. Qed.
Lemma bitstring_tlv_false bs : bitstring_tlv false bs = tlv Univ false 3 (bitstring_contents bs).
Proof. reflexivity. Qed.

Lemma canon_reads_simple B v e : simple_base B = true -> der_ref_base B v = true ->
  canon false B v = Some e -> body_bound e -> reads_as B (abs B v) e.
Proof.
  intros Hs Hd Hc Hb.
  destruct B; try discriminate Hs; destruct v as [bb|z|bs|bo|cs| |arcs|r|vfs|xs|i x|ab]; try discriminate Hd;
    cbn [canon] in Hc.
  - (* BOOLEAN *) injection Hc as <-. cbn [abs]. destruct bb; [exact (reads_bool 255)|exact (reads_bool 0)].
  - (* INTEGER *) injection Hc as <-. apply bound_tlv in Hb. exact (proj1 (reads_int_contents z Hb)).
  - (* ENUMERATED *) injection Hc as <-. apply bound_tlv in Hb. exact (proj2 (reads_int_contents z Hb)).
  - (* BIT STRING *) injection Hc as <-. rewrite bitstring_tlv_false in *. apply bound_tlv in Hb. cbn [abs].
    destruct (bits_join_single bs) as (u & c & E & Hu & Hj). rewrite E in *.
    apply reads_bits_prim; assumption.
  - (* OCTET STRING *) injection Hc as <-. rewrite string_tlv_false in *. apply bound_tlv in Hb.
    apply (reads_octs_prim TOcts 4); [left; auto|exact Hb].
  - (* NULL *) injection Hc as <-. exact reads_null.
  - (* OBJECT IDENTIFIER *)
    destruct (oid_contents arcs) as [c|] eqn:E; cbn [opt_bind] in Hc; [|discriminate Hc]. injection Hc as <-.
    apply bound_tlv in Hb. apply reads_oid; [apply oid_value_oid_contents; exact E|exact Hb].
  - (* REAL *)
    destruct (real_contents r) as [c|] eqn:E; cbn [opt_bind] in Hc; [|discriminate Hc]. injection Hc as <-.
    apply bound_tlv in Hb. apply reads_real; [apply real_value_real_contents; exact E|exact Hb].
  - (* strings as octets *) cbn [string_octets opt_bind] in Hc. injection Hc as <-.
    rewrite string_tlv_false in *. apply bound_tlv in Hb. apply (reads_octs_prim (TStr n) n); [right; reflexivity|exact Hb].
  - (* strings as characters *) cbn [string_octets opt_bind] in Hc. injection Hc as <-.
    rewrite string_tlv_false in *. apply bound_tlv in Hb. apply (reads_octs_prim (TStr n) n); [right; reflexivity|exact Hb].
Qed.

(* the statement proved of every type of the fragment *)
Definition canon_reads (T: ty) : Prop :=
  forall v e, der_ref_deep T v = true -> canon false T v = Some e -> body_bound e -> reads_as T (abs T v) e.

Lemma seqof_reads t : canon_reads t -> forall xs es, forallb (der_ref_deep t) xs = true ->
  opt_all (map (canon false t) xs) = Some es -> N.of_nat (length (concat es)) < max_len ->
  Forall2 (reads_as t) (map (abs t) xs) es.
Proof.
  intros Ht xs es Hd Hc Hl. rewrite <- (map_id es). apply Basics.Forall2_map.
  apply Basics.Forall2_impl_in with (2 := proj1 (opt_all_F2 _ xs es) Hc). intros x e Hx He E.
  rewrite forallb_forall in Hd. apply (Ht x e (Hd x Hx) E), bound_of_length.
  pose proof (concat_in_length e es He). lia.
Qed.

Lemma unamb_fields_cons p ft fs : unamb_fields ((p, ft) :: fs) = true ->
  unamb ft = true /\ (p <> Req -> later_ok ft fs = true) /\ unamb_fields fs = true.
Proof.
  change (unamb_fields ((p, ft) :: fs)) with
    (unamb ft && (match p with Req => true | _ => later_ok ft fs end) && unamb_fields fs)%bool.
  intros H. apply andb_true_iff in H. destruct H as [H H3]. apply andb_true_iff in H. destruct H as [H1 H2].
  split; [exact H1|split; [|exact H3]]. intros Hp. destruct p; [congruence|exact H2|exact H2].
Qed.

(* what a SEQUENCE encoder, of the reference or of the model, has written for the abstract record
   [slots]: an encoding that reads as the value for each component present, nothing for an absent
   OPTIONAL or DEFAULT one *)
Inductive fields_written : list (presence * ty) -> list (option aval) -> list bytes -> Prop :=
| FWnil : fields_written [] [] []
| FWpresent p ft fs a slots e es : reads_as ft a e -> fields_written fs slots es ->
    fields_written ((p, ft) :: fs) (Some a :: slots) (e :: es)
| FWopt ft fs slots es : fields_written fs slots es -> fields_written ((Opt, ft) :: fs) (None :: slots) es
| FWdef d ft fs slots es : fields_written fs slots es ->
    fields_written ((Def d, ft) :: fs) (Some (abs ft d) :: slots) es.

(* the reader attributes each member to its component: an absent component is recognised because the
   next member, if any, carries a tag it cannot start with (X.680 25.6) *)
Lemma written_read : forall fs slots es, fields_written fs slots es -> unamb_fields fs = true ->
  exists kids, Forall2 parses es kids /\ fields_read fs kids slots /\
               (forall ft0, later_ok ft0 fs = true -> head_differs ft0 kids).
Proof.
  induction 1 as [|p ft fs a slots e es Hr _ IH|ft fs slots es _ IH|d ft fs slots es _ IH]; intros Hu.
  - exists []. split; [constructor|split; [constructor|]]. intros; exact I.
  - destruct (unamb_fields_cons _ _ _ Hu) as (_ & _ & Hu3). destruct (IH Hu3) as (kids & Hk & Hf & _).
    destruct (reads_none ft a e Hr) as (n & Hp & Hi & Hftag).
    exists (n :: kids). split; [constructor; assumption|split; [apply FRpresent; assumption|]].
    intros ft0 Hl0. cbn [later_ok] in Hl0. apply andb_true_iff in Hl0. destruct Hl0 as [Hdj _].
    unfold tags_disjoint in Hdj. rewrite Hftag in Hdj. cbn [head_differs].
    destruct (may_start ft0 (node_tag n)); [discriminate Hdj|reflexivity].
  - destruct (unamb_fields_cons _ _ _ Hu) as (_ & Hu2 & Hu3). destruct (IH Hu3) as (kids & Hk & Hf & Hh).
    exists kids. split; [exact Hk|split; [apply FRopt; [apply Hh, Hu2; discriminate|exact Hf]|]].
    intros ft0 Hl0. cbn [later_ok] in Hl0. apply andb_true_iff in Hl0. apply Hh, Hl0.
  - destruct (unamb_fields_cons _ _ _ Hu) as (_ & Hu2 & Hu3). destruct (IH Hu3) as (kids & Hk & Hf & Hh).
    exists kids. split; [exact Hk|split; [apply FRdef; [apply Hh, Hu2; discriminate|exact Hf]|]].
    intros ft0 Hl0. cbn [later_ok] in Hl0. apply andb_true_iff in Hl0. apply Hh, Hl0.
Qed.

Lemma seq_written : forall fs, Forall (fun f => canon_reads (snd f)) fs ->
  forall vs es, deep_fields fs vs = true ->
  canon_fields false fs vs = Some es -> N.of_nat (length (concat es)) < max_len ->
  fields_written fs (abs_fields fs vs) es.
Proof.
  induction fs as [|[p ft] fs' IH]; intros Hall vs es Hd Hc Hl.
  - cbn in Hc. injection Hc as <-. constructor.
  - inversion Hall as [|? ? Hft Hall']; subst. cbn [snd] in Hft. specialize (IH Hall' (otl vs)).
    rewrite deep_fields_cons in Hd. apply andb_true_iff in Hd. destruct Hd as [Hd1 Hd2].
    rewrite canon_fields_cons in Hc. rewrite abs_fields_cons.
    assert (Hpresent: forall x, der_ref_deep ft x = true ->
              opt_bind (canon false ft x) (fun e => opt_bind (canon_fields false fs' (otl vs)) (fun r => Some (e :: r))) = Some es ->
              fields_written ((p, ft) :: fs') (Some (abs ft x) :: abs_fields fs' (otl vs)) es).
    { intros x Hx H.
      destruct (canon false ft x) as [e0|] eqn:E0; cbn [opt_bind] in H; [|discriminate H].
      destruct (canon_fields false fs' (otl vs)) as [es'|] eqn:Er; cbn [opt_bind] in H; [|discriminate H].
      injection H as <-. destruct (concat_length_head e0 es') as [L1 L2].
      apply FWpresent; [apply (Hft x e0 Hx E0), bound_of_length; lia|apply (IH es' Hd2 eq_refl); lia]. }
    destruct p as [| |d]; destruct (ohd vs) as [x|].
    + apply (Hpresent x Hd1 Hc).
    + discriminate Hd1.
    + apply andb_true_iff in Hd1. apply (Hpresent x (proj2 Hd1) Hc).
    + apply FWopt, (IH es Hd2 Hc Hl).
    + apply andb_true_iff in Hd1. destruct Hd1 as [Hd1 Hdd]. apply andb_true_iff in Hd1. destruct Hd1 as [Hs Hx].
      destruct (is_default ft x d) eqn:Eq; [|apply (Hpresent x Hx Hc)].
      rewrite (default_is_equal ft x d Hs Hx Hdd Eq). apply FWdef, (IH es Hd2 Hc Hl).
    + apply FWdef, (IH es Hd2 Hc Hl).
Qed.

Theorem canon_reads_deep : forall T, unamb T = true -> canon_reads T.
Proof.
  induction T as [| | | | | | | | n|fs IH|fs IH|t IH|t IH|alts IH| |tg x IH|tg x IH] using ty_ind'; intros Hu.
  1-9: intros v e Hd Hc Hb; apply canon_reads_simple; [reflexivity|exact Hd|exact Hc|exact Hb].
  - (* SEQUENCE *)
    intros v e Hd Hc Hb.
    destruct v as [bb|z|bs|bo|cs| |arcs|r|vs|xs|i x|ab]; try discriminate Hd.
    rewrite deep_seq in Hd. rewrite unamb_seq in Hu. rewrite canon_seq in Hc.
    destruct (canon_fields false fs vs) as [es|] eqn:Ef; cbn [opt_bind] in Hc; [|discriminate Hc]. injection Hc as <-.
    apply (bound_tlv Univ true 16 (concat es)) in Hb.
    assert (Hall: Forall (fun f => canon_reads (snd f)) fs).
    { clear - IH Hu. induction fs as [|[p ft] fs' IHfs]; [constructor|].
      inversion IH as [|? ? H1 H2]; subst. destruct (unamb_fields_cons _ _ _ Hu) as (Hu1 & _ & Hu3).
      constructor; [exact (H1 Hu1)|exact (IHfs H2 Hu3)]. }
    destruct (written_read fs _ es (seq_written fs Hall vs es Hd Ef Hb) Hu) as (kids & Hk & Hf & _).
    rewrite abs_seq. apply (reads_seq fs false _ es kids Hk Hf); [discriminate|intros _; exact Hb].
  - (* SET *) intros v e Hd. destruct v; discriminate Hd.
  - (* SEQUENCE OF *)
    intros v e Hd Hc Hb.
    destruct v as [bb|z|bs|bo|cs| |arcs|r|vs|xs|i x|ab]; try discriminate Hd. cbn [der_ref_deep] in Hd.
    rewrite canon_seqof in Hc.
    destruct (opt_all (map (canon false t) xs)) as [es|] eqn:Ef; cbn [opt_bind] in Hc; [|discriminate Hc]. injection Hc as <-.
    apply (bound_tlv Univ true 16 (concat es)) in Hb.
    cbn [abs]. apply (reads_seqof t false); [|discriminate|intros _; exact Hb].
    apply (seqof_reads t (IH Hu) xs es Hd Ef Hb).
  - (* SET OF *) intros v e Hd. destruct v; discriminate Hd.
  - (* CHOICE *) intros v e Hd. destruct v; discriminate Hd.
  - (* ANY *) intros v e Hd. destruct v; discriminate Hd.
  - (* IMPLICIT *)
    intros v e Hd Hc Hb. cbn [unamb] in Hu. cbn [der_ref_deep] in Hd. rewrite canon_imp in Hc.
    destruct (canon false x v) as [ex|] eqn:Ex; cbn [opt_bind] in Hc; [|discriminate Hc].
    pose proof (IH Hu v ex Hd Ex (bound_retag tg ex e Hc Hb)) as Hr.
    destruct (reads_imp tg x _ ex Hr) as (e' & He' & Hr'). rewrite Hc in He'. injection He' as <-.
    replace (abs (TImp tg x) v) with (abs x v) by (destruct v; reflexivity). exact Hr'.
  - (* EXPLICIT *)
    intros v e Hd Hc Hb. cbn [unamb] in Hu. cbn [der_ref_deep] in Hd. rewrite canon_exp in Hc.
    assert (Hc': opt_bind (canon false x v) (fun e0 => Some (ctlv false (tcls tg) (tnum tg) e0)) = Some e).
    { destruct (tcls tg); [discriminate Hc|exact Hc|exact Hc|exact Hc]. }
    destruct (canon false x v) as [ex|] eqn:Ex; cbn [opt_bind] in Hc'; [|discriminate Hc']. injection Hc' as <-.
    apply (bound_tlv (tcls tg) true (tnum tg) ex) in Hb.
    replace (abs (TExp tg x) v) with (abs x v) by (destruct v; reflexivity).
    apply (reads_exp tg x _ ex false); [|discriminate|intros _; exact Hb].
    apply (IH Hu v ex Hd Ex). apply bound_of_length. exact Hb.
Qed.

(* the reference reads its own distinguished encodings, whatever follows them *)
Theorem der_read_back_deep : forall T v b tl,
  der_ref_deep T v = true -> unamb T = true ->
  X690.der T v = Some b -> N.of_nat (length b) < max_len ->
  X690.read T (b ++ tl) = Some (abs T v, tl).
Proof.
  intros T v b tl Hd Hu Hc Hl. apply reads_read.
  apply (canon_reads_deep T Hu v b Hd Hc). apply bound_of_length. exact Hl.
Qed.

(* simple types under any stack of tags: no condition on the type at all *)
Lemma unamb_simple T : simple_base (base_of T) = true -> unamb T = true.
Proof.
  induction T as [| | | | | | | | n|fs IH|fs IH|t IH|t IH|alts IH| |tg x IH|tg x IH] using ty_ind'; intros H;
    try reflexivity; try discriminate H; cbn [unamb base_of] in *; apply IH; exact H.
Qed.

Theorem der_read_back_simple : forall T v b tl,
  der_ref_val T v = true -> X690.der T v = Some b -> N.of_nat (length b) < max_len ->
  X690.read T (b ++ tl) = Some (abs T v, tl).
Proof.
  intros T v b tl Hd Hc Hl.
  pose proof (der_ref_simple _ _ Hd) as Hs.
  apply der_read_back_deep; [rewrite (deep_simple T v Hs); exact Hd|apply unamb_simple; exact Hs|exact Hc|exact Hl].
Qed.

(* with DerReference: every DER encoder output, read by the independent reader guided by the same
   type, denotes the same abstract value and is consumed exactly *)
Theorem der_encoder_output_reads : forall T v b,
  der_ref_deep T v = true -> unamb T = true -> encode DER true 0 T v = Ok b -> N.of_nat (length b) < max_len ->
  X690.read T b = Some (abs T v, []).
Proof.
  intros T v b Hd Hu He Hl. rewrite <- (app_nil_r b).
  apply der_read_back_deep; [exact Hd|exact Hu|apply der_is_reference_deep; assumption|exact Hl].
Qed.

Example der_read_back_witness :
  let T := TImp (mkTag Appl false 7) (TSeq [
     (Req, TInt);
     (Opt, TImp (mkTag Ctx false 0) (TStr 12));
     (Def (VBool false), TExp (mkTag Ctx false 1) TBool);
     (Def (VInt 5), TImp (mkTag Ctx false 2) TInt);
     (Req, TExp (mkTag Ctx false 3) (TSeqOf (TSeq [(Req, TOid); (Opt, TNull)])));
     (Opt, TBits)]) in
  let v := VRec [Some (VInt 300); None; Some (VBool false); Some (VInt 6);
     Some (VList [VRec [Some (VOid [1;2;840]); Some VNull]; VRec [Some (VOid [2;5]); None]]); None] in
  der_ref_deep T v = true /\ unamb T = true /\
  exists b, encode DER true 0 T v = Ok b /\ der T v = Some b /\ N.of_nat (length b) < max_len /\
            read T (b ++ [7; 7]) = Some (abs T v, [7; 7]).
Proof.
  cbv zeta. split; [vm_compute; reflexivity|]. split; [vm_compute; reflexivity|].
  eexists. split; [vm_compute; reflexivity|]. split; [vm_compute; reflexivity|].
  split; [vm_compute; reflexivity|]. vm_compute. reflexivity.
Qed.

(* why [unamb]: two adjacent OPTIONAL components with the same tag - the reader (like any reader)
   attributes the single member present to the first of them *)
Example der_read_back_needs_distinct_tags :
  let T := TSeq [(Opt, TInt); (Opt, TInt)] in let v := VRec [None; Some (VInt 5)] in
  der_ref_deep T v = true /\ unamb T = false /\ der T v = Some [48; 3; 2; 1; 5] /\
  read T [48; 3; 2; 1; 5] = Some (ARec [Some (AInt 5); None], []) /\ abs T v = ARec [None; Some (AInt 5)].
Proof. vm_compute. repeat split. Qed.

Print Assumptions canon_reads_deep.
Print Assumptions der_read_back_deep.
Print Assumptions der_read_back_simple.
Print Assumptions der_encoder_output_reads.
