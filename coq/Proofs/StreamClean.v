(* The marked-position form of the decoder's invariant (StreamStage2.v), for trees that seek back to the mark.

   The invariant there has two parts: a run that ends in a value was clean or ends at the end of what has
   arrived ([PA], there [clean_or_end]); from the end of what has arrived a run ends there ([PB1], there
   [end_to_end]).  A tree that seeks back to the marked position keeps the second part only if the mark is
   at the position, as it is right after the entry point has set it: that is [PB2], and [Inv2] with it.
   The rules below carry [Inv2] through such a tree ([Inv1_Mark], [Inv2_seek_mark], [Inv2_pbind]).  The
   decoders of Model/Dec.v do not need them: the ANY decoders, the only ones that seek back to the mark, are
   clean trees ([clean_dec_any]). *)
From PV Require Import Base.Bytes Model.Proc Model.Dec Proofs.ProcBind Proofs.ProcSim Proofs.StreamStage2.
Local Open Scope nat_scope.

Definition at_end (s: stream) : Prop := length (avail s) = 0.

(* a run that ends in a value was a clean run, or ends at the end of what has arrived *)
Definition PA {A} (p: proc A) : Prop :=
  forall s a s', resume p s = inr (Ok a, s') -> clean_run p s = true \/ at_end s'.
(* from the end of what has arrived a run ends there: for trees that do not look at the marked position
   ([PB1]), and for those that run right after it was set ([PB2]) *)
Definition PB1 {A} (p: proc A) : Prop :=
  forall s a s', at_end s -> resume p s = inr (Ok a, s') -> at_end s'.
Definition PB2 {A} (p: proc A) : Prop :=
  forall s a s', at_end s -> mark s = pos s -> resume p s = inr (Ok a, s') -> at_end s'.

Definition Inv1 {A} (p: proc A) : Prop := PA p /\ PB1 p.
Definition Inv2 {A} (p: proc A) : Prop := PA p /\ PB2 p.

(* no value from the end of the stream *)
Definition stuck {A} (p: proc A) : Prop := forall s a s', at_end s -> resume p s <> inr (Ok a, s').

Lemma Inv1_to_2 {A} (p: proc A) : Inv1 p -> Inv2 p.
Proof. intros [Ha Hb]. split; [exact Ha|]. intros s a s' He _ H. exact (Hb s a s' He H). Qed.

Lemma stuck_PB2 {A} (p: proc A) : stuck p -> PB2 p.
Proof. intros Hs s a s' He _ H. exfalso. exact (Hs s a s' He H). Qed.

Lemma Inv2_Tell {A} (k: nat -> proc A) : (forall q, Inv2 (k q)) -> Inv2 (Tell k).
Proof.
  intros Hk. split.
  - intros s a s' H. exact (proj1 (Hk (pos s)) s a s' H).
  - intros s a s' He Hm H. exact (proj2 (Hk (pos s)) s a s' He Hm H).
Qed.

Lemma Inv1_GetMark {A} (k: nat -> proc A) : (forall q, Inv1 (k q)) -> Inv1 (GetMark k).
Proof.
  intros Hk. split.
  - intros s a s' H. exact (proj1 (Hk (mark s)) s a s' H).
  - intros s a s' He H. exact (proj2 (Hk (mark s)) s a s' He H).
Qed.

(* setting the mark establishes what the seek-back relies on *)
Lemma Inv1_Mark {A} (k: proc A) : Inv2 k -> Inv1 (Mark k).
Proof.
  intros [Ha Hb]. split.
  - intros s a s' H. exact (Ha _ a s' H).
  - intros s a s' He H. cbn [resume] in H. exact (Hb (setmark s (pos s)) a s' He eq_refl H).
Qed.

Lemma Inv2_pbind {A B} (p: proc A) (f: A -> proc B) : Inv2 p -> (forall a, Inv1 (f a)) -> Inv2 (pbind p f).
Proof.
  intros [Hpa Hpb] Hf. split; [exact (coe_pbind p f Hpa Hf)|].
  intros s b s' He Hm H.
  destruct (resume_pbind_inv p f s b s' H) as (a & s1 & H1 & H2).
  exact (proj2 (Hf a) s1 b s' (Hpb s a s1 He Hm H1) H2).
Qed.

(* the seek-back to the marked position *)
Lemma Inv2_seek_mark {A} (k: nat -> nat -> proc A) : (forall m p, Inv1 (k m p)) ->
  Inv2 (let! m := getmark in let! p := tell in SeekBack (p - m) (k m p)).
Proof.
  intros Hk. split.
  - intros s a s' H. exact (proj1 (Hk (mark s) (pos s)) _ a s' H).
  - intros s a s' He Hm H. cbn [pbind getmark tell resume] in H.
    rewrite Hm, Nat.sub_diag, Nat.sub_0_r, (setpos_same s (pos s) eq_refl) in H.
    exact (proj2 (Hk _ _) s a s' He H).
Qed.

Lemma Inv1_long_tag cl f : forall k acc, Inv1 (long_tag cl f k acc).
Proof.
  induction k as [|k IH]; intros acc; cbn [long_tag]; cbv zeta; [exact (inv_Raise _)|].
  refine (inv_pbind _ _ inv_read1 _). intros b.
  destruct (N.eqb (N.land b 128) 0); [exact (inv_Ret _)|apply IH].
Qed.
