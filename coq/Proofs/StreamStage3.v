(* The streaming properties (C05, C06, C07), UNCONDITIONALLY, for
     (A) the whole type universe of stage 3 (OPTIONAL / DEFAULT, SET, CHOICE, ANY, ...; definite lengths;
         encoders BER and DER; decoders BER, CER and DER), and
     (B) the indefinite-length / segmented / CER modes of the stage-2 fragment (any encoder whose options
         are stable; decoders BER and CER), where the decoder looks ahead for the end-of-octets marker
         00 00 before every component and every fragment.
   Method: StreamStage2.v shows that EVERY consuming run of the item decoder is a clean run
   ([consumes_clean_dec_call]) and derives the three properties from that ([c06_of_clean], [c05_of_clean],
   [c07_of_clean]); the round-trip theorems of RoundTrip3*.v and RoundTripModes*.v provide the consuming runs. *)
From Coq Require Import Lia Permutation.
From PV Require Import Base.Bytes Model.Tag Model.TableTypes Model.Types Model.Proc Model.Enc Model.Dec Gen.Tables
     Proofs.ProcBind Proofs.RunLemmas Proofs.TagOctets Proofs.DecHeader Proofs.DecFrame Proofs.TagsetShape
     Proofs.RoundTrip1 Proofs.RoundTrip2
     Proofs.RoundTrip3 Proofs.RoundTrip3a Proofs.RoundTrip3b Proofs.RoundTrip3c Proofs.RoundTrip3d Proofs.RoundTrip3e Proofs.RoundTrip3f
     Proofs.RoundTripModesA Proofs.RoundTripModesB Proofs.RoundTripModesC Proofs.RoundTripModesBag Proofs.RoundTripModes
     Proofs.ProcSim Proofs.ProcSched Proofs.DecStream Proofs.StreamStage2.
Local Open Scope N_scope.

(* the decoded object is a value of the type whose abstract contents are R-related to those written *)
Definition same_rel (R: aval -> aval -> Prop) (T: ty) (v: val) (d: dval) : Prop :=
  exists v', d = DV T v' /\ R (abs T v') (abs T v).

(* what C07 says of encodings bs laid end to end, decoded into ds *)
Definition c07_concl (c: codec) (fuel: nat) (sp: option ty) (bs: list bytes) (ds: list dval) : Prop :=
  length ds = length bs
  /\ (forall i, (i < length bs)%nat -> nth i (ends 0 bs) 0%nat = length (concat (firstn (S i) bs)))
  /\ (exists sF, run_complete (streaming c fuel sp) (concat bs) = inr (Ok (combine ds (ends 0 bs)), sF)
                 /\ pos sF = length (concat bs))
  /\ forall sched, wf_sched false sched -> has_close sched = true -> arrivals sched = concat bs ->
     exists j, drive sched (streaming c fuel sp) (mkStream [] 0 false 0)
               = repeat OUnder j ++ [ODone (Ok (combine ds (ends 0 bs))) (length (concat bs))].

(* from a round-trip theorem for the values related by P to their encodings, to the stream of them *)
Lemma c07_of_roundtrip (P: val -> bytes -> Prop) (R: aval -> aval -> Prop) c T :
  (forall v b, P v b -> (0 < length b)%nat /\ exists v', R (abs T v') (abs T v) /\
     forall fuel, (length b + ty_depth T <= fuel)%nat -> consumes_clean (dec_item c fuel (Some T)) b (DV T v')) ->
  forall vs bs fuel, Forall2 P vs bs -> bs <> [] -> (length bs <= fuel)%nat ->
  (forall b, In b bs -> (length b + ty_depth T <= fuel)%nat) ->
  exists ds, Forall2 (same_rel R T) vs ds /\ c07_concl c fuel (Some T) bs ds.
Proof.
  intros H vs bs fuel HF Hne Hn Hfuel.
  destruct (c07_of_vals P (same_rel R T) c fuel (Some T) (ty_depth T)) with (vs := vs) (bs := bs)
    as (ds & HS & Hit); [|exact HF|exact Hfuel|].
  - intros v b Hq Hf. destruct (H v b Hq) as (Hl & v' & HRv & Hc).
    exists (DV T v'). split; [exists v'; split; [reflexivity|exact HRv]|]. split; [exact (Hc fuel Hf)|exact Hl].
  - exists ds. split; [exact HS|]. exact (c07_of_clean c fuel (Some T) bs ds Hit Hne Hn).
Qed.

(* the consuming run of the stage-3 round trip (cf. RoundTrip3c.stage3_decode) is a clean run *)
Theorem stage3_consumes_clean : forall ce cd R srt, enc_ok ce -> rel_ok R srt -> forall T v b,
  stage3_ty srt ce T = true -> stage3_val ce cd T v = true ->
  encode ce true 0 T v = Ok b -> N.of_nat (length b) <= index_max ->
  (0 < length b)%nat /\ exists v', R (abs T v') (abs T v) /\
    forall fuel, (length b + ty_depth T <= fuel)%nat -> consumes_clean (dec_item cd fuel (Some T)) b (DV T v').
Proof.
  intros ce cd R srt Hce HR T v b Hty Hv He Hmax.
  pose proof (frag_all T) as Hfr.
  assert (Hany_item: true = true -> forall x, stage3_val ce cd TAny x = true -> item_sty ce cd R TAny x)
    by (intros _ x Hx; exact (any_item ce cd Hce R srt HR x Hx)).
  assert (Hdir: direct_ok T = true).
  { unfold direct_ok. destruct T; try (rewrite (top_keys ce srt); [reflexivity|exact Hty|discriminate]). apply Bool.orb_true_r. }
  assert (Hval: T <> TAny -> forall y, Pv3 ce cd T y -> val_ok ce cd R T y).
  { intros Hn y Hy.
    apply (stage3_val_ok ce cd Hce R srt HR true true
             (fun _ T' fs => set_val ce cd Hce R srt HR (Pv3 ce cd) T' fs) Hany_item
             (fun _ T' Hb Hwr Hty' x Hx => any_val_tagged ce cd Hce R srt HR srt T' Hb Hwr Hty' x Hx)
             T T eq_refl Hty Hfr Hn y Hy). }
  pose proof (direct_item ce cd R true true Hany_item T Hval Hfr Hdir v Hv) as Hit.
  destruct (Hit b He Hmax) as (v' & HRv & Hl & Hc).
  split; [exact Hl|]. exists v'. split; [exact HRv|]. intros fuel Hf.
  apply (consumes_clean_dec_item cd fuel (Some T) b (DV T v') Hl). exact (Hc fuel Hf).
Qed.

Print Assumptions stage3_consumes_clean.

(* whichever way SET OF contents are compared *)
Lemma stage3_consumes_clean_srt : forall ce cd srt T v b,
  enc_ok ce -> stage3_ty srt ce T = true -> stage3_val ce cd T v = true ->
  encode ce true 0 T v = Ok b -> N.of_nat (length b) <= index_max ->
  exists v', forall fuel, (length b + ty_depth T <= fuel)%nat -> consumes_clean (dec_item cd fuel (Some T)) b (DV T v').
Proof.
  intros ce cd srt T v b Hce Hty Hv He Hmax. destruct srt.
  - destruct (stage3_consumes_clean ce cd aeq true Hce rel_ok_aeq T v b Hty Hv He Hmax) as (_ & v' & _ & Hc). eauto.
  - destruct (stage3_consumes_clean ce cd eq false Hce rel_ok_eq T v b Hty Hv He Hmax) as (_ & v' & _ & Hc). eauto.
Qed.

(* C06: EVERY strict prefix of a stage-3 encoding is insufficient data *)
Theorem c06_stage3 : forall ce cd srt T v b fuel k,
  enc_ok ce -> stage3_ty srt ce T = true -> stage3_val ce cd T v = true ->
  encode ce true 0 T v = Ok b -> N.of_nat (length b) <= index_max ->
  (length b + ty_depth T <= fuel)%nat -> (k < length b)%nat ->
  decode_with cd fuel (Some T) (firstn k b) = Err EEndOfStream
  /\ exists n kont s1, resume (dec_item cd fuel (Some T)) (mkStream (firstn k b) 0 false 0) = inl (ReadN n kont, s1)
                       /\ (length (avail s1) < n)%nat.
Proof.
  intros ce cd srt T v b fuel k Hce Hty Hv He Hmax Hf Hk.
  destruct (stage3_consumes_clean_srt ce cd srt T v b Hce Hty Hv He Hmax) as (v' & Hc).
  exact (c06_of_clean cd fuel (Some T) b (DV T v') k (Hc fuel Hf) Hk).
Qed.

(* the same through [decode], which chooses its fuel from the (shorter) input: for the prefixes long
   enough for that fuel to cover the whole encoding *)
Corollary c06_stage3_decode_partial : forall ce cd srt T v b k,
  enc_ok ce -> stage3_ty srt ce T = true -> stage3_val ce cd T v = true ->
  encode ce true 0 T v = Ok b -> N.of_nat (length b) <= index_max ->
  (k < length b)%nat -> (length b <= 2 * k + ty_depth T + 6)%nat ->
  decode cd (Some T) (firstn k b) = Err EEndOfStream.
Proof.
  intros ce cd srt T v b k Hce Hty Hv He Hmax.
  destruct (stage3_consumes_clean_srt ce cd srt T v b Hce Hty Hv He Hmax) as (v' & Hc).
  exact (c06_decode_partial cd T b (DV T v') k Hc).
Qed.

(* C05: any arrival schedule gives the one-shot result *)
Theorem c05_stage3_gen : forall ce cd R srt, enc_ok ce -> rel_ok R srt -> forall T v b,
  stage3_ty srt ce T = true -> stage3_val ce cd T v = true ->
  encode ce true 0 T v = Ok b -> N.of_nat (length b) <= index_max ->
  exists v', R (abs T v') (abs T v) /\
    forall fuel tl sched, (length b + ty_depth T <= fuel)%nat ->
    wf_sched false sched -> arrivals sched = b ++ tl ->
    decode_with cd fuel (Some T) (b ++ tl) = Ok (DV T v', tl)
    /\ exists j, drive sched (dec_item cd fuel (Some T)) (mkStream [] 0 false 0)
                 = repeat OUnder j ++ [ODone (Ok (DV T v')) (length b)].
Proof.
  intros ce cd R srt Hce HR T v b Hty Hv He Hmax.
  destruct (stage3_consumes_clean ce cd R srt Hce HR T v b Hty Hv He Hmax) as (_ & v' & HRv & Hc).
  exists v'. split; [exact HRv|]. intros fuel tl sched Hf Hw Harr.
  exact (c05_of_clean cd fuel (Some T) b (DV T v') (Hc fuel Hf) tl sched Hw Harr).
Qed.

Theorem c05_stage3_sched : forall ce cd T v b,
  enc_ok ce -> stage3_ty false ce T = true -> stage3_val ce cd T v = true ->
  encode ce true 0 T v = Ok b -> N.of_nat (length b) <= index_max ->
  exists v', abs T v' = abs T v /\
    forall fuel tl sched, (length b + ty_depth T <= fuel)%nat ->
    wf_sched false sched -> arrivals sched = b ++ tl ->
    decode_with cd fuel (Some T) (b ++ tl) = Ok (DV T v', tl)
    /\ exists j, drive sched (dec_item cd fuel (Some T)) (mkStream [] 0 false 0)
                 = repeat OUnder j ++ [ODone (Ok (DV T v')) (length b)].
Proof. intros ce cd T v b Hce. exact (c05_stage3_gen ce cd eq false Hce rel_ok_eq T v b). Qed.

(* with SET OF under the DER encoder, which sorts the elements: contents equal up to their order *)
Theorem c05_stage3_sched_bag : forall ce cd T v b,
  enc_ok ce -> stage3_ty true ce T = true -> stage3_val ce cd T v = true ->
  encode ce true 0 T v = Ok b -> N.of_nat (length b) <= index_max ->
  exists v', aeq (abs T v') (abs T v) /\
    forall fuel tl sched, (length b + ty_depth T <= fuel)%nat ->
    wf_sched false sched -> arrivals sched = b ++ tl ->
    decode_with cd fuel (Some T) (b ++ tl) = Ok (DV T v', tl)
    /\ exists j, drive sched (dec_item cd fuel (Some T)) (mkStream [] 0 false 0)
                 = repeat OUnder j ++ [ODone (Ok (DV T v')) (length b)].
Proof. intros ce cd T v b Hce. exact (c05_stage3_gen ce cd aeq true Hce rel_ok_aeq T v b). Qed.

(* C07: n >= 1 values written one after the other *)
Definition enc3_all (ce cd: codec) (T: ty) (vs: list val) (bs: list bytes) : Prop :=
  Forall2 (fun v b => stage3_val ce cd T v = true /\ encode ce true 0 T v = Ok b /\ N.of_nat (length b) <= index_max) vs bs.

Theorem c07_stage3_gen : forall ce cd R srt, enc_ok ce -> rel_ok R srt -> forall T vs bs fuel,
  stage3_ty srt ce T = true -> enc3_all ce cd T vs bs -> bs <> [] ->
  (length bs <= fuel)%nat -> (forall b, In b bs -> (length b + ty_depth T <= fuel)%nat) ->
  exists ds, Forall2 (same_rel R T) vs ds /\ c07_concl cd fuel (Some T) bs ds.
Proof.
  intros ce cd R srt Hce HR T vs bs fuel Hty. apply c07_of_roundtrip.
  intros v b (Hv & He & Hmax). exact (stage3_consumes_clean ce cd R srt Hce HR T v b Hty Hv He Hmax).
Qed.

Theorem c07_stage3_stream : forall ce cd T vs bs fuel,
  enc_ok ce -> stage3_ty false ce T = true -> enc3_all ce cd T vs bs -> bs <> [] ->
  (length bs <= fuel)%nat -> (forall b, In b bs -> (length b + ty_depth T <= fuel)%nat) ->
  exists ds, Forall2 (same_rel eq T) vs ds /\ c07_concl cd fuel (Some T) bs ds.
Proof. intros ce cd T vs bs fuel Hce. exact (c07_stage3_gen ce cd eq false Hce rel_ok_eq T vs bs fuel). Qed.

Theorem c07_stage3_stream_bag : forall ce cd T vs bs fuel,
  enc_ok ce -> stage3_ty true ce T = true -> enc3_all ce cd T vs bs -> bs <> [] ->
  (length bs <= fuel)%nat -> (forall b, In b bs -> (length b + ty_depth T <= fuel)%nat) ->
  exists ds, Forall2 (same_rel aeq T) vs ds /\ c07_concl cd fuel (Some T) bs ds.
Proof. intros ce cd T vs bs fuel Hce. exact (c07_stage3_gen ce cd aeq true Hce rel_ok_aeq T vs bs fuel). Qed.

Print Assumptions c06_stage3.
Print Assumptions c06_stage3_decode_partial.
Print Assumptions c05_stage3_sched.
Print Assumptions c05_stage3_sched_bag.
Print Assumptions c07_stage3_stream.
Print Assumptions c07_stage3_stream_bag.

(* the consuming run of the round trip under any encoder mode (cf. RoundTripModes.modes_item_rel) is a clean run *)
Theorem modes_consumes_clean_gen (R: aval -> aval -> Prop) (srt: bool) : rel_ok R srt ->
  forall ce cd d k T v b,
  stable ce d k -> dec_ok cd -> dom ce d srt T = true -> modes_val ce cd T v = true ->
  encode ce d k T v = Ok b -> N.of_nat (length b) <= index_max ->
  (2 <= length b)%nat /\ exists v', R (abs T v') (abs T v) /\
    forall fuel, (length b + ty_depth T <= fuel)%nat -> consumes_clean (dec_item cd fuel (Some T)) b (DV T v').
Proof.
  intros HR ce cd d k T v b Hst Hcd Hty Hv He Hmax.
  destruct (modes_item_rel R srt HR ce cd d k Hst Hcd T v Hty Hv b He Hmax) as (Hl & _ & v' & Habs & Hc).
  split; [exact Hl|]. exists v'. split; [exact Habs|]. intros fuel Hf.
  apply (consumes_clean_dec_item cd fuel (Some T) b (DV T v') ltac:(lia)). exact (Hc fuel false Hf).
Qed.

(* equality of abstract values; SET OF only where the encoder keeps the order of the elements *)
Theorem modes_consumes_clean : forall ce cd d k T v b,
  stable ce d k -> dec_ok cd -> dom ce d false T = true -> modes_val ce cd T v = true ->
  encode ce d k T v = Ok b -> N.of_nat (length b) <= index_max ->
  (2 <= length b)%nat /\ exists v', abs T v' = abs T v /\
    forall fuel, (length b + ty_depth T <= fuel)%nat -> consumes_clean (dec_item cd fuel (Some T)) b (DV T v').
Proof. exact (modes_consumes_clean_gen eq false rel_ok_eq). Qed.

(* SET OF under the sorting encoders (CER, DER): the model's comparison, which takes SET OF contents as
   multisets; it agrees with [aeq] on what the encoder accepted (no REAL from a Python float) *)
Theorem modes_consumes_clean_setof : forall ce cd d k T v b,
  stable ce d k -> dec_ok cd -> dom ce d true T = true -> modes_val ce cd T v = true ->
  encode ce d k T v = Ok b -> N.of_nat (length b) <= index_max ->
  (2 <= length b)%nat /\ exists v', aval_eqb (abs T v') (abs T v) = true /\
    forall fuel, (length b + ty_depth T <= fuel)%nat -> consumes_clean (dec_item cd fuel (Some T)) b (DV T v').
Proof.
  intros ce cd d k T v b Hst Hcd Hty Hv He Hmax.
  destruct (modes_consumes_clean_gen aeq true rel_ok_aeq ce cd d k T v b Hst Hcd Hty Hv He Hmax) as (Hl & v' & Ha & Hc).
  split; [exact Hl|]. exists v'. split; [|exact Hc]. apply aval_eqb_sym.
  exact (proj2 (aval_eqb_aeq (abs T v)) (modes_agood ce cd T v Hv) _ (aeq_sym _ _ Ha)).
Qed.

Print Assumptions modes_consumes_clean.
Print Assumptions modes_consumes_clean_setof.

(* C06 in every mode: for EVERY cut point k < length b - in particular between and inside the end-of-octets
   markers 00 00, and inside the two octets the decoder looks ahead for one - decoding the prefix on a
   closed stream fails with the end-of-stream error, on an open stream it suspends on an unsatisfied read *)
Theorem c06_modes : forall ce cd d chunk T v b fuel k,
  stable ce d chunk -> dec_ok cd -> dom ce d true T = true -> modes_val ce cd T v = true ->
  encode ce d chunk T v = Ok b -> N.of_nat (length b) <= index_max ->
  (length b + ty_depth T <= fuel)%nat -> (k < length b)%nat ->
  decode_with cd fuel (Some T) (firstn k b) = Err EEndOfStream
  /\ exists n kont s1, resume (dec_item cd fuel (Some T)) (mkStream (firstn k b) 0 false 0) = inl (ReadN n kont, s1)
                       /\ (length (avail s1) < n)%nat.
Proof.
  intros ce cd d chunk T v b fuel k Hst Hcd Hty Hv He Hmax Hf Hk.
  destruct (modes_consumes_clean_setof ce cd d chunk T v b Hst Hcd Hty Hv He Hmax) as (_ & v' & _ & Hc).
  exact (c06_of_clean cd fuel (Some T) b (DV T v') k (Hc fuel Hf) Hk).
Qed.

Corollary c06_modes_decode_partial : forall ce cd d chunk T v b k,
  stable ce d chunk -> dec_ok cd -> dom ce d true T = true -> modes_val ce cd T v = true ->
  encode ce d chunk T v = Ok b -> N.of_nat (length b) <= index_max ->
  (k < length b)%nat -> (length b <= 2 * k + ty_depth T + 6)%nat ->
  decode cd (Some T) (firstn k b) = Err EEndOfStream.
Proof.
  intros ce cd d chunk T v b k Hst Hcd Hty Hv He Hmax.
  destruct (modes_consumes_clean_setof ce cd d chunk T v b Hst Hcd Hty Hv He Hmax) as (_ & v' & _ & Hc).
  exact (c06_decode_partial cd T b (DV T v') k Hc).
Qed.

(* C05 in every mode: every arrival schedule delivering b (and any tail) gives the one-shot result *)
Theorem c05_modes : forall ce cd d chunk T v b,
  stable ce d chunk -> dec_ok cd -> dom ce d false T = true -> modes_val ce cd T v = true ->
  encode ce d chunk T v = Ok b -> N.of_nat (length b) <= index_max ->
  exists v', abs T v' = abs T v /\
    forall fuel tl sched, (length b + ty_depth T <= fuel)%nat ->
    wf_sched false sched -> arrivals sched = b ++ tl ->
    decode_with cd fuel (Some T) (b ++ tl) = Ok (DV T v', tl)
    /\ exists j, drive sched (dec_item cd fuel (Some T)) (mkStream [] 0 false 0)
                 = repeat OUnder j ++ [ODone (Ok (DV T v')) (length b)].
Proof.
  intros ce cd d chunk T v b Hst Hcd Hty Hv He Hmax.
  destruct (modes_consumes_clean ce cd d chunk T v b Hst Hcd Hty Hv He Hmax) as (_ & v' & Habs & Hc).
  exists v'. split; [exact Habs|]. intros fuel tl sched Hf Hw Harr.
  exact (c05_of_clean cd fuel (Some T) b (DV T v') (Hc fuel Hf) tl sched Hw Harr).
Qed.

Theorem c05_modes_setof : forall ce cd d chunk T v b,
  stable ce d chunk -> dec_ok cd -> dom ce d true T = true -> modes_val ce cd T v = true ->
  encode ce d chunk T v = Ok b -> N.of_nat (length b) <= index_max ->
  exists v', aval_eqb (abs T v') (abs T v) = true /\
    forall fuel tl sched, (length b + ty_depth T <= fuel)%nat ->
    wf_sched false sched -> arrivals sched = b ++ tl ->
    decode_with cd fuel (Some T) (b ++ tl) = Ok (DV T v', tl)
    /\ exists j, drive sched (dec_item cd fuel (Some T)) (mkStream [] 0 false 0)
                 = repeat OUnder j ++ [ODone (Ok (DV T v')) (length b)].
Proof.
  intros ce cd d chunk T v b Hst Hcd Hty Hv He Hmax.
  destruct (modes_consumes_clean_setof ce cd d chunk T v b Hst Hcd Hty Hv He Hmax) as (_ & v' & Habs & Hc).
  exists v'. split; [exact Habs|]. intros fuel tl sched Hf Hw Harr.
  exact (c05_of_clean cd fuel (Some T) b (DV T v') (Hc fuel Hf) tl sched Hw Harr).
Qed.

(* C07 in every mode: b1 ++ ... ++ bn yields n objects, the i-th reported at the end of bi *)
Definition encm_all (ce cd: codec) (d: bool) (chunk: N) (T: ty) (vs: list val) (bs: list bytes) : Prop :=
  Forall2 (fun v b => modes_val ce cd T v = true /\ encode ce d chunk T v = Ok b /\ N.of_nat (length b) <= index_max) vs bs.

Theorem c07_modes : forall ce cd d chunk T vs bs fuel,
  stable ce d chunk -> dec_ok cd -> dom ce d false T = true -> encm_all ce cd d chunk T vs bs -> bs <> [] ->
  (length bs <= fuel)%nat -> (forall b, In b bs -> (length b + ty_depth T <= fuel)%nat) ->
  exists ds, Forall2 (same_rel eq T) vs ds /\ c07_concl cd fuel (Some T) bs ds.
Proof.
  intros ce cd d chunk T vs bs fuel Hst Hcd Hty. apply c07_of_roundtrip.
  intros v b (Hv & He & Hmax).
  destruct (modes_consumes_clean ce cd d chunk T v b Hst Hcd Hty Hv He Hmax) as (Hl & H). split; [lia|exact H].
Qed.

Theorem c07_modes_setof : forall ce cd d chunk T vs bs fuel,
  stable ce d chunk -> dec_ok cd -> dom ce d true T = true -> encm_all ce cd d chunk T vs bs -> bs <> [] ->
  (length bs <= fuel)%nat -> (forall b, In b bs -> (length b + ty_depth T <= fuel)%nat) ->
  exists ds, Forall2 (same_rel (fun a b => aval_eqb a b = true) T) vs ds /\ c07_concl cd fuel (Some T) bs ds.
Proof.
  intros ce cd d chunk T vs bs fuel Hst Hcd Hty. apply c07_of_roundtrip.
  intros v b (Hv & He & Hmax).
  destruct (modes_consumes_clean_setof ce cd d chunk T v b Hst Hcd Hty Hv He Hmax) as (Hl & H). split; [lia|exact H].
Qed.

Print Assumptions c06_modes.
Print Assumptions c06_modes_decode_partial.
Print Assumptions c05_modes.
Print Assumptions c05_modes_setof.
Print Assumptions c07_modes.
Print Assumptions c07_modes_setof.

Lemma dom_indefinite so T : stage2_ty T = true -> no_f01 T = true -> dom BER false so T = true.
Proof. intros H1 H2. unfold dom. rewrite H1, H2. cbn [sorts negb andb orb]. rewrite Bool.orb_true_r. reflexivity. Qed.

Lemma dom_cer T : stage2_ty T = true -> no_f01 T = true -> dom CER false true T = true.
Proof. intros H1 H2. unfold dom. rewrite H1, H2. reflexivity. Qed.

Lemma dom_cer_nosetof T : stage2_ty T = true -> no_f01 T = true -> no_setof T = true -> dom CER false false T = true.
Proof. intros H1 H2 H3. unfold dom. rewrite H1, H2, H3. reflexivity. Qed.

(* indefinite-length mode of the BER encoder, any maxChunkSize, without the class of finding F01 *)
Theorem c06_indefinite : forall cd chunk T v b fuel k,
  dec_ok cd -> stage2_ty T = true -> no_f01 T = true -> modes_val BER cd T v = true ->
  encode BER false chunk T v = Ok b -> N.of_nat (length b) <= index_max ->
  (length b + ty_depth T <= fuel)%nat -> (k < length b)%nat ->
  decode_with cd fuel (Some T) (firstn k b) = Err EEndOfStream
  /\ exists n kont s1, resume (dec_item cd fuel (Some T)) (mkStream (firstn k b) 0 false 0) = inl (ReadN n kont, s1)
                       /\ (length (avail s1) < n)%nat.
Proof.
  intros cd chunk T v b fuel k Hcd Hty Hf01.
  exact (c06_modes BER cd false chunk T v b fuel k (stable_ber false chunk) Hcd (dom_indefinite true T Hty Hf01)).
Qed.

Theorem c05_indefinite : forall cd chunk T v b,
  dec_ok cd -> stage2_ty T = true -> no_f01 T = true -> modes_val BER cd T v = true ->
  encode BER false chunk T v = Ok b -> N.of_nat (length b) <= index_max ->
  exists v', abs T v' = abs T v /\
    forall fuel tl sched, (length b + ty_depth T <= fuel)%nat ->
    wf_sched false sched -> arrivals sched = b ++ tl ->
    decode_with cd fuel (Some T) (b ++ tl) = Ok (DV T v', tl)
    /\ exists j, drive sched (dec_item cd fuel (Some T)) (mkStream [] 0 false 0)
                 = repeat OUnder j ++ [ODone (Ok (DV T v')) (length b)].
Proof.
  intros cd chunk T v b Hcd Hty Hf01.
  exact (c05_modes BER cd false chunk T v b (stable_ber false chunk) Hcd (dom_indefinite false T Hty Hf01)).
Qed.

Theorem c07_indefinite : forall cd chunk T vs bs fuel,
  dec_ok cd -> stage2_ty T = true -> no_f01 T = true -> encm_all BER cd false chunk T vs bs -> bs <> [] ->
  (length bs <= fuel)%nat -> (forall b, In b bs -> (length b + ty_depth T <= fuel)%nat) ->
  exists ds, Forall2 (same_rel eq T) vs ds /\ c07_concl cd fuel (Some T) bs ds.
Proof.
  intros cd chunk T vs bs fuel Hcd Hty Hf01.
  exact (c07_modes BER cd false chunk T vs bs fuel (stable_ber false chunk) Hcd (dom_indefinite false T Hty Hf01)).
Qed.

(* segmented strings with definite lengths (BER encoder, maxChunkSize > 0), the whole stage-2 fragment *)
Theorem c06_segmented : forall cd chunk T v b fuel k,
  dec_ok cd -> stage2_ty T = true -> modes_val BER cd T v = true ->
  encode BER true chunk T v = Ok b -> N.of_nat (length b) <= index_max ->
  (length b + ty_depth T <= fuel)%nat -> (k < length b)%nat ->
  decode_with cd fuel (Some T) (firstn k b) = Err EEndOfStream
  /\ exists n kont s1, resume (dec_item cd fuel (Some T)) (mkStream (firstn k b) 0 false 0) = inl (ReadN n kont, s1)
                       /\ (length (avail s1) < n)%nat.
Proof.
  intros cd chunk T v b fuel k Hcd Hty.
  apply (c06_modes BER cd true chunk T v b fuel k (stable_ber true chunk) Hcd). unfold dom. rewrite Hty. reflexivity.
Qed.

(* the CER encoder (indefinite lengths, segments of 1000 octets, whatever the caller asks for) *)
Theorem c06_cer_encoder : forall cd d k0 T v b fuel k,
  dec_ok cd -> stage2_ty T = true -> no_f01 T = true -> modes_val CER cd T v = true ->
  encode CER d k0 T v = Ok b -> N.of_nat (length b) <= index_max ->
  (length b + ty_depth T <= fuel)%nat -> (k < length b)%nat ->
  decode_with cd fuel (Some T) (firstn k b) = Err EEndOfStream
  /\ exists n kont s1, resume (dec_item cd fuel (Some T)) (mkStream (firstn k b) 0 false 0) = inl (ReadN n kont, s1)
                       /\ (length (avail s1) < n)%nat.
Proof.
  intros cd d k0 T v b fuel k Hcd Hty Hf01 Hv He. rewrite encode_cer_fixed in He.
  exact (c06_modes CER cd false 1000 T v b fuel k stable_cer Hcd (dom_cer T Hty Hf01) Hv He).
Qed.

Theorem c05_cer_encoder : forall cd d k0 T v b,
  dec_ok cd -> stage2_ty T = true -> no_f01 T = true -> no_setof T = true -> modes_val CER cd T v = true ->
  encode CER d k0 T v = Ok b -> N.of_nat (length b) <= index_max ->
  exists v', abs T v' = abs T v /\
    forall fuel tl sched, (length b + ty_depth T <= fuel)%nat ->
    wf_sched false sched -> arrivals sched = b ++ tl ->
    decode_with cd fuel (Some T) (b ++ tl) = Ok (DV T v', tl)
    /\ exists j, drive sched (dec_item cd fuel (Some T)) (mkStream [] 0 false 0)
                 = repeat OUnder j ++ [ODone (Ok (DV T v')) (length b)].
Proof.
  intros cd d k0 T v b Hcd Hty Hf01 Hns Hv He. rewrite encode_cer_fixed in He.
  exact (c05_modes CER cd false 1000 T v b stable_cer Hcd (dom_cer_nosetof T Hty Hf01 Hns) Hv He).
Qed.

Theorem c05_cer_encoder_setof : forall cd d k0 T v b,
  dec_ok cd -> stage2_ty T = true -> no_f01 T = true -> modes_val CER cd T v = true ->
  encode CER d k0 T v = Ok b -> N.of_nat (length b) <= index_max ->
  exists v', aval_eqb (abs T v') (abs T v) = true /\
    forall fuel tl sched, (length b + ty_depth T <= fuel)%nat ->
    wf_sched false sched -> arrivals sched = b ++ tl ->
    decode_with cd fuel (Some T) (b ++ tl) = Ok (DV T v', tl)
    /\ exists j, drive sched (dec_item cd fuel (Some T)) (mkStream [] 0 false 0)
                 = repeat OUnder j ++ [ODone (Ok (DV T v')) (length b)].
Proof.
  intros cd d k0 T v b Hcd Hty Hf01 Hv He. rewrite encode_cer_fixed in He.
  exact (c05_modes_setof CER cd false 1000 T v b stable_cer Hcd (dom_cer T Hty Hf01) Hv He).
Qed.

Theorem c07_cer_encoder : forall cd T vs bs fuel,
  dec_ok cd -> stage2_ty T = true -> no_f01 T = true -> no_setof T = true ->
  encm_all CER cd false 1000 T vs bs -> bs <> [] ->
  (length bs <= fuel)%nat -> (forall b, In b bs -> (length b + ty_depth T <= fuel)%nat) ->
  exists ds, Forall2 (same_rel eq T) vs ds /\ c07_concl cd fuel (Some T) bs ds.
Proof.
  intros cd T vs bs fuel Hcd Hty Hf01 Hns.
  exact (c07_modes CER cd false 1000 T vs bs fuel stable_cer Hcd (dom_cer_nosetof T Hty Hf01 Hns)).
Qed.

Print Assumptions c06_indefinite.
Print Assumptions c05_indefinite.
Print Assumptions c07_indefinite.
Print Assumptions c06_segmented.
Print Assumptions c06_cer_encoder.
Print Assumptions c05_cer_encoder.
Print Assumptions c05_cer_encoder_setof.
Print Assumptions c07_cer_encoder.

Definition ok_bytes (r: res bytes) : bytes := match r with Ok b => b | Err _ => [] end.

(* every cut point k < length b: end-of-stream error on the closed prefix, a suspended read on the open one *)
Definition all_cuts (cd: codec) (fuel: nat) (T: ty) (b: bytes) : bool :=
  forallb (fun k => match decode_with cd fuel (Some T) (firstn k b) with Err EEndOfStream => true | _ => false end
                    && match resume (dec_item cd fuel (Some T)) (mkStream (firstn k b) 0 false 0) with
                       | inl (ReadN _ _, _) => true | _ => false end) (seq 0 (length b)).

(* every chunk boundary: the input in two chunks cut at k, for every k: an underrun on the empty stream, one after
   the first chunk, then the object at the end position *)
Definition two_chunks (cd: codec) (fuel: nat) (T: ty) (b: bytes) : list (list (out dval)) :=
  map (fun k => drive [Arrive (firstn k b); Arrive (skipn k b)] (dec_item cd fuel (Some T)) (mkStream [] 0 false 0))
      (seq 0 (length b)).
Definition all_two_chunks (cd: codec) (fuel: nat) (T: ty) (b: bytes) (d: dval) : Prop :=
  two_chunks cd fuel T b = repeat [OUnder; OUnder; ODone (Ok d) (length b)] (length b).

(* one octet per arrival *)
Definition bytewise (b: bytes) : list envev := map (fun x => Arrive [x]) b.

(* the nested example of RoundTripModes.v: SEQUENCE OF SEQUENCE { INTEGER, [1] EXPLICIT SET OF IA5String,
   [PRIVATE 40] IMPLICIT SEQUENCE {} }, defMode=False, maxChunkSize=2: 62 octets, indefinite containers three
   deep, an indefinite EXPLICIT tag, a segmented string closed by 00 00, eleven end-of-octets markers *)
Definition indef_example_enc : bytes :=
  [48; 128; 48; 128; 2; 2; 1; 44; 161; 128; 49; 128; 54; 128; 4; 2;
   97; 98; 4; 2; 99; 100; 4; 1; 101; 0; 0; 22; 0; 0; 0; 0; 0; 255; 40;
   128; 0; 0; 0; 0; 48; 128; 2; 1; 255; 161; 128; 49; 128; 0; 0; 0; 0;
   255; 40; 128; 0; 0; 0; 0; 0; 0].

Example indefinite_stream_hyps :
  stage2_ty modes_ex_nested_ty = true /\ no_f01 modes_ex_nested_ty = true
  /\ modes_val BER BER modes_ex_nested_ty modes_ex_nested_val = true
  /\ modes_val BER CER modes_ex_nested_ty modes_ex_nested_val = true
  /\ encode BER false 2 modes_ex_nested_ty modes_ex_nested_val = Ok indef_example_enc
  /\ N.of_nat (length indef_example_enc) <= index_max
  /\ (length indef_example_enc + ty_depth modes_ex_nested_ty <= 80)%nat
  /\ dec_ok BER /\ dec_ok CER
  /\ clean_run (dec_item BER 80 (Some modes_ex_nested_ty)) (mkStream indef_example_enc 0 true 0) = true
  /\ clean_run (dec_item CER 80 (Some modes_ex_nested_ty)) (mkStream indef_example_enc 0 true 0) = true.
Proof.
  do 5 (split; [vm_compute; reflexivity|]). split; [vm_compute; discriminate|]. split; [vm_compute; lia|].
  split; [left; reflexivity|]. split; [right; reflexivity|]. split; vm_compute; reflexivity.
Qed.

(* C06: each of the 62 cut points, under the BER and the CER decoder *)
Example c06_indefinite_example :
  all_cuts BER 80 modes_ex_nested_ty indef_example_enc = true
  /\ all_cuts CER 80 modes_ex_nested_ty indef_example_enc = true.
Proof. vm_compute. split; reflexivity. Qed.

(* C05: every single chunk boundary (62 two-chunk schedules), and one octet per arrival with trailing octets *)
Example c05_indefinite_example :
  all_two_chunks BER 80 modes_ex_nested_ty indef_example_enc (DV modes_ex_nested_ty modes_ex_nested_val)
  /\ all_two_chunks CER 80 modes_ex_nested_ty indef_example_enc (DV modes_ex_nested_ty modes_ex_nested_val)
  /\ wf_sched false (bytewise (indef_example_enc ++ [7; 7]))
  /\ arrivals (bytewise (indef_example_enc ++ [7; 7])) = indef_example_enc ++ [7; 7]
  /\ drive (bytewise (indef_example_enc ++ [7; 7])) (dec_item CER 80 (Some modes_ex_nested_ty)) (mkStream [] 0 false 0)
     = repeat OUnder 62 ++ [ODone (Ok (DV modes_ex_nested_ty modes_ex_nested_val)) 62].
Proof. vm_compute. repeat split; reflexivity. Qed.

(* C07: three values of SEQUENCE OF [0] EXPLICIT OCTET STRING in indefinite form, segments of one octet, one of
   them empty, arriving one octet at a time *)
Definition c07_indef_ty : ty := TSeqOf (TExp (mkTag Ctx false 0) TOcts).
Definition c07_indef_vals : list val := [VList [VOcts [1; 2]; VOcts []]; VList []; VList [VOcts [9]]].
Definition c07_indef_encs : list bytes :=
  [[48; 128; 160; 128; 36; 128; 4; 1; 1; 4; 1; 2; 0; 0; 0; 0; 160; 128; 4; 0; 0; 0; 0; 0];
   [48; 128; 0; 0];
   [48; 128; 160; 128; 4; 1; 9; 0; 0; 0; 0]].

Example c07_indefinite_example :
  let T := c07_indef_ty in let vs := c07_indef_vals in let bs := c07_indef_encs in
  let sched := bytewise (concat bs) ++ [Close] in
  stage2_ty T = true /\ no_f01 T = true
  /\ map (encode BER false 1 T) vs = map Ok bs /\ forallb (modes_val BER BER T) vs = true
  /\ (length bs <= 30)%nat /\ forallb (fun b => Nat.leb (length b + ty_depth T) 30) bs = true
  /\ wf_sched false sched /\ has_close sched = true /\ arrivals sched = concat bs
  /\ drive sched (streaming BER 30 (Some T)) (mkStream [] 0 false 0)
     = repeat OUnder 40 ++ [ODone (Ok (combine (map (DV T) vs) (ends 0 bs))) (length (concat bs))]
  /\ ends 0 bs = [24; 28; 39]%nat.
Proof.
  cbv zeta. split; [reflexivity|]. split; [reflexivity|]. split; [vm_compute; reflexivity|]. split; [vm_compute; reflexivity|].
  split; [vm_compute; lia|]. repeat split; vm_compute; reflexivity.
Qed.

(* the example of RoundTripModes.v: BOOLEAN TRUE as FF, a 1001-octet OCTET STRING in segments of 1000 under an
   indefinite EXPLICIT tag, indefinite containers: 1033 octets; every cut point, read by the BER decoder *)
Definition cer_example_enc : bytes := ok_bytes (encode CER true 0 modes_ex_cer_ty modes_ex_cer_val).

Example c06_cer_example :
  stage2_ty modes_ex_cer_ty = true /\ no_f01 modes_ex_cer_ty = true /\ modes_val CER BER modes_ex_cer_ty modes_ex_cer_val = true
  /\ encode CER true 0 modes_ex_cer_ty modes_ex_cer_val = Ok cer_example_enc
  /\ length cer_example_enc = 1033%nat /\ (length cer_example_enc + ty_depth modes_ex_cer_ty <= 1100)%nat
  /\ all_cuts BER 1100 modes_ex_cer_ty cer_example_enc = true.
Proof.
  set (b := cer_example_enc).
  assert (H: stage2_ty modes_ex_cer_ty = true /\ no_f01 modes_ex_cer_ty = true
             /\ modes_val CER BER modes_ex_cer_ty modes_ex_cer_val = true
             /\ encode CER true 0 modes_ex_cer_ty modes_ex_cer_val = Ok b
             /\ length b = 1033%nat) by (vm_compute; repeat split).
  clearbody b. destruct H as (Hty & Hf & Hv & He & Hl).
  split; [exact Hty|]. split; [exact Hf|]. split; [exact Hv|]. split; [exact He|]. split; [exact Hl|].
  rewrite Hl. split; [cbn; lia|].
  (* a thousand cut points of a thousand octets: each is an instance of the theorem *)
  apply forallb_forall. intros k Hk. apply in_seq in Hk.
  destruct (c06_cer_encoder BER true 0 _ _ _ 1100%nat k (or_introl eq_refl) Hty Hf Hv He) as (-> & n & kont & s1 & -> & _);
    [rewrite Hl; vm_compute; discriminate|rewrite Hl; cbn; lia|lia|reflexivity].
Qed.

(* the example of RoundTrip3e.v: [APPLICATION 9] EXPLICIT SEQUENCE { ANY, [0] EXPLICIT ANY OPTIONAL,
   SET { [1] IMPLICIT [2] EXPLICIT ANY OPTIONAL, BOOLEAN DEFAULT FALSE, CHOICE { INTEGER, [3] EXPLICIT SEQUENCE OF ANY } },
   SET OF ANY, UTF8String OPTIONAL }: 42 octets under the BER and under the DER encoder *)
Definition stage3_example_ber : bytes :=
  [105; 40; 48; 38; 4; 2; 7; 8; 160; 3; 255; 255; 255; 49; 19; 161; 3; 1; 2; 3; 1; 1; 1; 163; 9; 48; 7; 5; 0;
   160; 3; 2; 1; 5; 49; 6; 2; 1; 9; 1; 1; 0].
Definition stage3_example_der : bytes :=
  [105; 40; 48; 38; 4; 2; 7; 8; 160; 3; 255; 255; 255; 49; 19; 1; 1; 255; 161; 3; 1; 2; 3; 163; 9; 48; 7; 5; 0;
   160; 3; 2; 1; 5; 49; 6; 1; 1; 0; 2; 1; 9].

Example stage3_stream_hyps :
  stage3_ty false BER stage3_example_ty = true /\ stage3_val BER BER stage3_example_ty stage3_example_val = true
  /\ encode BER true 0 stage3_example_ty stage3_example_val = Ok stage3_example_ber
  /\ stage3_ty true DER stage3_example_ty = true /\ stage3_val DER DER stage3_example_ty stage3_example_val = true
  /\ stage3_val DER CER stage3_example_ty stage3_example_val = true
  /\ encode DER true 0 stage3_example_ty stage3_example_val = Ok stage3_example_der
  /\ N.of_nat (length stage3_example_ber) <= index_max /\ N.of_nat (length stage3_example_der) <= index_max
  /\ (length stage3_example_ber + ty_depth stage3_example_ty <= 60)%nat
  /\ (length stage3_example_der + ty_depth stage3_example_ty <= 60)%nat
  /\ clean_run (dec_item BER 60 (Some stage3_example_ty)) (mkStream stage3_example_ber 0 true 0) = true.
Proof.
  do 7 (split; [vm_compute; reflexivity|]). do 2 (split; [vm_compute; discriminate|]). do 2 (split; [vm_compute; lia|]).
  vm_compute. reflexivity.
Qed.

(* C06: each of the 42 cut points; BER encoding read by the BER decoder, DER encoding by the DER and CER decoders *)
Example c06_stage3_example :
  all_cuts BER 60 stage3_example_ty stage3_example_ber = true
  /\ all_cuts DER 60 stage3_example_ty stage3_example_der = true
  /\ all_cuts CER 60 stage3_example_ty stage3_example_der = true.
Proof. vm_compute. repeat split; reflexivity. Qed.

(* C05: every chunk boundary, and one octet per arrival (the decoded value differs from the one written in the
   representation of an ANY component, VAny for VOcts, and under DER in the order of the SET OF: same contents) *)
Definition dec_val (r: res (dval * bytes)) : val := match r with Ok (DV _ v', _) => v' | _ => VNull end.

Example c05_stage3_example :
  let vb := dec_val (decode BER (Some stage3_example_ty) stage3_example_ber) in
  let vd := dec_val (decode DER (Some stage3_example_ty) stage3_example_der) in
  abs stage3_example_ty vb = abs stage3_example_ty stage3_example_val
  /\ all_two_chunks BER 60 stage3_example_ty stage3_example_ber (DV stage3_example_ty vb)
  /\ aval_eqb (abs stage3_example_ty vd) (abs stage3_example_ty stage3_example_val) = true
  /\ all_two_chunks DER 60 stage3_example_ty stage3_example_der (DV stage3_example_ty vd)
  /\ drive (bytewise (stage3_example_ber ++ [0; 0])) (dec_item BER 60 (Some stage3_example_ty)) (mkStream [] 0 false 0)
     = repeat OUnder 42 ++ [ODone (Ok (DV stage3_example_ty vb)) 42].
Proof. vm_compute. repeat split; reflexivity. Qed.

(* C07: three values of SEQUENCE { INTEGER OPTIONAL, CHOICE { BOOLEAN, [0] EXPLICIT ANY }, SET OF NULL } *)
Definition c07_stage3_ty : ty :=
  TSeq [(Opt, TInt); (Req, TChoice [TBool; TExp (mkTag Ctx false 0) TAny]); (Req, TSetOf TNull)].
Definition c07_stage3_vals : list val :=
  [VRec [Some (VInt 5); Some (VChoice 0 (VBool true)); Some (VList [VNull; VNull])];
   VRec [None; Some (VChoice 1 (VAny [4; 1; 7])); Some (VList [])];
   VRec [Some (VInt (-129)); Some (VChoice 0 (VBool false)); Some (VList [VNull])]].

Example c07_stage3_example :
  let T := c07_stage3_ty in let vs := c07_stage3_vals in
  let bs := map (fun v => ok_bytes (encode BER true 0 T v)) vs in
  let sched := bytewise (concat bs) ++ [Close] in
  stage3_ty false BER T = true
  /\ map (encode BER true 0 T) vs = map Ok bs /\ forallb (stage3_val BER BER T) vs = true
  /\ (length bs <= 30)%nat /\ forallb (fun b => Nat.leb (length b + ty_depth T) 30) bs = true
  /\ wf_sched false sched /\ has_close sched = true /\ arrivals sched = concat bs
  /\ drive sched (streaming BER 30 (Some T)) (mkStream [] 0 false 0)
     = repeat OUnder (length (concat bs) + 1) ++ [ODone (Ok (combine (map (DV T) vs) (ends 0 bs))) (length (concat bs))]
  /\ ends 0 bs = [14; 23; 36]%nat.
Proof.
  cbv zeta. split; [vm_compute; reflexivity|]. split; [vm_compute; reflexivity|]. split; [vm_compute; reflexivity|].
  split; [vm_compute; lia|]. repeat split; vm_compute; reflexivity.
Qed.

(* an untagged ANY holding a TLV of indefinite length goes through dec_any_indef, which collects the nested
   items one by one through the item decoder: no ReadAll, the run is clean (no round-trip theorem covers it:
   stage3_val wants definite TLVs, and none is needed here) *)
Example any_indefinite_is_clean :
  decode_with BER 30 (Some (TSeqOf TAny)) ([48; 128; 48; 128; 2; 1; 5; 0; 0; 36; 128; 4; 1; 7; 0; 0; 0; 0] ++ [9])
    = Ok (DV (TSeqOf TAny) (VList [VAny [48; 128; 2; 1; 5; 0; 0]; VAny [36; 128; 4; 1; 7; 0; 0]]), [9])
  /\ clean_run (dec_item BER 30 (Some (TSeqOf TAny)))
               (mkStream [48; 128; 48; 128; 2; 1; 5; 0; 0; 36; 128; 4; 1; 7; 0; 0; 0; 0; 9] 0 true 0) = true
  /\ all_cuts BER 30 (TSeqOf TAny) [48; 128; 48; 128; 2; 1; 5; 0; 0; 36; 128; 4; 1; 7; 0; 0; 0; 0] = true.
Proof. vm_compute. repeat split; reflexivity. Qed.

(* [consumes_clean_dec_call] is not vacuous in the other direction either: the unclean run of StreamStage2.v
   (a constructed OCTET STRING whose fragment is an indefinite-length item under a context tag, collected with
   ReadAll) succeeds on the bare input but is NOT a consuming run - with one more octet behind it, it fails *)
Example unclean_run_not_consuming :
  decode_with BER 20 (Some TOcts) [36; 4; 160; 128; 1; 2] = Ok (DV TOcts (VOcts [1; 2]), [])
  /\ clean_run (dec_item BER 20 (Some TOcts)) (mkStream [36; 4; 160; 128; 1; 2] 0 true 0) = false
  /\ ~ consumes (dec_item BER 20 (Some TOcts)) [36; 4; 160; 128; 1; 2] (DV TOcts (VOcts [1; 2])).
Proof.
  split; [vm_compute; reflexivity|]. split; [vm_compute; reflexivity|].
  intros H. destruct (H (mkStream ([36; 4; 160; 128; 1; 2] ++ [3]) 0 true 0) [3] eq_refl) as (s' & Hr & _).
  vm_compute in Hr. discriminate Hr.
Qed.

(* an untagged ANY as alternative of an untagged CHOICE (the entry point is re-entered past the header, without
   resetting the marked position): the ANY comes back with its identifier and length octets, the run is clean,
   every strict prefix is insufficient *)
Example any_choice_alternative_streams :
  let T := TSeqOf (TChoice [TInt; TAny]) in
  let v := VList [VChoice 1 (VAny [4; 1; 9]); VChoice 0 (VInt 5)] in
  encode BER true 0 T v = Ok [48; 6; 4; 1; 9; 2; 1; 5]
  /\ decode_with BER 20 (Some T) ([48; 6; 4; 1; 9; 2; 1; 5] ++ [7]) = Ok (DV T v, [7])
  /\ clean_run (dec_item BER 20 (Some T)) (mkStream [48; 6; 4; 1; 9; 2; 1; 5; 7] 0 true 0) = true
  /\ all_cuts BER 20 T [48; 6; 4; 1; 9; 2; 1; 5] = true.
Proof. vm_compute. repeat split; reflexivity. Qed.
