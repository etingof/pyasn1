(* Proofs about the open-type model (Model/OpenType.v).  The decoder's second pass is followed on a first-pass
   record of which three things are known: the open member is there, what it holds, and the governing value.
   A round trip of the enclosing record gives exactly these, for any relation between abstract contents that
   looks into records and is the identity on INTEGER, OBJECT IDENTIFIER and ANY contents: here the model's own
   comparison [aval_eqb]; Proofs/OpenTypeRT.v takes the relations of the codec theorems. *)
From PV Require Import Model.Types Model.Proc Model.Enc Model.Dec Model.Obs Model.OpenType Model.OpenTypeDef Proofs.Basics.
From Coq Require Import Lia.
Local Open Scope N_scope.

Lemma list_eqb_length : forall A (eqb: A -> A -> bool) (l1 l2: list A),
  list_eqb eqb l1 l2 = true -> length l1 = length l2.
Proof. intros A eqb. exact (Basics.list_eqb_length eqb). Qed.

Lemma nth_set_nth_other : forall (A: Type) (l: list A) i j (x d: A), i <> j -> nth i (set_nth j x l) d = nth i l d.
Proof.
  induction l as [|y l IH]; intros i j x d Hij; simpl.
  - destruct j; reflexivity.
  - destruct j as [|j]; destruct i as [|i]; simpl; try reflexivity; try congruence.
    apply IH. congruence.
Qed.

Lemma nth_set_nth_same : forall (A: Type) (l: list A) j (x d: A), (j < length l)%nat -> nth j (set_nth j x l) d = x.
Proof.
  induction l as [|y l IH]; intros j x d Hj; simpl in *; [lia|].
  destruct j as [|j]; simpl; auto. apply IH. lia.
Qed.

Lemma nth_some_lt : forall (A: Type) (l: list (option A)) i x, nth i l None = Some x -> (i < length l)%nat.
Proof.
  induction l as [|y r IH]; intros [|i] x H; simpl in *; try discriminate.
  - lia.
  - apply IH in H. lia.
Qed.

Lemma abs_base : forall T v, abs T v = abs (base_of T) v.
Proof.
  induction T using ty_ind'; intros v; try reflexivity.
  - simpl. destruct v; apply IHT.
  - simpl. destruct v; apply IHT.
Qed.

(* the record case of [abs], as a top-level function *)
Fixpoint abs_fields (fs: list (presence * ty)) (vs: list (option val)) : list (option aval) :=
  match fs, vs with
  | (p, ft) :: fs', ov :: vs' =>
      (match ov, p with
       | Some x, _ => Some (abs ft x)
       | None, Def d => Some (abs ft d)
       | None, _ => None
       end) :: abs_fields fs' vs'
  | (p, ft) :: fs', [] =>
      (match p with Def d => Some (abs ft d) | _ => None end) :: abs_fields fs' []
  | [], _ => []
  end.

Lemma abs_record : forall T fs vs, rec_fields T = Some fs -> abs T (VRec vs) = ARec (abs_fields fs vs).
Proof.
  intros T fs vs H. rewrite abs_base. unfold rec_fields in H.
  destruct (base_of T); try discriminate; inversion H; reflexivity.
Qed.

Lemma abs_is_rec : forall T fs v l, rec_fields T = Some fs -> abs T v = ARec l -> exists vs, v = VRec vs.
Proof.
  intros T fs v l H E. rewrite abs_base in E. unfold rec_fields in H.
  destruct (base_of T); try discriminate H; destruct v; simpl in E; try discriminate E; eauto.
Qed.

(* a member reads as the value it has: the one in the record, else the declared default *)
Lemma abs_fields_nth : forall fs vs i p ft, nth_error fs i = Some (p, ft) ->
  nth i (abs_fields fs vs) None = option_map (abs ft) (effective_gov p (nth i vs None)).
Proof.
  induction fs as [|[q gt] fs IH]; intros vs i p ft Hf; [destruct i; discriminate|].
  destruct i as [|i]; simpl in Hf.
  - inversion Hf; subst. destruct vs as [|[x|] vs]; destruct p; reflexivity.
  - destruct vs as [|ov vs]; simpl; rewrite (IH _ i p ft Hf); [destruct i|]; reflexivity.
Qed.

Definition not_def (p: presence) : Prop := match p with Def _ => False | _ => True end.

Lemma effective_not_def : forall p ov, not_def p -> effective_gov p ov = ov.
Proof. intros [| |d] [x|] H; try reflexivity. contradiction. Qed.

Lemma abs_any_VAny : forall ft b, is_any ft = true -> abs ft (VAny b) = AAny b.
Proof.
  intros ft b Ha. rewrite abs_base. unfold is_any in Ha. destruct (base_of ft); try discriminate. reflexivity.
Qed.

Lemma list_elem_any : forall ft, is_any ft = true -> list_elem ft = None.
Proof. intros ft Ha. unfold list_elem. unfold is_any in Ha. destruct (base_of ft); try discriminate; reflexivity. Qed.

(* governing values: INTEGER, ENUMERATED, OBJECT IDENTIFIER *)
Definition gov_ok (gT: ty) (g: val) : bool :=
  match base_of gT, g with
  | (TInt | TEnum), VInt _ => true
  | TOid, VOid _ => true
  | _, _ => false
  end.

Definition opt_match {A} (R: A -> A -> Prop) (o1 o2: option A) : Prop :=
  match o1, o2 with Some a, Some b => R a b | None, None => True | _, _ => False end.

Section FirstPass.
  Variable R : aval -> aval -> Prop.
  Hypothesis R_rec : forall a ys, R a (ARec ys) ->
    exists xs, a = ARec xs /\ forall i, opt_match R (nth i xs None) (nth i ys None).
  Hypothesis R_leaf : forall a b, R a b -> match b with AInt _ | AOid _ | AAny _ => a = b | _ => True end.

  Lemma record_members : forall T fs v ws, rec_fields T = Some fs -> R (abs T v) (abs T (VRec ws)) ->
    exists vs, v = VRec vs /\ forall i p ft, nth_error fs i = Some (p, ft) ->
      opt_match (fun x y => R (abs ft x) (abs ft y)) (effective_gov p (nth i vs None)) (effective_gov p (nth i ws None)).
  Proof.
    intros T fs v ws Hrec E. rewrite (abs_record T fs ws Hrec) in E. destruct (R_rec _ _ E) as (xs & Hx & Hm).
    destruct (abs_is_rec T fs v xs Hrec Hx) as [vs ->]. rewrite (abs_record T fs vs Hrec) in Hx. inversion Hx; subst xs.
    exists vs. split; [reflexivity|]. intros i p ft Hf. specialize (Hm i).
    rewrite !(abs_fields_nth fs _ i p ft Hf) in Hm.
    destruct (effective_gov p (nth i vs None)), (effective_gov p (nth i ws None)); exact Hm.
  Qed.

  Lemma gov_fixed : forall gT g g', gov_ok gT g = true -> R (abs gT g') (abs gT g) -> g' = g.
  Proof.
    intros gT g g' Hok E. rewrite (abs_base gT g'), (abs_base gT g) in E. unfold gov_ok in Hok.
    destruct (base_of gT); destruct g; try discriminate Hok; apply R_leaf in E;
      destruct g'; simpl in E; try discriminate E; inversion E; reflexivity.
  Qed.

  (* a member that reads as an ANY with octets b holds exactly b *)
  Lemma any_fixed : forall ft fv b, is_any ft = true -> R (abs ft fv) (abs ft (VAny b)) -> octets_of fv = Some b.
  Proof.
    intros ft fv b Ha E. rewrite (abs_any_VAny ft b Ha) in E. apply R_leaf in E. rewrite abs_base in E.
    unfold is_any in Ha. destruct (base_of ft); try discriminate Ha.
    destruct fv; simpl in E; try discriminate E; inversion E; reflexivity.
  Qed.

  (* the record with [y] in the open member went out: the first pass returns a record whose open member reads
     like [y] and whose governing value - in the record, else the declared default - is the one sent *)
  Lemma first_pass_facts : forall T fs gi oi p ft pg gT vs g y v',
    rec_fields T = Some fs -> nth_error fs oi = Some (p, ft) -> nth_error fs gi = Some (pg, gT) -> not_def p ->
    effective_gov pg (nth gi vs None) = Some g -> gov_ok gT g = true -> gi <> oi -> (oi < length vs)%nat ->
    R (abs T v') (abs T (VRec (set_nth oi (Some y) vs))) ->
    exists vs' fv, v' = VRec vs' /\ nth oi vs' None = Some fv /\ R (abs ft fv) (abs ft y) /\
      effective_gov pg (nth gi vs' None) = Some g.
  Proof.
    intros T fs gi oi p ft pg gT vs g y v' Hrec Hoi Hgi Hp Hg Hgok Hne Hlen E.
    destruct (record_members T fs v' _ Hrec E) as (vs' & -> & Hm).
    pose proof (Hm oi p ft Hoi) as Ho. rewrite (nth_set_nth_same _ vs oi (Some y) None Hlen), !(effective_not_def p _ Hp) in Ho.
    pose proof (Hm gi pg gT Hgi) as Hgv. rewrite (nth_set_nth_other _ vs gi oi (Some y) None Hne), Hg in Hgv.
    destruct (nth oi vs' None) as [fv|] eqn:Hfv; [|contradiction].
    destruct (effective_gov pg (nth gi vs' None)) as [g'|] eqn:Hg'; [|contradiction].
    exists vs', fv. rewrite Hg', (gov_fixed gT g g' Hgok Hgv). auto.
  Qed.

  Lemma first_pass_any : forall T fs gi oi p ft pg gT vs g chunk v',
    rec_fields T = Some fs -> nth_error fs oi = Some (p, ft) -> nth_error fs gi = Some (pg, gT) ->
    is_any ft = true -> not_def p ->
    effective_gov pg (nth gi vs None) = Some g -> gov_ok gT g = true -> gi <> oi -> (oi < length vs)%nat ->
    R (abs T v') (abs T (VRec (set_nth oi (Some (VAny chunk)) vs))) ->
    exists vs' fv, v' = VRec vs' /\ nth oi vs' None = Some fv /\ octets_of fv = Some chunk /\
      effective_gov pg (nth gi vs' None) = Some g.
  Proof.
    intros T fs gi oi p ft pg gT vs g chunk v' Hrec Hoi Hgi Hany Hp Hg Hgok Hne Hlen E.
    destruct (first_pass_facts T fs gi oi p ft pg gT vs g _ v' Hrec Hoi Hgi Hp Hg Hgok Hne Hlen E) as (vs' & fv & -> & Hfv & Ho & Hg').
    exists vs', fv. repeat split; try assumption. exact (any_fixed ft fv chunk Hany Ho).
  Qed.
End FirstPass.

Lemma eqb_rec : forall a ys, aval_eqb a (ARec ys) = true ->
  exists xs, a = ARec xs /\ forall i, opt_match (fun x y => aval_eqb x y = true) (nth i xs None) (nth i ys None).
Proof.
  intros a ys H. destruct a as [| | | | | | |xs| | | | |]; try discriminate H. exists xs. split; [reflexivity|].
  simpl in H. revert ys H. induction xs as [|x xs IH]; destruct ys as [|y ys]; simpl; intros H i; try discriminate H.
  - destruct i; exact I.
  - apply andb_prop in H. destruct H as [H1 H2]. destruct i as [|i]; [|exact (IH ys H2 i)].
    destruct x, y; try discriminate H1; [exact H1|exact I].
Qed.

Lemma eqb_leaf : forall a b, aval_eqb a b = true -> match b with AInt _ | AOid _ | AAny _ => a = b | _ => True end.
Proof.
  intros a b H. destruct b; try exact I; destruct a; try discriminate H; simpl in H; f_equal.
  - apply Z.eqb_eq. exact H.
  - exact (list_eqb_eq N.eqb (fun x y => proj1 (N.eqb_eq x y)) _ _ H).
  - apply bytes_eqb_eq. exact H.
Qed.

Lemma dec_fuel_S : forall sp b, exists f, dec_fuel sp b = S f.
Proof. intros. unfold dec_fuel. exists (2 * length b + 2 * match sp with Some T => ty_depth T | None => 0 end + 5)%nat. lia. Qed.

Lemma decode_eoo_any : forall c allow sp b, no_eoo_prefix b = true -> decode_eoo c allow sp b = decode c sp b.
Proof.
  intros c [|] sp b H; [|reflexivity]. unfold decode_eoo, decode, dec_item.
  destruct (dec_fuel_S sp b) as [f Hf]. rewrite Hf.
  destruct b as [|x [|y r]]; try discriminate. simpl in H.
  set (S0 := match sp with Some T => STy T | None => SNone end).
  simpl dec_call. unfold dec_body.
  destruct (support_indef c); simpl andb; [|reflexivity].
  unfold run_complete.
  cbn [pbind readN resume attempt Nat.eqb Nat.ltb Nat.leb avail pos arrived skipn length closed firstn setpos mark].
  destruct x as [|px]; destruct y as [|py]; simpl in H; try discriminate; reflexivity.
Qed.

Lemma override_wins : forall override dflt g E,
  omap_find g override = Some E -> resolve_type override dflt g = Some E.
Proof. intros. unfold resolve_type. rewrite H. reflexivity. Qed.

Lemma default_used : forall dflt g, resolve_type [] dflt g = omap_find g dflt.
Proof. reflexivity. Qed.

(* a caller's map that has an entry switches resolution on *)
Lemma override_on : forall (override: omap) g E dot, omap_find g override = Some E -> dot = true \/ override <> [].
Proof. intros override g E dot H. right. destruct override; [discriminate H|discriminate]. Qed.

Lemma resolution_on : forall dot (override: omap), dot = true \/ override <> [] ->
  (dot || match override with [] => false | _ :: _ => true end) = true.
Proof. intros dot override [-> | H]; [reflexivity|]. destruct override; [congruence|apply orb_true_r]. Qed.

Section SecondPass.
  Variables (c: codec) (T: ty) (fs: list (presence * ty)) (gi oi: nat) (p: presence) (ft: ty).
  Hypothesis Hrec : rec_fields T = Some fs.
  Hypothesis Hoi : nth_error fs oi = Some (p, ft).
  Variables (dflt override: omap) (dot: bool) (wire: bytes) (vs: list (option val)) (fv g: val).
  Hypothesis Hfv : nth oi vs None = Some fv.
  Hypothesis Hg : nth gi vs None = Some g.

  (* resolution off, or the governing value in neither map: the record stays as the first pass read it *)
  Lemma second_pass_raw : (dot = false /\ override = []) \/ resolve_type override dflt g = None ->
    dec_open_after c T gi oi dflt override dot wire (Ok (DV T (VRec vs), [])) = Ok (DV T (VRec vs), []).
  Proof.
    intros Hoff. unfold dec_open_after. simpl bind. destruct Hoff as [[-> ->] | Hun]; [reflexivity|].
    destruct (negb _); [reflexivity|].
    rewrite Hrec. unfold second_pass. rewrite Hoi, Hfv, Hg, Hun. reflexivity.
  Qed.

  Variable E : ty.
  Hypothesis Hon : dot = true \/ override <> [].
  Hypothesis Hmap : resolve_type override dflt g = Some E.

  (* an ANY member whose octets decode as the mapped type to w becomes w *)
  Lemma second_pass_scalar : forall chunk w, is_any ft = true -> octets_of fv = Some chunk ->
    no_eoo_prefix chunk = true -> decode c (Some E) chunk = Ok (DV E w, []) ->
    dec_open_after c T gi oi dflt override dot wire (Ok (DV T (VRec vs), []))
    = Ok (DV (subst_field T oi E) (VRec (set_nth oi (Some w) vs)), []).
  Proof.
    intros chunk w Hany Ho Hpre Hin. unfold dec_open_after. simpl bind. rewrite (resolution_on _ _ Hon). simpl negb. cbv iota.
    rewrite Hrec. unfold second_pass. rewrite Hoi, Hfv, Hg, Hmap, (list_elem_any ft Hany), Ho.
    rewrite (decode_eoo_any c _ (Some E) chunk Hpre), Hin. reflexivity.
  Qed.

  (* a SEQUENCE OF / SET OF member: element by element *)
  Lemma second_pass_list : forall t ys ws, list_elem ft = Some t -> fv = VList ys ->
    resolve_elems c (own_len_indef (length (tagset_of' T) - 1) wire) E ys = Ok ws ->
    dec_open_after c T gi oi dflt override dot wire (Ok (DV T (VRec vs), []))
    = Ok (DV (subst_field T oi (retype_list ft E)) (VRec (set_nth oi (Some (VList ws)) vs)), []).
  Proof.
    intros t ys ws Hl Hys Hws. subst fv. unfold dec_open_after. simpl bind. rewrite (resolution_on _ _ Hon). simpl negb. cbv iota.
    rewrite Hrec. unfold second_pass. rewrite Hoi, Hfv, Hg, Hmap, Hl, Hws. reflexivity.
  Qed.
End SecondPass.

Section Scalar.
  Variables (c: codec) (T: ty) (fs: list (presence * ty)) (gi oi: nat).
  Variables (p: presence) (ft gT: ty) (pg: presence).
  Hypothesis Hrec : rec_fields T = Some fs.
  Hypothesis Hoi : nth_error fs oi = Some (p, ft).
  Hypothesis Hgi : nth_error fs gi = Some (pg, gT).
  Hypothesis Hany : is_any ft = true.
  Hypothesis Hp : not_def p.
  Hypothesis Hpg : not_def pg.

  Variables (vs: list (option val)) (g: val) (chunk: bytes).
  Hypothesis Hg : nth gi vs None = Some g.
  Hypothesis Hgok : gov_ok gT g = true.
  Hypothesis Hne : gi <> oi.
  Hypothesis Hlen : (oi < length vs)%nat.

  Variables (dflt override: omap) (dot: bool) (wire: bytes).
  Variable v' : val.
  Hypothesis Hfirst : decode c (Some T) wire = Ok (DV T v', []).
  Hypothesis Hobs : aval_eqb (abs T v') (abs T (VRec (set_nth oi (Some (VAny chunk)) vs))) = true.

  Lemma first_pass_scalar :
    exists vs' fv, v' = VRec vs' /\ nth oi vs' None = Some fv /\ octets_of fv = Some chunk /\ nth gi vs' None = Some g.
  Proof.
    destruct (first_pass_any _ eqb_rec eqb_leaf T fs gi oi p ft pg gT vs g chunk v' Hrec Hoi Hgi Hany Hp
                (f_equal (effective_gov pg) Hg) Hgok Hne Hlen Hobs) as (vs' & fv & E & Hfv & Ho & Hg').
    rewrite (effective_not_def pg _ Hpg) in Hg'. exists vs', fv. auto.
  Qed.

  (* resolution switched off, or the governing value in neither map: the raw ANY stays *)
  Theorem raw_on_wire :
    (dot = false /\ override = []) \/ resolve_type override dflt g = None ->
    exists vs' fv, dec_open c T gi oi dflt override dot wire = Ok (DV T (VRec vs'), [])
                   /\ nth oi vs' None = Some fv /\ octets_of fv = Some chunk.
  Proof.
    intros Hoff. destruct first_pass_scalar as (vs' & fv & E & Hfv & Ho & Hg'). rewrite E in Hfirst.
    exists vs', fv. split; [|split; assumption].
    unfold dec_open. rewrite Hfirst. exact (second_pass_raw c T fs gi oi p ft Hrec Hoi dflt override dot wire vs' fv g Hfv Hg' Hoff).
  Qed.

  Corollary raw_when_unmapped :
    resolve_type override dflt g = None ->
    exists vs' fv, dec_open c T gi oi dflt override dot wire = Ok (DV T (VRec vs'), [])
                   /\ nth oi vs' None = Some fv /\ octets_of fv = Some chunk.
  Proof. intros Hun. exact (raw_on_wire (or_intror Hun)). Qed.

  (* governing value mapped to E, the member's octets decode as E to w: the member becomes w *)
  Theorem resolved_when_mapped : forall E w,
    (dot = true \/ override <> []) ->
    resolve_type override dflt g = Some E ->
    no_eoo_prefix chunk = true ->
    decode c (Some E) chunk = Ok (DV E w, []) ->
    exists vs', dec_open c T gi oi dflt override dot wire
                = Ok (DV (subst_field T oi E) (VRec (set_nth oi (Some w) vs')), [])
                /\ v' = VRec vs'.
  Proof.
    intros E w Hon Hmap Hpre Hin. destruct first_pass_scalar as (vs' & fv & Ev & Hfv & Ho & Hg'). rewrite Ev in Hfirst.
    exists vs'. split; [|exact Ev]. unfold dec_open. rewrite Hfirst.
    exact (second_pass_scalar c T fs gi oi p ft Hrec Hoi dflt override dot wire vs' fv g Hfv Hg' E Hon Hmap chunk w Hany Ho Hpre Hin).
  Qed.
End Scalar.

Lemma fix_opts_member : forall c defm ck Ti xi,
  enc c Ti (elem_opts c defm ck) xi = encode c defm ck Ti xi.
Proof. intros c defm ck Ti xi. destruct c; reflexivity. Qed.

(* a mandatory member is encoded with exactly the options of a top-level encode call: its chunk is
   encode c defMode chunk Ti xi *)
Lemma member_chunk_is_encode : forall c defm ck T p mo Ti xi,
  member_opts c defm ck T p = Ok mo -> is_opt p = false ->
  enc c Ti mo xi = encode c defm ck Ti xi.
Proof.
  intros c defm ck T p mo Ti xi H Hp. unfold member_opts in H.
  destruct (concrete_encoder c T) as [ce|e]; simpl in H; [|discriminate].
  inversion H; subst. rewrite Hp, andb_false_r. apply fix_opts_member.
Qed.

(* a record whose members are not re-ordered by the encoder: the open record goes through the plain
   record encoder with the wrapped chunk as the value of the ANY *)
Lemma enc_open_plain : forall c defm ck T fs oi p ft vs Ti xi ce bytes,
  rec_fields T = Some fs -> nth_error fs oi = Some (p, ft) -> is_any ft = true ->
  concrete_encoder c T = Ok ce -> sorts_members (fst ce) = false ->
  holds_blob ft Ti = false ->
  enc_open c defm ck T oi (VRec vs) true [(Ti, xi)] = Ok bytes ->
  exists mo chunk, member_opts c defm ck T p = Ok mo /\ enc c Ti mo xi = Ok chunk /\
    encode c defm ck T (VRec (set_nth oi (Some (VAny chunk)) vs)) = Ok bytes.
Proof.
  intros c defm ck T fs oi p ft vs Ti xi ce bytes Hrec Hoi Hany Hce Hs Hb H.
  unfold enc_open in H. rewrite Hrec, Hoi in H. simpl negb in H. cbv iota in H.
  rewrite Hce in H. simpl bind in H. rewrite Hs in H. simpl andb in H. cbv iota in H.
  unfold open_member, wrap_type in H. rewrite (list_elem_any ft Hany), Hany in H. simpl negb in H. cbv iota in H.
  destruct (member_opts c defm ck T p) as [mo|e] eqn:Hmo; simpl bind in H; [|discriminate].
  unfold wrap_inner in H. rewrite Hb in H.
  destruct (enc c Ti mo xi) as [chunk|e] eqn:Hch; simpl bind in H; [|discriminate].
  exists mo, chunk. auto.
Qed.

Lemma wrap_inners_chunks : forall c o t inners xs,
  Forall (fun i => holds_blob t (fst i) = false) inners ->
  wrap_inners c o t inners = Ok xs ->
  exists chunks, xs = map VAny chunks /\
    Forall2 (fun i ch => enc c (fst i) o (snd i) = Ok ch) inners chunks.
Proof.
  induction inners as [|[Ti xi] inners IH]; intros xs HF H; simpl in H.
  - inversion H. exists []. split; [reflexivity|constructor].
  - inversion HF as [|? ? Hb HF']; subst. simpl in Hb. rewrite Hb in H.
    destruct (enc c Ti o xi) as [ch|e] eqn:Hch; simpl in H; [|discriminate].
    destruct (wrap_inners c o t inners) as [xs'|e] eqn:Hxs; simpl in H; [|discriminate].
    inversion H; subst. destruct (IH xs' HF' eq_refl) as [chunks [-> HF2]].
    exists (ch :: chunks). split; [reflexivity|]. constructor; auto.
Qed.

Lemma enc_open_plain_list : forall c defm ck T fs oi p ft t vs inners wire,
  rec_fields T = Some fs -> nth_error fs oi = Some (p, ft) -> list_elem ft = Some t -> is_any t = true ->
  Forall (fun i => holds_blob t (fst i) = false) inners ->
  enc_open c defm ck T oi (VRec vs) true inners = Ok wire ->
  exists chunks, Forall2 (fun i ch => encode c defm ck (fst i) (snd i) = Ok ch) inners chunks /\
    encode c defm ck T (VRec (set_nth oi (Some (VList (map VAny chunks))) vs)) = Ok wire.
Proof.
  intros c defm ck T fs oi p ft t vs inners wire Hrec Hoi Hl Hany HF H.
  unfold enc_open in H. rewrite Hrec, Hoi in H. simpl negb in H. cbv iota in H.
  destruct (concrete_encoder c T) as [ce|e]; simpl bind in H; [|discriminate].
  rewrite Hl in H. rewrite andb_false_r in H. unfold open_member, wrap_type in H. rewrite Hl, Hany in H.
  simpl negb in H. cbv iota in H.
  destruct (wrap_inners c (elem_opts c defm ck) t inners) as [xs|e] eqn:Hxs; simpl bind in H; [|discriminate].
  destruct (wrap_inners_chunks _ _ _ _ _ HF Hxs) as [chunks [-> HF2]].
  exists chunks. split; [|exact H].
  eapply Forall2_impl_in; [|exact HF2]. intros [Ti xi] ch _ _ Hc. simpl in *. rewrite <- fix_opts_member. exact Hc.
Qed.

(* the round-trip properties C01/C02 for one type, asked of EVERY value the encoder accepts, not only of the values
   of the type: a premise of the theorems below that no codec theorem provides and that fails for SEQUENCE { INTEGER, ANY }
   (an ANY holding no octets is written but cannot be read back); Proofs/OpenTypeRT.v
   has the scalar theorems without it *)
Definition roundtrips (c: codec) (defm: bool) (ck: N) (T: ty) : Prop :=
  forall v b, encode c defm ck T v = Ok b ->
    exists v', decode c (Some T) b = Ok (DV T v', []) /\ aval_eqb (abs T v') (abs T v) = true.

Theorem raw_is_complete_encoding :
  forall c defm ck T fs gi oi p ft pg gT vs g Ti xi ce dflt override dot wire,
  rec_fields T = Some fs -> nth_error fs oi = Some (p, ft) -> nth_error fs gi = Some (pg, gT) ->
  is_any ft = true -> not_def p -> not_def pg -> gi <> oi -> (oi < length vs)%nat ->
  nth gi vs None = Some g -> gov_ok gT g = true ->
  concrete_encoder c T = Ok ce -> sorts_members (fst ce) = false -> holds_blob ft Ti = false ->
  roundtrips c defm ck T ->
  enc_open c defm ck T oi (VRec vs) true [(Ti, xi)] = Ok wire ->
  ((dot = false /\ override = []) \/ resolve_type override dflt g = None) ->
  exists mo chunk vs' fv,
    member_opts c defm ck T p = Ok mo /\ enc c Ti mo xi = Ok chunk /\
    (is_opt p = false -> encode c defm ck Ti xi = Ok chunk) /\
    dec_open c T gi oi dflt override dot wire = Ok (DV T (VRec vs'), []) /\
    nth oi vs' None = Some fv /\ octets_of fv = Some chunk.
Proof.
  intros c defm ck T fs gi oi p ft pg gT vs g Ti xi ce dflt override dot wire
         Hrec Hoi Hgi Hany Hp Hpg Hne Hlen Hg Hgok Hce Hs Hb RT Henc Hoff.
  destruct (enc_open_plain c defm ck T fs oi p ft vs Ti xi ce wire Hrec Hoi Hany Hce Hs Hb Henc)
    as [mo [chunk [Hmo [Hch Hplain]]]].
  destruct (RT _ _ Hplain) as [v' [Hfirst Hobs]].
  destruct (raw_on_wire c T fs gi oi p ft gT pg Hrec Hoi Hgi Hany Hp Hpg vs g chunk Hg Hgok Hne Hlen
              dflt override dot wire v' Hfirst Hobs Hoff) as [vs' [fv [H1 [H2 H3]]]].
  exists mo, chunk, vs', fv. repeat split; auto.
  intros Hopt. rewrite <- Hch. symmetry. exact (member_chunk_is_encode c defm ck T p mo Ti xi Hmo Hopt).
Qed.

Theorem resolved :
  forall c defm ck T fs gi oi p ft pg gT vs g Ti xi ce dflt override dot wire chunk,
  rec_fields T = Some fs -> nth_error fs oi = Some (p, ft) -> nth_error fs gi = Some (pg, gT) ->
  is_any ft = true -> not_def p -> is_opt p = false -> not_def pg -> gi <> oi -> (oi < length vs)%nat ->
  nth gi vs None = Some g -> gov_ok gT g = true ->
  concrete_encoder c T = Ok ce -> sorts_members (fst ce) = false -> holds_blob ft Ti = false ->
  roundtrips c defm ck T -> roundtrips c defm ck Ti ->
  enc_open c defm ck T oi (VRec vs) true [(Ti, xi)] = Ok wire ->
  encode c defm ck Ti xi = Ok chunk -> no_eoo_prefix chunk = true ->
  (dot = true \/ override <> []) -> resolve_type override dflt g = Some Ti ->
  exists w vs',
    dec_open c T gi oi dflt override dot wire
      = Ok (DV (subst_field T oi Ti) (VRec (set_nth oi (Some w) vs')), []) /\
    aval_eqb (abs Ti w) (abs Ti xi) = true.
Proof.
  intros c defm ck T fs gi oi p ft pg gT vs g Ti xi ce dflt override dot wire chunk
         Hrec Hoi Hgi Hany Hp Hopt Hpg Hne Hlen Hg Hgok Hce Hs Hb RT RTi Henc Hchunk Hpre Hon Hmap.
  destruct (enc_open_plain c defm ck T fs oi p ft vs Ti xi ce wire Hrec Hoi Hany Hce Hs Hb Henc)
    as [mo [chunk' [Hmo [Hch Hplain]]]].
  rewrite (member_chunk_is_encode c defm ck T p mo Ti xi Hmo Hopt), Hchunk in Hch. inversion Hch; subst chunk'.
  destruct (RT _ _ Hplain) as [v' [Hfirst Hobs]].
  destruct (RTi _ _ Hchunk) as [w [Hin Hw]].
  destruct (resolved_when_mapped c T fs gi oi p ft gT pg Hrec Hoi Hgi Hany Hp Hpg vs g chunk Hg Hgok Hne Hlen
              dflt override dot wire v' Hfirst Hobs Ti w Hon Hmap Hpre Hin) as [vs' [Hd _]].
  exists w, vs'. split; assumption.
Qed.

Corollary override_wins_resolved :
  forall c defm ck T fs gi oi p ft pg gT vs g Ti xi ce dflt override dot wire chunk,
  rec_fields T = Some fs -> nth_error fs oi = Some (p, ft) -> nth_error fs gi = Some (pg, gT) ->
  is_any ft = true -> not_def p -> is_opt p = false -> not_def pg -> gi <> oi -> (oi < length vs)%nat ->
  nth gi vs None = Some g -> gov_ok gT g = true ->
  concrete_encoder c T = Ok ce -> sorts_members (fst ce) = false -> holds_blob ft Ti = false ->
  roundtrips c defm ck T -> roundtrips c defm ck Ti ->
  enc_open c defm ck T oi (VRec vs) true [(Ti, xi)] = Ok wire ->
  encode c defm ck Ti xi = Ok chunk -> no_eoo_prefix chunk = true ->
  omap_find g override = Some Ti ->
  exists w vs',
    dec_open c T gi oi dflt override dot wire
      = Ok (DV (subst_field T oi Ti) (VRec (set_nth oi (Some w) vs')), []) /\
    aval_eqb (abs Ti w) (abs Ti xi) = true.
Proof.
  intros until 19. intros Hov. eapply resolved; eauto using override_on, override_wins.
Qed.
