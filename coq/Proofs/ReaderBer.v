(* C03, second half: every BER and CER encoder output, read by the independent X.690 reader guided
   by the same type, denotes the same abstract value - in every mode (definite / indefinite
   lengths, any maxChunkSize), outside finding F01: the simple types under any stack of tags, for
   all three codecs (SEQUENCE / SEQUENCE OF nesting: Proofs/ReaderBerDeep.v). *)
From Coq Require Import Lia.
From PV Require Import Base.Bytes Model.Tag Model.TableTypes Model.Types Model.Enc Gen.Tables Spec.X690
     Proofs.Bits Proofs.SpecOctets Proofs.LeafInt Proofs.LeafOidBits Proofs.LeafReal Proofs.TagAlgebra
     Proofs.EncUnfold Proofs.DerReference Proofs.ReaderParse Proofs.ReaderInterp Proofs.ReaderLeafOidBits
     Proofs.ReaderLeafReal Proofs.ReaderSound Proofs.ReaderFrame Proofs.ReaderCerSegments Proofs.ReaderModel.
From PV Require Proofs.TagsetShape.
Local Open Scope N_scope.

(* what follows the identifier of the innermost encoding: [base_enc] (Proofs/ReaderModel.v) after its identifier *)
Definition inner_rb (ic indef: bool) (content: bytes) : bytes :=
  if ic && indef then [128] ++ content ++ [0; 0] else length_octets (N.of_nat (length content)) ++ content.

Lemma inner_rb_length ic indef content : (length content <= length (inner_rb ic indef content))%nat.
Proof. unfold inner_rb. destruct (ic && indef)%bool; rewrite !app_length; lia. Qed.

(* the contents octets an encodeValue produced are read back, under the base tag, as the value *)
Definition content_fact (c: codec) (T: ty) (o': eopts) (v: val) : Prop :=
  forall cd fl content ic,
    concrete_encoder c (base_of T) = Ok (cd, fl) ->
    enc_content c (base_of T) cd fl (mkOpts (o_def o') (o_chunk o') false) v = Ok (content, ic) ->
    ef_indef fl = indef_base (base_of T) /\ (ic = true -> indef_base (base_of T) = true) /\
    exists tb, tagset_of (base_of T) = Ok [tb] /\ tcls tb = Univ /\
      (N.of_nat (length content) < max_len ->
       reads_as (base_of T) (abs (base_of T) v)
                (ident Univ (tcon tb || ic) (tnum tb) ++ inner_rb ic (negb (o_def o')) content)).

Lemma gframe_ts_length indef t0 r pc rb : (length rb <= length (gframe_ts indef (t0 :: r) pc rb))%nat.
Proof.
  cbn [gframe_ts]. pose proof (fold_wrap_length indef r (ident (tcls t0) pc (tnum t0) ++ rb)) as H.
  rewrite app_length in H. lia.
Qed.

(* SingleItemEncoder.__call__ around an encodeValue whose contents are read back: the whole
   encoding is read back, in any mode, outside finding F01.  The flags give the shape of the output,
   the output bounds the contents, the bound lets the contents be read. *)
Theorem reads_of_content c T o v b :
  content_fact c T (fix_opts c o) v ->
  o_ifne (fix_opts c o) = false ->
  (o_def (fix_opts c o) = false -> no_f01 T = true /\ eoc_safe T = true) ->
  enc c T o v = Ok b -> N.of_nat (length b) < max_len ->
  reads_as T (abs T v) b.
Proof.
  intros Hcf Hi Hindef He Hl. apply enc_inv in He. set (o' := fix_opts c o) in *.
  destruct He as (cd & fl & ts & content & ic & Ece & Ets & Ec & He).
  destruct (Hcf cd fl content ic Ece Ec) as (Hfl & Hic & tb & Htb & Hcls & Hr).
  destruct (tagset_shape T tb Htb ts Ets) as (t0 & r & -> & Hc0 & Hall & _).
  apply (frame_gframe t0 r content ic o' (ef_indef fl) b Hi Hall) in He.
  2:{ intros Hd Hne. rewrite Hfl. exact (no_f01_indef T tb t0 r (proj1 (Hindef Hd)) Htb Ets Hne). }
  2:{ intros _ Hic'. rewrite Hfl. apply Hic. exact Hic'. }
  subst b.
  assert (Hlen: N.of_nat (length content) < max_len).
  { pose proof (gframe_ts_length (negb (o_def o')) t0 r (tcon t0 || ic) (inner_rb ic (negb (o_def o')) content)) as Hg.
    pose proof (inner_rb_length ic (negb (o_def o')) content) as Hc. unfold inner_rb in Hg, Hc. lia. }
  specialize (Hr Hlen). rewrite (TagsetShape.abs_wrappers T v). rewrite <- Hc0, <- Hcls in Hr.
  apply (reads_gframe T (tagged_of_base T tb Htb) (negb (o_def o')) _ (tcon t0 || ic) _ tb Htb Hr _ Ets).
  - intros Hd. apply Bool.negb_true_iff in Hd. destruct (Hindef Hd) as [_ Hs]. apply (eoc_safe_free T _ _ Hs Ets).
  - intros Hd. rewrite Hd in Hl |- *. apply bound_of_length. exact Hl.
Qed.

Lemma content_fact_simple c T o' v : der_ref_val T v = true -> content_fact c T o' v.
Proof.
  intros Hd cd fl content ic Hce Hc. unfold der_ref_val in Hd.
  pose proof (der_ref_simple _ _ Hd) as Hs.
  destruct (leaf_reads c (base_of T) v cd fl _ content ic Hd Hce Hc) as (Hfl & Hic & Hr).
  split; [exact Hfl|split; [exact Hic|]].
  destruct (canon_simple (base_of T) v Hs) as [Htb _].
  exists (base_tag (base_of T)). split; [exact Htb|split; [apply base_tag_univ|]].
  cbn [o_def] in Hr.
  replace (tcon (base_tag (base_of T)) || ic)%bool with ic by (destruct (base_of T); try discriminate Hs; reflexivity).
  exact Hr.
Qed.

(* simple types: the output of any of the three encoders, in any mode *)
Theorem enc_output_reads_simple : forall c T o v b,
  der_ref_val T v = true -> o_ifne (fix_opts c o) = false ->
  (o_def (fix_opts c o) = false -> no_f01 T = true /\ eoc_safe T = true) ->
  enc c T o v = Ok b -> N.of_nat (length b) < max_len ->
  X690.read T b = Some (abs T v, []).
Proof.
  intros c T o v b Hd Hi Hindef He Hl. rewrite <- (app_nil_r b). apply reads_read.
  apply (reads_of_content c T o v b); try assumption. apply content_fact_simple. exact Hd.
Qed.

Theorem ber_output_reads_simple : forall T v defMode chunk b,
  der_ref_val T v = true -> (defMode = false -> no_f01 T = true /\ eoc_safe T = true) ->
  encode BER defMode chunk T v = Ok b -> N.of_nat (length b) < max_len ->
  X690.read T b = Some (abs T v, []).
Proof.
  intros T v d k b Hd Hindef He Hl. apply (enc_output_reads_simple BER T (mkOpts d k false) v b); try assumption; reflexivity.
Qed.

Theorem cer_output_reads_simple : forall T v defMode chunk b,
  der_ref_val T v = true -> no_f01 T = true -> eoc_safe T = true ->
  encode CER defMode chunk T v = Ok b -> N.of_nat (length b) < max_len ->
  X690.read T b = Some (abs T v, []).
Proof.
  intros T v d k b Hd Hf Hs He Hl. apply (enc_output_reads_simple CER T (mkOpts d k false) v b); try assumption; try reflexivity.
  intros _. split; assumption.
Qed.

(* [0] EXPLICIT [PRIVATE 5] IMPLICIT OCTET STRING of 10 octets in 4-octet pieces, indefinite mode *)
Example ber_output_reads_witness :
  let T := TExp (mkTag Ctx false 0) (TImp (mkTag Priv false 5) TOcts) in
  let v := VOcts [1;2;3;4;5;6;7;8;9;10] in
  der_ref_val T v = true /\ no_f01 T = true /\ eoc_safe T = true /\
  encode BER false 4 T v = Ok [160;128; 229;128; 4;4;1;2;3;4; 4;4;5;6;7;8; 4;2;9;10; 0;0; 0;0] /\
  read T [160;128; 229;128; 4;4;1;2;3;4; 4;4;5;6;7;8; 4;2;9;10; 0;0; 0;0] = Some (abs T v, []) /\
  encode BER true 4 T v = Ok [160;18; 229;16; 4;4;1;2;3;4; 4;4;5;6;7;8; 4;2;9;10] /\
  read T [160;18; 229;16; 4;4;1;2;3;4; 4;4;5;6;7;8; 4;2;9;10] = Some (abs T v, []).
Proof. vm_compute. repeat split. Qed.

(* a 19-bit BIT STRING in 1-octet pieces, BOOLEAN TRUE as 01 *)
Example ber_output_reads_witness_bits :
  (let T := TImp (mkTag Ctx false 2) TBits in
   let v := VBits [true;false;true;true;false;false;false;false; true;true;true;true;false;false;false;false; true;false;true] in
   der_ref_val T v = true /\
   encode BER false 1 T v = Ok [162;128; 3;2;0;176; 3;2;0;240; 3;2;5;160; 0;0] /\
   read T [162;128; 3;2;0;176; 3;2;0;240; 3;2;5;160; 0;0] = Some (abs T v, [])) /\
  encode BER true 0 TBool (VBool true) = Ok [1; 1; 1] /\ read TBool [1; 1; 1] = Some (ABool true, []).
Proof. vm_compute. repeat split. Qed.

(* finding F01: [1] EXPLICIT INTEGER in indefinite mode - definite length, yet 00 00 appended: the
   independent reader stops before them *)
Example ber_output_reads_refuted_F01 :
  let T := TExp (mkTag Appl false 1) TInt in let v := VInt 1 in
  der_ref_val T v = true /\ no_f01 T = false /\
  encode BER false 0 T v = Ok [97; 3; 2; 1; 1; 0; 0] /\
  read T [97; 3; 2; 1; 1; 0; 0] = Some (AInt 1, [0; 0]).
Proof. vm_compute. repeat split. Qed.

(* why [eoc_safe]: [1] EXPLICIT [UNIVERSAL 0] IMPLICIT NULL in indefinite mode is a1 80 00 00 00 00;
   any reader takes the first 00 00 for the end-of-contents octets *)
Example ber_output_reads_needs_eoc_safe :
  let T := TExp (mkTag Ctx false 1) (TImp (mkTag Univ false 0) TOcts) in let v := VOcts [] in
  der_ref_val T v = true /\ no_f01 T = true /\ eoc_safe T = false /\
  encode BER false 0 T v = Ok [161; 128; 0; 0; 0; 0] /\ read T [161; 128; 0; 0; 0; 0] = None.
Proof. vm_compute. repeat split. Qed.

Print Assumptions reads_of_content.
Print Assumptions enc_output_reads_simple.
Print Assumptions ber_output_reads_simple.
Print Assumptions cer_output_reads_simple.
