(* The value-object encoder of Model/Enc.v does not distinguish a value from its canonical form
   (Proofs/NativeRoundTrip.v), for any of the three codecs and any mode: hence encoding the
   Python tree the native encoder makes of a value gives the octets of the value itself. *)
From Coq Require Import Lia.
From PV Require Import Model.Native Proofs.Basics Proofs.NativeText Proofs.NativeRoundTrip.
Local Open Scope N_scope.

Lemma val_py_eq_canon : forall T x d, scalar_default_ty T = true -> wf_native T x = true ->
  val_py_eq (canon T x) d = val_py_eq x d.
Proof.
  induction T; intros v d Hs Hw; try reflexivity; try discriminate Hs.
  - (* character strings *)
    destruct v; try discriminate Hw; try reflexivity.
    destruct d; try reflexivity. simpl. rewrite bytes_eqb_sym. reflexivity.
  - exact (IHT v d Hs Hw).
  - exact (IHT v d Hs Hw).
Qed.

(* a default of a scalar type equals itself: every comparison [val_py_eq] makes is reflexive *)
Lemma val_py_eq_self : forall T d, scalar_default_ty T = true -> wf_native T d = true ->
  val_py_eq d d = Some true.
Proof.
  induction T; intros d Hs Hw; try discriminate Hs; try exact (IHT d Hs Hw);
    destruct d; try discriminate Hw; cbn [val_py_eq];
    rewrite ?Bool.eqb_reflx, ?Z.eqb_refl, ?bytes_eqb_refl,
      ?(list_eqb_refl Bool.eqb _ (fun a _ => Bool.eqb_reflx a)),
      ?(list_eqb_refl N.eqb _ (fun a _ => N.eqb_refl a));
    reflexivity.
Qed.

(* the loop of Enc.enc_content over the components of a SEQUENCE / SET, by name *)

Definition omit_of (cd: enc_codec) (fl: enc_flags) : bool :=
  match cd with EcSeq => ef_omit_empty fl | EcSetCer | EcSetDer => true | _ => false end.
Definition dyn_of (cd: enc_codec) : bool := match cd with EcSetDer => true | _ => false end.
Definition field_opts (cd: enc_codec) (fl: enc_flags) (o: eopts) (p: presence) : eopts :=
  if omit_of cd fl then mkOpts (o_def o) (o_chunk o) (match p with Opt => true | _ => false end) else o.
Definition emit (c: codec) (cd: enc_codec) (fl: enc_flags) (o: eopts) (p: presence) (ft: ty) (x: val)
           (rest: res (list (tagset * bytes))) : res (list (tagset * bytes)) :=
  do b <- enc_with c (enc_content c) ft (field_opts cd fl o p) x;
  do r <- rest;
  Ok ((set_sort_key (dyn_of cd) ft x, b) :: r).

Definition enc_fields (c: codec) (cd: enc_codec) (fl: enc_flags) (o: eopts)
  : list (presence * ty) -> list (option val) -> res (list (tagset * bytes)) :=
  fix go (fs: list (presence * ty)) (vs: list (option val)) : res (list (tagset * bytes)) :=
    match fs with
    | [] => Ok []
    | (p, ft) :: fs' =>
        let rest := go fs' (tl vs) in
        match p, hd None vs with
        | Opt, None => rest
        | Def d, None => rest
        | Def d, Some x => match val_py_eq x d with
                           | Some true => rest
                           | Some false => emit c cd fl o p ft x rest
                           | None => Err EUnmodelled end
        | Req, None => if all_optional_container ft then emit c cd fl o p ft (VRec []) rest else Err EMalformed
        | _, Some x => emit c cd fl o p ft x rest
        end
    end.

Lemma enc_content_seq : forall c fs cd fl o vs,
  enc_content c (TSeq fs) cd fl o (VRec vs) =
  do parts <- enc_fields c cd fl o fs vs;
  match cd with
  | EcSeq => Ok (concat (map snd parts), true)
  | EcSetCer | EcSetDer => Ok (concat (map snd (sort_by tagset_ltb fst parts)), true)
  | _ => Err EMalformed
  end.
Proof. reflexivity. Qed.

Lemma enc_content_seqof : forall c t cd fl o xs,
  enc_content c (TSeqOf t) cd fl o (VList xs) =
  do parts <- map_res (enc_with c (enc_content c) t o) xs;
  match cd with
  | EcSeqOfBer | EcSeqOfCer => Ok (concat parts, true)
  | EcSetOfCer => Ok (concat (sort_setof parts), true)
  | _ => Err EMalformed
  end.
Proof. reflexivity. Qed.

Lemma enc_content_choice : forall c alts cd fl o i x,
  enc_content c (TChoice alts) cd fl o (VChoice i x) =
  match cd, nth_error alts i with
  | EcChoice, Some a => do p <- enc_with c (enc_content c) a o x; Ok (p, true)
  | _, _ => Err EMalformed
  end.
Proof.
  intros. destruct cd; try reflexivity.
  exact (nth_loop (fun a => do p <- enc_with c (enc_content c) a o x; Ok (p, true)) (Err EMalformed) alts i).
Qed.

Lemma chosen_outer_choice : forall alts i x,
  chosen_outer (TChoice alts) (VChoice i x)
  = match nth_error alts i with Some a => chosen_outer a x | None => [] end.
Proof. intros. exact (nth_loop (fun a => chosen_outer a x) [] alts i). Qed.

(* the encoder does not tell a value from its canonical form *)

Definition EncOk (c: codec) (T: ty) : Prop :=
  ok17_ty T = true -> forall v, wf_native T v = true ->
  (forall cd fl o, enc_content c T cd fl o (canon T v) = enc_content c T cd fl o v)
  /\ chosen_outer T (canon T v) = chosen_outer T v.

Lemma enc_with_eq : forall c T o v v',
  (forall cd fl o, enc_content c T cd fl o v' = enc_content c T cd fl o v) ->
  enc_with c (enc_content c) T o v' = enc_with c (enc_content c) T o v.
Proof.
  intros c T o v v' H. unfold enc_with.
  destruct (concrete_encoder c T) as [[cd fl]|e]; [|reflexivity]. cbn [bind].
  destruct (tagset_of T) as [ts|e]; [|reflexivity]. cbn [bind].
  rewrite H. reflexivity.
Qed.

Lemma encok_plain c T : plain T = true -> EncOk c T.
Proof.
  intros HT Hok v H. destruct T; try discriminate HT; try discriminate Hok;
    (split; [intros cd fl o|reflexivity]); destruct v; try discriminate H; try reflexivity.
  (* REAL: the encoder sends every zero as the empty contents *)
  destruct r as [| |m e|m e|]; try discriminate H; try reflexivity;
    apply Z.eqb_eq in H; subst m; destruct cd; reflexivity.
Qed.

Lemma emit_eq : forall c cd fl o p ft x rest, EncOk c ft -> ok17_ty ft = true -> wf_native ft x = true ->
  emit c cd fl o p ft (canon ft x) rest = emit c cd fl o p ft x rest.
Proof.
  intros c cd fl o p ft x rest IH Hok Hw. destruct (IH Hok x Hw) as [He Hc].
  unfold emit. rewrite (enc_with_eq c ft _ x (canon ft x) He).
  unfold set_sort_key. rewrite Hc. reflexivity.
Qed.

Definition ok_field (f: presence * ty) : bool :=
  ok17_ty (snd f) && match fst f with
                     | Def d => scalar_default_ty (snd f) && wf_native (snd f) d
                     | _ => true end.

Lemma enc_fields_canon : forall c cd fl o fs, Forall (fun f => EncOk c (snd f)) fs ->
  forallb ok_field fs = true ->
  forall vs, wf_fields fs vs = true ->
  enc_fields c cd fl o fs (canon_fields fs vs) = enc_fields c cd fl o fs vs.
Proof.
  intros c cd fl o fs HF. induction HF as [|[p ft] fs Hft _ IH]; intros Hok vs Hwf; [reflexivity|].
  cbn [forallb] in Hok. apply andb_prop in Hok as [[Hokt Hokd]%andb_prop Hokr].
  cbn [wf_fields] in Hwf. apply andb_prop in Hwf as [Hslot Hrest].
  cbn [canon_fields enc_fields hd tl fst snd] in *. cbv zeta.
  rewrite (IH Hokr _ Hrest).
  destruct (hd None vs) as [x|], p as [| |d]; try discriminate Hslot; try reflexivity;
    try (apply emit_eq; assumption); apply andb_prop in Hokd as [Hsc Hwd].
  - (* assigned, DEFAULT: the same comparison with the default, then the same encoding *)
    rewrite (val_py_eq_canon ft x d Hsc Hslot).
    destruct (val_py_eq x d) as [[|]|]; [reflexivity|apply emit_eq; assumption|reflexivity].
  - (* unassigned, DEFAULT: the default stands in the canonical form, and is left out as equal
       to itself *)
    rewrite (val_py_eq_canon ft d d Hsc Hwd), (val_py_eq_self ft d Hsc Hwd). reflexivity.
Qed.

Lemma encok_record c fs : Forall (fun f => EncOk c (snd f)) fs -> EncOk c (TSeq fs).
Proof.
  intros HF Hok v H. destruct v as [| | | | | | | |vs| | |]; try discriminate H.
  split; [|reflexivity]. intros cd fl o.
  rewrite canon_seq, !enc_content_seq, (enc_fields_canon c cd fl o fs HF Hok vs H). reflexivity.
Qed.

Lemma encok_list c t : EncOk c t -> EncOk c (TSeqOf t).
Proof.
  intros IH Hok v H. destruct v as [| | | | | | | | |xs| |]; try discriminate H.
  split; [|reflexivity]. intros cd fl o.
  change (canon (TSeqOf t) (VList xs)) with (VList (map (canon t) xs)).
  rewrite !enc_content_seqof, map_res_map_ext; [reflexivity|].
  cbn [wf_native] in H. rewrite forallb_forall in H. apply Forall_forall. intros x Hx.
  apply enc_with_eq, (IH Hok x (H x Hx)).
Qed.

Lemma encok_choice c alts : Forall (EncOk c) alts -> EncOk c (TChoice alts).
Proof.
  intros HF Hok v H. destruct v as [| | | | | | | | | |i x|]; try discriminate H.
  rewrite wf_choice in H. rewrite canon_choice, !chosen_outer_choice.
  destruct (nth_error alts i) as [a|] eqn:Hn; [|discriminate H].
  cbn [ok17_ty] in Hok. rewrite forallb_forall in Hok. rewrite Forall_forall in HF.
  pose proof (nth_error_In _ _ Hn) as Hin. destruct (HF a Hin (Hok a Hin) x H) as [He Hc].
  split; [|exact Hc]. intros cd fl o.
  rewrite !enc_content_choice, Hn, (enc_with_eq c a o x (canon a x) He). reflexivity.
Qed.

(* Outside CHOICE the first tag is the type's own, whatever the value; the contents of a SET, a
   SET OF and a tagged type are computed by the branch that serves SEQUENCE, SEQUENCE OF and the
   type under the tag. *)
Theorem encoder_ignores_canon : forall c T, EncOk c T.
Proof.
  intro c. apply ty_shape_ind.
  - exact (encok_plain c).
  - exact (encok_record c).
  - intros fs HF Hok v H. split; [exact (proj1 (encok_record c fs HF Hok v H))|destruct v; reflexivity].
  - exact (encok_list c).
  - intros t IH Hok v H. split; [exact (proj1 (encok_list c t IH Hok v H))|destruct v; reflexivity].
  - exact (encok_choice c).
  - intros t x IH Hok v H. split; [exact (proj1 (IH Hok v H))|destruct v; reflexivity].
  - intros t x IH Hok v H. split; [exact (proj1 (IH Hok v H))|destruct v; reflexivity].
Qed.

Theorem pyvalue_equiv : forall c defm chunk T v p,
  ok17 T v = true -> pyval_of T v = Ok p ->
  encode_py c defm chunk T p = encode c defm chunk T v.
Proof.
  intros c defm chunk T v p Hok Hp. unfold ok17 in Hok. apply andb_prop in Hok. destruct Hok as [Hty Hwf].
  destruct (native_builtins_roundtrip T true v Hwf) as [p' [E1 E2]].
  unfold pyval_of in Hp. rewrite E1 in Hp. injection Hp as <-.
  unfold encode_py. rewrite E2. cbn [bind]. unfold encode, enc.
  apply enc_with_eq. apply (encoder_ignores_canon c T Hty v Hwf).
Qed.

Theorem pyvalue_equiv_three : forall T v p, ok17 T v = true -> pyval_of T v = Ok p ->
  encode_py BER true 0 T p = encode BER true 0 T v
  /\ encode_py CER true 0 T p = encode CER true 0 T v
  /\ encode_py DER true 0 T p = encode DER true 0 T v.
Proof. intros T v p H E. repeat split; exact (pyvalue_equiv _ true 0 T v p H E). Qed.

(* an OPTIONAL member absent from the mapping is skipped, by the decoder and by the encoders alike
   ([from_fields]: the loop of from_py over the declared components, Proofs/NativeRoundTrip.v) *)
Lemma absent_optional_key : forall s ft fs kvs i,
  lookup_py i kvs = None ->
  from_fields s kvs i ((Opt, ft) :: fs) = (do r <- from_fields s kvs (S i) fs; Ok (None :: r)).
Proof. intros s ft fs kvs i H. cbn [from_fields]. rewrite H. reflexivity. Qed.
