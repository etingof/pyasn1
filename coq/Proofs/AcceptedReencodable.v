(* C10, re-encodability: what a decoder accepts, the same codec's encoder accepts.
   Encoder totality on well-formed values ([val_of], Proofs/AcceptedWellFormed.v) of types whose
   tags can be written, for all three codecs in every mode (definite / indefinite, any segment
   size), up to the one refusal a length can cause: contents of 256^126 octets or more. *)
From Coq Require Import Lia Permutation.
From PV Require Import Base.Bytes Model.Tag Model.TableTypes Model.Types Model.Proc Model.Enc Model.Dec Gen.Tables
     Proofs.Basics Proofs.EncUnfold Proofs.ContainerCodecSort Proofs.LeafReal Proofs.RoundTrip1 Proofs.DerReference Proofs.AcceptedWellFormed.
Local Open Scope N_scope.

(* an upper bound on the size of the encoding, computed without encoding *)

(* identifier octets + at most 127 length octets + an end-of-octets pair *)
Definition tag_cost (t: tag) : nat := (length (enc_tag t true) + 129)%nat.
Definition tags_cost (ts: tagset) : nat := fold_right (fun t acc => (tag_cost t + acc)%nat) O ts.

Fixpoint csize (T: ty) (v: val) {struct T} : nat :=
  match T with
  | TImp _ x | TExp _ x => csize x v
  | TBool => 1%nat
  | TInt | TEnum => match v with VInt z => S (length (twos_bytes z)) | _ => O end
  | TBits => match v with VBits bs => (132 * length bs + 1)%nat | _ => O end          (* segment headers included *)
  | TOcts | TStr _ | TAny => match octets_of v with Some b => (131 * length b)%nat | None => O end
  | TNull => O
  | TOid => match v with VOid a => match enc_oid a with Ok b => length b | Err _ => O end | _ => O end
  | TReal => match v with VReal r => match enc_real r with Ok b => length b | Err _ => O end | _ => O end
  | TSeqOf t | TSetOf t =>
      match v with
      | VList xs => fold_right (fun x acc => (tags_cost (tagset_of' t) + csize t x + acc)%nat) O xs
      | _ => O
      end
  | TChoice alts =>
      match v with
      | VChoice i x =>
          (fix go (alts: list ty) (k: nat) : nat :=
             match alts, k with
             | a :: _, O => (tags_cost (tagset_of' a) + csize a x)%nat
             | _ :: r, S k' => go r k'
             | [], _ => O
             end) alts i
      | _ => O
      end
  | TSeq fs | TSet fs =>
      match v with
      | VRec vs =>
          (fix go (fs: list (presence * ty)) (vs: list (option val)) : nat :=
             match fs, vs with
             | (p, t) :: fs', ov :: vs' =>
                 ((match ov with Some x => tags_cost (tagset_of' t) + csize t x | None => O end) + go fs' vs')%nat
             | _, _ => O
             end) fs vs
      | _ => O
      end
  end.

(* bound on the whole encoding of v as a T *)
Definition esize (T: ty) (v: val) : nat := (tags_cost (tagset_of' T) + csize T v)%nat.

Lemma csize_base : forall T v, csize T v = csize (base_of T) v.
Proof. induction T using ty_ind'; intros v; cbn [csize base_of]; auto. Qed.

(* framing never fails below the length limit *)

Lemma enc_tag_length t c : length (enc_tag t c) = length (enc_tag t true).
Proof. unfold enc_tag. destruct (N.ltb (tnum t) 31); reflexivity. Qed.

Lemma enc_len_bound n i l : enc_len n i = Ok l -> (length l <= 127)%nat.
Proof.
  unfold enc_len. destruct i; [intros H; inversion H; subst; cbn; lia|].
  destruct (N.ltb n 128); [intros H; inversion H; subst; cbn; lia|].
  cbv zeta. destruct (Nat.ltb_spec 126 (length (b256 n))) as [Hc|Hc]; [discriminate|].
  intros H; inversion H; subst. cbn [length]. lia.
Qed.

Lemma enc_len_total' n i : n < max_len -> exists l, enc_len n i = Ok l.
Proof. intros Hn. destruct i; [eexists; reflexivity|apply enc_len_total; exact Hn]. Qed.

Lemma frame_one_total' t ic d si sub : N.of_nat (length sub) < max_len ->
  exists b, frame_one t ic d si sub = Ok b /\ (length b <= tag_cost t + length sub)%nat.
Proof.
  intros Hn. unfold frame_one. destruct (enc_len_total' _ (negb d && si) Hn) as [l El]. rewrite El. cbn [bind].
  eexists. split; [reflexivity|]. pose proof (enc_len_bound _ _ _ El) as Hl.
  rewrite !app_length, (enc_tag_length t ic). unfold tag_cost. destruct d; cbn [length]; lia.
Qed.

Lemma frame_outer_total' : forall r ic d si sub n, (length sub <= n)%nat -> N.of_nat (tags_cost r + n) < max_len ->
  exists b, frame_outer r ic d si sub = Ok b /\ (length b <= tags_cost r + n)%nat.
Proof.
  induction r as [|t r IH]; intros ic d si sub n Hs Hn; cbn [frame_outer tags_cost fold_right] in *.
  - exists sub. split; [reflexivity|lia].
  - fold (tags_cost r) in *.
    destruct (frame_one_total' t ic d si sub) as (s' & E & Hl); [lia|]. rewrite E. cbn [bind].
    destruct (IH ic d si s' (tag_cost t + n)%nat) as (b & Eb & Hb); [lia|lia|].
    exists b. split; [exact Eb|lia].
Qed.

Lemma frame_total' ts content ic o si n : (length content <= n)%nat -> N.of_nat (tags_cost ts + n) < max_len ->
  exists b, frame ts content ic o si = Ok b /\ (length b <= tags_cost ts + n)%nat.
Proof.
  intros Hc Hn. destruct ts as [|t0 r]; cbn [frame].
  - exists content. split; [reflexivity|cbn; lia].
  - cbn [tags_cost fold_right] in *. fold (tags_cost r) in *.
    destruct ((match content with [] => true | _ => false end) && ic && o_ifne o).
    + exists []. split; [reflexivity|cbn; lia].
    + destruct (frame_one_total' t0 ic (if ic then o_def o else true) si content) as (s0 & E & Hl); [lia|].
      rewrite E. cbn [bind].
      destruct (frame_outer_total' r ic (o_def o) si s0 (tag_cost t0 + n)%nat) as (b & Eb & Hb); [lia|lia|].
      exists b. split; [exact Eb|lia].
Qed.

(* the encoder tables hand every type a value encoder of its own kind *)

Definition ecompat (k: tkey) (cd: enc_codec) : bool :=
  match k, cd with
  | KBool, (EcBoolBer | EcBoolCer) | (KInt | KEnum), EcInt | KBits, (EcBits | EcBitsCer) | KOcts, EcOcts
  | KStr _, (EcOcts | EcGenTime | EcUtcTime) | KNull, EcNull | KOid, EcOid | KReal, (EcRealBer | EcRealCer)
  | (KSeq | KSet), (EcSeq | EcSetCer | EcSetDer) | (KSeqOf | KSetOf), (EcSeqOfBer | EcSeqOfCer | EcSetOfCer)
  | KChoice, EcChoice | KAny, EcAny => true
  | _, _ => false
  end.

Lemma concrete_encoder_total c T : exists cd fl, concrete_encoder c T = Ok (cd, fl) /\ ecompat (key_of T) cd = true.
Proof.
  unfold concrete_encoder. destruct (lookup3 (key_of T) (enc_type_map c)) as [[cd0 fl0]|] eqn:E1.
  - exists cd0, fl0. split; [reflexivity|]. apply (table_compat ecompat (enc_type_map c) _ _ fl0); [|exact E1].
    destruct c; vm_compute; reflexivity.
  - unfold tag_fallback_key.
    assert (Hk: key_of T <> KEoo) by (unfold key_of; destruct (base_of T); discriminate).
    destruct (key_of T) eqn:EK; try (destruct c; vm_compute in E1; discriminate); try contradiction.
    all: destruct c; vm_compute; eexists; eexists; split; reflexivity.
Qed.

(* sorting moves octets around but loses none *)

Lemma sort_setof_length parts : length (concat (sort_setof parts)) = length (concat parts).
Proof.
  unfold sort_setof. destruct parts as [|a [|b r]]; try reflexivity.
  symmetry. apply concat_perm_length. apply sort_by_perm_self.
Qed.

Lemma sorted_fields_length (parts: list (tagset * bytes)) :
  length (concat (map snd (sort_by tagset_ltb fst parts))) = length (concat (map snd parts)).
Proof. symmetry. apply concat_perm_length. apply Permutation_map. apply sort_by_perm_self. Qed.

(* DEFAULT values are compared with ==, which the model follows for scalar non-REAL types only *)
Definition def_ok (t: ty) (d: val) : bool :=
  match base_of t with
  | TBool | TInt | TEnum | TBits | TOcts | TStr _ | TNull | TOid => val_of t d
  | _ => false
  end.

(* no EXPLICIT UNIVERSAL tag (pyasn1 refuses to build such a type); character/useful string types
   whose encoder is the plain string encoder (under CER/DER the two time types have a checking
   encoder: see [der_time_accepted_not_reencodable]); comparable DEFAULT values *)
Fixpoint enc_ty (c: codec) (T: ty) : bool :=
  match T with
  | TStr n => match concrete_encoder c (TStr n) with Ok (EcOcts, _) => true | _ => false end
  | TSeq fs | TSet fs =>
      forallb (fun f => enc_ty c (snd f) && match fst f with Def d => def_ok (snd f) d | _ => true end) fs
  | TSeqOf t | TSetOf t => enc_ty c t
  | TChoice alts => forallb (enc_ty c) alts
  | TImp _ x => enc_ty c x
  | TExp t x => negb (cls_eqb (tcls t) Univ) && enc_ty c x
  | _ => true
  end.

(* binary REAL values whose normalised exponent fits 255 octets (|e| < 2^2039) *)
Fixpoint reals_fit (v: val) : bool :=
  match v with
  | VReal (RBin m e) => real_exp_fits m e
  | VRec fs => forallb (fun ov => match ov with Some x => reals_fit x | None => true end) fs
  | VList xs => forallb reals_fit xs
  | VChoice _ x => reals_fit x
  | _ => true
  end.

Lemma enc_ty_tagset c : forall T, enc_ty c T = true -> exists ts, tagset_of T = Ok ts.
Proof.
  induction T using ty_ind'; intros Hx; cbn [tagset_of]; try (eexists; reflexivity).
  - cbn [enc_ty] in Hx. destruct (IHT Hx) as [ts E]. rewrite E. cbn [bind]. eexists; reflexivity.
  - cbn [enc_ty] in Hx. apply andb_prop in Hx. destruct Hx as [Hc Hx]. destruct (IHT Hx) as [ts E]. rewrite E. cbn [bind].
    unfold tag_explicitly. destruct (tcls t); try discriminate Hc; eexists; reflexivity.
Qed.

Lemma enc_ty_base c : forall T, enc_ty c T = true -> enc_ty c (base_of T) = true.
Proof.
  induction T using ty_ind'; intros Hx; cbn [base_of]; try exact Hx.
  - apply IHT. exact Hx.
  - apply IHT. cbn [enc_ty] in Hx. apply andb_prop in Hx. apply Hx.
Qed.

Lemma concrete_encoder_compat c T cd fl : concrete_encoder c T = Ok (cd, fl) -> ecompat (key_of T) cd = true.
Proof.
  intros H. destruct (concrete_encoder_total c T) as (cd' & fl' & E & Hc). rewrite E in H. inversion H; subst. exact Hc.
Qed.

(* the sizes of the parts, named like the encoder's loops in Proofs/EncUnfold.v *)
Definition elems_size (t: ty) (xs: list val) : nat :=
  fold_right (fun x acc => (tags_cost (tagset_of' t) + csize t x + acc)%nat) O xs.
Definition fields_size : list (presence * ty) -> list (option val) -> nat :=
  fix go (fs: list (presence * ty)) (vs: list (option val)) : nat :=
    match fs, vs with
    | (p, t) :: fs', ov :: vs' =>
        ((match ov with Some x => tags_cost (tagset_of' t) + csize t x | None => O end) + go fs' vs')%nat
    | _, _ => O
    end.
Lemma csize_seqof t xs : csize (TSeqOf t) (VList xs) = elems_size t xs. Proof. reflexivity. Qed.
Lemma csize_setof t xs : csize (TSetOf t) (VList xs) = elems_size t xs. Proof. reflexivity. Qed.
Lemma csize_seq fs vs : csize (TSeq fs) (VRec vs) = fields_size fs vs. Proof. reflexivity. Qed.
Lemma csize_set fs vs : csize (TSet fs) (VRec vs) = fields_size fs vs. Proof. reflexivity. Qed.
Lemma csize_choice alts i x : csize (TChoice alts) (VChoice i x) =
  match nth_error alts i with Some a => (tags_cost (tagset_of' a) + csize a x)%nat | None => O end.
Proof. apply (nth_loop (fun a => (tags_cost (tagset_of' a) + csize a x)%nat)). Qed.

Definition pieces_cost {A} (w: nat) (ps: list (list A)) : nat :=
  fold_right (fun p acc => (w + length p + acc)%nat) O ps.

(* cutting into pieces of at least one element: at most one header per element *)
Lemma chunks_cost {A} (w k: nat) : (1 <= k)%nat -> forall fuel (l: list A),
  (pieces_cost w (chunks fuel k l) <= (w + 1) * length l)%nat
  /\ Forall (fun p => (length p <= length l)%nat) (chunks fuel k l).
Proof.
  intros Hk. induction fuel as [|f IH]; intros l; cbn [chunks].
  - split; [cbn; lia|constructor].
  - destruct l as [|x r]; [split; [cbn; lia|constructor]|].
    destruct (IH (skipn k (x :: r))) as [Hc Hall].
    pose proof (firstn_skipn k (x :: r)) as Hsplit.
    assert (Hlen: (length (firstn k (x :: r)) + length (skipn k (x :: r)) = length (x :: r))%nat)
      by (rewrite <- app_length, Hsplit; reflexivity).
    assert (Hp: (1 <= length (firstn k (x :: r)))%nat).
    { rewrite firstn_length. cbn [length]. lia. }
    split.
    + cbn [pieces_cost fold_right]. fold (pieces_cost w (chunks f k (skipn k (x :: r)))). nia.
    + constructor; [lia|]. revert Hall. apply Forall_impl. intros p Hpl. lia.
Qed.

Lemma fold_pieces {A} (tagnum: N) (f: list A -> bytes) : forall ps init,
  Forall (fun p => N.of_nat (length (f p)) < max_len) ps ->
  exists s, fold_left (fun acc piece => do a <- acc; do p <- frame_piece tagnum (f piece); Ok (a ++ p)) ps (Ok init) = Ok s
            /\ (length s <= length init + fold_right (fun p acc => tag_cost (utag false tagnum) + length (f p) + acc) O ps)%nat.
Proof.
  induction ps as [|p ps IH]; intros init Hall; cbn [fold_left fold_right bind].
  - exists init. split; [reflexivity|lia].
  - inversion Hall as [|? ? Hp Hps]; subst.
    destruct (frame_one_total' (utag false tagnum) false true true (f p) Hp) as (b & Eb & Hb).
    unfold frame_piece. rewrite Eb. cbn [bind].
    destruct (IH (init ++ b) Hps) as (s & Es & Hs). exists s. split; [exact Es|]. rewrite app_length in Hs. lia.
Qed.

Lemma bits_octets_le bs : (length (bits_octets bs) <= length bs)%nat.
Proof.
  unfold bits_octets. rewrite LeafInt.be_bytes_length, app_length, repeat_length.
  pose proof (LeafOidBits.pad_of_lt (length bs)) as Hp.
  destruct (length bs) as [|n] eqn:E; [reflexivity|].
  apply Nat.div_le_upper_bound; lia.
Qed.

Lemma octets_chunked_total v b k : octets_of v = Some b -> (1 <= k)%nat -> N.of_nat (131 * length b) < max_len ->
  exists s, enc_string_chunked v k = Ok s /\ (length s <= 131 * length b)%nat.
Proof.
  intros Hv Hk Hn.
  assert (Hgen: exists s, fold_left (fun acc piece => do a <- acc; do p <- frame_piece 4 piece; Ok (a ++ p))
                                    (chunks (S (length b)) k b) (Ok []) = Ok s /\ (length s <= 131 * length b)%nat).
  { destruct (chunks_cost 130 k Hk (S (length b)) b) as [Hc Hall].
    destruct (fold_pieces 4 (fun x => x) (chunks (S (length b)) k b) []) as (s & Es & Hs).
    - revert Hall. apply Forall_impl. intros p Hp. lia.
    - exists s. split; [exact Es|]. cbn [length] in Hs. unfold pieces_cost in Hc.
      change (tag_cost (utag false 4)) with 130%nat in Hs. lia. }
  unfold enc_string_chunked. destruct v; cbn [octets_of] in Hv; try discriminate; inversion Hv; subst; exact Hgen.
Qed.

Lemma bits_chunked_total bs k : (1 <= k)%nat -> N.of_nat (132 * length bs + 1) < max_len ->
  exists s, fold_left (fun acc piece => do a <- acc; do p <- frame_piece 3 (enc_bits_prim piece); Ok (a ++ p))
                      (chunks (S (length bs)) k bs) (Ok []) = Ok s /\ (length s <= 132 * length bs + 1)%nat.
Proof.
  intros Hk Hn. destruct (chunks_cost 131 k Hk (S (length bs)) bs) as [Hc Hall].
  assert (Hpiece: forall p: list bool, (length (enc_bits_prim p) <= 1 + length p)%nat).
  { intros p. unfold enc_bits_prim. cbn [length]. pose proof (bits_octets_le p). lia. }
  destruct (fold_pieces 3 enc_bits_prim (chunks (S (length bs)) k bs) []) as (s & Es & Hs).
  - revert Hall. apply Forall_impl. intros p Hp. pose proof (Hpiece p). lia.
  - exists s. split; [exact Es|]. cbn [length] in Hs. change (tag_cost (utag false 3)) with 130%nat in Hs.
    assert (Hsum: (fold_right (fun p acc => 130 + length (enc_bits_prim p) + acc) O (chunks (S (length bs)) k bs)
                   <= pieces_cost 131 (chunks (S (length bs)) k bs))%nat).
    { generalize (chunks (S (length bs)) k bs). induction l as [|p l IHl]; cbn [fold_right pieces_cost]; [lia|].
      fold (pieces_cost 131 l). pose proof (Hpiece p). lia. }
    lia.
Qed.

Lemma octets_like_total o v b : octets_of v = Some b -> N.of_nat (131 * length b) < max_len ->
  exists content ic, enc_octets_like o v = Ok (content, ic) /\ (length content <= 131 * length b)%nat.
Proof.
  intros Hv Hn. unfold enc_octets_like. rewrite Hv.
  destruct (N.eqb (o_chunk o) 0) eqn:E0; cbn [orb]; [eexists; eexists; split; [reflexivity|lia]|].
  destruct (Nat.leb (length b) (N.to_nat (o_chunk o))); [eexists; eexists; split; [reflexivity|lia]|].
  destruct (octets_chunked_total v b (N.to_nat (o_chunk o)) Hv) as (s & Es & Hs); [apply N.eqb_neq in E0; lia|exact Hn|].
  rewrite Es. cbn [bind]. eexists; eexists; split; [reflexivity|exact Hs].
Qed.

Lemma enc_bits_total o bs : N.of_nat (132 * length bs + 1) < max_len ->
  exists content ic, enc_bits o bs = Ok (content, ic) /\ (length content <= 132 * length bs + 1)%nat.
Proof.
  intros Hn. unfold enc_bits. cbv zeta.
  assert (Hprim: (length (enc_bits_prim bs) <= 132 * length bs + 1)%nat).
  { unfold enc_bits_prim. cbn [length]. pose proof (bits_octets_le bs). lia. }
  destruct (N.eqb (o_chunk o) 0) eqn:E0; cbn [orb]; [eexists; eexists; split; [reflexivity|exact Hprim]|].
  destruct (Nat.leb (length bs + pad_of (length bs)) (N.to_nat (o_chunk o) * 8)); [eexists; eexists; split; [reflexivity|exact Hprim]|].
  destruct (bits_chunked_total bs (N.to_nat (o_chunk o) * 8)) as (s & Es & Hs); [apply N.eqb_neq in E0; lia|exact Hn|].
  rewrite Es. cbn [bind]. eexists; eexists; split; [reflexivity|exact Hs].
Qed.

Section Total.
  Variable c : codec.

  (* Pw T: the encoder accepts every well-formed value of T whose size bound is below the length
     limit; Pc T: the same of the contents encoder, under whichever table entry it is called *)
  Definition Pw (T: ty) : Prop := forall o v,
    enc_ty c T = true -> val_of T v = true -> reals_fit v = true ->
    N.of_nat (esize T v) < max_len ->
    exists b, enc c T o v = Ok b /\ (length b <= esize T v)%nat.

  Definition Pc (T: ty) : Prop := forall cd fl o v,
    concrete_encoder c T = Ok (cd, fl) ->
    enc_ty c T = true -> val_of T v = true -> reals_fit v = true ->
    N.of_nat (csize T v) < max_len ->
    exists content ic, enc_content c T cd fl o v = Ok (content, ic) /\ (length content <= csize T v)%nat.

  Lemma Pc_Pw T : Pc T -> Pw T.
  Proof.
    intros HP o v Hty Hv Hr Hn. unfold enc, enc_with.
    destruct (concrete_encoder_total c T) as (cd & fl & Ece & _). rewrite Ece. cbn [bind].
    destruct (enc_ty_tagset c T Hty) as [ts Ets]. rewrite Ets. cbn [bind].
    unfold esize in *. rewrite (tagset_of'_ok _ _ Ets) in *.
    destruct (HP cd fl (mkOpts (o_def (fix_opts c o)) (o_chunk (fix_opts c o)) false) v Ece Hty Hv Hr) as (content & ic & E & Hl).
    - lia.
    - rewrite E. cbn [bind]. apply frame_total'; [exact Hl|exact Hn].
  Qed.

  (* ---- SEQUENCE OF / SET OF ---- *)
  Lemma elems_total t o : Pw t -> enc_ty c t = true -> forall xs,
    forallb (val_of t) xs = true -> forallb reals_fit xs = true -> N.of_nat (elems_size t xs) < max_len ->
    exists parts, enc_elems_g c t o xs = Ok parts /\ (length (concat parts) <= elems_size t xs)%nat.
  Proof.
    intros HP Hty. induction xs as [|x r IH]; intros Hv Hr Hn.
    - exists []. split; [reflexivity|cbn; lia].
    - cbn [forallb] in Hv, Hr. apply andb_prop in Hv. apply andb_prop in Hr. destruct Hv as [Hv1 Hv2]. destruct Hr as [Hr1 Hr2].
      cbn [elems_size fold_right] in Hn. fold (elems_size t r) in Hn.
      destruct (HP o x Hty Hv1 Hr1) as (p & Ep & Hp); [unfold esize; lia|].
      destruct (IH Hv2 Hr2) as (ps & Eps & Hps); [lia|].
      cbn [enc_elems_g]. fold (enc_elems_g c t o). rewrite Ep. cbn [bind]. rewrite Eps. cbn [bind].
      exists (p :: ps). split; [reflexivity|]. cbn [concat elems_size fold_right]. fold (elems_size t r).
      rewrite app_length. unfold esize in Hp. lia.
  Qed.

  (* ---- SEQUENCE / SET ---- *)
  Lemma def_cmp t d x : def_ok t d = true -> val_of t x = true -> exists b, val_py_eq x d = Some b.
  Proof.
    unfold def_ok. rewrite (val_of_base t x), (val_of_base t d).
    destruct (base_of t); try discriminate; cbn [val_of];
      destruct x; try discriminate; destruct d; try discriminate; intros _ _; eexists; reflexivity.
  Qed.

  Definition field_ty_ok (f: presence * ty) : bool :=
    enc_ty c (snd f) && match fst f with Def d => def_ok (snd f) d | _ => true end.

  Lemma fields_total cd omit o : forall fs vs,
    Forall (fun f => Pw (snd f)) fs -> forallb field_ty_ok fs = true ->
    fields_ok val_of fs vs = true ->
    forallb (fun ov => match ov with Some x => reals_fit x | None => true end) vs = true ->
    N.of_nat (fields_size fs vs) < max_len ->
    exists parts, enc_rec_fields_g c cd omit o fs vs = Ok parts
                  /\ (length (concat (map snd parts)) <= fields_size fs vs)%nat.
  Proof.
    induction fs as [|[p t] fs IH]; intros [|ov vs] HP Hty Hv Hr Hn; try discriminate.
    - exists []. split; [reflexivity|cbn; lia].
    - inversion HP as [|? ? HPt HPr]; subst. cbn [snd] in HPt.
      cbn [forallb] in Hty, Hr. apply andb_prop in Hty. apply andb_prop in Hr.
      destruct Hty as [Ht Hty]. destruct Hr as [Hr1 Hr2]. unfold field_ty_ok in Ht. cbn [fst snd] in Ht.
      apply andb_prop in Ht. destruct Ht as [Htt Htd].
      cbn [fields_ok] in Hv. apply andb_prop in Hv. destruct Hv as [Hv1 Hv2].
      cbn [fields_size] in Hn. fold (fields_size fs vs) in Hn.
      assert (Hrest: exists parts, enc_rec_fields_g c cd omit o fs vs = Ok parts
                                   /\ (length (concat (map snd parts)) <= fields_size fs vs)%nat) by (apply IH; try assumption; lia).
      destruct Hrest as (rest & Erest & Hrest).
      cbn [enc_rec_fields_g]. fold (enc_rec_fields_g c cd omit o). cbv zeta.
      cbn [fields_size]. fold (fields_size fs vs).
      destruct ov as [x|].
      + (* present *)
        set (o' := if omit then mkOpts (o_def o) (o_chunk o) (match p with Opt => true | _ => false end) else o).
        destruct (HPt o' x Htt Hv1 Hr1) as (b & Eb & Hb); [unfold esize; lia|].
        assert (Hemit: exists parts,
                  (do b0 <- enc c t o' x; do rest0 <- enc_rec_fields_g c cd omit o fs vs;
                   Ok ((set_sort_key (match cd with EcSetDer => true | _ => false end) t x, b0) :: rest0)) = Ok parts
                  /\ (length (concat (map snd parts)) <= tags_cost (tagset_of' t) + csize t x + fields_size fs vs)%nat).
        { rewrite Eb. cbn [bind]. rewrite Erest. cbn [bind]. eexists. split; [reflexivity|].
          cbn [map snd concat]. rewrite app_length. unfold esize in Hb. lia. }
        destruct p as [| |d]; try exact Hemit.
        destruct (def_cmp _ _ _ Htd Hv1) as [[|] Ecmp]; rewrite Ecmp; [|exact Hemit].
        exists rest. split; [exact Erest|lia].
      + (* absent *)
        destruct p as [| |d]; [discriminate Hv1| |]; (exists rest; split; [exact Erest|lia]).
  Qed.

  (* ---- scalars ---- *)
  Lemma enc_integer_len cz z : (length (enc_integer cz z) <= S (length (twos_bytes z)))%nat.
  Proof. unfold enc_integer. destruct (Z.eqb z 0); [destruct cz; cbn; lia|lia]. Qed.

  Lemma oid_wf_enc a : oid_wf a = true -> exists b, enc_oid a = Ok b.
  Proof.
    unfold oid_wf, enc_oid, oid_first. destruct a as [|first [|second rest]]; try discriminate. intros H.
    destruct (N.eqb first 2) eqn:E2.
    - apply N.eqb_eq in E2. subst first. destruct (N.leb second 39); cbn; eexists; reflexivity.
    - cbn [orb] in H. apply andb_prop in H. destruct H as [H1 H2]. rewrite H1.
      destruct (N.eqb first 1); [cbn; eexists; reflexivity|]. destruct (N.eqb first 0); [cbn; eexists; reflexivity|discriminate].
  Qed.

  Lemma real_enc_total r : real_wf r = true -> reals_fit (VReal r) = true -> exists b, enc_real r = Ok b.
  Proof.
    destruct r as [| |m e|m e|]; intros Hw Hf; try discriminate; try (eexists; reflexivity).
    - cbn [reals_fit] in Hf. apply enc_real_bin_ok_iff. exact Hf.
    - cbn [enc_real]. destruct (Z.eqb m 0); eexists; reflexivity.
  Qed.

  Lemma record_total cd fl o fs vs : (cd = EcSeq \/ cd = EcSetCer \/ cd = EcSetDer) ->
    Forall (fun f => Pc (snd f)) fs -> forallb field_ty_ok fs = true -> fields_ok val_of fs vs = true ->
    forallb (fun ov => match ov with Some x => reals_fit x | None => true end) vs = true ->
    N.of_nat (fields_size fs vs) < max_len ->
    exists content ic, (do parts <- enc_rec_fields_g c cd (omit_empty cd fl) o fs vs; record_finish cd parts) = Ok (content, ic)
                       /\ (length content <= fields_size fs vs)%nat.
  Proof.
    intros Hcd IH Hty Hv Hr Hn.
    destruct (fields_total cd (omit_empty cd fl) o fs vs) as (parts & Ep & Hp); try assumption.
    { revert IH. apply Forall_impl. intros f Hf. apply Pc_Pw. exact Hf. }
    rewrite Ep. cbn [bind].
    destruct Hcd as [-> | [-> | ->]]; cbn [record_finish]; eexists; eexists; (split; [reflexivity|]); try exact Hp;
      rewrite sorted_fields_length; exact Hp.
  Qed.

  Lemma listof_total cd o t xs : Pw t -> (cd = EcSeqOfBer \/ cd = EcSeqOfCer \/ cd = EcSetOfCer) ->
    enc_ty c t = true -> forallb (val_of t) xs = true -> forallb reals_fit xs = true ->
    N.of_nat (elems_size t xs) < max_len ->
    exists content ic, (do parts <- enc_elems_g c t o xs; listof_finish cd parts) = Ok (content, ic)
                       /\ (length content <= elems_size t xs)%nat.
  Proof.
    intros HP Hcd Hty Hv Hr Hn. destruct (elems_total t o HP Hty xs Hv Hr Hn) as (parts & Ep & Hp).
    rewrite Ep. cbn [bind].
    destruct Hcd as [-> | [-> | ->]]; cbn [listof_finish]; eexists; eexists; (split; [reflexivity|]); try exact Hp.
    rewrite sort_setof_length. exact Hp.
  Qed.

  Theorem content_total : forall T, Pc T.
  Proof.
    induction T as [| | | | | | | | n|fs IH|fs IH|t IH|t IH|alts IH| |tg x IH|tg x IH] using ty_ind';
      intros cd fl o v Hce Hty Hv Hr Hn; pose proof (concrete_encoder_compat _ _ _ _ Hce) as Hk;
      unfold key_of in Hk; cbn [base_of] in Hk.
    (* SEQUENCE and SET, SEQUENCE OF and SET OF, INTEGER and ENUMERATED go the same way *)
    10-11: (destruct v as [| | | | | | | |vs| | |]; try discriminate Hv;
            rewrite ?enc_content_seq_g, ?enc_content_set_g, ?csize_seq, ?csize_set, ?val_of_seq, ?val_of_set in *;
            apply record_total; try assumption; destruct cd; try discriminate Hk; auto).
    10-11: (destruct v as [| | | | | | | | |xs| |]; try discriminate Hv;
            rewrite ?enc_content_seqof_g, ?enc_content_setof_g, ?csize_seqof, ?csize_setof in *;
            apply (listof_total _ _ _ _ (Pc_Pw _ IH)); try assumption; destruct cd; try discriminate Hk; auto).
    2-3: (destruct v; try discriminate Hv; destruct cd; try discriminate Hk; cbn [enc_content csize];
          eexists; eexists; split; [reflexivity|apply enc_integer_len]).
    - (* BOOLEAN *)
      destruct v; try discriminate Hv. destruct cd; try discriminate Hk; cbn [enc_content]; eexists; eexists; (split; [reflexivity|cbn; lia]).
    - (* BIT STRING *)
      destruct v; try discriminate Hv. cbn [csize] in Hn. destruct cd; try discriminate Hk; cbn [enc_content csize].
      + apply enc_bits_total. exact Hn.
      + apply enc_bits_total. exact Hn.
    - (* OCTET STRING *)
      destruct v; try discriminate Hv. destruct cd; try discriminate Hk. cbn [enc_content csize octets_of] in *.
      apply (octets_like_total o (VOcts b) b eq_refl Hn).
    - (* NULL *)
      destruct v; try discriminate Hv. destruct cd; try discriminate Hk. cbn [enc_content csize].
      eexists; eexists; split; [reflexivity|cbn; lia].
    - (* OBJECT IDENTIFIER *)
      destruct v; try discriminate Hv. destruct cd; try discriminate Hk. cbn [enc_content csize].
      destruct (oid_wf_enc _ Hv) as [b Eb]. rewrite Eb. cbn [bind]. eexists; eexists; split; [reflexivity|lia].
    - (* REAL *)
      destruct v; try discriminate Hv. destruct (real_enc_total _ Hv Hr) as [b Eb].
      destruct cd; try discriminate Hk; cbn [enc_content csize]; rewrite Eb; cbn [bind]; eexists; eexists; (split; [reflexivity|lia]).
    - (* character / useful strings *)
      cbn [enc_ty] in Hty. rewrite Hce in Hty. destruct cd; try discriminate Hty.
      cbn [enc_content]. destruct v; try discriminate Hv; cbn [csize octets_of] in *.
      + apply (octets_like_total o (VOcts b) b eq_refl Hn).
      + apply (octets_like_total o (VChars cs) (concat cs) eq_refl Hn).
    - (* CHOICE *)
      destruct v as [| | | | | | | | | |i x|]; try discriminate Hv. destruct cd; try discriminate Hk.
      rewrite val_of_choice in Hv. rewrite enc_content_choice_g, csize_choice in *.
      destruct (nth_error alts i) as [a|] eqn:Hna; [|discriminate]. rename Hv into Hva.
      rewrite Forall_forall in IH. cbn [enc_ty] in Hty. rewrite forallb_forall in Hty. apply nth_error_In in Hna.
      destruct (Pc_Pw _ (IH _ Hna) o x (Hty _ Hna) Hva Hr Hn) as (p & Ep & Hp).
      rewrite Ep. cbn [bind]. eexists; eexists; split; [reflexivity|exact Hp].
    - (* ANY *)
      destruct cd; try discriminate Hk. cbn [enc_content csize].
      destruct v; try discriminate Hv; cbn [octets_of]; eexists; eexists; (split; [reflexivity|lia]).
    - (* IMPLICIT *)
      cbn [val_of enc_content csize enc_ty] in *.
      apply (IH cd fl o v); assumption.
    - (* EXPLICIT *)
      cbn [val_of enc_content csize enc_ty] in *. apply andb_prop in Hty.
      apply (IH cd fl o v); try apply Hty; assumption.
  Qed.

  Theorem enc_total : forall T, Pw T.
  Proof. intros T. apply Pc_Pw. apply content_total. Qed.
End Total.

(* every well-formed value of a writable type is accepted by each codec's encoder in every mode
   (definite / indefinite, any segment size), unless its encoding would need 256^126 octets or more,
   or it holds a binary REAL with |exponent| >= 2^2039 *)
Theorem wellformed_is_encodable : forall c defm chunk T v,
  enc_ty c T = true -> val_of T v = true -> reals_fit v = true ->
  N.of_nat (esize T v) < max_len ->
  exists b', encode c defm chunk T v = Ok b' /\ (length b' <= esize T v)%nat.
Proof.
  intros c defm chunk T v Hty Hv Hr Hn. unfold encode, enc.
  apply (enc_total c T (mkOpts defm chunk false) v Hty Hv Hr Hn).
Qed.

(* whatever a decoder accepts under a guiding type of the fragment - for EVERY input - is a
   well-formed value of that type which the same codec's encoder accepts *)
Theorem accepted_is_reencodable : forall c fuel T b d tl,
  frag T = true -> enc_ty c T = true ->
  decode_with c fuel (Some T) b = Ok (d, tl) ->
  exists v, d = DV T v /\ val_of T v = true
            /\ (reals_fit v = true -> N.of_nat (esize T v) < max_len -> exists b', encode c true 0 T v = Ok b').
Proof.
  intros c fuel T b d tl HF Hty H.
  destruct (accepted_is_well_formed c fuel T b d tl HF H) as (v & -> & Hv & _).
  exists v. split; [reflexivity|]. split; [exact Hv|]. intros Hr Hn.
  destruct (wellformed_is_encodable c true 0 T v Hty Hv Hr Hn) as (b' & E & _). exists b'. exact E.
Qed.

Corollary accepted_is_reencodable_decode : forall c T b d tl,
  frag T = true -> enc_ty c T = true ->
  decode c (Some T) b = Ok (d, tl) ->
  exists v, d = DV T v /\ val_of T v = true
            /\ (reals_fit v = true -> N.of_nat (esize T v) < max_len -> exists b', encode c true 0 T v = Ok b').
Proof. intros c T b d tl. apply (accepted_is_reencodable c (dec_fuel (Some T) b) T b d tl). Qed.

Print Assumptions wellformed_is_encodable.
Print Assumptions accepted_is_reencodable.

(* the hypotheses are satisfiable on inputs no encoder writes, and the conclusion is what evaluation gives *)
Example accepted_is_reencodable_witness :
  enc_ty BER awf_T = true /\ enc_ty DER awf_T = true /\ frag awf_T = true
  /\ (let v := VRec [Some (VInt 5); Some (VChoice 0 (VBool true)); Some (VInt 7); Some (VChoice 0 VNull); Some (VList [VOcts [104; 105]])] in
      decode DER (Some awf_T) awf_der = Ok (DV awf_T v, [])
      /\ reals_fit v = true /\ N.ltb (N.of_nat (esize awf_T v)) max_len = true
      /\ encode DER true 0 awf_T v = Ok [48;19; 2;1;5; 160;3;1;1;255; 129;1;7; 5;0; 49;4;12;2;104;105])
  /\ (let T := TSeq [(Req, TInt); (Opt, TChoice [TNull; TImp (awf_ctx 5) TOid]); (Req, TSetOf TReal)] in
      let v := VRec [Some (VInt 5); Some (VChoice 1 (VOid [1; 2; 3])); Some (VList [VReal (RBin 5 (-1)); VReal RPInf])] in
      frag T = true /\ enc_ty BER T = true
      /\ decode BER (Some T) [48;128; 2;3;0;0;5; 133;2;42;3; 49;129;8; 9;3;128;255;5; 9;1;64; 0;0] = Ok (DV T v, [])
      /\ reals_fit v = true /\ N.ltb (N.of_nat (esize T v)) max_len = true
      /\ encode BER true 0 T v = Ok [48;17; 2;1;5; 133;2;42;3; 49;8; 9;3;128;255;5; 9;1;64]).
Proof. repeat split; vm_compute; reflexivity. Qed.

(* CER (indefinite, segmenting) and a BER mode with two-octet segments *)
Example accepted_is_reencodable_witness_cer :
  let T := TSeq [(Req, TOcts); (Opt, TBits); (Req, TSetOf TInt)] in
  let v := VRec [Some (VOcts [1;2;3;4;5]); Some (VBits [true;false;true;true]); Some (VList [VInt 9; VInt 3])] in
  frag T = true /\ enc_ty CER T = true
  /\ decode CER (Some T) [48;128; 36;128; 4;2;1;2; 4;3;3;4;5; 0;0; 3;2;4;176; 49;128; 2;1;9; 2;1;3; 0;0; 0;0] = Ok (DV T v, [])
  /\ reals_fit v = true /\ N.ltb (N.of_nat (esize T v)) max_len = true
  /\ encode CER true 0 T v = Ok [48;128; 4;5;1;2;3;4;5; 3;2;4;176; 49;128; 2;1;3; 2;1;9; 0;0; 0;0]
  /\ encode BER false 2 T v = Ok [48;128; 36;128; 4;2;1;2; 4;2;3;4; 4;1;5; 0;0; 3;2;4;176; 49;128; 2;1;9; 2;1;3; 0;0; 0;0].
Proof. repeat split; vm_compute; reflexivity. Qed.

(* accepted by the decoder, refused by the same codec's encoder *)

(* R1 (finding F56). CER/DER: GeneralizedTime / UTCTime contents are not examined by the decoder, while the encoder
   insists on the canonical form ('Missing "Z" time zone specifier', length limits) *)
Example der_time_accepted_not_reencodable :
  decode DER (Some (TStr 24)) [24;3;97;98;99] = Ok (DV (TStr 24) (VOcts [97;98;99]), [])
  /\ val_of (TStr 24) (VOcts [97;98;99]) = true
  /\ encode DER true 0 (TStr 24) (VOcts [97;98;99]) = Err EMalformed
  /\ decode DER (Some (TStr 23)) [23;1;90] = Ok (DV (TStr 23) (VOcts [90]), [])
  /\ encode DER true 0 (TStr 23) (VOcts [90]) = Err EMalformed
  /\ enc_ty DER (TStr 24) = false /\ enc_ty DER (TStr 23) = false /\ enc_ty BER (TStr 24) = true.
Proof. repeat split; vm_compute; reflexivity. Qed.

(* R2 (finding F58). a binary REAL in base 16 with a 255-octet exponent: accepted; its exponent times 4 no longer
   fits 255 octets and the encoder refuses ('Real exponent overflow').  262 octets of input. *)
Definition huge_real : bytes := [9;130;1;2; 163;255;127] ++ repeat 255 254 ++ [1].
Example real_exponent_accepted_not_reencodable :
  match decode BER (Some TReal) huge_real with
  | Ok (DV T v, tl) => T = TReal /\ tl = [] /\ val_of TReal v = true /\ reals_fit v = false
                       /\ encode BER true 0 TReal v = Err EMalformed
  | _ => False
  end.
Proof.
  (* decoding is cheap; the exponent is never written out in octets: whether it fits 255 of them
     is a comparison with 2^2039 (LeafReal.exp_octets_length_255) *)
  assert (Hd: exists e, decode BER (Some TReal) huge_real = Ok (DV TReal (VReal (RBin 1 e)), []) /\ (2 ^ 2039 <= e)%Z).
  { eexists. split; vm_compute; [reflexivity|discriminate]. }
  destruct Hd as (e & -> & He).
  assert (Hlen: Nat.leb (length (exp_octets e)) 255 = false).
  { apply Nat.leb_gt. destruct (Nat.le_gt_cases (length (exp_octets e)) 255) as [Hc|Hc]; [|exact Hc].
    apply exp_octets_length_255 in Hc. destruct (Z.lt_irrefl e (Z.lt_le_trans _ _ _ (proj2 Hc) He)). }
  split; [reflexivity|]. split; [reflexivity|]. split; [reflexivity|]. split; [exact Hlen|].
  assert (Hr: enc_real (RBin 1 e) = Err EMalformed).
  { unfold enc_real. cbn [Z.eqb N.size_nat Z.abs_N Pos.size_nat strip2 N.land Pos.land N.eqb]. cbv zeta.
    rewrite Nat.ltb_antisym, Hlen. reflexivity. }
  unfold encode, enc, enc_with. cbn -[enc_real]. rewrite Hr. reflexivity.
Qed.

(* R3 (finding F55, repaired): the valueless tagged CHOICE, which the encoder refuses, is no longer produced by any
   decoder: see [valueless_tagged_choice_refused] in Proofs/AcceptedWellFormed.v *)

(* R4. outside [enc_ty] by the model's choice, not a refusal of the library: a DEFAULT of type REAL
   (or of a constructed type) is compared by float / object equality, which the model declines *)
Example default_real_unmodelled :
  let T := TSeq [(Def (VReal (RBin 1 0)), TReal)] in
  decode BER (Some T) [48;5;9;3;128;0;3] = Ok (DV T (VRec [Some (VReal (RBin 3 0))]), [])
  /\ encode BER true 0 T (VRec [Some (VReal (RBin 3 0))]) = Err EUnmodelled /\ enc_ty BER T = false.
Proof. repeat split; vm_compute; reflexivity. Qed.

(* DER: re-encoding does NOT give back the consumed octets *)

(* the property's last clause (for DER, b' = the consumed part of b) is false of the model: the DER
   decoder accepts padded INTEGERs, long-form lengths and tags, an empty INTEGER, unsorted SET OF
   and an encoded DEFAULT value *)
Example der_accepts_non_canonical :
  decode DER (Some TInt) [2;2;0;5] = Ok (DV TInt (VInt 5), []) /\ encode DER true 0 TInt (VInt 5) = Ok [2;1;5]
  /\ decode DER (Some TInt) [2;129;1;5] = Ok (DV TInt (VInt 5), [])
  /\ decode DER (Some TInt) [31;2;1;5] = Ok (DV TInt (VInt 5), [])
  /\ decode DER (Some TInt) [2;0] = Ok (DV TInt (VInt 0), []) /\ encode DER true 0 TInt (VInt 0) = Ok [2;1;0]
  /\ decode DER (Some (TSetOf TInt)) [49;6;2;1;9;2;1;3] = Ok (DV (TSetOf TInt) (VList [VInt 9; VInt 3]), [])
  /\ encode DER true 0 (TSetOf TInt) (VList [VInt 9; VInt 3]) = Ok [49;6;2;1;3;2;1;9]
  /\ decode DER (Some (TSeq [(Def (VBool false), TBool)])) [48;3;1;1;0]
     = Ok (DV (TSeq [(Def (VBool false), TBool)]) (VRec [Some (VBool false)]), [])
  /\ encode DER true 0 (TSeq [(Def (VBool false), TBool)]) (VRec [Some (VBool false)]) = Ok [48;0].
Proof. repeat split; vm_compute; reflexivity. Qed.
