(* Stage 3 of the round trip, appendix: the relation [aeq] of RoundTrip3e.v (equality of abstract contents up
   to the order of SET OF elements) is the comparison [aval_eqb] of the model (Model/Types.v), on contents
   without the one value that [aval_eqb] does not take as equal to itself (AReal AFloat). *)
From Coq Require Import Lia Permutation.
From PV Require Import Base.Bytes Model.Tag Model.TableTypes Model.Types Model.Proc Model.Enc Model.Dec Gen.Tables
     Proofs.Basics Proofs.RoundTrip1 Proofs.RoundTrip3 Proofs.RoundTrip3b Proofs.RoundTrip3e.
Local Open Scope N_scope.

Definition opt_all (P: aval -> Prop) (o: option aval) : Prop := match o with Some x => P x | None => True end.

Section aval_ind_strong.
  Variable P : aval -> Prop.
  Hypothesis HBool: forall b, P (ABool b). Hypothesis HInt: forall z, P (AInt z). Hypothesis HBits: forall bs, P (ABits bs).
  Hypothesis HOcts: forall b, P (AOcts b). Hypothesis HNull: P ANull. Hypothesis HOid: forall a, P (AOid a).
  Hypothesis HReal: forall r, P (AReal r).
  Hypothesis HRec: forall fs, Forall (opt_all P) fs -> P (ARec fs).
  Hypothesis HList: forall xs, Forall P xs -> P (AList xs).
  Hypothesis HBag: forall xs, Forall P xs -> P (ABag xs).
  Hypothesis HChoice: forall i v, P v -> P (AChoice i v).
  Hypothesis HAny: forall b, P (AAny b). Hypothesis HBad: P ABad.
  Fixpoint aval_ind' (a: aval) : P a :=
    match a with
    | ABool b => HBool b | AInt z => HInt z | ABits bs => HBits bs | AOcts b => HOcts b | ANull => HNull
    | AOid x => HOid x | AReal r => HReal r
    | ARec fs => HRec fs ((fix go (l: list (option aval)) : Forall (opt_all P) l :=
                   match l with
                   | [] => Forall_nil _
                   | o :: r => Forall_cons o (match o return opt_all P o with Some x => aval_ind' x | None => I end) (go r)
                   end) fs)
    | AList xs => HList xs ((fix go (l: list aval) : Forall P l :=
                   match l with [] => Forall_nil _ | x :: r => Forall_cons x (aval_ind' x) (go r) end) xs)
    | ABag xs => HBag xs ((fix go (l: list aval) : Forall P l :=
                   match l with [] => Forall_nil _ | x :: r => Forall_cons x (aval_ind' x) (go r) end) xs)
    | AChoice i v => HChoice i v (aval_ind' v)
    | AAny b => HAny b | ABad => HBad
    end.
End aval_ind_strong.

Lemma opt_rel_refl {A} (R: A -> A -> Prop) : (forall x, R x x) -> forall o, opt_rel R o o.
Proof. intros H [x|]; constructor. apply H. Qed.

Lemma aeq_list_inv xs b : aeq (AList xs) b -> exists ys, b = AList ys /\ Forall2 aeq xs ys.
Proof.
  intros H. inversion H; subst.
  - exists xs. split; [reflexivity|apply Forall2_refl; exact aeq_refl].
  - eexists. split; [reflexivity|assumption].
Qed.

Lemma aeq_bag_inv xs b : aeq (ABag xs) b -> exists ys zs, b = ABag ys /\ Permutation xs zs /\ Forall2 aeq zs ys.
Proof.
  intros H. inversion H; subst.
  - exists xs, xs. split; [reflexivity|]. split; [apply Permutation_refl|apply Forall2_refl; exact aeq_refl].
  - eexists. eexists. split; [reflexivity|]. split; eassumption.
Qed.

Lemma aeq_rec_inv xs b : aeq (ARec xs) b -> exists ys, b = ARec ys /\ Forall2 (opt_rel aeq) xs ys.
Proof.
  intros H. inversion H; subst.
  - exists xs. split; [reflexivity|apply Forall2_refl; apply opt_rel_refl; exact aeq_refl].
  - eexists. split; [reflexivity|assumption].
Qed.

Lemma aeq_choice_inv i x b : aeq (AChoice i x) b -> exists y, b = AChoice i y /\ aeq x y.
Proof.
  intros H. inversion H; subst.
  - exists x. split; [reflexivity|apply aeq_refl].
  - eexists. split; [reflexivity|assumption].
Qed.

Definition aleaf (a: aval) : Prop :=
  match a with ARec _ | AList _ | ABag _ | AChoice _ _ => False | _ => True end.

Lemma aeq_leaf_inv a b : aeq a b -> aleaf a -> b = a.
Proof. intros H Hl. inversion H; subst; try reflexivity; contradiction. Qed.

Lemma Forall2_trans_in {A} (R: A -> A -> Prop) : forall l1 l2 l3,
  (forall x, In x l1 -> forall y z, R x y -> R y z -> R x z) ->
  Forall2 R l1 l2 -> Forall2 R l2 l3 -> Forall2 R l1 l3.
Proof.
  intros l1 l2 l3 Ht H12. revert l3. induction H12 as [|x y l1 l2 Hxy H12 IH]; intros l3 H23.
  - inversion H23; subst. constructor.
  - inversion H23 as [|? z ? l3t Hyz H23t]; subst. constructor.
    + exact (Ht x (or_introl eq_refl) y z Hxy Hyz).
    + apply IH; [|exact H23t]. intros x0 Hin. apply Ht. right. exact Hin.
Qed.

Lemma Forall2_sym_in {A} (R: A -> A -> Prop) : forall l1 l2,
  (forall x, In x l1 -> forall y, R x y -> R y x) -> Forall2 R l1 l2 -> Forall2 R l2 l1.
Proof.
  intros l1 l2 Hs H. induction H as [|x y l1 l2 Hxy H IH]; constructor.
  - exact (Hs x (or_introl eq_refl) y Hxy).
  - apply IH. intros x0 Hin. apply Hs. right. exact Hin.
Qed.

Definition aeq_equiv_at (a: aval) : Prop :=
  (forall b, aeq a b -> aeq b a) /\ (forall b c, aeq a b -> aeq b c -> aeq a c).

Lemma opt_rel_inv_some {A} (R: A -> A -> Prop) x o : opt_rel R (Some x) o -> exists y, o = Some y /\ R x y.
Proof. intros H. inversion H; subst. eexists. split; [reflexivity|assumption]. Qed.

Theorem aeq_equiv : forall a, aeq_equiv_at a.
Proof.
  induction a as [bb|z|bs|bo| |o|r|fs IH|xs IH|xs IH|i v IH|ba| ] using aval_ind';
    try (split; [intros b0 H; rewrite (aeq_leaf_inv _ b0 H I); apply aeq_refl
                |intros b0 c H1 H2; rewrite (aeq_leaf_inv _ b0 H1 I) in H2; exact H2]).
  - (* ARec *)
    split.
    + intros b H. destruct (aeq_rec_inv _ _ H) as (ys & -> & HF). apply aeq_rec.
      clear H. induction HF as [|x y l1 l2 Hxy HF IHF]; [constructor|].
      inversion IH as [|? ? Hx IHr]; subst. constructor; [|exact (IHF IHr)].
      destruct Hxy as [|x y Hxy]; constructor. exact (proj1 Hx y Hxy).
    + intros b c H1 H2. destruct (aeq_rec_inv _ _ H1) as (ys & -> & HF1). destruct (aeq_rec_inv _ _ H2) as (us & -> & HF2).
      apply aeq_rec. clear H1 H2. revert us HF2. induction HF1 as [|x y l1 l2 Hxy HF1 IHF]; intros us HF2.
      * inversion HF2; subst. constructor.
      * inversion HF2 as [|? u ? ust Hyu HF2t]; subst. inversion IH as [|? ? Hx IHr]; subst.
        constructor; [|exact (IHF IHr _ HF2t)].
        destruct Hxy as [|x y Hxy]; [inversion Hyu; subst; constructor|].
        destruct (opt_rel_inv_some _ _ _ Hyu) as (u0 & -> & Hyu0). constructor. exact (proj2 Hx y u0 Hxy Hyu0).
  - (* AList *)
    rewrite Forall_forall in IH. split.
    + intros b H. destruct (aeq_list_inv _ _ H) as (ys & -> & HF). apply aeq_list.
      apply (Forall2_sym_in aeq xs ys); [|exact HF]. intros x Hin y Hxy. exact (proj1 (IH x Hin) y Hxy).
    + intros b c H1 H2. destruct (aeq_list_inv _ _ H1) as (ys & -> & HF1). destruct (aeq_list_inv _ _ H2) as (us & -> & HF2).
      apply aeq_list. apply (Forall2_trans_in aeq xs ys us); [|exact HF1|exact HF2].
      intros x Hin y z Hxy Hyz. exact (proj2 (IH x Hin) y z Hxy Hyz).
  - (* ABag *)
    rewrite Forall_forall in IH. split.
    + intros b H. destruct (aeq_bag_inv _ _ H) as (ys & zs & -> & Hp & HF).
      assert (HFs: Forall2 aeq ys zs).
      { apply (Forall2_sym_in aeq zs ys); [|exact HF]. intros x Hin y Hxy.
        apply (proj1 (IH x (Permutation_in _ (Permutation_sym Hp) Hin))). exact Hxy. }
      destruct (Forall2_perm_r aeq ys zs xs HFs (Permutation_sym Hp)) as (ws & Hpw & HFw).
      exact (aeq_bag ys xs ws Hpw HFw).
    + intros b c H1 H2. destruct (aeq_bag_inv _ _ H1) as (ys & zs & -> & Hp1 & HF1).
      destruct (aeq_bag_inv _ _ H2) as (us & ws & -> & Hp2 & HF2).
      destruct (Forall2_perm_r aeq zs ys ws HF1 Hp2) as (zs' & Hpz & HFz).
      apply (aeq_bag xs us zs'); [eapply perm_trans; eassumption|].
      apply (Forall2_trans_in aeq zs' ws us); [|exact HFz|exact HF2].
      intros x Hin y z Hxy Hyz.
      assert (Hinx: In x xs).
      { apply (Permutation_in _ (Permutation_sym Hp1)). apply (Permutation_in _ (Permutation_sym Hpz)). exact Hin. }
      exact (proj2 (IH x Hinx) y z Hxy Hyz).
  - (* AChoice *)
    split.
    + intros b H. destruct (aeq_choice_inv _ _ _ H) as (y & -> & Hxy). apply aeq_choice. exact (proj1 IH y Hxy).
    + intros b c H1 H2. destruct (aeq_choice_inv _ _ _ H1) as (y & -> & Hxy). destruct (aeq_choice_inv _ _ _ H2) as (z & -> & Hyz).
      apply aeq_choice. exact (proj2 IH y z Hxy Hyz).
Qed.

Lemma aeq_sym a b : aeq a b -> aeq b a.
Proof. exact (proj1 (aeq_equiv a) b). Qed.
Lemma aeq_trans a b c : aeq a b -> aeq b c -> aeq a c.
Proof. exact (proj2 (aeq_equiv a) b c). Qed.

Definition bmatch (xs ys: list aval) : Prop := exists zs, Permutation xs zs /\ Forall2 aeq zs ys.

Lemma bmatch_nil ys : bmatch [] ys -> ys = [].
Proof. intros (zs & Hp & HF). apply Permutation_nil in Hp. subst. inversion HF. reflexivity. Qed.

Lemma bmatch_perm_r a b b' : bmatch a b -> Permutation b b' -> bmatch a b'.
Proof.
  intros (zs & Hp & HF) Hpb. destruct (Forall2_perm_r aeq zs b b' HF Hpb) as (zs' & Hpz & HFz).
  exists zs'. split; [eapply perm_trans; eassumption|exact HFz].
Qed.

Lemma bmatch_in x a ys : bmatch (x :: a) ys -> exists y, In y ys /\ aeq x y.
Proof.
  intros (zs & Hp & HF). assert (Hin: In x zs) by (apply (Permutation_in _ Hp); left; reflexivity).
  destruct (in_split _ _ Hin) as (z1 & z2 & ->).
  destruct (Forall2_app_inv_l _ _ HF) as (y1 & y2' & HF1 & HF2 & ->).
  inversion HF2 as [|? y ? y2 Hxy _]; subst. exists y. split; [apply in_or_app; right; left; reflexivity|exact Hxy].
Qed.

Lemma bmatch_cancel x a y b : bmatch (x :: a) (y :: b) -> aeq x y -> bmatch a b.
Proof.
  intros (zs & Hp & HF) Hxy. inversion HF as [|z0 ? zs0 ? Hz0 HF0]; subst.
  assert (Hin: In x (z0 :: zs0)) by (apply (Permutation_in _ Hp); left; reflexivity).
  destruct Hin as [->|Hin].
  - exists zs0. split; [exact (Permutation_cons_inv Hp)|exact HF0].
  - destruct (in_split _ _ Hin) as (p & q & ->).
    destruct (Forall2_app_inv_l _ _ HF0) as (bp & bq' & HFp & HFq & ->).
    inversion HFq as [|? bx ? bq Hxbx HFq']; subst.
    exists (p ++ z0 :: q). split.
    + (* x :: a ~ z0 :: p ++ x :: q, hence a ~ z0 :: p ++ q ~ p ++ z0 :: q *)
      assert (Hp2: Permutation (x :: a) (x :: z0 :: p ++ q)).
      { eapply perm_trans; [exact Hp|]. apply Permutation_sym. exact (Permutation_middle (z0 :: p) q x). }
      apply Permutation_cons_inv in Hp2. eapply perm_trans; [exact Hp2|]. apply Permutation_middle.
    + apply Forall2_app; [exact HFp|]. constructor; [|exact HFq'].
      (* z0 ~ y ~ x ~ bx *)
      apply (aeq_trans z0 y bx Hz0). apply (aeq_trans y x bx (aeq_sym _ _ Hxy) Hxbx).
Qed.

Lemma bag_sound : forall xs ys,
  (forall x, In x xs -> forall y, aval_eqb x y = true -> aeq x y) ->
  bag_eqb aval_eqb xs ys = true -> bmatch xs ys.
Proof.
  induction xs as [|x xs IH]; intros ys Hs H.
  - destruct ys; [|discriminate H]. exists []. split; constructor.
  - rewrite bag_eqb_cons in H. destruct (remove_first (aval_eqb x) ys) as [ys'|] eqn:Er; [|discriminate].
    destruct (remove_first_spec _ _ _ Er) as (l1 & y & l2 & -> & -> & Hy).
    destruct (IH (l1 ++ l2) (fun x0 Hin => Hs x0 (or_intror Hin)) H) as (zs & Hp & HF).
    destruct (Forall2_app_inv_r _ _ HF) as (z1 & z2 & HF1 & HF2 & ->).
    exists (z1 ++ x :: z2). split; [apply Permutation_cons_app; exact Hp|].
    apply Forall2_app; [exact HF1|]. constructor; [|exact HF2]. exact (Hs x (or_introl eq_refl) y Hy).
Qed.

Lemma bag_complete : forall xs ys,
  (forall x, In x xs -> forall y, aval_eqb x y = true -> aeq x y) ->
  (forall x, In x xs -> forall y, aeq x y -> aval_eqb x y = true) ->
  bmatch xs ys -> bag_eqb aval_eqb xs ys = true.
Proof.
  induction xs as [|x xs IH]; intros ys Hs Hc HM.
  - rewrite (bmatch_nil ys HM). reflexivity.
  - rewrite bag_eqb_cons.
    destruct (bmatch_in x xs ys HM) as (yj & Hinj & Hxj).
    destruct (remove_first_some (aval_eqb x) ys yj Hinj (Hc x (or_introl eq_refl) yj Hxj)) as (ys' & Er).
    rewrite Er. destruct (remove_first_spec _ _ _ Er) as (l1 & yi & l2 & -> & -> & Hyi).
    apply IH; [intros x0 Hin; exact (Hs x0 (or_intror Hin))|intros x0 Hin; exact (Hc x0 (or_intror Hin))|].
    apply (bmatch_cancel x xs yi (l1 ++ l2)); [|exact (Hs x (or_introl eq_refl) yi Hyi)].
    apply (bmatch_perm_r _ _ _ HM). apply Permutation_sym, Permutation_middle.
Qed.

(* no REAL that went through a Python float: the only contents [aval_eqb] does not take as equal to themselves *)
Fixpoint agoodb (a: aval) : bool :=
  match a with
  | AReal AFloat => false
  | ARec fs => forallb (fun o => match o with Some x => agoodb x | None => true end) fs
  | AList xs | ABag xs => forallb agoodb xs
  | AChoice _ v => agoodb v
  | _ => true
  end.

Lemma list_eqb_Forall2 {A} (eqb: A -> A -> bool) (R: A -> A -> Prop) : forall l1 l2,
  (forall x, In x l1 -> forall y, eqb x y = true -> R x y) -> list_eqb eqb l1 l2 = true -> Forall2 R l1 l2.
Proof.
  induction l1 as [|x l1 IH]; intros [|y l2] Hs H; try discriminate; [constructor|].
  cbn [list_eqb] in H. apply Bool.andb_true_iff in H. destruct H as [H1 H2]. constructor.
  - exact (Hs x (or_introl eq_refl) y H1).
  - apply IH; [|exact H2]. intros x0 Hin. apply Hs. right. exact Hin.
Qed.

Lemma Forall2_list_eqb {A} (eqb: A -> A -> bool) (R: A -> A -> Prop) : forall l1 l2,
  (forall x, In x l1 -> forall y, R x y -> eqb x y = true) -> Forall2 R l1 l2 -> list_eqb eqb l1 l2 = true.
Proof.
  intros l1 l2 Hc H. induction H as [|x y l1 l2 Hxy H IH]; [reflexivity|].
  cbn [list_eqb]. rewrite (Hc x (or_introl eq_refl) y Hxy). cbn [andb]. apply IH. intros x0 Hin. apply Hc. right. exact Hin.
Qed.

Lemma areal_eqb_eq x y : areal_eqb x y = true -> x = y.
Proof.
  destruct x, y; cbn [areal_eqb]; intros H; try discriminate; try reflexivity;
    apply Bool.andb_true_iff in H; destruct H as [H1 H2]; apply Z.eqb_eq in H1; apply Z.eqb_eq in H2; subst; reflexivity.
Qed.

Lemma areal_eqb_refl x : x <> AFloat -> areal_eqb x x = true.
Proof. destruct x; intros H; cbn [areal_eqb]; rewrite ?Z.eqb_refl; try reflexivity. congruence. Qed.

Definition link_at (a: aval) : Prop :=
  (forall b, aval_eqb a b = true -> aeq a b) /\ (agoodb a = true -> forall b, aeq a b -> aval_eqb a b = true).

(* contents without components: [aval_eqb] decides equality, except that it refuses AReal AFloat itself *)
Lemma link_leaf a : aleaf a -> (forall b, aval_eqb a b = true -> a = b) -> (agoodb a = true -> aval_eqb a a = true) -> link_at a.
Proof.
  intros Hl Heq Hrefl. split.
  - intros b H. rewrite <- (Heq b H). apply aeq_refl.
  - intros Hg b H. rewrite (aeq_leaf_inv a b H Hl). exact (Hrefl Hg).
Qed.

Theorem aval_eqb_aeq : forall a, link_at a.
Proof.
  induction a as [bb|z|bs|bo| |o|r|fs IH|xs IH|xs IH|i v IH|ba| ] using aval_ind'.
  - apply link_leaf; [exact I|intros b H; destruct b; try discriminate H; cbn [aval_eqb] in H; f_equal; exact (Bool.eqb_prop _ _ H)|intros Hg; cbn [aval_eqb]; apply Bool.eqb_reflx].
  - apply link_leaf; [exact I|intros b H; destruct b; try discriminate H; cbn [aval_eqb] in H; f_equal; exact (proj1 (Z.eqb_eq _ _) H)|intros Hg; cbn [aval_eqb]; apply Z.eqb_refl].
  - apply link_leaf; [exact I|intros b H; destruct b; try discriminate H; cbn [aval_eqb] in H; f_equal; exact (list_eqb_eq Bool.eqb Bool.eqb_prop _ _ H)|intros Hg; cbn [aval_eqb]; apply list_eqb_refl; intros a _; apply Bool.eqb_reflx].
  - apply link_leaf; [exact I|intros b H; destruct b; try discriminate H; cbn [aval_eqb] in H; f_equal; exact (bytes_eqb_eq _ _ H)|intros Hg; cbn [aval_eqb]; apply bytes_eqb_refl].
  - apply link_leaf; [exact I|intros b H; destruct b; try discriminate H; reflexivity|reflexivity].
  - apply link_leaf; [exact I|intros b H; destruct b; try discriminate H; cbn [aval_eqb] in H; f_equal; exact (list_eqb_eq N.eqb (fun a b => proj1 (N.eqb_eq a b)) _ _ H)|intros Hg; cbn [aval_eqb]; apply list_eqb_refl; intros a _; apply N.eqb_refl].
  - apply link_leaf; [exact I|intros b H; destruct b; try discriminate H; cbn [aval_eqb] in H; f_equal; exact (areal_eqb_eq _ _ H)|intros Hg; cbn [aval_eqb]; apply areal_eqb_refl; intros ->; discriminate Hg].
  - (* ARec *)
    rewrite Forall_forall in IH. split.
    + intros b H. destruct b; try discriminate H. cbn [aval_eqb] in H. apply aeq_rec.
      apply (list_eqb_Forall2 (opt_eqb aval_eqb) (opt_rel aeq) fs fs0); [|exact H].
      intros o Hin o' Ho. specialize (IH o Hin). destruct o as [x|]; destruct o' as [y|]; try discriminate Ho; constructor.
      exact (proj1 IH y Ho).
    + intros Hg b H. destruct (aeq_rec_inv _ _ H) as (ys & -> & HF). cbn [aval_eqb].
      cbn [agoodb] in Hg. rewrite forallb_forall in Hg.
      apply (Forall2_list_eqb (opt_eqb aval_eqb) (opt_rel aeq) fs ys); [|exact HF].
      intros o Hin o' Ho. specialize (IH o Hin). specialize (Hg o Hin). destruct Ho as [|x y Hxy]; [reflexivity|].
      cbn [opt_eqb]. exact (proj2 IH Hg y Hxy).
  - (* AList *)
    rewrite Forall_forall in IH. split.
    + intros b H. destruct b; try discriminate H. cbn [aval_eqb] in H. apply aeq_list.
      apply (list_eqb_Forall2 aval_eqb aeq xs xs0); [|exact H]. intros x Hin y Hxy. exact (proj1 (IH x Hin) y Hxy).
    + intros Hg b H. destruct (aeq_list_inv _ _ H) as (ys & -> & HF). cbn [aval_eqb].
      cbn [agoodb] in Hg. rewrite forallb_forall in Hg.
      apply (Forall2_list_eqb aval_eqb aeq xs ys); [|exact HF]. intros x Hin y Hxy. exact (proj2 (IH x Hin) (Hg x Hin) y Hxy).
  - (* ABag *)
    rewrite Forall_forall in IH. split.
    + intros b H. destruct b; try discriminate H. cbn [aval_eqb] in H.
      destruct (bag_sound xs xs0 (fun x Hin => proj1 (IH x Hin)) H) as (zs & Hp & HF).
      exact (aeq_bag xs xs0 zs Hp HF).
    + intros Hg b H. destruct (aeq_bag_inv _ _ H) as (ys & zs & -> & Hp & HF). cbn [aval_eqb].
      cbn [agoodb] in Hg. rewrite forallb_forall in Hg.
      apply bag_complete.
      * intros x Hin. exact (proj1 (IH x Hin)).
      * intros x Hin. exact (proj2 (IH x Hin) (Hg x Hin)).
      * exists zs. split; assumption.
  - (* AChoice *)
    split.
    + intros b H. destruct b; try discriminate H. cbn [aval_eqb] in H. apply Bool.andb_true_iff in H. destruct H as [H1 H2].
      apply Nat.eqb_eq in H1. subst. apply aeq_choice. exact (proj1 IH _ H2).
    + intros Hg b H. destruct (aeq_choice_inv _ _ _ H) as (y & -> & Hxy). cbn [aval_eqb]. rewrite Nat.eqb_refl. cbn [andb].
      exact (proj2 IH Hg y Hxy).
  - apply link_leaf; [exact I|intros b H; destruct b; try discriminate H; cbn [aval_eqb] in H; f_equal; exact (bytes_eqb_eq _ _ H)|intros Hg; cbn [aval_eqb]; apply bytes_eqb_refl].
  - apply link_leaf; [exact I|intros b H; destruct b; try discriminate H; reflexivity|reflexivity].
Qed.

(* on contents without float REALs, [aeq] is exactly the model's comparison *)
Corollary aeq_iff_aval_eqb a b : agoodb a = true -> (aeq a b <-> aval_eqb a b = true).
Proof. intros Hg. split; [exact (proj2 (aval_eqb_aeq a) Hg b)|exact (proj1 (aval_eqb_aeq a) b)]. Qed.

(* Round trip, stage 3, SET OF under the sorting encoder included, with the model's own comparison *)
Theorem roundtrip_stage3_eqb : forall ce cd T v b tl,
  enc_ok ce -> stage3_ty true ce T = true -> stage3_val ce cd T v = true -> agoodb (abs T v) = true ->
  encode ce true 0 T v = Ok b -> N.of_nat (length b) <= index_max ->
  exists v', decode cd (Some T) (b ++ tl) = Ok (DV T v', tl) /\ aval_eqb (abs T v) (abs T v') = true.
Proof.
  intros ce cd T v b tl Hce Hty Hv Hg He Hmax.
  destruct (roundtrip_stage3_bag ce cd T v b tl Hce Hty Hv He Hmax) as (v' & Hd & Ha).
  exists v'. split; [exact Hd|]. apply (proj2 (aval_eqb_aeq (abs T v)) Hg). apply aeq_sym. exact Ha.
Qed.

Print Assumptions roundtrip_stage3_eqb.

Example roundtrip_stage3_eqb_nonvacuous :
  agoodb (abs stage3_example_ty stage3_example_val) = true
  /\ agoodb (abs (TSetOf (TSetOf TReal)) (VList [VList [VReal (RBin 3 1); VReal RPInf]; VList []])) = true.
Proof. vm_compute. split; reflexivity. Qed.
