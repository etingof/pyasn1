(* C08, part 1: NO built-in exception.

   In Model/Dec.v every place where the Python code would raise a built-in exception (TypeError when a
   fragment of a constructed string is not a string, IndexError / AttributeError in the SEQUENCE / SET /
   CHOICE decoders when a component decoder hands back something that is not a value object, IndexError
   for an OBJECT IDENTIFIER without sub-identifiers ...) is an explicit outcome [Err (ECrash k)].
   This file proves that NONE of them is reachable: for every codec, every fuel, every guiding type
   (no well-formedness condition whatsoever) or none, every accumulated tag set / re-entry state / flags
   and EVERY behaviour of the stream (the statement is about all leaves of the interaction tree, so it
   covers every byte string, every way of arrival, every answer of tell / markedPosition).

   Method: a global invariant of [dec_call] by induction on the fuel, through every payload decoder:
     [R sp ae sf d] - what the entry point can hand back -
       * end-of-octets only if the caller allowed it,
       * a bare octets object only if the caller passed the substrate collector,
       * never noValue / None,
       * with spec OCTET STRING / BIT STRING / ANY a value object holding octets / bits / octets. *)
From Coq Require Import Lia.
From PV Require Import Base.Bytes Model.Tag Model.TableTypes Model.Types Model.Proc Model.Enc Model.Dec Gen.Tables.
From PV Require Import Proofs.Basics.
From PV Require Export Proofs.DecShape.
Local Open Scope nat_scope.

(* errors the decoder model may end in: anything but a built-in exception (and the marker EUnclean,
   which only [guard] produces) *)
Definition good_err (e: err) : Prop := match e with ECrash _ | EUnclean => False | _ => True end.

Fixpoint leaves {A} (P: A -> Prop) (p: proc A) : Prop :=
  match p with
  | Ret a => P a
  | Raise e => good_err e
  | ReadN n k => forall b, leaves P (k b)
  | Tell k => forall q, leaves P (k q)
  | SeekBack d k => leaves P k
  | Mark k => leaves P k
  | GetMark k => forall q, leaves P (k q)
  | AtEOS k => forall b, leaves P (k b)
  | ReadAll k => forall b, leaves P (k b)
  end.

Definition rgood {A} (P: A -> Prop) (r: res A) : Prop :=
  match r with Ok a => P a | Err e => good_err e end.

Lemma leaves_mono {A} (Q P: A -> Prop) (p: proc A) : leaves Q p -> (forall a, Q a -> P a) -> leaves P p.
Proof.
  intros Hp HQ. induction p as [a|e|n k IH|k IH|d k IH|k IH|k IH|k IH|k IH]; cbn [leaves] in *; auto.
Qed.

Lemma leaves_bind {A B} (Q: A -> Prop) (P: B -> Prop) (p: proc A) (f: A -> proc B) :
  leaves Q p -> (forall a, Q a -> leaves P (f a)) -> leaves P (pbind p f).
Proof.
  intros Hp Hf. induction p as [a|e|n k IH|k IH|d k IH|k IH|k IH|k IH|k IH]; cbn [pbind leaves] in *; auto.
Qed.

Lemma leaves_bind_any {A B} (P: B -> Prop) (p: proc A) (f: A -> proc B) :
  leaves (fun _ => True) p -> (forall a, leaves P (f a)) -> leaves P (pbind p f).
Proof. intros Hp Hf. apply (leaves_bind (fun _ => True)); auto. Qed.

(* whatever the stream does, a run ends in a leaf or is suspended at a subtree *)
Lemma leaves_step {A} (P: A -> Prop) (p: proc A) : leaves P p -> forall s,
  match resume p s with inr (r, _) => rgood P r | inl (p', _) => leaves P p' end.
Proof.
  induction p as [a|e|n k IH|k IH|d k IH|k IH|k IH|k IH|k IH]; intros Hp s; cbn [resume leaves] in *;
    try (apply IH, Hp); try exact Hp.
  - destruct (attempt s n) as [[c| |] s1]; [apply IH, Hp|exact Hp|exact I].
  - destruct (Nat.eqb (length (avail s)) 0); [destruct (closed s); [apply IH, Hp|exact Hp]|apply IH, Hp].
  - destruct (Nat.eqb (length (avail s)) 0); [destruct (closed s); [exact I|exact Hp]|apply IH, Hp].
Qed.

Lemma leaves_lift {A} (P: A -> Prop) (r: res A) : rgood P r -> leaves P (lift r).
Proof. destruct r; exact (fun H => H). Qed.

(* the pure functions of the model end in a value or in one of the errors of [good_err], and never for
   lack of fuel *)
Definition fine_err (e: err) : Prop := match e with ECrash _ | EUnclean | EOutOfFuel => False | _ => True end.
Definition rfine {A} (P: A -> Prop) (r: res A) : Prop :=
  match r with Ok a => P a | Err e => fine_err e end.

Lemma rfine_good {A} (P: A -> Prop) (r: res A) : rfine P r -> rgood P r.
Proof. destruct r as [a|[]]; easy. Qed.

Lemma rfine_fuel {A} (P: A -> Prop) (r: res A) : rfine P r -> r <> Err EOutOfFuel.
Proof. intros H ->. exact H. Qed.

Lemma rfine_mono {A} (P Q: A -> Prop) (r: res A) : rfine P r -> (forall a, P a -> Q a) -> rfine Q r.
Proof. destruct r; cbn [rfine]; auto. Qed.

(* the sub-identifier loop: a non-empty content never gives an empty list *)
Lemma oid_subids_fine : forall fuel b, length b < fuel -> rfine (fun l => b <> [] -> l <> []) (oid_subids fuel b).
Proof.
  induction fuel as [|f IH]; intros b Hl; [lia|]. cbn [oid_subids].
  destruct b as [|s r]; [cbn; congruence|]. cbn [length] in Hl.
  assert (Hrec: forall r' (x: N), length r' <= length r ->
            rfine (fun l => l <> []) (do rest <- oid_subids f r'; Ok (x :: rest))).
  { intros r' x Hr'. specialize (IH r' ltac:(lia)).
    destruct (oid_subids f r') as [rest|e]; cbn [bind rfine] in *; [discriminate|exact IH]. }
  apply rfine_mono with (P := fun l => l <> []); [|auto].
  destruct (N.ltb s 128); [apply Hrec; lia|].
  destruct (N.eqb s 128); [exact I|].
  destruct (N.leb 128 s); [|apply Hrec; lia].
  destruct r as [|n' r']; [exact I|].
  (* the inner loop over the octets of one sub-identifier, by induction on its own fuel *)
  match goal with |- rfine _ (?more _ _ _ _) =>
    cut (forall fuel2 next r2 acc, length r2 < fuel2 -> length r2 <= length (n' :: r') ->
           rfine (fun l => l <> []) (more fuel2 acc next r2)); [intros H; apply H; cbn [length]; lia|] end.
  induction fuel2 as [|f2 IH2]; intros next r2 acc H1 H2; [lia|].
  destruct (N.leb 128 next); [|apply Hrec, H2].
  destruct r2 as [|n2 r3]; [exact I|]. cbn [length] in *. apply IH2; lia.
Qed.

Lemma dec_oid_fine b : rfine (fun _ => True) (dec_oid b).
Proof.
  unfold dec_oid. destruct b as [|o r]; [exact I|].
  pose proof (oid_subids_fine (S (length (o :: r))) (o :: r) (le_n _)) as H.
  destruct (oid_subids _ _) as [subs|e]; cbn [bind rfine] in *; [|exact H].
  destruct subs as [|x l]; [exfalso; apply H; [discriminate|reflexivity]|].
  destruct (N.leb x 39); [exact I|]. destruct (N.leb x 79); exact I.
Qed.

Lemma dec_real_fine b : rfine (fun _ => True) (dec_real b).
Proof.
  unfold dec_real. destruct b as [|fo chunk]; [exact I|].
  destruct (negb (N.eqb (N.land fo 128) 0)).
  - destruct chunk as [|c0 crest]; [exact I|].
    destruct (if N.eqb (N.land fo 3 + 1) 4 then (c0, crest) else ((N.land fo 3 + 1)%N, c0 :: crest)) as [n chunk1].
    destruct (firstn (N.to_nat n) chunk1); [exact I|]. destruct (skipn (N.to_nat n) chunk1); [exact I|].
    destruct (N.ltb 2 (N.land (N.shiftr fo 4) 3)); exact I.
  - destruct (negb (N.eqb (N.land fo 64) 0)); [exact I|]. destruct chunk; exact I.
Qed.

Lemma bits_of_octets_fine b p : rfine (fun _ => True) (bits_of_octets b p).
Proof. unfold bits_of_octets. destruct (Nat.ltb _ _); exact I. Qed.

(* positions handed out by the tag-to-position map are positions of the list *)
Lemma tag_to_pos_bound : forall fs i acc m, tag_to_pos fs i acc = Some m ->
  (forall k j, In (k, j) acc -> j < i) -> forall k j, In (k, j) m -> j < i + length fs.
Proof.
  induction fs as [|t r IH]; intros i acc m H Hacc k j Hin; cbn [tag_to_pos] in H.
  - inversion H; subst. cbn [length]. specialize (Hacc k j Hin). lia.
  - destruct (tm_postponed (tagmap_of t)); [discriminate|].
    destruct (existsb _ _); [discriminate|].
    cbn [length]. replace (i + S (length r)) with (S i + length r) by lia.
    apply (IH (S i) _ m H) with (k := k); [|exact Hin].
    intros k0 j0 Hin0. apply in_app_or in Hin0. destruct Hin0 as [Hin0|Hin0].
    + specialize (Hacc k0 j0 Hin0). lia.
    + apply in_map_iff in Hin0. destruct Hin0 as (x & Hx & _). inversion Hx; subst. lia.
Qed.

Lemma position_by_type_fine l ts : rfine (fun i => i < length l) (position_by_type l ts).
Proof.
  unfold position_by_type. destruct (tag_to_pos l 0 []) as [m|] eqn:E; [|exact I].
  destruct (assoc tagset_eqb ts m) as [i|] eqn:Ea; [|exact I]. cbn [rfine].
  destruct (assoc_In _ _ _ _ Ea) as (k & Hk & _).
  apply (tag_to_pos_bound l 0 [] m E) with (k := k); [|exact Hk]. intros k0 j0 [].
Qed.

Lemma ambiguous_run_length fs : length (ambiguous_run fs) <= length fs.
Proof.
  induction fs as [|[p t] r IH]; cbn [ambiguous_run length]; [lia|].
  destruct p; cbn [length]; lia.
Qed.

Lemma seq_position_fine lf fs is_set det idx T v :
  (is_set = false -> idx < length fs) -> (det = true -> is_set = false) ->
  rfine (fun i => i < length fs) (seq_position lf fs is_set det idx T v).
Proof.
  intros Hidx Hdet. unfold seq_position. destruct det; [cbn [rfine]; auto|]. cbv zeta.
  destruct is_set.
  - rewrite <- (map_length snd fs). apply position_by_type_fine.
  - specialize (Hidx eq_refl).
    destruct (nth_error fs idx) as [[p t]|] eqn:En; [|apply nth_error_None in En; lia].
    destruct (is_req p); [exact Hidx|].
    pose proof (position_by_type_fine (ambiguous_run (skipn idx fs)) (effective_tagset (S lf) T v)) as H.
    destruct (position_by_type _ _) as [k|e]; cbn [bind rfine] in *; [|exact H].
    pose proof (ambiguous_run_length (skipn idx fs)) as Hl. rewrite skipn_length in Hl. lia.
Qed.

(* in the SEQUENCE / SET decoder: past the test for excessive components *)
Lemma record_position_fine lf fs is_set idx T v : (negb is_set && Nat.leb (length fs) idx)%bool = false ->
  rfine (fun i => i < length fs)
        (seq_position lf fs is_set (negb is_set && forallb (fun f => is_req (fst f)) fs) idx T v).
Proof.
  intros Eg. apply seq_position_fine; [intros ->; apply Nat.leb_gt, Eg|destruct is_set; easy].
Qed.

Definition is_octs (v: val) : Prop := match v with VOcts _ => True | _ => False end.
Definition is_bits (v: val) : Prop := match v with VBits _ => True | _ => False end.
Definition is_anyv (v: val) : Prop := match v with VAny _ => True | _ => False end.

Definition spec_shape (sp: spec) (v: val) : Prop :=
  match sp with
  | STy TOcts => is_octs v
  | STy TBits => is_bits v
  | STy TAny => is_anyv v
  | _ => True
  end.

Definition R (sp: spec) (ae sf: bool) (d: dval) : Prop :=
  match d with
  | DV _ v => spec_shape sp v
  | DEoo => ae = true
  | DRaw _ => sf = true
  | DNoValue | DNone => False
  end.

(* what a payload decoder hands back *)
Definition cshape (cd: dec_codec) (v: val) : Prop :=
  match cd with
  | DcOcts | DcStr => is_octs v
  | DcBits => is_bits v
  | DcAny => is_anyv v
  | _ => True
  end.

Definition DVof (S: val -> Prop) (sf: bool) (d: dval) : Prop :=
  match d with DV _ v => S v | DRaw _ => sf = true | _ => False end.

Lemma R_weaken sp ae sf d : R sp false false d -> R sp ae sf d.
Proof. destruct d; cbn [R]; try discriminate; auto. Qed.

Lemma DVof_R (S: val -> Prop) sp ae sf d : (forall v, S v -> spec_shape sp v) -> DVof S sf d -> R sp ae sf d.
Proof. intros H. destruct d; cbn [DVof R]; auto; contradiction. Qed.

(* clone(value): the value stays what it is, except that BOOLEAN turns the integer into a truth value *)
Lemma leaves_create (S: val -> Prop) sf sp proto ts v :
  S v -> (forall z, v = VInt z -> forall b, S (VBool b)) -> leaves (DVof S sf) (create sp proto ts v).
Proof.
  intros Hv Hb. unfold create. cbv zeta.
  destruct (base_of (match sp with Some T => T | None => schemaless_ty proto ts end)); destruct v;
    try exact Hv; try (exact (Hb _ eq_refl _)).
  destruct (str_octets_ok n b) as [[|]|]; [exact Hv|exact I|exact I].
Qed.

(* the payload decoder chosen for OCTET STRING / BIT STRING / ANY by type *)
Lemma by_type_shape c T cd fl v : by_type c T = Some (cd, fl) -> cshape cd v -> spec_shape (STy T) v.
Proof.
  intros H Hs. destruct T; try exact I; destruct c; vm_compute in H; inversion H; subst; exact Hs.
Qed.

(* one step of a program: a stream primitive (whatever it answers), a branch, the end *)
Ltac lv_step :=
  match goal with
  | |- leaves _ (Ret _) => cbn [leaves]
  | |- leaves _ (Raise _) => exact I
  | |- leaves _ (if ?b then _ else _) => destruct b
  | |- leaves _ (pbind ?p _) =>
      lazymatch p with tell => idtac | getmark => idtac | read1 => idtac | readN _ => idtac end;
      apply leaves_bind_any; [exact (fun _ => I)|intro]
  end.

Section DecSafe.
  Variable c : codec.
  Variable rec : spec -> tagset -> option (option N) -> bool -> bool -> proc dval.
  Variable lf : nat.
  Hypothesis Hrec : forall sp ts r ae sf, leaves (R sp ae sf) (rec sp ts r ae sf).

  Lemma leaves_rec_bind {B} sp ts r ae sf (k: dval -> proc B) P :
    (forall d, R sp ae sf d -> leaves P (k d)) -> leaves P (pbind (rec sp ts r ae sf) k).
  Proof. apply leaves_bind, Hrec. Qed.

  Lemma leaves_read_len n : leaves (fun _ => True) (read_len lf n).
  Proof. unfold read_len. destruct (N.ltb index_max n); [exact I|intros b; exact I]. Qed.

  Ltac lv := repeat first [ lv_step | apply leaves_bind_any; [apply leaves_read_len|intro] ].

  Lemma leaves_dec_integer sf sp proto ts len : leaves (DVof (fun _ => True) sf) (dec_integer lf sp proto ts len).
  Proof. unfold dec_integer. lv. apply leaves_create; easy. Qed.

  Lemma leaves_dec_bool_cer sf sp ts len : leaves (DVof (fun _ => True) sf) (dec_bool_cer lf sp ts len).
  Proof.
    unfold dec_bool_cer. lv.
    repeat match goal with |- leaves _ (match ?x with _ => _ end) => destruct x end;
      first [exact I|apply leaves_create; easy].
  Qed.

  Lemma leaves_dec_null sf sp ts len : leaves (DVof (fun _ => True) sf) (dec_null lf sp ts len).
  Proof. unfold dec_null. lv. apply leaves_create; easy. Qed.

  Lemma leaves_dec_oid_v sf sp ts len : leaves (DVof (fun _ => True) sf) (dec_oid_v lf sp ts len).
  Proof.
    unfold dec_oid_v. lv. apply leaves_bind_any; [apply leaves_lift, rfine_good, dec_oid_fine|]. intros x.
    apply leaves_create; easy.
  Qed.

  Lemma leaves_dec_real_v sf sp ts len : leaves (DVof (fun _ => True) sf) (dec_real_v lf sp ts len).
  Proof.
    unfold dec_real_v. lv. apply leaves_bind_any; [apply leaves_lift, rfine_good, dec_real_fine|]. intros x.
    apply leaves_create; easy.
  Qed.

  Lemma leaves_collector S len : leaves (DVof S true) (collector lf len).
  Proof. unfold collector. destruct len as [n|]; [lv; reflexivity|intros b; reflexivity]. Qed.

  (* OCTET STRING and the character strings: a fragment is octets, whichever way it comes back *)
  Lemma leaves_octets_loop sf proto sp ts len start : forall n acc,
    leaves (DVof is_octs sf) (octets_loop rec proto sp ts len start n acc).
  Proof.
    induction n as [|n IH]; intros acc; cbn [octets_loop]; [exact I|].
    lv; [|apply leaves_create; easy].
    apply leaves_rec_bind. intros f Hf. destruct f as [T []| |b| |]; try easy; apply IH.
  Qed.

  Lemma leaves_dec_octets sf proto fl sp ts len sfun : leaves (DVof is_octs sf) (dec_octets rec lf proto fl sp ts len sfun).
  Proof. unfold dec_octets. lv; [apply leaves_create; easy|apply leaves_octets_loop]. Qed.

  Lemma leaves_octets_indef_loop sf proto sp ts : forall n acc,
    leaves (DVof is_octs sf) (octets_indef_loop rec proto sp ts n acc).
  Proof.
    induction n as [|n IH]; intros acc; cbn [octets_indef_loop]; [exact I|].
    apply leaves_rec_bind. intros f Hf.
    destruct f as [T []| |b| |]; try easy; try apply IH. apply leaves_create; easy.
  Qed.

  Lemma leaves_add_bits {B} acc f (k: list bool -> proc B) ae P : R (STy TBits) ae false f -> f <> DEoo ->
    (forall acc', leaves P (k acc')) -> leaves P (pbind (add_bits_fragment acc f) k).
  Proof. intros Hf Hne Hk. destruct f as [T []| |b| |]; try easy. apply Hk. Qed.

  Lemma leaves_bits_loop sf sp ts len start : forall n acc, leaves (DVof is_bits sf) (bits_loop rec sp ts len start n acc).
  Proof.
    induction n as [|n IH]; intros acc; cbn [bits_loop]; [exact I|].
    lv; [|apply leaves_create; easy].
    apply leaves_rec_bind. intros f Hf. apply (leaves_add_bits _ _ _ _ _ Hf); [intros ->; discriminate Hf|apply IH].
  Qed.

  Lemma leaves_dec_bits fl sp ts len sfun : leaves (DVof is_bits sfun) (dec_bits rec lf fl sp ts len sfun).
  Proof.
    unfold dec_bits. destruct sfun; [apply leaves_collector|]. lv.
    - apply leaves_bind_any; [apply leaves_lift, rfine_good, bits_of_octets_fine|]. intros bs. apply leaves_create; easy.
    - apply leaves_bits_loop.
  Qed.

  Lemma leaves_bits_indef_loop sf sp ts : forall n acc, leaves (DVof is_bits sf) (bits_indef_loop rec sp ts n acc).
  Proof.
    induction n as [|n IH]; intros acc; cbn [bits_indef_loop]; [exact I|].
    apply leaves_rec_bind. intros f Hf.
    destruct f as [T v| |b| |]; try (apply (leaves_add_bits _ _ _ _ _ Hf); [discriminate|apply IH]).
    apply leaves_create; easy.
  Qed.

  Lemma leaves_dec_bits_indef sp ts sfun : leaves (DVof is_bits sfun) (dec_bits_indef rec lf sp ts sfun).
  Proof. unfold dec_bits_indef. destruct sfun; [apply leaves_collector|apply leaves_bits_indef_loop]. Qed.

  Lemma leaves_dec_any sp ts len sfun : leaves (DVof is_anyv sfun) (dec_any lf sp ts len sfun).
  Proof.
    unfold dec_any. cbv zeta. apply leaves_bind_any.
    - destruct (match sp with None => true | Some T => negb (tagset_eqb ts (tagset_of' T)) end); [|exact I].
      intros m p. exact I.
    - intros len'. lv; [reflexivity|apply leaves_create; easy].
  Qed.

  Lemma leaves_any_indef_loop sp ts sfun tagged : forall n acc,
    leaves (DVof is_anyv sfun) (any_indef_loop rec sp ts sfun tagged n acc).
  Proof.
    induction n as [|n IH]; intros acc; cbn [any_indef_loop]; [exact I|].
    apply leaves_rec_bind. intros f Hf.
    destruct f as [T []| |b| |]; try easy; try apply IH.
    cbv zeta. destruct sfun; [reflexivity|apply leaves_create; easy].
  Qed.

  Lemma leaves_dec_any_indef sp ts sfun : leaves (DVof is_anyv sfun) (dec_any_indef rec lf sp ts sfun).
  Proof.
    unfold dec_any_indef. cbv zeta. apply leaves_bind_any.
    - destruct (match sp with None => false | Some T => tagset_eqb ts (tagset_of' T) end); [exact I|].
      intros m p b. exact I.
    - intros header. apply leaves_any_indef_loop.
  Qed.

  (* the constructed types: a component is a value object (or the end-of-octets it was allowed) *)
  Lemma leaves_record_loop sf T fs is_set len start : forall n idx vs extra,
    leaves (DVof (fun _ => True) sf) (record_loop rec lf T fs is_set len start n idx vs extra).
  Proof.
    induction n as [|n IH]; intros idx vs extra; cbn [record_loop]; cbv zeta; [exact I|].
    lv_step.
    set (fin := if match fs with [] => true | _ => false end then Ret _ else _).
    assert (Hfin: leaves (DVof (fun _ => True) sf) fin) by (subst fin; lv; exact I).
    clearbody fin. destruct (negb _); [exact Hfin|].
    match goal with |- leaves _ (match ?x with Some _ => _ | None => _ end) => destruct x as [sp'|] end; [|exact I].
    apply leaves_rec_bind. intros d Hd.
    destruct d as [Tc vc| |b| |]; [|exact Hfin|easy..].
    destruct (match fs with [] => true | _ => false end); [exact I|].
    destruct (negb is_set && Nat.leb (length fs) idx)%bool eqn:Eg; [exact I|].
    apply (leaves_bind (fun i => i < length fs)).
    - apply leaves_lift, rfine_good, record_position_fine, Eg.
    - intros i Hi. destruct (Nat.leb_spec (length fs) i) as [Hle|_]; [lia|]. apply IH.
  Qed.

  Lemma leaves_listof_loop sf T t len start : forall n acc,
    leaves (DVof (fun _ => True) sf) (listof_loop rec T t len start n acc).
  Proof.
    induction n as [|n IH]; intros acc; cbn [listof_loop]; cbv zeta; [exact I|].
    lv_step. destruct (negb _); [exact I|].
    apply leaves_rec_bind. intros d Hd. destruct d as [Tc vc| |b| |]; [apply IH|exact I|easy..].
  Qed.

  Lemma leaves_schemaless_loop sf is_set ts len start : forall n acc,
    leaves (DVof (fun _ => True) sf) (schemaless_loop rec is_set ts len start n acc).
  Proof.
    induction n as [|n IH]; intros acc; cbn [schemaless_loop]; cbv zeta; [exact I|].
    lv_step.
    set (fin := match acc with [] => _ | _ => _ end).
    assert (Hfin: leaves (DVof (fun _ => True) sf) fin) by (subst fin; destruct acc as [|[T0 v0] r]; exact I).
    clearbody fin. destruct (negb _); [exact Hfin|].
    apply leaves_rec_bind. intros d Hd. destruct d as [Tc vc| |b| |]; [apply IH|exact Hfin|easy..].
  Qed.

  Lemma leaves_choice_place sf sp ae T alts d : R sp ae false d -> d <> DEoo ->
    leaves (DVof (fun _ => True) sf) (choice_place lf T alts d).
  Proof.
    intros Hd Hne. destruct d as [Tc vc| |b| |]; try easy.
    unfold choice_place. apply leaves_bind_any; [|intros i; exact I].
    apply leaves_lift, rfine_good, (rfine_mono _ _ _ (position_by_type_fine _ _)). auto.
  Qed.

  Lemma leaves_choice_loop sf T alts ts tagged : forall n cur,
    match cur with Some x => DVof (fun _ => True) sf x | None => True end ->
    leaves (DVof (fun _ => True) sf) (choice_loop rec lf T alts ts tagged n cur).
  Proof.
    induction n as [|n IH]; intros cur Hcur; cbn [choice_loop]; cbv zeta; [exact I|].
    apply (leaves_bind (R (SMap (fields_tagmap true alts)) tagged false)); [destruct tagged; apply Hrec|].
    intros d Hd.
    assert (Hk: d <> DEoo -> leaves (DVof (fun _ => True) sf)
                  (let! x := choice_place lf T alts d in if tagged then choice_loop rec lf T alts ts tagged n (Some x) else Ret x)).
    { intros Hne. apply (leaves_bind _ _ _ _ (leaves_choice_place sf _ _ T alts d Hd Hne)).
      intros x Hx. destruct tagged; [apply IH|]; exact Hx. }
    destruct d as [Tc vc| |b| |]; try (apply Hk; discriminate).
    destruct cur as [x|]; [exact Hcur|exact I].
  Qed.

  Lemma leaves_dec_choice sf T alts ts len : leaves (DVof (fun _ => True) sf) (dec_choice rec lf T alts ts len).
  Proof.
    unfold dec_choice. cbv zeta. destruct len as [l|]; [|apply leaves_choice_loop; exact I].
    apply (leaves_bind (R (SMap (fields_tagmap true alts)) false false)).
    { destruct (tagset_eqb (tagset_of' T) ts); apply Hrec. }
    intros d Hd. apply (leaves_choice_place sf _ _ T alts d Hd). intros ->. discriminate Hd.
  Qed.

  (* an explicit tag: whatever is inside comes back *)
  Lemma leaves_raw_loop sp ae sf ts : forall n last,
    (last = DNoValue \/ (R sp ae sf last /\ last <> DEoo)) -> leaves (R sp ae sf) (raw_loop rec sp ts n last).
  Proof.
    induction n as [|n IH]; intros last Hl; cbn [raw_loop]; [exact I|].
    apply leaves_rec_bind. intros d Hd.
    assert (Hk: d <> DEoo -> leaves (R sp ae sf) (raw_loop rec sp ts n d)).
    { intros Hne. apply IH. right. split; [|exact Hne]. destruct d; easy. }
    destruct d as [Tc vc| |b| |]; try (apply Hk; discriminate).
    destruct Hl as [->|[Hl Hne]]; [exact I|]. destruct last; easy.
  Qed.

  Lemma leaves_dec_raw sp ae ts len sfun : leaves (R sp ae sfun) (dec_raw rec lf sp ts len sfun).
  Proof.
    unfold dec_raw. destruct sfun.
    - apply (leaves_mono _ _ _ (leaves_collector (fun _ => False) len)). intros d. apply DVof_R. easy.
    - destruct len as [l|].
      + apply (leaves_mono _ _ _ (Hrec sp ts None false false)). intros d. apply R_weaken.
      + apply leaves_raw_loop. left. reflexivity.
  Qed.

  Lemma DVof_mono (S S': val -> Prop) sf d : (forall v, S v -> S' v) -> DVof S sf d -> DVof S' sf d.
  Proof. intros H. destruct d; cbn [DVof]; auto. Qed.

  Lemma leaves_dec_value cd fl sp ts len sfun : leaves (DVof (cshape cd) sfun) (dec_value rec lf cd fl sp ts len sfun).
  Proof.
    unfold dec_value. cbv zeta.
    generalize (match cd with DcSet | DcSetOf | DcSetOrSetOf => true | _ => false end). intros is_set.
    set (constructed := if negb (tag0_cons ts) then Raise EMalformed else _).
    assert (Hconstr: leaves (DVof (fun _ => True) sfun) constructed).
    { subst constructed. destruct (negb (tag0_cons ts)); [exact I|]. destruct sfun; [apply leaves_collector|].
      destruct sp as [T|].
      - unfold dec_record, dec_listof. destruct (base_of T); try exact I; lv_step;
          first [apply leaves_record_loop|apply leaves_listof_loop].
      - unfold dec_schemaless. lv_step. apply leaves_schemaless_loop. }
    set (choice := match sp with Some T => _ | None => Raise EUnmodelled end).
    assert (Hchoice: leaves (DVof (fun _ => True) sfun) choice).
    { subst choice. destruct sp as [T|]; [|exact I]. destruct (base_of T); try exact I.
      destruct sfun; [apply leaves_collector|apply leaves_dec_choice]. }
    clearbody constructed choice.
    (* what is left, in the order of [dec_codec]: INTEGER, BOOLEAN (BER, CER), BIT STRING, OCTET STRING, NULL,
       OBJECT IDENTIFIER, REAL, ANY, the character strings; the strings and ANY also in indefinite form *)
    destruct cd; cbn [cshape]; try exact Hconstr; try exact Hchoice; (destruct len as [l|]; [|try exact I]).
    - apply leaves_dec_integer.
    - apply leaves_dec_integer.
    - apply leaves_dec_bool_cer.
    - apply leaves_dec_bits.
    - apply leaves_dec_bits_indef.
    - apply leaves_dec_octets.
    - apply leaves_octets_indef_loop.
    - apply leaves_dec_null.
    - apply leaves_dec_oid_v.
    - apply leaves_dec_real_v.
    - apply leaves_dec_any.
    - apply leaves_dec_any_indef.
    - apply leaves_dec_octets.
    - apply leaves_octets_indef_loop.
  Qed.

  Lemma leaves_run_value (P: dval -> Prop) len k : leaves P k -> leaves P (run_value len k).
  Proof.
    intros Hk. destruct len as [l|]; [|exact Hk]. cbn [run_value]. lv_step.
    apply (leaves_bind _ _ _ _ Hk). intros v Hv. lv. exact Hv.
  Qed.

  Lemma leaves_dispatch sp ae ts len sfun : leaves (R sp ae sfun) (dispatch c rec lf sp ts len sfun).
  Proof.
    apply dispatch_cases.
    - exact I.
    - apply leaves_run_value, leaves_dec_raw.
    - intros cd fl osp H. apply leaves_run_value, (leaves_mono _ _ _ (leaves_dec_value cd fl osp ts len sfun)).
      intros d. apply DVof_R. intros v.
      destruct sp as [|T|m]; [easy|apply (by_type_shape c T cd fl), H|easy].
  Qed.

  Lemma leaves_long_tag cl f : forall k acc, leaves (fun _ => True) (long_tag cl f k acc).
  Proof. induction k as [|k IH]; intros acc; cbn [long_tag]; cbv zeta; [exact I|]. lv; [exact I|apply IH]. Qed.

  Lemma leaves_read_tag : leaves (fun _ => True) (read_tag lf).
  Proof. unfold read_tag. cbv zeta. lv; [apply leaves_long_tag|exact I]. Qed.

  Lemma leaves_read_length : leaves (fun _ => True) (read_length c).
  Proof. unfold read_length. lv; exact I. Qed.

  Lemma leaves_dec_body sp acc rs ae sfun : leaves (R sp ae sfun) (dec_body c rec lf sp acc rs ae sfun).
  Proof.
    unfold dec_body. cbv zeta.
    set (main := match rs with Some len => _ | None => Mark _ end).
    assert (Hmain: leaves (R sp ae sfun) main).
    { subst main. destruct rs as [len|]; [apply leaves_dispatch|]. cbn [leaves].
      apply leaves_bind_any; [apply leaves_read_tag|]. intros t.
      apply leaves_bind_any; [apply leaves_read_length|]. intros len. apply leaves_dispatch. }
    clearbody main. destruct ae; cbn [andb]; [|exact Hmain]. destruct (support_indef c); [|exact Hmain].
    intros b. cbn [pbind].
    repeat match goal with |- leaves _ (match ?x with _ => _ end) => destruct x end; first [exact Hmain|reflexivity].
  Qed.
End DecSafe.

Theorem leaves_dec_call c : forall f sp acc rs ae sfun, leaves (R sp ae sfun) (dec_call c f sp acc rs ae sfun).
Proof.
  induction f as [|f IH]; intros sp acc rs ae sfun; cbn [dec_call]; [exact I|].
  apply leaves_dec_body. exact IH.
Qed.
Print Assumptions leaves_dec_call.

Definition item_spec (sp: option ty) : spec := match sp with Some T => STy T | None => SNone end.

Definition is_value (d: dval) : Prop := match d with DV _ _ => True | _ => False end.

Lemma rgood_item_value sp r : rgood (R (item_spec sp) false false) r -> rgood is_value r.
Proof. destruct r as [[]|e]; cbn [rgood R is_value]; try discriminate; auto. Qed.

(* on ANY stream - open or closed, whatever has arrived, wherever the position and the mark are - a run of
   the entry point that finishes, in any state (nested calls, re-entry after the header, end-of-octets
   allowed, substrate collector), ends in what [R] allows or in an error that is not a built-in exception *)
Theorem call_never_crashes c fuel sp acc rs ae sf s r s' :
  resume (dec_call c fuel sp acc rs ae sf) s = inr (r, s') -> rgood (R sp ae sf) r.
Proof. intros H. pose proof (leaves_step _ _ (leaves_dec_call c fuel sp acc rs ae sf) s) as L. rewrite H in L. exact L. Qed.

(* under EVERY schedule of arrivals, polls and close: whatever the driver reports is an underrun or a leaf
   (suspension keeps the invariant: what is retried is a subtree) *)
Theorem drive_never_crashes {A} (P: A -> Prop) : forall sched (p: proc A) s, leaves P p ->
  Forall (fun o => match o with OUnder => True | ODone r _ => rgood P r end) (drive sched p s).
Proof.
  induction sched as [|e rest IH]; intros p s Hp; cbn [drive]; pose proof (leaves_step P p Hp s) as L;
    destruct (resume p s) as [[p' s1]|[r s1]]; repeat constructor; auto.
Qed.

Corollary item_drive_never_crashes c fuel sp sched s :
  Forall (fun o => match o with OUnder => True | ODone r _ => rgood is_value r end)
         (drive sched (dec_item c fuel sp) s).
Proof.
  eapply Forall_impl; [|apply (drive_never_crashes (R (item_spec sp) false false)), leaves_dec_call].
  intros [|r p]; [auto|apply rgood_item_value].
Qed.

Theorem decode_with_never_crashes c fuel sp b :
  match decode_with c fuel sp b with
  | Ok (d, _) => is_value d
  | Err e => good_err e
  end.
Proof.
  unfold decode_with, run_complete, dec_item.
  pose proof (call_never_crashes c fuel (item_spec sp) [] None false false (mkStream b 0 true 0)) as H.
  destruct (resume _ _) as [[p s1]|[r s1]]; [exact I|].
  specialize (H r s1 eq_refl). apply rgood_item_value in H. destruct r; exact H.
Qed.

Theorem NO_CRASH : forall c fuel sp b r, decode_with c fuel sp b = r ->
  match r with Err (ECrash _) => False | _ => True end.
Proof.
  intros c fuel sp b r <-. pose proof (decode_with_never_crashes c fuel sp b) as H.
  destruct (decode_with c fuel sp b) as [[d tl]|[]]; try exact I. exact H.
Qed.

Theorem decode_never_crashes c sp b :
  match decode c sp b with
  | Ok (d, _) => is_value d
  | Err e => good_err e
  end.
Proof. exact (decode_with_never_crashes c (dec_fuel sp b) sp b). Qed.

Print Assumptions NO_CRASH.
Print Assumptions decode_never_crashes.
Print Assumptions item_drive_never_crashes.

(* non-vacuity: inputs that walk up to each crash site of the model and end in a library error *)
Local Open Scope N_scope.
Example crash_sites_end_in_library_errors :
  (* constructed BIT STRING with an empty fragment *)
  decode BER None [35;2;3;0] = Err EMalformed
  (* constructed OCTET STRING whose fragment is an INTEGER, indefinite and definite, with and without a type *)
  /\ decode BER None [36;128;2;1;0;0;0] = Err EMalformed
  /\ decode BER (Some TOcts) [36;128;2;1;0;0;0] = Err EMalformed
  /\ decode BER None [36;5;2;1;0;0;0] = Err EMalformed
  (* OBJECT IDENTIFIER: no content, a lone leading 0x80, a cut sub-identifier *)
  /\ decode BER None [6;0] = Err EMalformed
  /\ decode BER None [6;1;128] = Err EMalformed
  /\ decode BER None [6;2;129;128] = Err EUnderrun
  (* SEQUENCE: a component no member accepts / too many components *)
  /\ decode BER (Some (TSeq [(Opt,TInt);(Req,TBool)])) [48;3;4;1;0] = Err EMalformed
  /\ decode BER (Some (TSeq [(Req,TInt)])) [48;6;2;1;0;2;1;0] = Err EMalformed
  (* CHOICE: no alternative *)
  /\ decode BER (Some (TChoice [TInt;TBool])) [4;1;0] = Err EMalformed
  (* truncated content, unterminated long tag, indefinite length under DER, unterminated nesting *)
  /\ decode BER None [2;132;255;255;255;255] = Err EEndOfStream
  /\ decode BER None [31;255;255] = Err EEndOfStream
  /\ decode DER None [48;128;0;0] = Err EMalformed
  /\ decode BER None [160;128;160;128;160;128] = Err EEndOfStream
  /\ decode BER None [0;0;0;0] = Err EMalformed.
Proof. repeat split; vm_compute; reflexivity. Qed.

(* SET / CHOICE members of type ANY in constructed indefinite form (finding F17: pyasn1 handed
   back raw bytes, an AttributeError in the SET decoder): decoded *)
Example any_members_decoded :
  decode BER (Some (TSet [(Opt,TInt);(Req,TAny)])) [49;128;36;128;4;1;0;0;0;0;0]
    = Ok (DV (TSet [(Opt,TInt);(Req,TAny)]) (VRec [None; Some (VAny [36;128;4;1;0;0;0])]), []).
Proof. vm_compute. reflexivity. Qed.
