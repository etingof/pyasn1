(* SEQUENCE OF / SET OF .sort(key=..., reverse=...) against Python's list.sort:
   - the specification [py_sorted]: sorted(l, key=k, reverse=r) is stable in both directions: members that tie
     under the key keep their original relative order, also with reverse=True;
   - the model of `self._componentValues = dict(enumerate(sorted(values, key=key, reverse=reverse)))` for
     keys of the form int(x) % m, as an extension [kop] of the operations of Model/Container.v;
   - proofs: the specification is a stable sort; the model refines it on list-like states; sorting ascending and
     then reversing is a different function (it reverses the ties). *)
From Coq Require Import Lia Sorting.Permutation.
From PV Require Import Spec.ListSpec Proofs.ContainerBase Proofs.ContainerSeqOf.
Local Open Scope nat_scope.

Section PySorted.
  Context {A: Type} (key: A -> Z).
  (* x came before everything in l *)
  Fixpoint ins_asc (x: A) (l: list A) : list A :=
    match l with [] => [x] | y :: r => if Z.leb (key x) (key y) then x :: l else y :: ins_asc x r end.
  Fixpoint ins_desc (x: A) (l: list A) : list A :=
    match l with [] => [x] | y :: r => if Z.leb (key y) (key x) then x :: l else y :: ins_desc x r end.
  Definition py_sorted (reverse: bool) (l: list A) : list A :=
    fold_right (if reverse then ins_desc else ins_asc) [] l.

  Definition tied (k: Z) (l: list A) : list A := filter (fun x => Z.eqb (key x) k) l.

  (* ordered by key *)
  Fixpoint ordered (le: Z -> Z -> Prop) (l: list A) : Prop :=
    match l with
    | [] => True
    | x :: r => (forall y, In y r -> le (key x) (key y)) /\ ordered le r
    end.

  (* Either insertion walks past the members that come strictly before x in its direction and stops at
     the first that does not: what holds of both is proved of any insertion that unfolds this way. *)
  Section Insertion.
    Variables (le: Z -> Z -> Prop) (leb: A -> A -> bool) (ins: A -> list A -> list A).
    Hypothesis le_trans: forall a b c, le a b -> le b c -> le a c.
    Hypothesis leb_spec: forall x y, if leb x y then le (key x) (key y) else le (key y) (key x) /\ key x <> key y.
    Hypothesis ins_nil: forall x, ins x [] = [x].
    Hypothesis ins_cons: forall x y r, ins x (y :: r) = if leb x y then x :: y :: r else y :: ins x r.

    Lemma ins_perm x l : Permutation (x :: l) (ins x l).
    Proof.
      induction l as [|y l IH]; [rewrite ins_nil; apply Permutation_refl|]. rewrite ins_cons.
      destruct (leb x y); [apply Permutation_refl|].
      eapply perm_trans; [apply perm_swap|]. apply perm_skip. exact IH.
    Qed.

    Lemma ins_ordered x l : ordered le l -> ordered le (ins x l).
    Proof.
      induction l as [|z l IH]; [rewrite ins_nil; cbn; intuition|]. intros [Hz Hl]. rewrite ins_cons.
      pose proof (leb_spec x z) as Hxz. destruct (leb x z); cbn [ordered].
      - split; [|split; assumption]. intros y [<-|Hy]; [exact Hxz|].
        eapply le_trans; [exact Hxz|apply Hz; exact Hy].
      - split; [|apply IH; exact Hl]. intros y Hy.
        apply (Permutation_in _ (Permutation_sym (ins_perm x l))) in Hy as [<-|Hy]; [apply Hxz|apply Hz; exact Hy].
    Qed.

    (* stability: x passes only members with another key *)
    Lemma tied_ins k x l : tied k (ins x l) = tied k (x :: l).
    Proof.
      induction l as [|z l IH]; [rewrite ins_nil; reflexivity|]. rewrite ins_cons.
      pose proof (leb_spec x z) as Hxz. destruct (leb x z); [reflexivity|].
      unfold tied in *. cbn [filter] in *. rewrite IH.
      destruct (Z.eqb_spec (key x) k), (Z.eqb_spec (key z) k); try reflexivity. destruct Hxz as [_ Hne]. congruence.
    Qed.
  End Insertion.

  Lemma asc_spec x y :
    if Z.leb (key x) (key y) then (key x <= key y)%Z else (key y <= key x)%Z /\ key x <> key y.
  Proof. destruct (Z.leb_spec (key x) (key y)); lia. Qed.
  Lemma desc_spec x y :
    if Z.leb (key y) (key x) then (key x >= key y)%Z else (key y >= key x)%Z /\ key x <> key y.
  Proof. destruct (Z.leb_spec (key y) (key x)); lia. Qed.

  Theorem py_sorted_perm r l : Permutation l (py_sorted r l).
  Proof.
    unfold py_sorted. induction l as [|x l IH]; [apply perm_nil|]. cbn [fold_right].
    eapply perm_trans; [apply perm_skip; exact IH|].
    destruct r; [apply (ins_perm (fun x y => Z.leb (key y) (key x)))|apply (ins_perm (fun x y => Z.leb (key x) (key y)))];
      reflexivity.
  Qed.

  Theorem py_sorted_ordered l :
    ordered Z.le (py_sorted false l) /\ ordered Z.ge (py_sorted true l).
  Proof.
    unfold py_sorted. split; induction l as [|x l IH]; cbn [fold_right ordered]; auto.
    - apply (ins_ordered Z.le _ ins_asc Z.le_trans asc_spec); [reflexivity..|exact IH].
    - apply (ins_ordered Z.ge _ ins_desc ltac:(intros; lia) desc_spec); [reflexivity..|exact IH].
  Qed.

  (* stability: the members with a given key come out in the order they were in, in both directions *)
  Theorem py_sorted_stable r k l : tied k (py_sorted r l) = tied k l.
  Proof.
    induction l as [|x l IH]; [destruct r; reflexivity|].
    destruct r; unfold py_sorted in *; cbn [fold_right];
      [rewrite (tied_ins Z.ge _ ins_desc desc_spec)|rewrite (tied_ins Z.le _ ins_asc asc_spec)]; try reflexivity;
      unfold tied in *; cbn [filter]; rewrite IH; reflexivity.
  Qed.
End PySorted.

(* sorting ascending and reversing afterwards is NOT sorted(..., reverse=True): the ties come out reversed *)
Theorem sort_then_reverse_differs :
  exists (key: Z -> Z) l, py_sorted key true l <> rev (py_sorted key false l) /\
                          py_sorted key true l = [5; 12; 11; 21; 41]%Z.
Proof. exists (fun z => Z.modulo z 10), [11; 5; 21; 12; 41]%Z. split; [vm_compute; discriminate|reflexivity]. Qed.

(* the key int(x) % m needs m > 0: [lk_wf] asks for it *)
Inductive kop :=
| Plain (o: sop)
| SortKey (m: Z) (reverse: bool).       (* s.sort(key=lambda x: int(x) % m, reverse=reverse), m > 0 *)

Definition kkey (m: Z) (z: Z) : Z := Z.modulo z m.

Definition sofk_step (ct isset: bool) (s: sstate) (o: kop) : sstate * out :=
  match o with
  | Plain o' => sof_step ct isset s o'
  | SortKey m reverse =>
      match s with
      | None => (s, ORaise ELib)                                   (* noValue.values *)
      | Some d =>
          let vals := map snd d in
          if has_schema vals then (s, ORaise ELib)                 (* int() of a placeholder *)
          else (Some (enumerate (map CVal (py_sorted (kkey m) reverse (map comp_z vals)))), ORet)
      end
  end.

Definition lk_step (isset: bool) (a: lspec) (o: kop) : lspec * out :=
  match o with
  | Plain o' => l_step isset a o'
  | SortKey m reverse => (Some (py_sorted (kkey m) reverse (lst a)), ORet)     (* l.sort(key=..., reverse=...) *)
  end.
Definition lk_wf (ct: bool) (a: lspec) (o: kop) : bool :=
  match o with Plain o' => l_wf ct a o' | SortKey m _ => is_some a && Z.ltb 0 m end.

Fixpoint sofk_run (ct isset: bool) (s: sstate) (ops: list kop) : sstate * list out :=
  match ops with
  | [] => (s, [])
  | o :: r => let '(s', x) := sofk_step ct isset s o in
              let '(s'', xs) := sofk_run ct isset s' r in (s'', x :: xs)
  end.
Fixpoint lk_run (isset: bool) (a: lspec) (ops: list kop) : lspec * list out :=
  match ops with
  | [] => (a, [])
  | o :: r => let '(a', x) := lk_step isset a o in
              let '(a'', xs) := lk_run isset a' r in (a'', x :: xs)
  end.
Fixpoint lk_wf_hist (ct isset: bool) (a: lspec) (ops: list kop) : bool :=
  match ops with
  | [] => true
  | o :: r => lk_wf ct a o && lk_wf_hist ct isset (fst (lk_step isset a o)) r
  end.

(* correspondence with the implementation, as sof_first_bad / l_spec_check, over the extended operations *)
Fixpoint sofk_first_bad (ct isset: bool) (s: sstate) (ops: list kop) (tr: list (out * sstate)) (i: nat) : option nat :=
  match ops, tr with
  | [], [] => None
  | o :: ops', (eo, es) :: tr' =>
      let '(s', x) := sofk_step ct isset s o in
      if out_unmodelled x then None
      else if out_eqb x eo && sstate_eqb s' es then sofk_first_bad ct isset s' ops' tr' (S i)
      else Some i
  | _, _ => Some i
  end.
Definition sofk_check ct isset ops tr : bool :=
  match sofk_first_bad ct isset None ops tr 0 with None => true | Some _ => false end.
Fixpoint lk_spec_check (ct isset: bool) (a: lspec) (ops: list kop) (tr: list (option (lspec * out))) : bool :=
  match ops, tr with
  | o :: ops', e :: tr' =>
      if lk_wf ct a o then
        match e with
        | Some (a', x) => let '(a1, y) := lk_step isset a o in
                          lspec_eqb a1 a' && out_eqb y x && lk_spec_check ct isset a1 ops' tr'
        | None => false
        end
      else true
  | _, _ => true
  end.

Theorem sofk_sim_step ct isset a o : lk_wf ct a o = true ->
  sofk_step ct isset (conc a) o = (conc (fst (lk_step isset a o)), snd (lk_step isset a o)).
Proof.
  destruct o as [o'|m reverse]; cbn [lk_wf sofk_step lk_step].
  - apply sof_sim_step.
  - intros H. apply andb_prop in H as [Ha _]. destruct a as [l|]; [|discriminate].
    cbn [conc option_map lst fst snd]. rewrite dense_vals, has_schema_vals, comp_z_vals. reflexivity.
Qed.

Theorem sofk_refines ct isset : forall ops a, lk_wf_hist ct isset a ops = true ->
  sofk_run ct isset (conc a) ops = (conc (fst (lk_run isset a ops)), snd (lk_run isset a ops)).
Proof.
  intros ops a H.
  destruct (simulation_run (sofk_step ct isset) (lk_step isset) (lk_wf ct) (fun a s => s = conc a) (fun x => x)
              (sofk_run ct isset) (lk_run isset) (lk_wf_hist ct isset)) with (ops := ops) (a := a) (s := conc a)
    as [E1 E2]; try reflexivity; try exact H.
  - intros a' s o -> Hw. rewrite (sofk_sim_step ct isset a' o Hw). split; reflexivity.
  - rewrite map_id in E2. rewrite <- E1, <- E2. apply surjective_pairing.
Qed.

Example sofk_nonvacuous :
  let h := [Plain (SExtend [PInt 11; PInt 5; PInt 21; PInt 12; PInt 41]); SortKey 10 true; Plain SEncode] in
  lk_wf_hist true false None h = true /\
  fst (sofk_run true false None h) = conc (Some [5; 12; 11; 21; 41]%Z) /\
  fst (lk_run false None h) = Some [5; 12; 11; 21; 41]%Z.
Proof. repeat split. Qed.
