(* C03, second half: BER encoder outputs in every mode (definite / indefinite lengths, any
   maxChunkSize) are read back by the independent reader as the same abstract value:
   SEQUENCE (mandatory, OPTIONAL, DEFAULT components) and SEQUENCE OF nested to any depth over the
   simple types, every one of them under any stack of tags.  Outside finding F01. *)
From Coq Require Import Lia.
From PV Require Import Proofs.Basics Base.Bytes Model.Tag Model.TableTypes Model.Types Model.Enc Gen.Tables Spec.X690
     Proofs.Bits Proofs.SpecOctets Proofs.TagAlgebra
     Proofs.EncUnfold Proofs.DerReference Proofs.ReaderParse Proofs.ReaderInterp
     Proofs.ReaderSound Proofs.ReaderFrame Proofs.ReaderModel Proofs.ReaderBer.
From PV Require Proofs.TagsetShape.
Local Open Scope N_scope.

(* the component does not start with the identifier octet 00 *)
Definition first_nz (ft: ty) : bool :=
  match first_tags ft with
  | Some [(c, n)] => match c with Univ => negb (N.eqb n 0) | _ => true end
  | _ => false
  end.

(* what the indefinite form asks of a member: outside F01, no 00 identifier inside or in front *)
Definition comp_ok (ft: ty) : bool := no_f01 ft && eoc_safe ft && first_nz ft.

(* [comp_ok] of every component and element, to any depth *)
Fixpoint ber_sub (T: ty) : bool :=
  match T with
  | TImp _ x | TExp _ x => ber_sub x
  | TSeqOf t => comp_ok t && ber_sub t
  | TSeq fs =>
      (fix go (fs: list (presence * ty)) : bool :=
         match fs with [] => true | (p, ft) :: r => comp_ok ft && ber_sub ft && go r end) fs
  | _ => true
  end.

Definition sub_fields : list (presence * ty) -> bool :=
  fix go (fs: list (presence * ty)) : bool :=
    match fs with [] => true | (p, ft) :: r => comp_ok ft && ber_sub ft && go r end.

Lemma ber_sub_seq fs : ber_sub (TSeq fs) = sub_fields fs.
Proof. reflexivity. Qed.

(* what indefinite mode asks of the whole type *)
Definition indef_ok (T: ty) : bool := no_f01 T && eoc_safe T && ber_sub T.

Lemma first_nz_head ft a e : first_nz ft = true -> reads_as ft a e -> nz_head e.
Proof.
  unfold first_nz. intros H Hr. destruct (first_tags ft) as [[|[c n] [|]]|] eqn:E; try discriminate H.
  apply (reads_nz_head ft a e c n Hr E). destruct c; [right|left; discriminate|left; discriminate|left; discriminate].
  destruct (N.eqb_spec n 0) as [->|Hn]; [discriminate H|exact Hn].
Qed.

(* the statement proved of every type: the contents fact of Proofs/ReaderBer.v in every mode *)
Definition ber_reads (T: ty) : Prop :=
  forall o v, o_ifne o = false -> der_ref_deep T v = true -> unamb T = true ->
    (o_def o = false -> ber_sub T = true) -> content_fact BER T o v.

Lemma component_reads ft oc x b0 : ber_reads ft -> o_ifne oc = false ->
  der_ref_deep ft x = true -> unamb ft = true -> (o_def oc = false -> comp_ok ft = true /\ ber_sub ft = true) ->
  enc BER ft oc x = Ok b0 -> N.of_nat (length b0) < max_len ->
  reads_as ft (abs ft x) b0 /\ (o_def oc = false -> nz_head b0).
Proof.
  intros Hft Hi Hx Hu Hsub He Hl.
  assert (Hr: reads_as ft (abs ft x) b0).
  { apply (reads_of_content BER ft oc x b0); [|exact Hi| |exact He|exact Hl].
    - apply (Hft (fix_opts BER oc) x); [exact Hi|exact Hx|exact Hu|].
      intros Hd. apply Hsub. exact Hd.
    - intros Hd. destruct (Hsub Hd) as [Hc _]. unfold comp_ok in Hc.
      apply andb_true_iff in Hc. destruct Hc as [Hc _]. apply andb_true_iff in Hc. exact Hc. }
  split; [exact Hr|]. intros Hd. destruct (Hsub Hd) as [Hc _]. unfold comp_ok in Hc.
  apply andb_true_iff in Hc. destruct Hc as [_ Hnz]. apply (first_nz_head ft _ b0 Hnz Hr).
Qed.

Lemma seqof_reads_ber t oc : ber_reads t -> o_ifne oc = false -> unamb t = true ->
  (o_def oc = false -> comp_ok t = true /\ ber_sub t = true) ->
  forall xs parts, forallb (der_ref_deep t) xs = true -> enc_elems_g BER t oc xs = Ok parts ->
  N.of_nat (length (concat parts)) < max_len ->
  Forall2 (reads_as t) (map (abs t) xs) parts /\ (o_def oc = false -> Forall nz_head parts).
Proof.
  intros Ht Hi Hu Hsub xs parts Hd Hp Hl. rewrite forallb_forall in Hd.
  assert (H: Forall2 (fun x p => reads_as t (abs t x) p /\ (o_def oc = false -> nz_head p)) xs parts).
  { apply Forall2_impl_in with (2 := proj1 (enc_elems_g_Forall2 BER t oc xs parts) Hp). intros x p Hx Hin E.
    apply (component_reads t oc x p Ht Hi (Hd x Hx) Hu Hsub E).
    pose proof (concat_in_length p parts Hin). lia. }
  split.
  - rewrite <- (map_id parts). apply Forall2_map. apply Forall2_impl_in with (2 := H). intros x p _ _ Hxp. exact (proj1 Hxp).
  - intros Hdm. apply Forall_forall. intros p Hin. destruct (Forall2_in_r _ _ _ _ H Hin) as (x & _ & _ & Hz). exact (Hz Hdm).
Qed.

Lemma seq_written_ber oc : o_ifne oc = false ->
  forall fs, Forall (fun f => ber_reads (snd f)) fs ->
  forall vs parts, unamb_fields fs = true -> deep_fields fs vs = true ->
  (o_def oc = false -> sub_fields fs = true) ->
  enc_rec_fields_g BER EcSeq false oc fs vs = Ok parts -> N.of_nat (length (concat (map snd parts))) < max_len ->
  fields_written fs (abs_fields fs vs) (map snd parts) /\ (o_def oc = false -> Forall nz_head (map snd parts)).
Proof.
  intros Hi. induction fs as [|[p ft] fs' IH]; intros Hall vs parts Hu Hd Hsub Hp Hl.
  - cbn in Hp. injection Hp as <-. split; [constructor|intros _; constructor].
  - inversion Hall as [|? ? Hft Hall']; subst. cbn [snd] in Hft.
    destruct (unamb_fields_cons _ _ _ Hu) as (Hu1 & _ & Hu3).
    rewrite deep_fields_cons in Hd. apply andb_true_iff in Hd. destruct Hd as [Hd1 Hd2].
    assert (Hsub': o_def oc = false -> (comp_ok ft = true /\ ber_sub ft = true) /\ sub_fields fs' = true).
    { intros Hdm. specialize (Hsub Hdm).
      change (sub_fields ((p, ft) :: fs')) with (comp_ok ft && ber_sub ft && sub_fields fs')%bool in Hsub.
      apply andb_true_iff in Hsub. destruct Hsub as [Hs Hs3]. apply andb_true_iff in Hs. tauto. }
    specialize (IH Hall' (otl vs)). specialize (fun parts => IH parts Hu3 Hd2 (fun Hdm => proj2 (Hsub' Hdm))).
    rewrite enc_rec_fields_g_cons in Hp. rewrite abs_fields_cons. cbv zeta in Hp. fold (ohd vs) (otl vs) in Hp.
    assert (Hpresent: forall x, der_ref_deep ft x = true ->
              (do b <- enc BER ft oc x; do rest <- enc_rec_fields_g BER EcSeq false oc fs' (otl vs);
               Ok ((set_sort_key false ft x, b) :: rest)) = Ok parts ->
              fields_written ((p, ft) :: fs') (Some (abs ft x) :: abs_fields fs' (otl vs)) (map snd parts) /\
              (o_def oc = false -> Forall nz_head (map snd parts))).
    { intros x Hx H.
      destruct (enc BER ft oc x) as [b0|] eqn:Eb; cbn [bind] in H; [|discriminate H].
      destruct (enc_rec_fields_g BER EcSeq false oc fs' (otl vs)) as [rest|] eqn:Er; cbn [bind] in H; [|discriminate H].
      injection H as <-. cbn [map snd] in Hl |- *. destruct (concat_length_head b0 (map snd rest)) as [L1 L2].
      destruct (IH rest eq_refl) as [Hw Hnz]; [lia|].
      destruct (component_reads ft oc x b0 Hft Hi Hx Hu1) as [Hr Hz]; [intros Hdm; apply Hsub'; exact Hdm|exact Eb|lia|].
      split; [apply FWpresent; assumption|]. intros Hdm. constructor; [apply Hz; exact Hdm|apply Hnz; exact Hdm]. }
    destruct p as [| |d]; destruct (ohd vs) as [x|].
    + apply (Hpresent x Hd1 Hp).
    + discriminate Hd1.
    + apply andb_true_iff in Hd1. apply (Hpresent x (proj2 Hd1) Hp).
    + destruct (IH parts Hp Hl) as [Hw Hnz]. split; [apply FWopt; exact Hw|exact Hnz].
    + apply andb_true_iff in Hd1. destruct Hd1 as [Hd1 Hdd]. apply andb_true_iff in Hd1. destruct Hd1 as [Hs Hx].
      destruct (val_py_eq x d) as [[|]|] eqn:Eq; [|apply (Hpresent x Hx Hp)|discriminate Hp].
      destruct (IH parts Hp Hl) as [Hw Hnz]. split; [|exact Hnz].
      rewrite (default_is_equal ft x d Hs Hx Hdd (py_eq_is_default ft x d true Hs Hx Hdd Eq)). apply FWdef; exact Hw.
    + destruct (IH parts Hp Hl) as [Hw Hnz]. split; [apply FWdef; exact Hw|exact Hnz].
Qed.

Lemma cons_rb indef content :
  ident Univ (true || true) 16 ++ inner_rb true indef content = ctlv indef Univ 16 content.
Proof. destruct indef; reflexivity. Qed.

Theorem ber_reads_deep : forall T, ber_reads T.
Proof.
  induction T as [| | | | | | | | n|fs IH|fs IH|t IH|t IH|alts IH| |tg x IH|tg x IH] using ty_ind'.
  16: { (* IMPLICIT *) exact IH. }
  16: { (* EXPLICIT *) exact IH. }
  1-9: intros o v _ Hd _ _; apply content_fact_simple; exact Hd.
  - (* SEQUENCE *)
    intros o v Hi Hd Hu Hsub cd fl content ic Hce He. cbn [base_of] in *.
    destruct v as [bb|z|bs|bo|cs| |arcs|r|vs|xs|i x|ab]; try discriminate Hd.
    rewrite deep_seq in Hd. rewrite unamb_seq in Hu. rewrite ber_sub_seq in Hsub.
    encoder_is Hce. rewrite enc_content_seq_g in He. cbn [omit_empty ef_omit_empty record_finish] in He.
    destruct (enc_rec_fields_g _ _ _ _ fs vs) as [parts|] eqn:Ep; cbn [bind] in He; [|discriminate He].
    injection He as <- <-.
    split; [reflexivity|split; [reflexivity|]].
    exists (utag true 16). split; [reflexivity|split; [reflexivity|]]. intros Hl.
    destruct (seq_written_ber (mkOpts (o_def o) (o_chunk o) false) eq_refl fs IH vs parts Hu Hd Hsub Ep Hl) as [Hw Hnz].
    destruct (written_read fs _ _ Hw Hu) as (kids & Hk & Hf & _).
    cbn [tcon tnum utag]. rewrite cons_rb, abs_seq.
    apply (reads_seq fs _ _ _ kids Hk Hf).
    + intros Hdm. apply Hnz. apply Bool.negb_true_iff in Hdm. exact Hdm.
    + intros _. exact Hl.
  - (* SET *) intros o v _ Hd. destruct v; discriminate Hd.
  - (* SEQUENCE OF *)
    intros o v Hi Hd Hu Hsub cd fl content ic Hce He. cbn [base_of] in *.
    destruct v as [bb|z|bs|bo|cs| |arcs|r|vs|xs|i x|ab]; try discriminate Hd. cbn [der_ref_deep unamb] in Hd, Hu.
    encoder_is Hce. rewrite enc_content_seqof_g in He. cbn [listof_finish] in He.
    destruct (enc_elems_g BER t _ xs) as [parts|] eqn:Ep; cbn [bind] in He; [|discriminate He].
    injection He as <- <-.
    split; [reflexivity|split; [reflexivity|]].
    exists (utag true 16). split; [reflexivity|split; [reflexivity|]]. intros Hl.
    assert (Hsub': o_def o = false -> comp_ok t = true /\ ber_sub t = true).
    { intros Hdm. specialize (Hsub Hdm). cbn [ber_sub] in Hsub. apply andb_true_iff in Hsub. exact Hsub. }
    destruct (seqof_reads_ber t (mkOpts (o_def o) (o_chunk o) false) IH eq_refl Hu Hsub' xs parts Hd Ep Hl) as [Hr Hnz].
    cbn [tcon tnum utag abs]. rewrite cons_rb.
    apply (reads_seqof t _ _ _ Hr).
    + intros Hdm. apply Hnz. apply Bool.negb_true_iff in Hdm. exact Hdm.
    + intros _. exact Hl.
  - (* SET OF *) intros o v _ Hd. destruct v; discriminate Hd.
  - (* CHOICE *) intros o v _ Hd. destruct v; discriminate Hd.
  - (* ANY *) intros o v _ Hd. destruct v; discriminate Hd.
Qed.

(* every BER encoder output, in every mode, is read by the independent reader as the same
   abstract value and consumed exactly *)
Theorem ber_output_reads_deep : forall T v defMode chunk b,
  der_ref_deep T v = true -> unamb T = true -> (defMode = false -> indef_ok T = true) ->
  encode BER defMode chunk T v = Ok b -> N.of_nat (length b) < max_len ->
  X690.read T b = Some (abs T v, []).
Proof.
  intros T v d k b Hd Hu Hindef He Hl. rewrite <- (app_nil_r b). apply reads_read.
  assert (Hok: d = false -> (no_f01 T = true /\ eoc_safe T = true) /\ ber_sub T = true).
  { intros Hdm. specialize (Hindef Hdm). unfold indef_ok in Hindef.
    apply andb_true_iff in Hindef. destruct Hindef as [H12 H3]. apply andb_true_iff in H12. tauto. }
  apply (reads_of_content BER T (mkOpts d k false) v b); [|reflexivity| |exact He|exact Hl].
  - apply (ber_reads_deep T (fix_opts BER (mkOpts d k false)) v); [reflexivity|exact Hd|exact Hu|].
    intros Hdm. apply Hok. exact Hdm.
  - intros Hdm. apply Hok. exact Hdm.
Qed.

Example ber_output_reads_deep_witness :
  let T := TImp (mkTag Appl false 7) (TSeq [
     (Req, TInt);
     (Opt, TImp (mkTag Ctx false 0) (TStr 12));
     (Def (VBool false), TImp (mkTag Ctx false 1) TBool);
     (Def (VInt 5), TImp (mkTag Ctx false 2) TInt);
     (Req, TExp (mkTag Ctx false 3) (TSeqOf (TSeq [(Req, TOid); (Opt, TNull)])));
     (Opt, TBits)]) in
  let v := VRec [Some (VInt 300); Some (VChars [[104];[105];[33]]); Some (VBool false); Some (VInt 6);
     Some (VList [VRec [Some (VOid [1;2;840]); Some VNull]; VRec [Some (VOid [2;5]); None]]);
     Some (VBits [true;false;true])] in
  der_ref_deep T v = true /\ unamb T = true /\ indef_ok T = true /\
  (exists b, encode BER false 2 T v = Ok b /\ N.of_nat (length b) < max_len /\ read T b = Some (abs T v, [])) /\
  (exists b, encode BER true 0 T v = Ok b /\ N.of_nat (length b) < max_len /\ read T b = Some (abs T v, [])).
Proof.
  cbv zeta. split; [vm_compute; reflexivity|]. split; [vm_compute; reflexivity|]. split; [vm_compute; reflexivity|].
  split; (eexists; split; [vm_compute; reflexivity|]; split; vm_compute; reflexivity).
Qed.

(* finding F01 inside a SEQUENCE: a component [1] EXPLICIT BOOLEAN in indefinite mode: the stray
   00 00 after the component is taken for the end of the SEQUENCE's contents, and the SEQUENCE's own
   end-of-contents octets are left over *)
Example ber_output_reads_deep_refuted_F01 :
  let T := TSeq [(Req, TExp (mkTag Ctx false 1) TBool); (Req, TInt)] in
  let v := VRec [Some (VBool true); Some (VInt 5)] in
  der_ref_deep T v = true /\ unamb T = true /\ indef_ok T = false /\
  encode BER false 0 T v = Ok [48; 128; 161; 3; 1; 1; 1; 0; 0; 2; 1; 5; 0; 0] /\
  read T [48; 128; 161; 3; 1; 1; 1; 0; 0; 2; 1; 5; 0; 0] = None.
Proof. vm_compute. repeat split. Qed.

Print Assumptions ber_reads_deep.
Print Assumptions ber_output_reads_deep.
