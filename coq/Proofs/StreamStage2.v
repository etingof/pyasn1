(* The streaming properties (C05, C06, C07) of the item decoder, UNCONDITIONALLY.
   A run that never executes AtEOS / ReadAll ([clean_run]) is a run of the guarded tree, to which the
   generic theorems of ProcSim / ProcSched about clean trees apply; every consuming run of the decoder's
   entry point is such a run ([consumes_clean_dec_call]); hence the three properties follow, for any
   codec, fuel and specification, from a round-trip theorem alone ([c06_of_clean], [c05_of_clean],
   [c07_of_clean]).  Here they are drawn for what the BER encoder writes for the stage-2 types
   (RoundTrip2.v); StreamStage3.v and StreamSchemaless.v do the same for the other round trips. *)
From Coq Require Import Lia.
From PV Require Import Base.Bytes Model.Tag Model.TableTypes Model.Types Model.Proc Model.Enc Model.Dec Gen.Tables
     Proofs.ProcBind Proofs.RunLemmas Proofs.TagOctets Proofs.DecShape Proofs.DecFrame Proofs.RoundTrip1 Proofs.RoundTrip2
     Proofs.ProcSim Proofs.ProcSched Proofs.DecStream.

Local Open Scope nat_scope.

(* the run of p from s, up to its end or its first suspension, executes neither AtEOS nor ReadAll *)
Fixpoint clean_run {A} (p: proc A) (s: stream) : bool :=
  match p with
  | Ret _ | Raise _ => true
  | ReadN n k => match attempt s n with (Got c, s') => clean_run (k c) s' | _ => true end
  | Tell k => clean_run (k (pos s)) s
  | SeekBack d k => clean_run k (setpos s (pos s - d))
  | Mark k => clean_run k (setmark s (pos s))
  | GetMark k => clean_run (k (mark s)) s
  | AtEOS _ | ReadAll _ => false
  end.

(* the outcome of a run with the suspended continuation guarded *)
Definition gmap {A} (u: err) (x: (proc A * stream) + (res A * stream)) : (proc A * stream) + (res A * stream) :=
  match x with inl (q, s) => inl (guard u q, s) | inr y => inr y end.

Theorem clean_run_guard {A} (u: err) (p: proc A) : forall s,
  clean_run p s = true -> resume (guard u p) s = gmap u (resume p s).
Proof.
  induction p as [a0|e|n k IH|k IH|d k IH|k IH|k IH|k IH|k IH]; intros s H; cbn [guard resume clean_run] in *;
    try reflexivity; try discriminate; auto.
  destruct (attempt s n) as [[c| |] sm]; [apply IH; exact H|reflexivity|reflexivity].
Qed.

Corollary clean_run_guard_done {A} (u: err) (p: proc A) s r s' :
  clean_run p s = true -> resume p s = inr (r, s') -> resume (guard u p) s = inr (r, s').
Proof. intros Hc H. rewrite (clean_run_guard u p s Hc), H. reflexivity. Qed.

Corollary clean_run_guard_susp {A} (u: err) (p: proc A) s q s' :
  clean_run p s = true -> resume p s = inl (q, s') -> resume (guard u p) s = inl (guard u q, s').
Proof. intros Hc H. rewrite (clean_run_guard u p s Hc), H. reflexivity. Qed.

Theorem guard_run_clean {A} (u: err) (p: proc A) : forall s r s',
  resume (guard u p) s = inr (r, s') -> r <> Err u -> clean_run p s = true.
Proof.
  induction p as [a0|e|n k IH|k IH|d k IH|k IH|k IH|k IH|k IH]; intros s r s' H Hne; cbn [guard resume clean_run] in *;
    try reflexivity; eauto.
  - destruct (attempt s n) as [[c| |] sm]; [eauto|reflexivity|reflexivity].
  - inversion H; subst. congruence.
  - inversion H; subst. congruence.
Qed.

Lemma clean_clean_run {A} (p: proc A) : clean p -> forall s, clean_run p s = true.
Proof.
  induction 1 as [a0|e|n k Hk IH|k Hk IH|d k Hk IH|k Hk IH|k Hk IH]; intros s; cbn [clean_run]; auto.
  destruct (attempt s n) as [[c| |] sm]; auto.
Qed.

Theorem clean_run_pbind {A B} (p: proc A) (f: A -> proc B) : forall s,
  clean_run (pbind p f) s =
  clean_run p s && match resume p s with inr (Ok a, s1) => clean_run (f a) s1 | _ => true end.
Proof.
  induction p as [a0|e|n k IH|k IH|d k IH|k IH|k IH|k IH|k IH]; intros s; cbn [pbind resume clean_run andb]; auto.
  destruct (attempt s n) as [[c| |] sm]; [apply IH|reflexivity|reflexivity].
Qed.

Corollary clean_run_pbind_done {A B} (p: proc A) (f: A -> proc B) s a s1 :
  resume p s = inr (Ok a, s1) -> clean_run (pbind p f) s = clean_run p s && clean_run (f a) s1.
Proof. intros H. rewrite clean_run_pbind, H. reflexivity. Qed.

Corollary clean_run_pbind_intro {A B} (p: proc A) (f: A -> proc B) s :
  clean_run p s = true -> (forall a s1, resume p s = inr (Ok a, s1) -> clean_run (f a) s1 = true) ->
  clean_run (pbind p f) s = true.
Proof.
  intros Hp Hf. rewrite clean_run_pbind, Hp. cbn [andb].
  destruct (resume p s) as [[q sq]|[[a|e] s1]]; auto.
Qed.

Lemma clean_pbind {A B} (p: proc A) (f: A -> proc B) :
  clean p -> (forall a, clean (f a)) -> clean (pbind p f).
Proof. intros Hp Hf. induction Hp; cbn [pbind]; try constructor; auto. Qed.

Corollary clean_run_pbind_k {A B} (p: proc A) (f: A -> proc B) s :
  clean_run p s = true -> (forall a, clean (f a)) -> clean_run (pbind p f) s = true.
Proof. intros Hp Hf. apply clean_run_pbind_intro; [exact Hp|]. intros a s1 _. apply clean_clean_run. apply Hf. Qed.

Lemma clean_run_tell {A} s (f: nat -> proc A) : clean_run (pbind tell f) s = clean_run (f (pos s)) s.
Proof. reflexivity. Qed.

(* the run of p from s executes no ReadAll; AtEOS is allowed: what the item loop of [streaming] needs *)
Fixpoint ra_free_run {A} (p: proc A) (s: stream) : bool :=
  match p with
  | Ret _ | Raise _ => true
  | ReadN n k => match attempt s n with (Got c, s') => ra_free_run (k c) s' | _ => true end
  | Tell k => ra_free_run (k (pos s)) s
  | SeekBack d k => ra_free_run k (setpos s (pos s - d))
  | Mark k => ra_free_run k (setmark s (pos s))
  | GetMark k => ra_free_run (k (mark s)) s
  | AtEOS k => if Nat.eqb (length (avail s)) 0 then (if closed s then ra_free_run (k true) s else true)
               else ra_free_run (k false) s
  | ReadAll _ => false
  end.

(* [gmap] for [guard_ra] *)
Definition gmap_ra {A} (u: err) (x: (proc A * stream) + (res A * stream)) : (proc A * stream) + (res A * stream) :=
  match x with inl (q, s) => inl (guard_ra u q, s) | inr y => inr y end.

Theorem ra_free_run_guard {A} (u: err) (p: proc A) : forall s,
  ra_free_run p s = true -> resume (guard_ra u p) s = gmap_ra u (resume p s).
Proof.
  induction p as [a0|e|n k IH|k IH|d k IH|k IH|k IH|k IH|k IH]; intros s H; cbn [guard_ra resume ra_free_run] in *;
    try reflexivity; try discriminate; auto.
  - destruct (attempt s n) as [[c| |] sm]; [apply IH; exact H|reflexivity|reflexivity].
  - destruct (Nat.eqb (length (avail s)) 0); [|auto]. destruct (closed s); [auto|reflexivity].
Qed.

Lemma clean_run_ra_free {A} (p: proc A) : forall s, clean_run p s = true -> ra_free_run p s = true.
Proof.
  induction p as [a0|e|n k IH|k IH|d k IH|k IH|k IH|k IH|k IH]; intros s H; cbn [clean_run ra_free_run] in *;
    try reflexivity; try discriminate; auto.
  destruct (attempt s n) as [[c| |] sm]; auto.
Qed.

Theorem ra_free_run_pbind {A B} (p: proc A) (f: A -> proc B) : forall s,
  ra_free_run (pbind p f) s =
  ra_free_run p s && match resume p s with inr (Ok a, s1) => ra_free_run (f a) s1 | _ => true end.
Proof.
  induction p as [a0|e|n k IH|k IH|d k IH|k IH|k IH|k IH|k IH]; intros s; cbn [pbind resume ra_free_run andb]; auto.
  - destruct (attempt s n) as [[c| |] sm]; [apply IH|reflexivity|reflexivity].
  - destruct (Nat.eqb (length (avail s)) 0); [|apply IH]. destruct (closed s); [apply IH|reflexivity].
Qed.

Local Open Scope N_scope.

(* p runs cleanly on every stream that starts with bs *)
Definition cleans {A} (p: proc A) (bs: bytes) : Prop :=
  forall s tl, avail s = bs ++ tl -> clean_run p s = true.

(* consumes, strengthened: the consuming run is a clean run *)
Definition consumes_clean (p: proc dval) (bs: bytes) (v: dval) : Prop :=
  forall s tl, avail s = bs ++ tl ->
  exists s', resume p s = inr (Ok v, s') /\ pos s' = (pos s + length bs)%nat
             /\ arrived s' = arrived s /\ closed s' = closed s /\ clean_run p s = true.

Lemma consumes_clean_split p bs v : consumes_clean p bs v <-> consumes p bs v /\ cleans p bs.
Proof.
  split.
  - intros H. split; intros s tl Hav; destruct (H s tl Hav) as (s' & Hr & Hp & Ha & Hc & Hcl); eauto 6.
  - intros [H1 H2] s tl Hav. destruct (H1 s tl Hav) as (s' & Hr & Hp & Ha & Hc).
    exists s'. repeat split; auto. exact (H2 s tl Hav).
Qed.

Lemma clean_readN n : clean (readN n).
Proof. constructor. intros b. constructor. Qed.

Lemma clean_read1 : clean read1.
Proof. unfold read1. apply clean_pbind; [apply clean_readN|]. intros b. constructor. Qed.

Lemma clean_lift {A} (r: res A) : clean (lift r).
Proof. destruct r; constructor. Qed.

Lemma clean_create sp proto ts v : clean (create sp proto ts v).
Proof.
  unfold create. destruct (base_of _); destruct v; try constructor;
    destruct (str_octets_ok _ _) as [[|]|]; constructor.
Qed.

Lemma clean_read_len lf n : clean (read_len lf n).
Proof. unfold read_len. destruct (N.ltb index_max n); [constructor|apply clean_readN]. Qed.

Lemma clean_long_tag cl f : forall k acc, clean (long_tag cl f k acc).
Proof.
  induction k as [|k IH]; intros acc; cbn [long_tag]; [constructor|].
  apply clean_pbind; [apply clean_read1|]. intros b.
  destruct (N.eqb (N.land b 128) 0); [constructor|apply IH].
Qed.

Lemma clean_read_tag lf : clean (read_tag lf).
Proof.
  unfold read_tag. apply clean_pbind; [apply clean_read1|]. intros o. cbv zeta.
  destruct (N.eqb (N.land o 31) 31); [apply clean_long_tag|constructor].
Qed.

Lemma clean_read_length c : clean (read_length c).
Proof.
  unfold read_length. apply clean_pbind; [apply clean_read1|]. intros o.
  destruct (N.ltb o 128); [constructor|].
  destruct (N.eqb o 128); [destruct (support_indef c); constructor|].
  apply clean_pbind; [apply clean_readN|]. intros b. constructor.
Qed.

(* Every consuming run of the item decoder is a clean run.
   [consumes p bs v] (DecFrame.v) is what all the round-trip theorems establish of the decoder: on any
   stream that starts with bs, WHATEVER FOLLOWS, p yields v and stops right after bs.  Such a run of the
   entry point [dec_call] - any codec, fuel, specification and flags - never executes ReadAll
   (readFromStream with size -1); AtEOS does not occur in [dec_call].

   The argument is a global invariant of the decoder (by induction on the fuel, through every payload
   decoder of Model/Dec.v), not an induction over an encoding:
     (a) a run that ends in a value either was clean or ends with the stream position at the end of what
         has arrived (ReadAll moves it there);
     (b) from the end of what has arrived, a run of the entry point that BEGINS an element never ends in a value (its
         first read, of the end-of-octets look-ahead or of the identifier octet, fails), and the loops of the payload
         decoders, which only begin elements, stay there.
   The seek-back of the ANY decoders (to the marked start of the element) and the re-entry of the entry point past a
   header (untagged CHOICE; the re-entered call does not set the mark) only occur at the head of a value decoder, before any
   element is begun: for them (a) alone is needed, and the ANY decoder proper is a clean tree.
   A consuming run followed by at least one more octet does not end at the end of the stream, so by (a) it
   was clean; and a clean run stays clean when octets are removed from the end of the stream. *)
Local Open Scope nat_scope.

Definition drained (s: stream) : Prop := length (avail s) = 0.

(* (a) *)
Definition clean_or_end {A} (p: proc A) : Prop :=
  forall s a s', resume p s = inr (Ok a, s') -> clean_run p s = true \/ drained s'.
(* (b) *)
Definition end_to_end {A} (p: proc A) : Prop :=
  forall s a s', drained s -> resume p s = inr (Ok a, s') -> drained s'.

Definition dec_inv {A} (p: proc A) : Prop := clean_or_end p /\ end_to_end p.

(* no value from the end of the stream *)
Definition end_stuck {A} (p: proc A) : Prop := forall s a s', drained s -> resume p s <> inr (Ok a, s').

Lemma coe_Ret {A} (a: A) : clean_or_end (Ret a).
Proof. intros s a0 s' _. left. reflexivity. Qed.
Lemma coe_Raise {A} e : clean_or_end (@Raise A e).
Proof. intros s a0 s' _. left. reflexivity. Qed.

Lemma inv_Ret {A} (a: A) : dec_inv (Ret a).
Proof. split; [apply coe_Ret|]. intros s a0 s' He H. cbn [resume] in H. inversion H; subst. exact He. Qed.

Lemma inv_Raise {A} e : dec_inv (@Raise A e).
Proof. split; [apply coe_Raise|]. intros s a0 s' He H. cbn [resume] in H. discriminate H. Qed.

Lemma attempt_drained s n : drained s -> n <> 0 -> forall c s', attempt s n <> (Got c, s').
Proof.
  intros He Hn c s'. unfold attempt. destruct (Nat.eqb_spec n 0) as [E|_]; [contradiction|].
  unfold drained in He. rewrite He. destruct (Nat.ltb_spec 0 n) as [_|Hl]; [|lia].
  destruct (closed s); discriminate.
Qed.

Lemma coe_ReadN {A} n (k: bytes -> proc A) : (forall b, clean_or_end (k b)) -> clean_or_end (ReadN n k).
Proof.
  intros Hk s a s' H. cbn [resume clean_run] in *.
  destruct (attempt s n) as [[c| |] sm]; try discriminate H. exact (Hk c sm a s' H).
Qed.

Lemma estuck_ReadN {A} n (k: bytes -> proc A) : n <> 0 -> end_stuck (ReadN n k).
Proof.
  intros Hn s a s' He H. cbn [resume] in H.
  destruct (attempt s n) as [[c| |] sm] eqn:E; try discriminate H.
  exact (attempt_drained s n He Hn c sm E).
Qed.

Lemma estuck_end {A} (p: proc A) : end_stuck p -> end_to_end p.
Proof. intros Hs s a s' He H. exfalso. exact (Hs s a s' He H). Qed.

Lemma inv_ReadN {A} n (k: bytes -> proc A) : (forall b, dec_inv (k b)) -> dec_inv (ReadN n k).
Proof.
  intros Hk. split; [apply coe_ReadN; intros b; exact (proj1 (Hk b))|].
  intros s a s' He H. cbn [resume] in H.
  destruct (Nat.eqb_spec n 0) as [->|Hn].
  - unfold attempt in H. cbn [Nat.eqb] in H. exact (proj2 (Hk []) s a s' He H).
  - exfalso. exact (estuck_ReadN n k Hn s a s' He H).
Qed.

(* a read of at least one octet: (b) holds vacuously *)
Lemma inv_ReadN_pos {A} n (k: bytes -> proc A) : n <> 0 -> (forall b, clean_or_end (k b)) -> dec_inv (ReadN n k).
Proof. intros Hn Hk. split; [apply coe_ReadN; exact Hk|apply estuck_end; apply estuck_ReadN; exact Hn]. Qed.

Lemma inv_Tell {A} (k: nat -> proc A) : (forall q, dec_inv (k q)) -> dec_inv (Tell k).
Proof.
  intros Hk. split.
  - intros s a s' H. exact (proj1 (Hk (pos s)) s a s' H).
  - intros s a s' He H. exact (proj2 (Hk (pos s)) s a s' He H).
Qed.

Lemma coe_SeekBack {A} d (k: proc A) : clean_or_end k -> clean_or_end (SeekBack d k).
Proof. intros Hk s a s' H. exact (Hk _ a s' H). Qed.

Lemma drained_all s : drained (setpos s (length (arrived s))).
Proof. unfold drained, avail, setpos. cbn [pos arrived]. rewrite skipn_all. reflexivity. Qed.

(* ReadAll: never clean, but it moves to the end of the stream *)
Lemma inv_ReadAll {A} (k: bytes -> proc A) : (forall b, end_to_end (k b)) -> dec_inv (ReadAll k).
Proof.
  intros Hk. split.
  - intros s a s' H. right. cbn [resume] in H.
    destruct (Nat.eqb (length (avail s)) 0); [destruct (closed s); discriminate H|].
    exact (Hk _ _ a s' (drained_all s) H).
  - intros s a s' He H. cbn [resume] in H. unfold drained in He. rewrite He in H. cbn [Nat.eqb] in H.
    destruct (closed s); discriminate H.
Qed.

Lemma coe_pbind {A B} (p: proc A) (f: A -> proc B) : clean_or_end p -> (forall a, dec_inv (f a)) -> clean_or_end (pbind p f).
Proof.
  intros Hp Hf s b s' H.
  destruct (resume_pbind_inv p f s b s' H) as (a & s1 & H1 & H2).
  rewrite (clean_run_pbind_done p f s a s1 H1).
  destruct (Hp s a s1 H1) as [Hc|He].
  - rewrite Hc. cbn [andb]. exact (proj1 (Hf a) s1 b s' H2).
  - right. exact (proj2 (Hf a) s1 b s' He H2).
Qed.

(* after a clean tree, (a) of the continuation is enough *)
Lemma coe_pbind_clean {A B} (p: proc A) (f: A -> proc B) : clean p -> (forall a, clean_or_end (f a)) -> clean_or_end (pbind p f).
Proof.
  intros Hp Hf s b s' H.
  destruct (resume_pbind_inv p f s b s' H) as (a & s1 & H1 & H2).
  rewrite (clean_run_pbind_done p f s a s1 H1), (clean_clean_run p Hp s). cbn [andb].
  exact (Hf a s1 b s' H2).
Qed.

Lemma inv_pbind {A B} (p: proc A) (f: A -> proc B) : dec_inv p -> (forall a, dec_inv (f a)) -> dec_inv (pbind p f).
Proof.
  intros [Hpa Hpb] Hf. split; [apply coe_pbind; assumption|].
  intros s b s' He H.
  destruct (resume_pbind_inv p f s b s' H) as (a & s1 & H1 & H2).
  exact (proj2 (Hf a) s1 b s' (Hpb s a s1 He H1) H2).
Qed.

Lemma estuck_pbind {A B} (p: proc A) (f: A -> proc B) : end_stuck p -> end_stuck (pbind p f).
Proof.
  intros Hp s b s' He H.
  destruct (resume_pbind_inv p f s b s' H) as (a & s1 & H1 & _). exact (Hp s a s1 He H1).
Qed.

Lemma coe_inv {A} (p: proc A) : dec_inv p -> clean_or_end p.
Proof. intros H. exact (proj1 H). Qed.

Lemma coe_clean {A} (p: proc A) : clean p -> clean_or_end p.
Proof. intros Hc s a s' _. left. apply clean_clean_run. exact Hc. Qed.

Lemma coe_Tell {A} (k: nat -> proc A) : (forall q, clean_or_end (k q)) -> clean_or_end (Tell k).
Proof. intros Hk s a s' H. exact (Hk (pos s) s a s' H). Qed.

(* setting the mark in front of a tree that cannot yield a value at the end of the stream *)
Lemma inv_Mark_stuck {A} (k: proc A) : clean_or_end k -> end_stuck k -> dec_inv (Mark k).
Proof.
  intros Ha Hs. split.
  - intros s a s' H. exact (Ha _ a s' H).
  - intros s a s' He H. cbn [resume] in H. exfalso. exact (Hs (setmark s (pos s)) a s' He H).
Qed.

Lemma inv_readN n : dec_inv (readN n).
Proof. apply inv_ReadN. intros b. apply inv_Ret. Qed.

Lemma inv_tell : dec_inv tell.
Proof. apply inv_Tell. intros q. apply inv_Ret. Qed.

Lemma inv_lift {A} (r: res A) : dec_inv (lift r).
Proof. destruct r; [apply inv_Ret|apply inv_Raise]. Qed.

Lemma inv_read1 : dec_inv read1.
Proof. unfold read1. apply inv_pbind; [apply inv_readN|]. intros b. apply inv_Ret. Qed.

Lemma estuck_read1 : end_stuck read1.
Proof. unfold read1. apply estuck_pbind. apply estuck_ReadN. discriminate. Qed.

(* one step of [dec_inv] through the head constructor of the tree: the rule for it, or a case split on what it matches *)
Ltac inv_step :=
  match goal with
  | |- dec_inv (Ret _) => apply inv_Ret
  | |- dec_inv (Raise _) => apply inv_Raise
  | |- dec_inv tell => apply inv_tell
  | |- dec_inv read1 => apply inv_read1
  | |- dec_inv (readN _) => apply inv_readN
  | |- dec_inv (lift _) => apply inv_lift
  | |- dec_inv (pbind _ _) => apply inv_pbind; [|intro]
  | |- dec_inv (if ?b then _ else _) => destruct b
  | |- dec_inv (match ?x with _ => _ end) => destruct x
  end.

Lemma inv_create sp proto ts v : dec_inv (create sp proto ts v).
Proof. unfold create. cbv zeta. repeat inv_step. Qed.

Section DecInv.
  Variable c : codec.
  Variable rec : spec -> tagset -> option (option N) -> bool -> bool -> proc dval.
  Variable lf : nat.
  (* beginning an element: both invariants; re-entry past a header: (a) *)
  Hypothesis Hrec : forall sp ts ae sf, dec_inv (rec sp ts None ae sf).
  Hypothesis HrecS : forall sp ts len ae sf, clean_or_end (rec sp ts (Some len) ae sf).

  Lemma inv_read_len n : dec_inv (read_len lf n).
  Proof. unfold read_len. repeat inv_step. Qed.

  (* [inv_step] to the end, with the decoder's helpers and the recursive call as leaves *)
  Ltac inv1 :=
    repeat first [ inv_step | apply inv_create | apply inv_read_len | apply Hrec ].

  Lemma inv_dec_integer sp proto ts len : dec_inv (dec_integer lf sp proto ts len).
  Proof. unfold dec_integer. inv1. Qed.

  Lemma inv_dec_bool_cer sp ts len : dec_inv (dec_bool_cer lf sp ts len).
  Proof. unfold dec_bool_cer. inv1. Qed.

  Lemma inv_dec_null sp ts len : dec_inv (dec_null lf sp ts len).
  Proof. unfold dec_null. inv1. Qed.

  Lemma inv_dec_oid_v sp ts len : dec_inv (dec_oid_v lf sp ts len).
  Proof. unfold dec_oid_v. inv1. Qed.

  Lemma inv_dec_real_v sp ts len : dec_inv (dec_real_v lf sp ts len).
  Proof. unfold dec_real_v. inv1. Qed.

  (* the substrate collector: with an indefinite length it reads whatever is there *)
  Lemma inv_collector len : dec_inv (collector lf len).
  Proof.
    unfold collector. destruct len as [n|]; [inv1|].
    unfold readall. cbn [pbind]. apply inv_ReadAll. intros b. exact (proj2 (inv_Ret (DRaw b))).
  Qed.

  Lemma inv_fragment proto ae : dec_inv (fragment rec proto ae).
  Proof. unfold fragment. apply Hrec. Qed.

  Lemma inv_octets_loop proto sp ts len start : forall n acc, dec_inv (octets_loop rec proto sp ts len start n acc).
  Proof.
    induction n as [|n IH]; intros acc; cbn [octets_loop]; [apply inv_Raise|].
    repeat first [ apply IH | apply inv_fragment | inv_step | apply inv_create ].
  Qed.

  Lemma inv_dec_octets proto fl sp ts len sfun : dec_inv (dec_octets rec lf proto fl sp ts len sfun).
  Proof. unfold dec_octets. repeat first [ apply inv_octets_loop | inv_step | apply inv_create | apply inv_read_len ]. Qed.

  Lemma inv_octets_indef_loop proto sp ts : forall n acc, dec_inv (octets_indef_loop rec proto sp ts n acc).
  Proof.
    induction n as [|n IH]; intros acc; cbn [octets_indef_loop]; [apply inv_Raise|].
    repeat first [ apply IH | apply inv_fragment | inv_step | apply inv_create ].
  Qed.

  Lemma inv_dec_octets_indef proto sp ts : dec_inv (dec_octets_indef rec lf proto sp ts).
  Proof. unfold dec_octets_indef. apply inv_octets_indef_loop. Qed.

  Lemma inv_bits_fragment ae : dec_inv (bits_fragment rec ae).
  Proof. unfold bits_fragment. apply Hrec. Qed.

  Lemma inv_add_bits_fragment acc f : dec_inv (add_bits_fragment acc f).
  Proof. unfold add_bits_fragment. inv1. Qed.

  Lemma inv_bits_loop sp ts len start : forall n acc, dec_inv (bits_loop rec sp ts len start n acc).
  Proof.
    induction n as [|n IH]; intros acc; cbn [bits_loop]; [apply inv_Raise|].
    repeat first [ apply IH | apply inv_bits_fragment | apply inv_add_bits_fragment | inv_step | apply inv_create ].
  Qed.

  Lemma inv_dec_bits fl sp ts len sfun : dec_inv (dec_bits rec lf fl sp ts len sfun).
  Proof.
    unfold dec_bits.
    repeat first [ apply inv_bits_loop | apply inv_collector | inv_step | apply inv_create | apply inv_read_len ].
  Qed.

  Lemma inv_bits_indef_loop sp ts : forall n acc, dec_inv (bits_indef_loop rec sp ts n acc).
  Proof.
    induction n as [|n IH]; intros acc; cbn [bits_indef_loop]; [apply inv_Raise|].
    apply inv_pbind; [apply inv_bits_fragment|]. intros f.
    destruct f; repeat first [ apply IH | apply inv_add_bits_fragment | inv_step | apply inv_create ].
  Qed.

  Lemma inv_dec_bits_indef sp ts sfun : dec_inv (dec_bits_indef rec lf sp ts sfun).
  Proof. unfold dec_bits_indef. destruct sfun; [apply inv_collector|apply inv_bits_indef_loop]. Qed.

  (* ANY: the seek-back to the marked position, then a read: a clean tree *)
  Lemma clean_dec_any sp ts len sfun : clean (dec_any lf sp ts len sfun).
  Proof.
    unfold dec_any. cbv zeta. apply clean_pbind.
    - destruct (match sp with None => true | Some T => negb (tagset_eqb ts (tagset_of' T)) end); [|constructor].
      constructor. intros m. constructor. intros p. constructor. constructor.
    - intros len'. apply clean_pbind; [apply clean_read_len|]. intros b. destruct sfun; [constructor|apply clean_create].
  Qed.

  Lemma coe_dec_any sp ts len sfun : clean_or_end (dec_any lf sp ts len sfun).
  Proof. apply coe_clean. apply clean_dec_any. Qed.

  Lemma inv_any_indef_loop sp ts sfun tagged : forall n acc, dec_inv (any_indef_loop rec sp ts sfun tagged n acc).
  Proof.
    induction n as [|n IH]; intros acc; cbn [any_indef_loop]; [apply inv_Raise|].
    repeat first [ apply IH | apply inv_fragment | inv_step | apply inv_create ].
  Qed.

  Lemma coe_dec_any_indef sp ts sfun : clean_or_end (dec_any_indef rec lf sp ts sfun).
  Proof.
    unfold dec_any_indef. cbv zeta. apply coe_pbind_clean.
    - destruct (match sp with None => false | Some T => tagset_eqb ts (tagset_of' T) end); [constructor|].
      constructor. intros m. constructor. intros p. constructor. apply clean_readN.
    - intros header. exact (proj1 (inv_any_indef_loop sp ts sfun _ lf header)).
  Qed.

  Lemma inv_record_loop T fs is_set len start : forall n idx vs extra,
    dec_inv (record_loop rec lf T fs is_set len start n idx vs extra).
  Proof.
    induction n as [|n IH]; intros idx vs extra; cbn [record_loop]; cbv zeta; [apply inv_Raise|].
    apply inv_pbind; [apply inv_tell|]. intros p.
    repeat first [ apply IH | apply Hrec | inv_step ].
  Qed.

  Lemma inv_dec_record T fs is_set len : dec_inv (dec_record rec lf T fs is_set len).
  Proof. unfold dec_record. cbv zeta. apply inv_pbind; [apply inv_tell|]. intros start. apply inv_record_loop. Qed.

  Lemma inv_listof_loop T t len start : forall n acc, dec_inv (listof_loop rec T t len start n acc).
  Proof.
    induction n as [|n IH]; intros acc; cbn [listof_loop]; cbv zeta; [apply inv_Raise|].
    repeat first [ apply IH | apply Hrec | inv_step ].
  Qed.

  Lemma inv_dec_listof T t len : dec_inv (dec_listof rec lf T t len).
  Proof. unfold dec_listof. apply inv_pbind; [apply inv_tell|]. intros start. apply inv_listof_loop. Qed.

  Lemma inv_schemaless_loop is_set ts len start : forall n acc, dec_inv (schemaless_loop rec is_set ts len start n acc).
  Proof.
    induction n as [|n IH]; intros acc; cbn [schemaless_loop]; cbv zeta; [apply inv_Raise|].
    repeat first [ apply IH | apply Hrec | inv_step ].
  Qed.

  Lemma inv_dec_schemaless is_set ts len : dec_inv (dec_schemaless rec lf is_set ts len).
  Proof. unfold dec_schemaless. apply inv_pbind; [apply inv_tell|]. intros start. apply inv_schemaless_loop. Qed.

  Lemma inv_choice_place T alts d : dec_inv (choice_place lf T alts d).
  Proof. unfold choice_place. inv1. Qed.

  (* tagged CHOICE in indefinite form: a loop of elements *)
  Lemma inv_choice_loop_tagged T alts ts : forall n cur, dec_inv (choice_loop rec lf T alts ts true n cur).
  Proof.
    induction n as [|n IH]; intros cur; cbn [choice_loop]; cbv zeta; [apply inv_Raise|].
    apply inv_pbind; [apply Hrec|]. intros d.
    destruct d; repeat first [ apply IH | apply inv_choice_place | inv_step ].
  Qed.

  (* untagged CHOICE: the entry point is re-entered past the header, once *)
  Lemma coe_choice_loop T alts ts tagged n cur : clean_or_end (choice_loop rec lf T alts ts tagged n cur).
  Proof.
    destruct tagged; [exact (proj1 (inv_choice_loop_tagged T alts ts n cur))|].
    destruct n as [|n]; cbn [choice_loop]; cbv zeta; [apply coe_Raise|].
    apply coe_pbind; [apply HrecS|]. intros d.
    destruct d; repeat first [ apply inv_choice_place | inv_step ].
  Qed.

  Lemma coe_dec_choice T alts ts len : clean_or_end (dec_choice rec lf T alts ts len).
  Proof.
    unfold dec_choice. cbv zeta. destruct len as [l|]; [|apply coe_choice_loop].
    apply coe_pbind; [|intros d; apply inv_choice_place].
    destruct (tagset_eqb (tagset_of' T) ts); [exact (proj1 (Hrec _ _ _ _))|apply HrecS].
  Qed.

  Lemma inv_raw_loop sp ts : forall n last, dec_inv (raw_loop rec sp ts n last).
  Proof.
    induction n as [|n IH]; intros last; cbn [raw_loop]; [apply inv_Raise|].
    apply inv_pbind; [apply Hrec|]. intros d.
    destruct d; repeat first [ apply IH | inv_step ].
  Qed.

  Lemma inv_dec_raw sp ts len sfun : dec_inv (dec_raw rec lf sp ts len sfun).
  Proof.
    unfold dec_raw. destruct sfun; [apply inv_collector|]. destruct len; [apply Hrec|apply inv_raw_loop].
  Qed.

  (* the constructed types share one body, up to the SET flag of the schemaless decoder *)
  Lemma coe_constructed is_set sp ts len (sfun: bool) :
    clean_or_end (if negb (tag0_cons ts) then Raise EMalformed else
        if sfun then collector lf len else
        match sp with
        | None => dec_schemaless rec lf is_set ts len
        | Some T => match base_of T with
                    | TSeq fs => dec_record rec lf T fs false len
                    | TSet fs => dec_record rec lf T fs true len
                    | TSeqOf t | TSetOf t => dec_listof rec lf T t len
                    | _ => Raise EUnmodelled
                    end
        end).
  Proof.
    destruct (negb (tag0_cons ts)); [apply coe_Raise|]. apply coe_inv.
    destruct sfun; [apply inv_collector|]. destruct sp as [T|]; [|apply inv_dec_schemaless].
    destruct (base_of T); first [apply inv_dec_record | apply inv_dec_listof | apply inv_Raise].
  Qed.

  Lemma coe_dec_value cd fl sp ts len sfun : clean_or_end (dec_value rec lf cd fl sp ts len sfun).
  Proof.
    unfold dec_value. cbv zeta.
    destruct cd; try apply coe_constructed;
      try (destruct len as [l|];
           first [ apply coe_dec_any | apply coe_dec_any_indef | apply coe_Raise
                 | apply coe_inv;
                   first [ apply inv_dec_integer | apply inv_dec_bool_cer | apply inv_dec_null | apply inv_dec_oid_v
                         | apply inv_dec_real_v | apply inv_dec_octets | apply inv_dec_octets_indef
                         | apply inv_dec_bits | apply inv_dec_bits_indef ] ]).
    destruct sp as [T|]; [|apply coe_Raise]. destruct (base_of T); try apply coe_Raise.
    destruct sfun; [apply coe_inv, inv_collector|apply coe_dec_choice].
  Qed.

  Lemma estuck_read_tag : end_stuck (read_tag lf).
  Proof. unfold read_tag. apply estuck_pbind. apply estuck_read1. Qed.

  Lemma coe_run_value (len: option N) (k: proc dval) : clean_or_end k -> clean_or_end (run_value len k).
  Proof.
    intros Hk. destruct len as [l|]; [|exact Hk]. apply coe_Tell. intros p0.
    apply coe_pbind; [exact Hk|]. intros v. repeat inv_step.
  Qed.

  Lemma coe_dispatch sp ts len sfun : clean_or_end (dispatch c rec lf sp ts len sfun).
  Proof.
    apply dispatch_cases.
    - apply coe_Raise.
    - apply coe_run_value, coe_inv, inv_dec_raw.
    - intros cd fl osp _. apply coe_run_value, coe_dec_value.
  Qed.

  (* the end-of-octets look-ahead in front of [main] *)
  Lemma coe_eoo_block (main: proc dval) : clean_or_end main ->
    forall b: bytes, clean_or_end (match b with [0%N; 0%N] => Ret DEoo | _ => SeekBack 2 main end).
  Proof.
    intros Hm b.
    repeat match goal with |- clean_or_end (match ?x with _ => _ end) => destruct x end;
      first [apply coe_Ret|apply coe_SeekBack; exact Hm].
  Qed.

  Lemma inv_dec_body_begin sp acc ae sfun : dec_inv (dec_body c rec lf sp acc None ae sfun).
  Proof.
    unfold dec_body. cbv zeta.
    assert (Hmain: dec_inv (Mark (let! t := read_tag lf in let! len := read_length c in dispatch c rec lf sp (t :: acc) len sfun))).
    { apply inv_Mark_stuck.
      - apply coe_pbind_clean; [apply clean_read_tag|]. intros t.
        apply coe_pbind_clean; [apply clean_read_length|]. intros len. apply coe_dispatch.
      - apply estuck_pbind. apply estuck_read_tag. }
    destruct (ae && support_indef c)%bool; [|exact Hmain].
    unfold readN. cbn [pbind]. apply inv_ReadN_pos; [discriminate|]. apply coe_eoo_block. exact (proj1 Hmain).
  Qed.

  Lemma coe_dec_body_reenter sp acc len ae sfun : clean_or_end (dec_body c rec lf sp acc (Some len) ae sfun).
  Proof.
    unfold dec_body. cbv zeta.
    destruct (ae && support_indef c)%bool; [|apply coe_dispatch].
    unfold readN. cbn [pbind]. apply coe_ReadN. apply coe_eoo_block. apply coe_dispatch.
  Qed.
End DecInv.

Theorem Inv_dec_call c : forall f,
  (forall sp acc ae sfun, dec_inv (dec_call c f sp acc None ae sfun))
  /\ (forall sp acc len ae sfun, clean_or_end (dec_call c f sp acc (Some len) ae sfun)).
Proof.
  induction f as [|f [IH1 IH2]]; cbn [dec_call].
  - split; intros; [apply inv_Raise|apply coe_Raise].
  - split; intros.
    + apply inv_dec_body_begin; assumption.
    + apply coe_dec_body_reenter; assumption.
Qed.

Theorem inv_dec_call_begin c f sp acc ae sfun : dec_inv (dec_call c f sp acc None ae sfun).
Proof. exact (proj1 (Inv_dec_call c f) sp acc ae sfun). Qed.

Theorem coe_dec_call c f sp acc rs ae sfun : clean_or_end (dec_call c f sp acc rs ae sfun).
Proof.
  destruct rs as [len|]; [exact (proj2 (Inv_dec_call c f) sp acc len ae sfun)|exact (proj1 (inv_dec_call_begin c f sp acc ae sfun))].
Qed.

Print Assumptions Inv_dec_call.

(* a clean run stays a clean run when octets are taken away from the end of the stream: it is cut short
   at a read, before anything else can happen *)
Lemma clean_run_shorter {A} (p: proc A) : forall s1 s2, extends s1 s2 -> clean_run p s2 = true -> clean_run p s1 = true.
Proof.
  induction p as [a0|e|n k IH|k IH|d k IH|k IH|k IH|k IH|k IH]; intros s1 s2 Hx H; cbn [clean_run] in *;
    try reflexivity; try discriminate H.
  - destruct (attempt s1 n) as [[c1| |] s1'] eqn:E1; try reflexivity.
    destruct (attempt_got_ext s1 s2 n c1 s1' Hx E1) as [E2 Hx']. rewrite E2 in H.
    exact (IH c1 s1' _ Hx' H).
  - rewrite (proj1 Hx). exact (IH _ s1 s2 Hx H).
  - rewrite (proj1 Hx). exact (IH _ _ (extends_setpos _ _ _ Hx) H).
  - rewrite (proj1 Hx). exact (IH _ _ (extends_setmark _ _ _ Hx) H).
  - rewrite (proj1 (proj2 Hx)). exact (IH _ s1 s2 Hx H).
Qed.

Definition one_more (s: stream) : stream := mkStream (arrived s ++ [0%N]) (pos s) (closed s) (mark s).

Lemma extends_one_more s : extends s (one_more s).
Proof. split; [reflexivity|]. split; [reflexivity|]. exists [0%N]. reflexivity. Qed.

Lemma avail_one_more s : avail s <> [] -> avail (one_more s) = avail s ++ [0%N].
Proof.
  intros Hne. unfold avail, one_more. cbn [pos arrived]. apply skipn_app_le.
  assert (H: length (avail s) <> 0) by (destruct (avail s); [congruence|discriminate]).
  rewrite avail_length in H. lia.
Qed.

Theorem consumes_cleans (p: proc dval) (bs: bytes) (v: dval) : clean_or_end p -> bs <> [] -> consumes p bs v -> cleans p bs.
Proof.
  intros Hpa Hne Hc s tl Hav.
  assert (Hav2: avail (one_more s) = bs ++ (tl ++ [0%N])).
  { rewrite avail_one_more; [rewrite Hav; symmetry; apply app_assoc|]. rewrite Hav. destruct bs; [congruence|discriminate]. }
  destruct (Hc (one_more s) (tl ++ [0%N]) Hav2) as (s' & Hr & Hp & Ha & _).
  apply (clean_run_shorter p s (one_more s) (extends_one_more s)).
  destruct (Hpa _ _ _ Hr) as [Hcl|He]; [exact Hcl|].
  exfalso. unfold drained in He. rewrite (consumes_avail bs (one_more s) (tl ++ [0%N]) s' Hav2 Hp Ha) in He.
  rewrite app_length in He. cbn [length] in He. lia.
Qed.

(* every consuming run of the item decoder - any codec, any fuel, with or without a guiding type, any
   accumulated tag set, re-entry state, end-of-octets / substrateFun flags - is a clean run *)
Theorem consumes_clean_dec_call c f sp acc rs ae sfun bs v : bs <> [] ->
  consumes (dec_call c f sp acc rs ae sfun) bs v -> consumes_clean (dec_call c f sp acc rs ae sfun) bs v.
Proof.
  intros Hne Hc. apply consumes_clean_split. split; [exact Hc|].
  exact (consumes_cleans _ bs v (coe_dec_call c f sp acc rs ae sfun) Hne Hc).
Qed.

Corollary consumes_clean_dec_item c fuel sp bs v : (0 < length bs) ->
  consumes (dec_item c fuel sp) bs v -> consumes_clean (dec_item c fuel sp) bs v.
Proof. intros Hl. apply consumes_clean_dec_call. destruct bs; [cbn in Hl; lia|discriminate]. Qed.

Print Assumptions consumes_clean_dec_call.

Local Open Scope N_scope.

Theorem stage2_consumes_clean : forall T v b,
  stage2_ty T = true -> stage2_val T v = true ->
  encode BER true 0 T v = Ok b -> N.of_nat (length b) <= index_max ->
  (0 < length b)%nat /\ exists v', abs T v' = abs T v /\
    forall fuel, (length b + ty_depth T <= fuel)%nat -> consumes_clean (dec_item BER fuel (Some T)) b (DV T v').
Proof.
  intros T v b Hty Hv He Hmax.
  destruct (stage2_item T T eq_refl Hty v Hv b He Hmax) as (Hl & v' & Habs & Hc).
  split; [exact Hl|]. exists v'. split; [exact Habs|]. intros fuel Hf.
  exact (consumes_clean_dec_item BER fuel (Some T) b (DV T v') Hl (Hc fuel Hf)).
Qed.

Print Assumptions stage2_consumes_clean.

(* the hypothesis of DecStream.decoder_prefix / decoder_exact / streaming_sched_indep, discharged *)
Theorem guarded_run_of_clean c fuel sp b d : consumes_clean (dec_item c fuel sp) b d ->
  forall tl cl, exists s',
    resume (guard EUnclean (dec_item c fuel sp)) (mkStream (b ++ tl) 0 cl 0) = inr (Ok d, s')
    /\ resume (dec_item c fuel sp) (mkStream (b ++ tl) 0 cl 0) = inr (Ok d, s')
    /\ pos s' = length b /\ arrived s' = b ++ tl /\ closed s' = cl.
Proof.
  intros Hc tl cl.
  destruct (Hc (mkStream (b ++ tl) 0 cl 0) tl eq_refl) as (s' & Hr & Hp & Ha & Hcl & Hclean).
  exists s'. split; [exact (clean_run_guard_done EUnclean _ _ _ _ Hclean Hr)|]. split; [exact Hr|].
  cbn [pos arrived closed] in *. repeat split; assumption.
Qed.

(* C06: every strict prefix is insufficient - on a closed stream the end-of-stream error, on an open one
   the decoder suspends on a read whose octets have not all arrived *)
Theorem c06_of_clean c fuel sp b d k : consumes_clean (dec_item c fuel sp) b d -> (k < length b)%nat ->
  decode_with c fuel sp (firstn k b) = Err EEndOfStream
  /\ exists n kont s1, resume (dec_item c fuel sp) (mkStream (firstn k b) 0 false 0) = inl (ReadN n kont, s1)
                       /\ (length (avail s1) < n)%nat.
Proof.
  intros Hc Hk.
  destruct (guarded_run_of_clean c fuel sp b d Hc [] true) as (s' & Hgr & _ & Hp & _). rewrite app_nil_r in Hgr.
  split.
  - apply (decoder_prefix c fuel sp b k d s' Hk Hgr). lia.
  - destruct (prefix_insufficient_open _ (guard_clean EUnclean (dec_item c fuel sp)) b k 0 d s' Hk
                (Nat.le_0_l k) Hgr ltac:(lia)) as (q & s1 & E).
    destruct (underrun_only_when_missing_run EUnclean _ _ q s1 E) as (n & kont & E' & Hlt). eauto.
Qed.

(* the same through [decode], which chooses its fuel from the (shorter) input: for the prefixes that are
   long enough for that fuel to cover the whole encoding (at least half of it, roughly) *)
Lemma c06_decode_partial c T b d k :
  (forall fuel, (length b + ty_depth T <= fuel)%nat -> consumes_clean (dec_item c fuel (Some T)) b d) ->
  (k < length b)%nat -> (length b <= 2 * k + ty_depth T + 6)%nat ->
  decode c (Some T) (firstn k b) = Err EEndOfStream.
Proof.
  intros Hc Hk Hlong.
  assert (Hf: (length b + ty_depth T <= dec_fuel (Some T) (firstn k b))%nat).
  { unfold dec_fuel. rewrite firstn_length, Nat.min_l by lia. lia. }
  exact (proj1 (c06_of_clean c _ (Some T) b d k (Hc _ Hf) Hk)).
Qed.

Theorem c06_stage2_prefix : forall T v b fuel k,
  stage2_ty T = true -> stage2_val T v = true ->
  encode BER true 0 T v = Ok b -> (N.of_nat (length b) <= index_max)%N ->
  (length b + ty_depth T <= fuel)%nat -> (k < length b)%nat ->
  decode_with BER fuel (Some T) (firstn k b) = Err EEndOfStream
  /\ exists n kont s1, resume (dec_item BER fuel (Some T)) (mkStream (firstn k b) 0 false 0) = inl (ReadN n kont, s1)
                       /\ (length (avail s1) < n)%nat.
Proof.
  intros T v b fuel k Hty Hv He Hmax Hf Hk.
  destruct (stage2_consumes_clean T v b Hty Hv He Hmax) as (_ & v' & _ & Hc).
  exact (c06_of_clean BER fuel (Some T) b (DV T v') k (Hc fuel Hf) Hk).
Qed.

Corollary c06_stage2_prefix_decode_partial : forall T v b k,
  stage2_ty T = true -> stage2_val T v = true ->
  encode BER true 0 T v = Ok b -> N.of_nat (length b) <= index_max ->
  (k < length b)%nat -> (length b <= 2 * k + ty_depth T + 6)%nat ->
  decode BER (Some T) (firstn k b) = Err EEndOfStream.
Proof.
  intros T v b k Hty Hv He Hmax.
  destruct (stage2_consumes_clean T v b Hty Hv He Hmax) as (_ & v' & _ & Hc).
  exact (c06_decode_partial BER T b (DV T v') k Hc).
Qed.

Local Open Scope nat_scope.

(* C05: whatever way the encoding (and anything after it) arrives - chunks, empty polls in between, the
   stream closed at the end or not - the driver yields underruns and then the object and the position of
   one-shot decoding *)
Theorem c05_of_clean c fuel sp b d : consumes_clean (dec_item c fuel sp) b d ->
  forall tl sched, wf_sched false sched -> arrivals sched = b ++ tl ->
  decode_with c fuel sp (b ++ tl) = Ok (d, tl)
  /\ exists j, drive sched (dec_item c fuel sp) (mkStream [] 0 false 0) = repeat OUnder j ++ [ODone (Ok d) (length b)].
Proof.
  intros Hc tl sched Hw Harr.
  destruct (guarded_run_of_clean c fuel sp b d Hc tl true) as (s' & Hgr & Hr & Hp & Ha & _).
  split.
  - unfold decode_with, run_complete. rewrite Hr. f_equal. f_equal.
    unfold avail. rewrite Hp, Ha. apply skipn_app_exact.
  - assert (Hcomp: complete (mkStream [] 0 false 0) sched = mkStream (b ++ tl) 0 true 0).
    { unfold complete. cbn [arrived pos mark app]. rewrite Harr. reflexivity. }
    destruct (sched_indep_ok_run EUnclean sched (dec_item c fuel sp) (mkStream [] 0 false 0) d s') as [j Hj].
    + exact Hw.
    + rewrite Hcomp. exact Hgr.
    + exists j. rewrite Hj, Hp. reflexivity.
Qed.

(* stream positions right after each of the encodings bs laid end to end from position start *)
Fixpoint ends (start: nat) (bs: list bytes) : list nat :=
  match bs with
  | [] => []
  | b :: r => (start + length b) :: ends (start + length b) r
  end.

Lemma ends_length start bs : length (ends start bs) = length bs.
Proof. revert start. induction bs as [|b r IH]; intros start; cbn [ends length]; [reflexivity|]. rewrite IH. reflexivity. Qed.

Lemma ends_nth : forall bs start i, i < length bs ->
  nth i (ends start bs) 0 = start + length (concat (firstn (S i) bs)).
Proof.
  induction bs as [|b r IH]; intros start i Hi; [cbn [length] in Hi; lia|].
  destruct i as [|i].
  - cbn [ends nth firstn concat]. rewrite app_nil_r. reflexivity.
  - cbn [ends nth]. cbn [length] in Hi. rewrite (IH (start + length b) i) by lia.
    change (firstn (S (S i)) (b :: r)) with (b :: firstn (S i) r). cbn [concat]. rewrite app_length. lia.
Qed.

Definition items_ok (c: codec) (fuel: nat) (sp: option ty) (bs: list bytes) (ds: list dval) : Prop :=
  Forall2 (fun b d => consumes_clean (dec_item c fuel sp) b d /\ 0 < length b) bs ds.

Lemma item_pos_run c fuel sp b d s tl :
  consumes_clean (dec_item c fuel sp) b d -> avail s = b ++ tl ->
  exists s1, resume (item_pos c fuel sp) s = inr (Ok (d, pos s + length b), s1)
    /\ pos s1 = pos s + length b /\ arrived s1 = arrived s /\ closed s1 = closed s /\ avail s1 = tl
    /\ clean_run (item_pos c fuel sp) s = true.
Proof.
  intros Hc Hav. destruct (Hc s tl Hav) as (s1 & Hr & Hp & Ha & Hcl & Hclean).
  exists s1. unfold item_pos. rewrite (resume_pbind_done _ _ _ _ _ Hr). rewrite resume_tell. cbn [resume]. rewrite Hp.
  split; [reflexivity|]. split; [reflexivity|]. split; [exact Ha|]. split; [exact Hcl|].
  split; [exact (consumes_avail b s tl s1 Hav Hp Ha)|].
  apply clean_run_pbind_k; [exact Hclean|]. intros d0. constructor. intros q. constructor.
Qed.

(* the item loop on a closed stream holding n >= 1 encodings end to end: n objects, then the end test *)
Lemma iter_loop_run c fuel sp : forall bs ds, items_ok c fuel sp bs ds -> bs <> [] ->
  forall n s, length bs <= n -> avail s = concat bs -> closed s = true ->
  exists sF, resume (iter_loop n (item_pos c fuel sp)) s = inr (Ok (combine ds (ends (pos s) bs)), sF)
    /\ pos sF = pos s + length (concat bs) /\ arrived sF = arrived s
    /\ ra_free_run (iter_loop n (item_pos c fuel sp)) s = true.
Proof.
  intros bs ds HF. induction HF as [|b d bs ds [Hc Hbpos] HF IH]; intros Hne n s Hn Hav Hcl; [congruence|].
  destruct n as [|n']; [cbn [length] in Hn; lia|].
  cbn [concat] in Hav.
  destruct (item_pos_run c fuel sp b d s (concat bs) Hc Hav) as (s1 & Hr & Hp1 & Ha1 & Hcl1 & Hav1 & Hclean).
  cbn [iter_loop]. rewrite (resume_pbind_done _ _ _ _ _ Hr).
  rewrite ra_free_run_pbind, Hr, (clean_run_ra_free _ _ Hclean). cbn [andb].
  cbn [resume ra_free_run]. rewrite Hav1, Hcl1, Hcl.
  destruct bs as [|b2 bs'].
  - inversion HF; subst. cbn [concat length Nat.eqb resume ra_free_run].
    exists s1. cbn [combine ends]. split; [reflexivity|].
    cbn [concat]. rewrite app_nil_r. repeat split; assumption.
  - assert (Hne2: b2 :: bs' <> []) by discriminate.
    assert (Hb2: 0 < length b2) by (inversion HF as [|? ? ? ? [_ H] _]; subst; exact H).
    assert (Hnz: Nat.eqb (length (concat (b2 :: bs'))) 0 = false).
    { apply Nat.eqb_neq. cbn [concat]. rewrite app_length. lia. }
    rewrite Hnz.
    destruct (IH Hne2 n' s1 ltac:(cbn [length] in *; lia) Hav1 ltac:(congruence)) as (sF & Hrun & HpF & HaF & Hra).
    exists sF.
    rewrite (resume_pbind_done _ _ _ _ _ Hrun). cbn [resume].
    rewrite ra_free_run_pbind, Hrun, Hra. cbn [andb ra_free_run].
    change (ends (pos s) (b :: b2 :: bs')) with ((pos s + length b) :: ends (pos s + length b) (b2 :: bs')).
    rewrite <- Hp1.
    destruct ds as [|d2 ds']; [inversion HF|]. cbn [combine]. split; [reflexivity|].
    change (concat (b :: b2 :: bs')) with (b ++ concat (b2 :: bs')). rewrite app_length.
    repeat split; [lia|congruence].
Qed.

(* n >= 1 encodings laid end to end: exactly n objects, the i-th reported with the stream position right
   after the i-th encoding, under EVERY well-formed schedule that eventually closes the stream *)
Theorem c07_of_clean c fuel sp bs ds : items_ok c fuel sp bs ds -> bs <> [] -> length bs <= fuel ->
  length ds = length bs
  /\ (forall i, i < length bs -> nth i (ends 0 bs) 0 = length (concat (firstn (S i) bs)))
  /\ (exists sF, run_complete (streaming c fuel sp) (concat bs) = inr (Ok (combine ds (ends 0 bs)), sF)
                 /\ pos sF = length (concat bs))
  /\ forall sched, wf_sched false sched -> has_close sched = true -> arrivals sched = concat bs ->
     exists j, drive sched (streaming c fuel sp) (mkStream [] 0 false 0)
               = repeat OUnder j ++ [ODone (Ok (combine ds (ends 0 bs))) (length (concat bs))].
Proof.
  intros HF Hne Hn.
  destruct (iter_loop_run c fuel sp bs ds HF Hne fuel (mkStream (concat bs) 0 true 0) Hn eq_refl eq_refl)
    as (sF & Hrun & HpF & HaF & Hra).
  cbn [pos arrived] in *.
  split; [symmetry; exact (Forall2_length _ _ _ HF)|].
  split; [intros i Hi; rewrite (ends_nth bs 0 i Hi); reflexivity|].
  split; [exists sF; split; [exact Hrun|exact HpF]|].
  intros sched Hw Hcl Harr.
  assert (Hcomp: complete (mkStream [] 0 false 0) sched = mkStream (concat bs) 0 true 0).
  { unfold complete. cbn [arrived pos mark app]. rewrite Harr. reflexivity. }
  destruct (streaming_sched_indep c fuel sp sched (mkStream [] 0 false 0) (Ok (combine ds (ends 0 bs))) sF) as [j Hj].
  - exact Hw.
  - rewrite Hcl. apply Bool.orb_true_r.
  - rewrite Hcomp. unfold streaming. rewrite (ra_free_run_guard EUnclean _ _ Hra). unfold streaming in Hrun. rewrite Hrun. reflexivity.
  - discriminate.
  - exists j. rewrite Hj, HpF. reflexivity.
Qed.

(* from what a round-trip theorem says of each value (P: written, S: read back) to the list of items; the
   fuel bound is asked of the encodings at hand only *)
Lemma c07_of_vals {V} (P: V -> bytes -> Prop) (S: V -> dval -> Prop) c fuel sp (depth: nat) :
  (forall v b, P v b -> length b + depth <= fuel ->
     exists d, S v d /\ consumes_clean (dec_item c fuel sp) b d /\ 0 < length b) ->
  forall vs bs, Forall2 P vs bs -> (forall b, In b bs -> length b + depth <= fuel) ->
  exists ds, Forall2 S vs ds /\ items_ok c fuel sp bs ds.
Proof.
  intros H vs bs HF. induction HF as [|v b vs bs Hq HF IH]; intros Hfuel.
  - exists []. split; constructor.
  - destruct (H v b Hq (Hfuel b (or_introl eq_refl))) as (d & Hs & Hc & Hl).
    destruct (IH (fun x Hin => Hfuel x (or_intror Hin))) as (ds & IH1 & IH2).
    exists (d :: ds). split; constructor; auto.
Qed.

(* whatever way the encoding (and anything after it) is cut into chunks, with empty polls in between,
   closing the stream at the end or not: the driver yields underruns and then the very object, at the
   very position, of one-shot decoding *)
Theorem c05_stage2_sched : forall T v b,
  stage2_ty T = true -> stage2_val T v = true ->
  encode BER true 0 T v = Ok b -> (N.of_nat (length b) <= index_max)%N ->
  exists v', abs T v' = abs T v /\
    forall fuel tl sched, length b + ty_depth T <= fuel ->
    wf_sched false sched -> arrivals sched = b ++ tl ->
    decode_with BER fuel (Some T) (b ++ tl) = Ok (DV T v', tl)
    /\ exists j, drive sched (dec_item BER fuel (Some T)) (mkStream [] 0 false 0)
                 = repeat OUnder j ++ [ODone (Ok (DV T v')) (length b)].
Proof.
  intros T v b Hty Hv He Hmax.
  destruct (stage2_consumes_clean T v b Hty Hv He Hmax) as (_ & v' & Habs & Hc).
  exists v'. split; [exact Habs|]. intros fuel tl sched Hf.
  exact (c05_of_clean BER fuel (Some T) b (DV T v') (Hc fuel Hf) tl sched).
Qed.

Definition enc_all (T: ty) (vs: list val) (bs: list bytes) : Prop :=
  Forall2 (fun v b => stage2_val T v = true /\ encode BER true 0 T v = Ok b /\ (N.of_nat (length b) <= index_max)%N) vs bs.

Definition same_abs (T: ty) (v: val) (d: dval) : Prop := exists v', d = DV T v' /\ abs T v' = abs T v.

(* n >= 1 values of a stage-2 type written one after the other: the streaming decoder yields exactly
   n objects, the i-th with the abstract value of the i-th value, reported with the stream position
   right after the i-th encoding; under EVERY well-formed schedule that eventually closes the stream *)
Theorem c07_stage2_stream : forall T vs bs fuel,
  stage2_ty T = true -> enc_all T vs bs -> bs <> [] ->
  length bs <= fuel -> (forall b, In b bs -> length b + ty_depth T <= fuel) ->
  exists ds, Forall2 (same_abs T) vs ds
    /\ length ds = length bs
    /\ (forall i, i < length bs -> nth i (ends 0 bs) 0 = length (concat (firstn (S i) bs)))
    /\ (exists sF, run_complete (streaming BER fuel (Some T)) (concat bs) = inr (Ok (combine ds (ends 0 bs)), sF)
                   /\ pos sF = length (concat bs))
    /\ forall sched, wf_sched false sched -> has_close sched = true -> arrivals sched = concat bs ->
       exists j, drive sched (streaming BER fuel (Some T)) (mkStream [] 0 false 0)
                 = repeat OUnder j ++ [ODone (Ok (combine ds (ends 0 bs))) (length (concat bs))].
Proof.
  intros T vs bs fuel Hty HF Hne Hn Hfuel.
  assert (Hit: exists ds, Forall2 (same_abs T) vs ds /\ items_ok BER fuel (Some T) bs ds).
  { refine (c07_of_vals _ (same_abs T) BER fuel (Some T) (ty_depth T) _ vs bs HF Hfuel).
    intros v b (Hv & He & Hmax) Hf.
    destruct (stage2_consumes_clean T v b Hty Hv He Hmax) as (Hl & v' & Habs & Hc).
    exists (DV T v'). split; [exists v'; split; [reflexivity|exact Habs]|]. split; [exact (Hc fuel Hf)|exact Hl]. }
  destruct Hit as (ds & Hds & Hit). exists ds. split; [exact Hds|].
  exact (c07_of_clean BER fuel (Some T) bs ds Hit Hne Hn).
Qed.

Print Assumptions clean_run_guard.
Print Assumptions guard_run_clean.
Print Assumptions clean_run_pbind.
Print Assumptions ra_free_run_guard.
Print Assumptions ra_free_run_pbind.

Print Assumptions c06_stage2_prefix.
Print Assumptions c06_stage2_prefix_decode_partial.
Print Assumptions c05_stage2_sched.
Print Assumptions iter_loop_run.
Print Assumptions c07_stage2_stream.
Print Assumptions c06_of_clean.
Print Assumptions c05_of_clean.
Print Assumptions c07_of_clean.

Local Open Scope N_scope.

Definition stage2_example_enc : bytes :=
  [103; 48; 48; 46; 160; 9; 48; 7; 2; 1; 5; 2; 2; 255; 127; 161; 17;
   48; 8; 1; 1; 1; 4; 3; 1; 2; 3; 48; 5; 1; 1; 0; 4; 0; 255; 135;
   104; 10; 48; 8; 48; 4; 5; 0; 5; 0; 48; 0; 48; 0].

(* the hypotheses of [stage2_consumes_clean], [c06_stage2_prefix] and [c05_stage2_sched] hold of the nested example of RoundTrip2 with fuel 60 (encoding:
   50 octets, type depth 7); its run is a clean run *)
Example stage2_stream_hyps :
  stage2_ty stage2_example_ty = true /\ stage2_val stage2_example_ty stage2_example_val = true
  /\ encode BER true 0 stage2_example_ty stage2_example_val = Ok stage2_example_enc
  /\ N.of_nat (length stage2_example_enc) <= index_max
  /\ (length stage2_example_enc + ty_depth stage2_example_ty <= 60)%nat
  /\ clean_run (dec_item BER 60 (Some stage2_example_ty)) (mkStream stage2_example_enc 0 true 0) = true.
Proof.
  split; [vm_compute; reflexivity|]. split; [vm_compute; reflexivity|]. split; [vm_compute; reflexivity|].
  split; [vm_compute; discriminate|]. split; [vm_compute; lia|]. vm_compute. reflexivity.
Qed.

(* clean_run is not trivially true: a constructed OCTET STRING whose fragment is an indefinite-length
   item under a context tag is collected raw with ReadAll; that run is unclean although it succeeds *)
Example unclean_run_exists :
  decode_with BER 20 (Some TOcts) [36; 4; 160; 128; 1; 2] = Ok (DV TOcts (VOcts [1; 2]), [])
  /\ clean_run (dec_item BER 20 (Some TOcts)) (mkStream [36; 4; 160; 128; 1; 2] 0 true 0) = false.
Proof. vm_compute. split; reflexivity. Qed.

(* ... and for such a run the conclusions of C05 / C07 are FALSE of the model: the outcome depends on how
   the same six octets are cut into chunks, and on what follows them *)
Example unclean_run_schedule_dependent :
  drive [Arrive [36; 4; 160; 128; 1; 2]; Close] (dec_item BER 20 (Some TOcts)) (mkStream [] 0 false 0)
    = [OUnder; ODone (Ok (DV TOcts (VOcts [1; 2]))) 6]
  /\ drive [Arrive [36; 4; 160; 128; 1]; Arrive [2]; Close] (dec_item BER 20 (Some TOcts)) (mkStream [] 0 false 0)
    = [OUnder; OUnder; OUnder; ODone (Err EEndOfStream) 6]
  /\ decode_with BER 20 (Some TOcts) ([36; 4; 160; 128; 1; 2] ++ [3]) = Err EMalformed.
Proof. vm_compute. repeat split; reflexivity. Qed.

(* C06 on the example: each of the 50 strict prefixes gives the end-of-stream error on a closed stream
   and suspends on an open one *)
Example c06_example :
  forallb (fun k => match decode_with BER 60 (Some stage2_example_ty) (firstn k stage2_example_enc) with
                    | Err EEndOfStream => true | _ => false end
                    && match resume (dec_item BER 60 (Some stage2_example_ty)) (mkStream (firstn k stage2_example_enc) 0 false 0) with
                       | inl (ReadN _ _, _) => true | _ => false end) (seq 0 50) = true.
Proof. vm_compute. reflexivity. Qed.

(* C05 on the example: three chunks, an empty poll, trailing octets, no Close *)
Example c05_example :
  let sched := [Arrive (firstn 7 stage2_example_enc); Poll; Arrive (skipn 7 (firstn 30 stage2_example_enc));
                Arrive (skipn 30 stage2_example_enc ++ [9; 9])] in
  wf_sched false sched /\ arrivals sched = stage2_example_enc ++ [9; 9]
  /\ drive sched (dec_item BER 60 (Some stage2_example_ty)) (mkStream [] 0 false 0)
     = repeat OUnder 4 ++ [ODone (Ok (DV stage2_example_ty stage2_example_val)) 50].
Proof. vm_compute. repeat split; reflexivity. Qed.

(* C07 on three SEQUENCE OF INTEGER values, one of them empty, under a schedule that cuts across items *)
Example c07_example :
  let T := TSeqOf TInt in
  let vs := [VList [VInt 1; VInt 300]; VList []; VList [VInt (-1)]] in
  let bs := [[48; 7; 2; 1; 1; 2; 2; 1; 44]; [48; 0]; [48; 3; 2; 1; 255]] in
  let sched := [Arrive [48; 7; 2; 1]; Arrive [1; 2; 2; 1; 44; 48]; Poll; Arrive [0; 48; 3; 2; 1; 255]; Close] in
  stage2_ty T = true /\ map (encode BER true 0 T) vs = map Ok bs /\ forallb (stage2_val T) vs = true
  /\ (length bs <= 12)%nat /\ forallb (fun b => Nat.leb (length b + ty_depth T) 12) bs = true
  /\ wf_sched false sched /\ has_close sched = true /\ arrivals sched = concat bs
  /\ drive sched (streaming BER 12 (Some T)) (mkStream [] 0 false 0)
     = repeat OUnder 5 ++ [ODone (Ok (combine (map (DV T) vs) (ends 0 bs))) (length (concat bs))]
  /\ ends 0 bs = [9; 11; 16]%nat.
Proof.
  cbv zeta. split; [reflexivity|]. split; [vm_compute; reflexivity|]. split; [vm_compute; reflexivity|].
  split; [vm_compute; lia|]. repeat split; vm_compute; reflexivity.
Qed.
