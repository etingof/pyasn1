(* C03: framing in every mode.  The nested TLVs over a type's tag set, with definite or
   indefinite EXPLICIT wrappers ([gframe_ts]), are
     - what the model's [frame] writes (outside finding F01),
     - what the reference's [canon] computes over its treatment of IMPLICIT/EXPLICIT tagging,
     - read by the reference's reader as the base encoding is,
     - of canonical CER shape when the base encoding is. *)
From Coq Require Import Lia.
From PV Require Import Base.Bytes Model.Tag Model.TableTypes Model.Types Model.Enc Gen.Tables Spec.X690
     Proofs.Bits Proofs.SpecOctets Proofs.TagAlgebra
     Proofs.DerReference Proofs.ReaderParse Proofs.ReaderInterp Proofs.ReaderSound.
Local Open Scope N_scope.

Definition wrap_step (indef: bool) (acc: bytes) (t: tag) : bytes := ctlv indef (tcls t) (tnum t) acc.

(* innermost: identifier of the first tag with form bit pc, then rb (length octets, contents, and
   end-of-contents if indefinite); every further tag wraps in a constructed TLV *)
Definition gframe_ts (indef: bool) (ts: tagset) (pc: bool) (rb: bytes) : bytes :=
  match ts with
  | [] => []
  | t0 :: r => fold_left (wrap_step indef) r (ident (tcls t0) pc (tnum t0) ++ rb)
  end.

Lemma gframe_ts_snoc indef ts t pc rb : ts <> [] ->
  gframe_ts indef (ts ++ [t]) pc rb = ctlv indef (tcls t) (tnum t) (gframe_ts indef ts pc rb).
Proof.
  destruct ts as [|t0 r]; [congruence|]. intros _. cbn [app gframe_ts]. rewrite fold_left_app. reflexivity.
Qed.

Lemma retag_ident t c pc num rb : retag t (ident c pc num ++ rb) = Some (ident (tcls t) pc (tnum t) ++ rb).
Proof. unfold retag. rewrite split_ident_ident. reflexivity. Qed.

Lemma retag_ctlv t indef c num x : retag t (ctlv indef c num x) = Some (ctlv indef (tcls t) (tnum t) x).
Proof. destruct indef; unfold ctlv, tlv; apply retag_ident. Qed.

(* 8.14.3 on the nested encoding = TagSet.tagImplicitly on the tag set *)
Lemma retag_gframe_ts t indef ts pc rb : ts <> [] ->
  retag t (gframe_ts indef ts pc rb) = Some (gframe_ts indef (tag_implicitly ts t) pc rb).
Proof.
  intros Hne. destruct (exists_last Hne) as (ts0 & last & ->).
  rewrite tag_implicitly_spec.
  destruct ts0 as [|t0 r0].
  - cbn [app gframe_ts fold_left tcls tnum]. apply retag_ident.
  - rewrite !gframe_ts_snoc by discriminate. cbn [tcls tnum]. apply retag_ctlv.
Qed.

Lemma enc_tag_ident t ic : enc_tag t ic = ident (tcls t) (tcon t || ic) (tnum t).
Proof.
  rewrite ident_is_enc_tag. unfold enc_tag. cbn [tcls tcon tnum]. rewrite Bool.orb_false_r. reflexivity.
Qed.

Lemma ok_inj {A} (a b: A) : Ok a = Ok b -> a = b.
Proof. intros H. injection H as H. exact H. Qed.

Lemma frame_one_def t ic si sub s : frame_one t ic true si sub = Ok s ->
  s = ident (tcls t) (tcon t || ic) (tnum t) ++ length_octets (N.of_nat (length sub)) ++ sub.
Proof.
  unfold frame_one. cbn [negb andb].
  destruct (enc_len (N.of_nat (length sub)) false) as [l|e] eqn:E; cbn [bind]; [|discriminate].
  intros H. apply ok_inj in H. subst s. apply length_octets_is_enc_len in E.
  rewrite enc_tag_ident, E, app_nil_r. reflexivity.
Qed.

(* one indefinite TLV (encoders that support the indefinite form): never refused *)
Lemma frame_one_indef t ic sub :
  frame_one t ic false true sub = Ok (ident (tcls t) (tcon t || ic) (tnum t) ++ [128] ++ sub ++ [0; 0]).
Proof. unfold frame_one. cbn [negb andb enc_len bind]. rewrite enc_tag_ident. reflexivity. Qed.

Lemma frame_outer_indef : forall r ic s, Forall (fun t => tcon t = true) r ->
  frame_outer r ic false true s = Ok (fold_left (wrap_step true) r s).
Proof.
  induction r as [|x r IH]; intros ic s Hall; [reflexivity|]. inversion Hall as [|? ? Hx Hr]; subst.
  cbn [frame_outer fold_left]. rewrite frame_one_indef, Hx. cbn [bind]. apply (IH ic _ Hr).
Qed.

Lemma frame_outer_g : forall r ic defm si s b, Forall (fun t => tcon t = true) r ->
  (defm = false -> r <> [] -> si = true) ->
  frame_outer r ic defm si s = Ok b -> b = fold_left (wrap_step (negb defm)) r s.
Proof.
  induction r as [|x r IH]; intros ic defm si s b Hall Hsi H; cbn [frame_outer] in H.
  - apply ok_inj in H. symmetry. exact H.
  - inversion Hall as [|? ? Hx Hr]; subst.
    destruct (frame_one x ic defm si s) as [s1|e] eqn:E1; cbn [bind] in H; [|discriminate].
    cbn [fold_left].
    assert (Es: s1 = wrap_step (negb defm) s x).
    { destruct defm.
      - apply frame_one_def in E1. rewrite Hx in E1. exact E1.
      - rewrite (Hsi eq_refl), frame_one_indef, Hx in E1 by discriminate. symmetry. exact (ok_inj _ _ E1). }
    subst s1. apply (IH ic defm si _ b Hr); [|exact H].
    intros Hd Hne. apply Hsi; [exact Hd|discriminate].
Qed.

(* in the indefinite mode framing is refused only for primitive contents beyond the limit of the length octets *)
Lemma frame_gframe_indef t0 r content ic o si :
  o_ifne o = false -> o_def o = false -> Forall (fun t => tcon t = true) r ->
  (r <> [] -> si = true) -> (ic = true -> si = true) -> (ic = false -> N.of_nat (length content) < max_len) ->
  frame (t0 :: r) content ic o si =
  Ok (gframe_ts true (t0 :: r) (tcon t0 || ic)
        (if ic then [128] ++ content ++ [0; 0] else length_octets (N.of_nat (length content)) ++ content)).
Proof.
  intros Hi Hd Hall Hr Hic Hb. cbn [frame gframe_ts]. rewrite Hi, Hd, Bool.andb_false_r.
  assert (E0: frame_one t0 ic (if ic then false else true) si content =
              Ok (ident (tcls t0) (tcon t0 || ic) (tnum t0) ++
                  (if ic then [128] ++ content ++ [0; 0] else length_octets (N.of_nat (length content)) ++ content))).
  { destruct ic; [rewrite (Hic eq_refl); apply frame_one_indef|].
    unfold frame_one. cbn [negb andb]. destruct (enc_len_total _ (Hb eq_refl)) as (l & El). rewrite El. cbn [bind].
    rewrite (length_octets_is_enc_len _ _ El), enc_tag_ident, app_nil_r. reflexivity. }
  rewrite E0. cbn [bind]. destruct r; [reflexivity|]. rewrite Hr by discriminate. apply frame_outer_indef, Hall.
Qed.

(* AbstractItemEncoder.encode in any mode: outside finding F01 (indefinite mode, an encoder without
   the indefinite form, more than one tag) it writes the nested encoding *)
Theorem frame_gframe t0 r content ic o si b :
  o_ifne o = false -> Forall (fun t => tcon t = true) r ->
  (o_def o = false -> r <> [] -> si = true) -> (o_def o = false -> ic = true -> si = true) ->
  frame (t0 :: r) content ic o si = Ok b ->
  b = gframe_ts (negb (o_def o)) (t0 :: r) (tcon t0 || ic)
        (if ic && negb (o_def o) then [128] ++ content ++ [0; 0]
         else length_octets (N.of_nat (length content)) ++ content).
Proof.
  intros Hi Hall Hsi Hic H. cbn [frame] in H. rewrite Hi, Bool.andb_false_r in H.
  destruct (frame_one t0 ic (if ic then o_def o else true) si content) as [s0|e] eqn:E0; cbn [bind] in H; [|discriminate H].
  apply (frame_outer_g r ic (o_def o) si s0 b Hall Hsi) in H. subst b. cbn [gframe_ts]. f_equal.
  destruct ic; cbn [andb].
  - destruct (o_def o) eqn:Ed; cbn [negb].
    + apply frame_one_def in E0. exact E0.
    + rewrite (Hic eq_refl eq_refl), frame_one_indef in E0. symmetry. exact (ok_inj _ _ E0).
  - apply frame_one_def in E0. exact E0.
Qed.

Theorem canon_wrappers_g : forall T v cer pc rb tb, untagged T = false ->
  tagset_of (base_of T) = Ok [tb] ->
  canon cer (base_of T) v = Some (ident (tcls tb) pc (tnum tb) ++ rb) ->
  forall ts, tagset_of T = Ok ts -> canon cer T v = Some (gframe_ts cer ts pc rb).
Proof.
  induction T as [| | | | | | | | n|fs IH|fs IH|t IH|t IH|alts IH| |tg x IH|tg x IH] using ty_ind';
    intros v cer pc rb tb Hu Hb Hc ts Hts;
    try (cbn [base_of] in Hb, Hc; rewrite Hb in Hts; injection Hts as <-; exact Hc).
  - (* IMPLICIT *)
    destruct (tagset_of_imp _ _ _ Hts) as (ts' & Ex & ->).
    pose proof (tagset_nonempty x ts' Hu Ex) as Hne.
    rewrite canon_imp, (IH v cer pc rb tb Hu Hb Hc ts' Ex). cbn [opt_bind].
    apply retag_gframe_ts. exact Hne.
  - (* EXPLICIT *)
    destruct (tagset_of_exp _ _ _ Hts) as (ts' & Ex & Hnu & ->).
    pose proof (tagset_nonempty x ts' Hu Ex) as Hne.
    rewrite canon_exp, (IH v cer pc rb tb Hu Hb Hc ts' Ex), gframe_ts_snoc by exact Hne. cbn [opt_bind tcls tnum].
    destruct (tcls tg); [congruence|reflexivity|reflexivity|reflexivity].
Qed.

(* inside an indefinite wrapper the innermost encoding must not look like end-of-contents *)
Definition eoc_free (ts: tagset) (pc: bool) : Prop :=
  match ts with
  | t0 :: _ :: _ => pc = true \/ tcls t0 <> Univ \/ tnum t0 <> 0
  | _ => True
  end.

Lemma gframe_nz_head indef ts pc rb : ts <> [] -> eoc_free ts pc ->
  (length ts = 1%nat -> pc = true \/ tcls (hd (mkTag Univ false 0) ts) <> Univ \/ tnum (hd (mkTag Univ false 0) ts) <> 0) ->
  nz_head (gframe_ts indef ts pc rb).
Proof.
  intros Hne He H1. destruct (exists_last Hne) as (ts0 & last & ->).
  destruct ts0 as [|t0 r0].
  - cbn [app gframe_ts fold_left]. apply ident_nz_head. cbn [app length hd] in H1. specialize (H1 eq_refl). tauto.
  - rewrite gframe_ts_snoc by discriminate.
    destruct indef; unfold ctlv, tlv; apply ident_nz_head; auto.
Qed.

Lemma eoc_free_imp ts t pc : ts <> [] -> eoc_free (tag_implicitly ts t) pc -> eoc_free ts pc.
Proof.
  intros Hne. destruct (exists_last Hne) as (ts0 & last & ->). rewrite tag_implicitly_spec.
  destruct ts0 as [|t0 [|t1 r]]; cbn [app eoc_free]; auto.
Qed.

Lemma eoc_free_exp ts t pc : ts <> [] -> eoc_free (ts ++ [t]) pc ->
  eoc_free ts pc /\ (pc = true \/ tcls (hd (mkTag Univ false 0) ts) <> Univ \/ tnum (hd (mkTag Univ false 0) ts) <> 0).
Proof.
  intros Hne. destruct ts as [|t0 [|t1 r]]; [congruence| |]; cbn [app eoc_free hd]; auto.
Qed.

Theorem reads_gframe : forall T, untagged T = false -> forall (indef: bool) a pc rb tb,
  tagset_of (base_of T) = Ok [tb] ->
  reads_as (base_of T) a (ident (tcls tb) pc (tnum tb) ++ rb) ->
  forall ts, tagset_of T = Ok ts ->
  (indef = true -> eoc_free ts pc) -> (indef = false -> body_bound (gframe_ts false ts pc rb)) ->
  reads_as T a (gframe_ts indef ts pc rb).
Proof.
  induction T as [| | | | | | | | n|fs IH|fs IH|t IH|t IH|alts IH| |tg x IH|tg x IH] using ty_ind';
    intros Hu indef a pc rb tb Hb Hr ts Hts He Hbd;
    try (cbn [base_of] in Hb, Hr; rewrite Hb in Hts; injection Hts as <-; exact Hr).
  - (* IMPLICIT *)
    destruct (tagset_of_imp _ _ _ Hts) as (ts' & Ex & ->).
    pose proof (tagset_nonempty x ts' Hu Ex) as Hne.
    assert (Hx: reads_as x a (gframe_ts indef ts' pc rb)).
    { apply (IH Hu indef a pc rb tb Hb Hr ts' Ex).
      - intros Hd. apply (eoc_free_imp ts' tg pc Hne). apply He. exact Hd.
      - intros Hd. apply (bound_retag tg _ _ (retag_gframe_ts tg false ts' pc rb Hne)). apply Hbd. exact Hd. }
    destruct (reads_imp tg x a _ Hx) as (e' & He' & Hr').
    rewrite (retag_gframe_ts tg indef ts' pc rb Hne) in He'. injection He' as <-. exact Hr'.
  - (* EXPLICIT *)
    destruct (tagset_of_exp _ _ _ Hts) as (ts' & Ex & Hnu & ->).
    pose proof (tagset_nonempty x ts' Hu Ex) as Hne.
    rewrite gframe_ts_snoc by exact Hne. cbn [tcls tnum].
    assert (Hlen: indef = false -> N.of_nat (length (gframe_ts false ts' pc rb)) < max_len).
    { intros Hd. specialize (Hbd Hd). rewrite gframe_ts_snoc in Hbd by exact Hne. cbn [tcls tnum] in Hbd.
      apply (bound_tlv (tcls tg) true (tnum tg)) in Hbd. exact Hbd. }
    apply (reads_exp tg x a _ indef).
    + apply (IH Hu indef a pc rb tb Hb Hr ts' Ex).
      * intros Hd. apply (eoc_free_exp ts' (mkTag (tcls tg) true (tnum tg)) pc Hne). apply He. exact Hd.
      * intros Hd. apply bound_of_length. apply Hlen. exact Hd.
    + intros Hd. destruct (eoc_free_exp ts' (mkTag (tcls tg) true (tnum tg)) pc Hne (He Hd)) as [He1 He2].
      apply gframe_nz_head; [exact Hne|exact He1|intros _; exact He2].
    + intros Hd. subst indef. apply Hlen. reflexivity.
Qed.

(* e is read as one node, whatever follows, and the node has the clause 9 shape: [cer_canonical] without
   the demand that nothing follows, so that it holds of members *)
Definition cer_ok (e: bytes) : Prop :=
  exists n, parses e n /\ forall f, (length e <= f)%nat -> cer_shape f n = true.

(* a UNIVERSAL tag number of a string type: where the untyped shape check recognises a string *)
Definition ustr (c: tclass) (num: N) : bool := N.eqb (class_no c) 0 && string_number num.

Lemma cer_shape_prim f c num contents raw :
  cer_shape (S f) (Prim c num contents raw) = if ustr c num then Nat.leb (length contents) 1000 else true.
Proof. reflexivity. Qed.

Lemma cer_shape_cons f c num indef kids raw :
  cer_shape (S f) (Cons c num indef kids raw) =
  (indef && forallb (cer_shape f) kids && (if ustr c num then cer_segments kids else true))%bool.
Proof. reflexivity. Qed.

Lemma cer_ok_prim c num contents : N.of_nat (length contents) < max_len ->
  (ustr c num = true -> (length contents <= 1000)%nat) ->
  cer_ok (tlv c false num contents).
Proof.
  intros Hl Hs. exists (Prim c num contents (tlv c false num contents)). split; [apply parses_prim; exact Hl|].
  intros f Hf. pose proof (tlv_length c false num contents). destruct f as [|f]; [lia|].
  rewrite cer_shape_prim. destruct (ustr c num); [|reflexivity]. apply Nat.leb_le. apply Hs. reflexivity.
Qed.

Lemma cer_ok_kids : forall es, Forall cer_ok es ->
  exists kids, Forall2 parses es kids /\ forall f, (length (concat es) <= f)%nat -> forallb (cer_shape f) kids = true.
Proof.
  induction 1 as [|e es He _ IH].
  - exists []. split; [constructor|reflexivity].
  - destruct IH as (kids & Hk & Hs). destruct He as (n & Hp & Hn).
    exists (n :: kids). split; [constructor; assumption|].
    intros f Hf. cbn [concat] in Hf. rewrite app_length in Hf. cbn [forallb].
    rewrite Hn by lia. rewrite Hs by lia. reflexivity.
Qed.

Lemma itlv_length c num contents : (4 + length contents <= length (itlv c num contents))%nat.
Proof. unfold itlv. rewrite !app_length. pose proof (ident_length_pos c true num). cbn [length]. lia. Qed.

Lemma cer_ok_itlv c num es : Forall cer_ok es -> Forall nz_head es -> ustr c num = false ->
  cer_ok (itlv c num (concat es)).
Proof.
  intros Hes Hnz Hu. destruct (cer_ok_kids es Hes) as (kids & Hk & Hs).
  exists (Cons c num true kids (itlv c num (concat es))). split; [apply parses_cons_indef; assumption|].
  intros f Hf. pose proof (itlv_length c num (concat es)) as Hl.
  destruct f as [|f]; [lia|]. rewrite cer_shape_cons, Hu, Hs by lia. reflexivity.
Qed.

(* 9.2: a run of full 1000-octet segments and a last, non-empty one *)
Fixpoint seg_ok (ps: list bytes) : bool :=
  match ps with
  | [] => false
  | [p] => Nat.leb 1 (length p) && Nat.leb (length p) 1000
  | p :: r => Nat.eqb (length p) 1000 && seg_ok r
  end.

Lemma cer_segments_pieces n : forall ps, cer_segments (map (piece_node n) ps) = seg_ok ps.
Proof.
  induction ps as [|p ps IH]; [reflexivity|]. destruct ps as [|q r]; [reflexivity|].
  cbn [map] in *.
  change (cer_segments (piece_node n p :: piece_node n q :: map (piece_node n) r))
    with (Nat.eqb (length p) 1000 && cer_segments (piece_node n q :: map (piece_node n) r))%bool.
  rewrite IH. reflexivity.
Qed.

Lemma cer_shape_pieces n f : forall ps,
  (string_number n = true -> Forall (fun p => (length p <= 1000)%nat) ps) ->
  forallb (cer_shape (S f)) (map (piece_node n) ps) = true.
Proof.
  intros ps H. induction ps as [|p ps IH]; [reflexivity|].
  cbn [map forallb]. unfold piece_node at 1. rewrite cer_shape_prim.
  assert (Hp: (if ustr Univ n then Nat.leb (length p) 1000 else true) = true).
  { unfold ustr. cbn [class_no N.eqb andb]. destruct (string_number n) eqn:E; [|reflexivity].
    specialize (H eq_refl). inversion H; subst. apply Nat.leb_le. assumption. }
  rewrite Hp. cbn [andb]. apply IH. intros E. specialize (H E). inversion H; subst. assumption.
Qed.

Lemma cer_ok_itlv_pieces c num n ps : n <> 0 ->
  Forall (fun p => N.of_nat (length p) < max_len) ps ->
  (string_number n = true -> Forall (fun p => (length p <= 1000)%nat) ps) ->
  (ustr c num = true -> seg_ok ps = true) ->
  cer_ok (itlv c num (concat (map (tlv Univ false n) ps))).
Proof.
  intros Hn Hb Hsmall Hseg.
  exists (Cons c num true (map (piece_node n) ps) (itlv c num (concat (map (tlv Univ false n) ps)))).
  split; [apply parses_cons_indef; [apply pieces_parse; exact Hb|apply pieces_nz; exact Hn]|].
  intros f Hf. pose proof (itlv_length c num (concat (map (tlv Univ false n) ps))) as Hl.
  destruct f as [|[|f]]; [lia|lia|]. rewrite cer_shape_cons, (cer_shape_pieces n f ps Hsmall), cer_segments_pieces.
  cbn [andb]. destruct (ustr c num); [apply Hseg; reflexivity|reflexivity].
Qed.

(* EXPLICIT wrappers whose tags are not UNIVERSAL string tags (EXPLICIT tags never are UNIVERSAL;
   an IMPLICIT tag over an EXPLICIT one could be) *)
Lemma cer_ok_wrap : forall r inner, Forall (fun t => ustr (tcls t) (tnum t) = false) r ->
  cer_ok inner -> (r <> [] -> nz_head inner) -> cer_ok (fold_left (wrap_step true) r inner).
Proof.
  induction r as [|t r IH]; intros inner Hr Hc Hz; [exact Hc|].
  inversion Hr as [|? ? Ht Hr']; subst.
  cbn [fold_left]. apply IH; [exact Hr'| |].
  - unfold wrap_step. rewrite ctlv_true.
    replace inner with (concat [inner]) by (cbn [concat]; apply app_nil_r).
    apply cer_ok_itlv; [constructor; [exact Hc|constructor]|constructor; [apply Hz; discriminate|constructor]|exact Ht].
  - intros _. unfold wrap_step, ctlv. apply ident_nz_head. auto.
Qed.

Theorem cer_ok_canonical b : cer_ok b -> cer_canonical b = true.
Proof.
  intros (n & [_ Hp] & Hs). unfold cer_canonical, parse.
  specialize (Hp (S (length b)) []). rewrite app_nil_r in Hp. rewrite Hp by lia. apply Hs. lia.
Qed.

Print Assumptions frame_gframe.
Print Assumptions canon_wrappers_g.
Print Assumptions reads_gframe.
Print Assumptions cer_ok_wrap.
Print Assumptions cer_ok_canonical.
