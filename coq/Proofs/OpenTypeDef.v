(* Open types governed by a DEFAULT / OPTIONAL member (Model/OpenTypeDef.v): the extended second pass
   is the one of Model/OpenType.v wherever that one answers, a governing member left out of the
   encoding because its value equals the declared default resolves exactly like an explicit one, and
   executable witnesses for every codec. *)
From PV Require Import Model.Types Model.Proc Model.Enc Model.Dec Model.Obs Model.OpenType Model.OpenTypeDef Proofs.OpenType.
From Coq Require Import Lia.
Local Open Scope N_scope.

Lemma set_nth_same_id : forall (A: Type) (l: list A) i (x d: A), (i < length l)%nat -> nth i l d = x -> set_nth i x l = l.
Proof.
  induction l as [|y r IH]; intros [|i] x d Hl H; simpl in *; try reflexivity; try (exfalso; lia).
  - now subst.
  - f_equal. apply IH with d; [lia | exact H].
Qed.

(* conservative: with the governing member decoded nothing changes *)
Theorem second_pass_d_present : forall c allow T fs gi oi dflt override vs g,
  nth gi vs None = Some g ->
  second_pass_d c allow T fs gi oi dflt override vs = second_pass c allow T fs gi oi dflt override vs.
Proof.
  intros c allow T fs gi oi dflt override vs g Hg.
  unfold second_pass_d, second_pass, gov_value.
  destruct (nth_error fs oi) as [[p ft]|]; [|reflexivity].
  destruct (nth oi vs None) as [fv|] eqn:Hfv; [|reflexivity].
  rewrite Hg. cbn [bind].
  rewrite (set_nth_same_id _ vs gi (Some g) None (nth_some_lt _ _ _ _ Hg) Hg).
  rewrite Hfv, Hg. reflexivity.
Qed.

(* a DEFAULT governing member left out of the encoding: the open member is resolved exactly as in the
   record that holds the default explicitly *)
Theorem second_pass_d_defaulted : forall c allow T fs gi oi dflt override vs p ft fv d gT,
  nth_error fs oi = Some (p, ft) -> nth oi vs None = Some fv ->
  nth_error fs gi = Some (Def d, gT) -> nth gi vs None = None ->
  second_pass_d c allow T fs gi oi dflt override vs
  = second_pass c allow T fs gi oi dflt override (set_nth gi (Some d) vs).
Proof.
  intros * Hoi Hfv Hgi Hg. unfold second_pass_d, gov_value. rewrite Hoi, Hfv, Hg, Hgi. reflexivity.
Qed.

(* an OPTIONAL governing member left out: the lookup raises (unless the open member is absent too) *)
Theorem second_pass_d_no_governing_value : forall c allow T fs gi oi dflt override vs p ft fv gT,
  nth_error fs oi = Some (p, ft) -> nth oi vs None = Some fv ->
  nth_error fs gi = Some (Opt, gT) -> nth gi vs None = None ->
  second_pass_d c allow T fs gi oi dflt override vs = Err EMalformed.
Proof.
  intros * Hoi Hfv Hgi Hg. unfold second_pass_d, gov_value. rewrite Hoi, Hfv, Hg, Hgi. reflexivity.
Qed.

(* what the decoder resolves by is the governing value of the specification whenever it answers *)
Theorem gov_value_is_effective : forall fs gi vs pg gT g,
  nth_error fs gi = Some (pg, gT) -> gov_value fs gi vs = Ok g -> effective_gov pg (nth gi vs None) = Some g.
Proof.
  intros * Hgi H. unfold gov_value in H. unfold effective_gov.
  destruct (nth gi vs None) as [g'|].
  - now inversion H.
  - rewrite Hgi in H. destruct pg; try discriminate. now inversion H.
Qed.

(* and conversely *)
Lemma gov_value_of_effective : forall fs gi vs pg gT g,
  nth_error fs gi = Some (pg, gT) -> effective_gov pg (nth gi vs None) = Some g -> gov_value fs gi vs = Ok g.
Proof.
  intros * Hgi H. unfold gov_value. unfold effective_gov in H.
  destruct (nth gi vs None) as [g'|]; [now inversion H|].
  rewrite Hgi. destruct pg; try discriminate. now inversion H.
Qed.

(* with resolution on and the open member present, the extended decoder reads the governing value - explicit or
   defaulted -, stores it in the record, and goes on as the decoder of Model/OpenType.v *)
Lemma dec_open_d_stored : forall c T fs gi oi p ft dflt override dot wire vs fv g,
  rec_fields T = Some fs -> nth_error fs oi = Some (p, ft) -> nth oi vs None = Some fv -> gov_value fs gi vs = Ok g ->
  (dot || match override with [] => false | _ :: _ => true end) = true ->
  dec_open_after_d c T gi oi dflt override dot wire (Ok (DV T (VRec vs), []))
  = dec_open_after c T gi oi dflt override dot wire (Ok (DV T (VRec (set_nth gi (Some g) vs)), [])).
Proof.
  intros * Hrec Hoi Hfv Hgv Hon. unfold dec_open_after_d, dec_open_after. cbn [bind]. rewrite Hon. cbn [negb]. cbv iota.
  rewrite Hrec. unfold second_pass_d. rewrite Hoi, Hfv, Hgv. reflexivity.
Qed.

Theorem dec_open_d_off : forall c T gi oi dflt b,
  dec_open_d c T gi oi dflt [] false b = decode c (Some T) b.
Proof.
  intros. unfold dec_open_d, dec_open_after_d. destruct (decode c (Some T) b) as [[d r]|e]; reflexivity.
Qed.

(* ---- witnesses: Msg ::= SEQUENCE { kind INTEGER DEFAULT 1, body ANY DEFINED BY kind } ---- *)
Definition Pt := TSeq [(Req, TInt); (Req, TInt)].
Definition TD1 := TSeq [(Def (VInt 1), TInt); (Req, TAny)].
Definition md : omap := [(VInt 1, Pt); (VInt 2, TOcts)].
Definition pt : val := VRec [Some (VInt 3); Some (VInt (-4))].

(* the value equals the default: every codec leaves the governing member out, the open member is
   still resolved by it; with resolution off the complete encoding of the inner value stays *)
Lemma ex_defaulted_ber :
  enc_open BER true 0 TD1 1 (VRec [Some (VInt 1); None]) true [(Pt, pt)] = Ok [48;8;48;6;2;1;3;2;1;252]
  /\ enc_open BER true 0 TD1 1 (VRec [None; None]) true [(Pt, pt)] = Ok [48;8;48;6;2;1;3;2;1;252]
  /\ expected_type (Def (VInt 1)) None md [] true = Some Pt
  /\ dec_open_d BER TD1 0 1 md [] true [48;8;48;6;2;1;3;2;1;252]
     = Ok (DV (TSeq [(Def (VInt 1), TInt); (Req, Pt)]) (VRec [Some (VInt 1); Some pt]), [])
  /\ dec_open_d BER TD1 0 1 md [] false [48;8;48;6;2;1;3;2;1;252]
     = Ok (DV TD1 (VRec [None; Some (VAny [48;6;2;1;3;2;1;252])]), []).
Proof. repeat split; vm_compute; reflexivity. Qed.

Lemma ex_defaulted_indef_cer_der :
  enc_open BER false 0 TD1 1 (VRec [Some (VInt 1); None]) true [(Pt, pt)] = Ok [48;128;48;128;2;1;3;2;1;252;0;0;0;0]
  /\ dec_open_d BER TD1 0 1 md [] true [48;128;48;128;2;1;3;2;1;252;0;0;0;0]
     = Ok (DV (TSeq [(Def (VInt 1), TInt); (Req, Pt)]) (VRec [Some (VInt 1); Some pt]), [])
  /\ enc_open CER true 0 TD1 1 (VRec [Some (VInt 1); None]) true [(Pt, pt)] = Ok [48;128;48;128;2;1;3;2;1;252;0;0;0;0]
  /\ dec_open_d CER TD1 0 1 md [] true [48;128;48;128;2;1;3;2;1;252;0;0;0;0]
     = Ok (DV (TSeq [(Def (VInt 1), TInt); (Req, Pt)]) (VRec [Some (VInt 1); Some pt]), [])
  /\ enc_open DER true 0 TD1 1 (VRec [Some (VInt 1); None]) true [(Pt, pt)] = Ok [48;8;48;6;2;1;3;2;1;252]
  /\ dec_open_d DER TD1 0 1 md [] true [48;8;48;6;2;1;3;2;1;252]
     = Ok (DV (TSeq [(Def (VInt 1), TInt); (Req, Pt)]) (VRec [Some (VInt 1); Some pt]), []).
Proof. repeat split; vm_compute; reflexivity. Qed.

(* a value other than the default is on the wire and wins over the default *)
Lemma ex_default_overridden_by_value :
  enc_open DER true 0 TD1 1 (VRec [Some (VInt 2); None]) true [(TOcts, VOcts [97])] = Ok [48;6;2;1;2;4;1;97]
  /\ dec_open_d DER TD1 0 1 md [] true [48;6;2;1;2;4;1;97]
     = Ok (DV (TSeq [(Def (VInt 1), TInt); (Req, TOcts)]) (VRec [Some (VInt 2); Some (VOcts [97])]), []).
Proof. split; vm_compute; reflexivity. Qed.

(* SET { kind INTEGER DEFAULT 1, body SET OF [3] ANY }: every element is resolved by the default *)
Definition TD2 := TSet [(Def (VInt 1), TInt); (Req, TSetOf (TExp (mkTag Ctx true 3) TAny))].
Lemma ex_defaulted_set_of_der :
  enc_open DER true 0 TD2 1 (VRec [Some (VInt 1); None]) true [(Pt, pt)] = Ok [49;12;49;10;163;8;48;6;2;1;3;2;1;252]
  /\ dec_open_d DER TD2 0 1 md [] true [49;12;49;10;163;8;48;6;2;1;3;2;1;252]
     = Ok (DV (TSet [(Def (VInt 1), TInt); (Req, TSetOf Pt)]) (VRec [Some (VInt 1); Some (VList [pt])]), []).
Proof. split; vm_compute; reflexivity. Qed.

(* OPTIONAL governing member left out: no governing value, so the specification names no type; the
   decoder does not leave the member alone but raises as soon as resolution is on *)
Definition TO1 := TSeq [(Opt, TInt); (Req, TExp (mkTag Ctx true 3) TAny)].
Lemma ex_no_governing_value :
  enc_open BER true 0 TO1 1 (VRec [None; None]) true [(TOcts, VOcts [97;98])] = Ok [48;6;163;4;4;2;97;98]
  /\ expected_type Opt None md [] true = None
  /\ dec_open_d BER TO1 0 1 md [] false [48;6;163;4;4;2;97;98]
     = Ok (DV TO1 (VRec [None; Some (VAny [4;2;97;98])]), [])
  /\ dec_open_d BER TO1 0 1 md [] true [48;6;163;4;4;2;97;98] = Err EMalformed.
Proof. repeat split; vm_compute; reflexivity. Qed.
