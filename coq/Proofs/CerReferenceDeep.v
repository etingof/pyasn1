(* C03, CER counterpart for containers: whatever the CER encoder outputs - in whatever mode it is
   called - is the canonical encoding of the independent reference ([X690.cer] = [canon true]):
   SEQUENCE, SEQUENCE OF, SET (9.3: by the smallest tag of each component type), SET OF (11.6),
   CHOICE, ANY, nested to any depth over the simple types (Proofs/ReaderCer.v: segmented strings,
   TRUE = FF).  The domain [cer_all]: outside findings F01 and F24; DEFAULT components of simple type;
   the component types present in a SET have distinct smallest tags; the members of a SET OF are told
   apart by the zero-padded comparison of 11.6. *)
From Coq Require Import Lia Sorting.Permutation.
From PV Require Import Proofs.Basics Base.Bytes Model.Tag Model.TableTypes Model.Types Model.Enc Gen.Tables Spec.X690
     Proofs.SpecOctets Proofs.TagAlgebra Proofs.ContainerCodecDefs Proofs.ContainerCodecSort
     Proofs.EncUnfold Proofs.DerAbsFunction Proofs.DerReference Proofs.DerReference2
     Proofs.ReaderParse Proofs.ReaderInterp Proofs.ReaderFrame Proofs.ReaderModel Proofs.ReaderCer.
Local Open Scope N_scope.

(* every tag of the set as a constructed wrapper, innermost first *)
Definition cwrap (indef: bool) (ts: tagset) (c: bytes) : bytes := fold_left (wrap_step indef) ts c.

Lemma cwrap_length indef ts c : (length c <= length (cwrap indef ts c))%nat.
Proof. unfold cwrap. apply fold_wrap_length. Qed.

Lemma cwrap_snoc indef ts t c : cwrap indef (ts ++ [t]) c = ctlv indef (tcls t) (tnum t) (cwrap indef ts c).
Proof. unfold cwrap. rewrite fold_left_app. reflexivity. Qed.

(* the reference over tagging wrappers, when the base encoding is itself such a nest (DER or CER) *)
Theorem canon_wrappers_c : forall T v cer c tsb, imp_ok T = true ->
  tagset_of (base_of T) = Ok tsb -> canon cer (base_of T) v = Some (cwrap cer tsb c) ->
  forall ts, tagset_of T = Ok ts -> canon cer T v = Some (cwrap cer ts c).
Proof.
  induction T as [| | | | | | | | n|fs IH|fs IH|t IH|t IH|alts IH| |tg x IH|tg x IH] using ty_ind';
    intros v cer c tsb Hi H1 H2 ts Hts;
    try (cbn [base_of] in H1, H2; rewrite H1 in Hts; injection Hts as <-; exact H2).
  - cbn [imp_ok] in Hi. apply andb_true_iff in Hi. destruct Hi as [Hnb Hi]. apply Bool.negb_true_iff in Hnb.
    destruct (tagset_of_imp _ _ _ Hts) as (ts' & Ex & ->).
    pose proof (nonbare_tagset x ts' Hnb Ex) as Hne.
    rewrite canon_imp, (IH v cer c tsb Hi H1 H2 ts' Ex).
    destruct (exists_last Hne) as (ts0 & last & ->).
    rewrite tag_implicitly_spec, !cwrap_snoc. cbn [opt_bind tcls tnum]. apply retag_ctlv.
  - cbn [imp_ok] in Hi.
    destruct (tagset_of_exp _ _ _ Hts) as (ts' & Ex & Hnu & ->).
    rewrite canon_exp, (IH v cer c tsb Hi H1 H2 ts' Ex), cwrap_snoc. cbn [opt_bind tcls tnum].
    destruct (tcls tg); [congruence|reflexivity|reflexivity|reflexivity].
Qed.

(* the model's frame of constructed content in the indefinite mode: never refused *)
Lemma frame_cwrap_total ts content i : Forall (fun t => tcon t = true) ts -> (i = false \/ content <> []) ->
  frame ts content true (mkOpts false 1000 i) true = Ok (cwrap true ts content).
Proof.
  intros Hall Hi. destruct ts as [|t0 r]; [reflexivity|]. inversion Hall as [|? ? H0 Hr]; subst.
  cbn [frame o_ifne o_def].
  assert (Hc: ((match content with [] => true | _ => false end) && true && i)%bool = false).
  { destruct Hi as [->|Hne]; [apply Bool.andb_false_r|]. destruct content; [congruence|reflexivity]. }
  rewrite Hc, frame_one_indef, H0. cbn [bind]. apply (frame_outer_indef r true _ Hr).
Qed.

Lemma frame_cwrap ts content i b : Forall (fun t => tcon t = true) ts -> (i = false \/ content <> []) ->
  frame ts content true (mkOpts false 1000 i) true = Ok b -> b = cwrap true ts content.
Proof. intros Hall Hi H. rewrite (frame_cwrap_total ts content i Hall Hi) in H. symmetry. exact (ok_inj _ _ H). Qed.

Lemma seg_ok_nonempty ps : seg_ok ps = true -> ps <> [].
Proof. destruct ps; [discriminate|discriminate]. Qed.

(* a segmented string is never empty: ifNotEmpty does not touch the simple types *)
Lemma cer_simple_ifne T v : der_ref_val T v = true ->
  enc CER T (mkOpts false 1000 true) v = enc CER T (mkOpts false 1000 false) v.
Proof.
  intros Hd. unfold der_ref_val in Hd. rewrite !enc_cer_unfold.
  destruct (concrete_encoder CER T) as [[cd fl]|] eqn:Ece; cbn [bind fst snd]; [|reflexivity].
  destruct (tagset_of T) as [ts|]; cbn [bind]; [|reflexivity].
  destruct (enc_content CER T cd fl cer_opts v) as [[content ic]|] eqn:Ec; cbn [bind fst snd]; [|reflexivity].
  rewrite concrete_encoder_base in Ece. rewrite enc_content_base in Ec.
  destruct (cer_contents_small (base_of T) v cd fl content ic Hd Ece Ec) as [Hic Hsm].
  destruct ts as [|t0 r]; [reflexivity|]. cbn [frame o_ifne o_def].
  destruct ic; [|rewrite !Bool.andb_false_r; reflexivity].
  destruct (Hsm (Hic eq_refl)) as (n & _ & _ & Hs2). destruct (Hs2 eq_refl) as (ps & -> & _ & Hseg).
  destruct ps as [|p ps']; [discriminate Hseg|]. cbn [map concat].
  destruct (tlv Univ false n p) eqn:E; [exfalso; exact (tlv_nonempty _ _ _ _ E)|reflexivity].
Qed.

(* types that have a smallest tag: no untagged ANY among the alternatives, no empty CHOICE, a proper tag set *)
Fixpoint keyable (T: ty) : bool :=
  match T with
  | TChoice alts => negb (match alts with [] => true | _ => false end) && forallb keyable alts
  | TAny => false
  | TImp _ _ | TExp _ _ => match tagset_of T with Ok _ => true | Err _ => false end
  | _ => true
  end.

Definition so_alts : list ty -> tagset :=
  fix go (l: list ty) : tagset :=
    match l with [] => [] | [a] => smallest_outer a | a :: r => tagset_min (smallest_outer a) (go r) end.
Lemma so_choice alts : smallest_outer (TChoice alts) = so_alts alts. Proof. reflexivity. Qed.
Lemma so_alts_cons2 a a2 r : so_alts (a :: a2 :: r) = tagset_min (smallest_outer a) (so_alts (a2 :: r)). Proof. reflexivity. Qed.

Definition mft_alts : list ty -> N * N :=
  fix go (l: list ty) : N * N :=
    match l with
    | [] => (0, 0)
    | [a] => min_first_tag a
    | a :: r => let x := min_first_tag a in let y := go r in if key_ltb y x then y else x
    end.
Lemma mft_choice alts : min_first_tag (TChoice alts) = mft_alts alts. Proof. reflexivity. Qed.
Lemma mft_alts_cons2 a a2 r : mft_alts (a :: a2 :: r) =
  (if key_ltb (mft_alts (a2 :: r)) (min_first_tag a) then mft_alts (a2 :: r) else min_first_tag a).
Proof. reflexivity. Qed.

Definition key_agrees (T: ty) : Prop := single (smallest_outer T) = true /\ ref_key (smallest_outer T) = min_first_tag T.

Lemma key_agree_alts : forall alts, alts <> [] -> Forall key_agrees alts ->
  single (so_alts alts) = true /\ ref_key (so_alts alts) = mft_alts alts.
Proof.
  induction alts as [|a r IH]; intros Hne Hall; [congruence|].
  inversion Hall as [|? ? Ha Hr]; subst. destruct Ha as [Ha1 Ha2].
  destruct r as [|a2 r']; [split; [exact Ha1|exact Ha2]|].
  destruct (IH ltac:(discriminate) Hr) as [I1 I2].
  rewrite so_alts_cons2, mft_alts_cons2. unfold tagset_min.
  rewrite <- I2, <- Ha2, (key_ltb_single _ _ I1 Ha1).
  destruct (tagset_ltb (so_alts (a2 :: r')) (smallest_outer a)); split; first [assumption|reflexivity].
Qed.

Lemma last_tag_single ts0 l : single (last_tag (ts0 ++ [l])) = true /\ ref_key (last_tag (ts0 ++ [l])) = (class_no (tcls l), tnum l).
Proof. rewrite last_tag_snoc. split; reflexivity. Qed.

Theorem key_agree : forall T, keyable T = true -> key_agrees T.
Proof.
  induction T as [| | | | | | | | n|fs IH|fs IH|t IH|t IH|alts IH| |tg x IH|tg x IH] using ty_ind';
    intros Hk; try (split; reflexivity); try discriminate Hk.
  - (* CHOICE *)
    cbn [keyable] in Hk. apply andb_true_iff in Hk. destruct Hk as [Hne Hall].
    unfold key_agrees. rewrite so_choice, mft_choice. apply key_agree_alts.
    + destruct alts; [discriminate Hne|discriminate].
    + rewrite forallb_forall in Hall. rewrite Forall_forall in *. intros a Ha. apply IH; [exact Ha|apply Hall; exact Ha].
  - (* IMPLICIT *)
    cbn [keyable] in Hk. unfold key_agrees.
    change (smallest_outer (TImp tg x)) with (last_tag (tagset_of' (TImp tg x))). unfold tagset_of'.
    destruct (tagset_of (TImp tg x)) as [ts|] eqn:Ets; [|discriminate Hk].
    destruct (tagset_of_imp _ _ _ Ets) as (ts' & _ & ->). cbn [min_first_tag].
    destruct ts' as [|t1 r1]; [split; reflexivity|].
    destruct (@exists_last _ (t1 :: r1)) as (ts0 & l & E); [discriminate|]. rewrite E.
    rewrite tag_implicitly_spec. exact (last_tag_single ts0 (mkTag (tcls tg) (tcon l) (tnum tg))).
  - (* EXPLICIT *)
    cbn [keyable] in Hk. unfold key_agrees.
    change (smallest_outer (TExp tg x)) with (last_tag (tagset_of' (TExp tg x))). unfold tagset_of'.
    destruct (tagset_of (TExp tg x)) as [ts|] eqn:Ets; [|discriminate Hk].
    destruct (tagset_of_exp _ _ _ Ets) as (ts' & _ & _ & ->).
    cbn [min_first_tag]. exact (last_tag_single ts' (mkTag (tcls tg) true (tnum tg))).
Qed.

(* the reference's canonical encoding has empty contents (finding F24 under CER) *)
Definition f24c_base (B: ty) (v: val) : bool :=
  match B with
  | TSeq _ | TSeqOf _ | TSet _ | TSetOf _ => match cer B v with Some [_; 128; 0; 0] => true | _ => false end
  | TChoice _ | TAny => match cer B v with Some [] => true | _ => false end
  | _ => false
  end.
Definition f24c (T: ty) (v: val) : bool := negb (bare T) && f24c_base (base_of T) v.

(* X.690 11.6 needs members that the zero-padded comparison tells apart *)
Definition setof_ties_ok (es: list bytes) : bool :=
  let m := ContainerCodecDefs.max_len es in
  forallb (fun a => forallb (fun b => implb (bytes_eqb (pad_to m a) (pad_to m b)) (bytes_eqb a b)) es) es.

Lemma ties_ok_pad_distinct es : setof_ties_ok es = true -> pad_distinct es.
Proof.
  unfold setof_ties_ok. intros H a b Ha Hb E. rewrite forallb_forall in H. specialize (H a Ha).
  rewrite forallb_forall in H. specialize (H b Hb). rewrite E, bytes_eqb_refl in H. cbn [implb] in H.
  apply bytes_eqb_eq. exact H.
Qed.

Lemma pad_distinct_ties_ok es : pad_distinct es -> setof_ties_ok es = true.
Proof.
  intros Hp. unfold setof_ties_ok.
  apply forallb_forall. intros a Ha. apply forallb_forall. intros b Hb.
  destruct (bytes_eqb (pad_to _ a) (pad_to _ b)) eqn:E; [|reflexivity]. cbn [implb].
  apply bytes_eqb_eq in E. rewrite (Hp a b Ha Hb E). apply bytes_eqb_refl.
Qed.

Lemma tlv_ties_ok es : Forall (fun p => tlvb p = true) es -> setof_ties_ok es = true.
Proof. intros H. apply pad_distinct_ties_ok, tlv_pad_distinct, H. Qed.

(* the component types of a SET that hold a value *)
Fixpoint cpresent (fs: list (presence * ty)) (vs: list (option val)) : list ty :=
  match fs with
  | [] => []
  | (p, ft) :: fs' => match ohd vs with Some _ => ft :: cpresent fs' (otl vs) | None => cpresent fs' (otl vs) end
  end.
Definition cset_keys_ok (fs: list (presence * ty)) (vs: list (option val)) : bool :=
  forallb keyable (cpresent fs vs) && pairwise_ord (map smallest_outer (cpresent fs vs)).

(* The domain: as for DER (Proofs/DerReference2.v der_all), with
   - F01: no EXPLICIT tag over a type whose encoder has no indefinite form (BOOLEAN, INTEGER, ENUMERATED,
     NULL, OBJECT IDENTIFIER, REAL);
   - SET: the component types present have a smallest tag, and these are distinct;
   - SET OF: the canonical encodings of the members are told apart by the padded comparison. *)
Fixpoint cer_all (T: ty) (v: val) {struct T} : bool :=
  match T with
  | TImp _ x => negb (bare x) && cer_all x v
  | TExp _ x => indef_base (base_of x) && cer_all x v
  | TSeqOf t => match v with VList xs => forallb (cer_all t) xs | _ => false end
  | TSetOf t => match v with
                | VList xs => forallb (cer_all t) xs
                              && setof_ties_ok (map (fun x => match cer t x with Some e => e | None => [] end) xs)
                | _ => false end
  | TSeq fs =>
      match v with
      | VRec vs =>
          (fix go (fs: list (presence * ty)) (vs: list (option val)) : bool :=
             match fs with
             | [] => true
             | (p, ft) :: fs' =>
                 (match p, ohd vs with
                  | Req, None => false
                  | _, None => true
                  | Req, Some x => cer_all ft x
                  | Opt, Some x => cer_all ft x && negb (f24c ft x)
                  | Def d, Some x => simple_base (base_of ft) && cer_all ft x && cer_all ft d
                  end) && go fs' (otl vs)
             end) fs vs
      | _ => false
      end
  | TSet fs =>
      match v with
      | VRec vs =>
          cset_keys_ok fs vs &&
          (fix go (fs: list (presence * ty)) (vs: list (option val)) : bool :=
             match fs with
             | [] => true
             | (p, ft) :: fs' =>
                 (match p, ohd vs with
                  | Req, None => false
                  | _, None => true
                  | Req, Some x => cer_all ft x
                  | Opt, Some x => cer_all ft x && negb (f24c ft x)
                  | Def d, Some x => simple_base (base_of ft) && cer_all ft x && cer_all ft d
                  end) && go fs' (otl vs)
             end) fs vs
      | _ => false
      end
  | TChoice alts =>
      match v with
      | VChoice i x =>
          (fix go (l: list ty) (k: nat) : bool :=
             match l, k with
             | a :: _, O => cer_all a x
             | _ :: r, S k' => go r k'
             | [], _ => false
             end) alts i
      | _ => false
      end
  | TAny => match v with VAny _ => true | _ => false end
  | _ => der_ref_base T v
  end.

Definition cfields_ok : list (presence * ty) -> list (option val) -> bool :=
  fix go (fs: list (presence * ty)) (vs: list (option val)) : bool :=
    match fs with
    | [] => true
    | (p, ft) :: fs' =>
        (match p, ohd vs with
         | Req, None => false
         | _, None => true
         | Req, Some x => cer_all ft x
         | Opt, Some x => cer_all ft x && negb (f24c ft x)
         | Def d, Some x => simple_base (base_of ft) && cer_all ft x && cer_all ft d
         end) && go fs' (otl vs)
    end.

Lemma cer_all_seq fs vs : cer_all (TSeq fs) (VRec vs) = cfields_ok fs vs. Proof. reflexivity. Qed.
Lemma cer_all_set fs vs : cer_all (TSet fs) (VRec vs) = cset_keys_ok fs vs && cfields_ok fs vs. Proof. reflexivity. Qed.
Lemma cfields_ok_cons p ft fs' vs :
  cfields_ok ((p, ft) :: fs') vs =
  (match p, ohd vs with
   | Req, None => false
   | _, None => true
   | Req, Some x => cer_all ft x
   | Opt, Some x => cer_all ft x && negb (f24c ft x)
   | Def d, Some x => simple_base (base_of ft) && cer_all ft x && cer_all ft d
   end) && cfields_ok fs' (otl vs).
Proof. reflexivity. Qed.

Lemma cer_all_choice alts i x :
  cer_all (TChoice alts) (VChoice i x) = match nth_error alts i with Some a => cer_all a x | None => false end.
Proof. exact (nth_loop (fun a => cer_all a x) false alts i). Qed.

Fixpoint cer_wrap_ok (T: ty) : bool :=
  match T with
  | TImp _ x => negb (bare x) && cer_wrap_ok x
  | TExp _ x => indef_base (base_of x) && cer_wrap_ok x
  | _ => true
  end.

Lemma cer_all_base : forall T v, cer_all T v = cer_wrap_ok T && cer_all (base_of T) v.
Proof.
  induction T as [| | | | | | | | n|fs IH|fs IH|t IH|t IH|alts IH| |tg x IH|tg x IH] using ty_ind'; intros v; try reflexivity.
  - cbn [cer_all cer_wrap_ok base_of]. rewrite IH, Bool.andb_assoc. reflexivity.
  - cbn [cer_all cer_wrap_ok base_of]. rewrite IH, Bool.andb_assoc. reflexivity.
Qed.

Lemma cer_wrap_imp_ok : forall T, cer_wrap_ok T = true -> imp_ok T = true.
Proof.
  induction T as [| | | | | | | | n|fs IH|fs IH|t IH|t IH|alts IH| |tg x IH|tg x IH] using ty_ind'; intros H; try reflexivity.
  - cbn [cer_wrap_ok imp_ok] in *. apply andb_true_iff in H. destruct H as [A B]. rewrite A, (IH B). reflexivity.
  - cbn [cer_wrap_ok imp_ok] in *. apply andb_true_iff in H. destruct H as [A B]. exact (IH B).
Qed.

Lemma cer_wrap_no_f01 : forall T, cer_wrap_ok T = true -> no_f01 T = true.
Proof.
  unfold no_f01.
  induction T as [| | | | | | | | n|fs IH|fs IH|t IH|t IH|alts IH| |tg x IH|tg x IH] using ty_ind'; intros H;
    try (apply Bool.orb_true_r).
  - cbn [cer_wrap_ok base_of no_exp] in *. apply andb_true_iff in H. destruct H as [A B]. exact (IH B).
  - cbn [cer_wrap_ok base_of no_exp] in *. apply andb_true_iff in H. destruct H as [A B]. rewrite A. reflexivity.
Qed.

Lemma cer_all_simple_val T v : simple_base (base_of T) = true -> cer_all T v = true ->
  der_ref_val T v = true /\ no_f01 T = true.
Proof.
  intros Hs H. rewrite cer_all_base in H. apply andb_true_iff in H. destruct H as [Hw Hb].
  split; [|apply cer_wrap_no_f01; exact Hw]. unfold der_ref_val.
  destruct (base_of T); try discriminate Hs; exact Hb.
Qed.

Definition cparts : list (presence * ty) -> list (option val) -> res (list (tagset * bytes)) :=
  enc_rec_fields_g CER EcSeq true cer_opts.
Definition celems (t: ty) : list val -> res (list bytes) := enc_elems_g CER t cer_opts.

Lemma enc_content_seq_cer fs fl vs : ef_omit_empty fl = true ->
  enc_content CER (TSeq fs) EcSeq fl cer_opts (VRec vs) = (do parts <- cparts fs vs; Ok (concat (map snd parts), true)).
Proof. intros H. rewrite enc_content_seq_g. cbn [omit_empty]. rewrite H. reflexivity. Qed.

Lemma enc_content_set_cer fs fl vs :
  enc_content CER (TSet fs) EcSetCer fl cer_opts (VRec vs) =
  (do parts <- cparts fs vs; Ok (concat (map snd (sort_by tagset_ltb fst parts)), true)).
Proof. exact (enc_content_set_g CER fs EcSetCer fl cer_opts vs). Qed.

Lemma cparts_cons p ft fs' vs :
  cparts ((p, ft) :: fs') vs =
  let emit (x: val) := do b <- enc CER ft (mkOpts false 1000 (match p with Opt => true | _ => false end)) x;
                       do rest <- cparts fs' (otl vs);
                       Ok ((smallest_outer ft, b) :: rest) in
  match p, ohd vs with
  | Opt, None => cparts fs' (otl vs)
  | Def d, None => cparts fs' (otl vs)
  | Def d, Some x => match val_py_eq x d with
                     | Some true => cparts fs' (otl vs)
                     | Some false => emit x
                     | None => Err EUnmodelled end
  | Req, None => if all_optional_container ft then emit (VRec []) else Err EMalformed
  | _, Some x => emit x
  end.
Proof. exact (enc_rec_fields_g_cons CER EcSeq true cer_opts p ft fs' vs). Qed.

(* On the domain the encoder's and the reference's record loops take the same step at a component: both
   leave it out, or both write the value it holds; the encoder alone stops where Python's == on the
   DEFAULT is not modelled *)
Lemma cfields_step p ft fs' vs : cfields_ok ((p, ft) :: fs') vs = true ->
  cfields_ok fs' (otl vs) = true /\
  ((cparts ((p, ft) :: fs') vs = cparts fs' (otl vs) /\
    canon_fields true ((p, ft) :: fs') vs = canon_fields true fs' (otl vs) /\
    canon_set_fields true ((p, ft) :: fs') vs = canon_set_fields true fs' (otl vs)) \/
   (exists i x, ohd vs = Some x /\ cer_all ft x = true /\ (i = false \/ f24c ft x = false) /\
      cparts ((p, ft) :: fs') vs =
        (do b <- enc CER ft (mkOpts false 1000 i) x; do rest <- cparts fs' (otl vs); Ok ((smallest_outer ft, b) :: rest)) /\
      canon_fields true ((p, ft) :: fs') vs =
        opt_bind (canon true ft x) (fun e => opt_bind (canon_fields true fs' (otl vs)) (fun r => Some (e :: r))) /\
      canon_set_fields true ((p, ft) :: fs') vs =
        opt_bind (canon true ft x) (fun e => opt_bind (canon_set_fields true fs' (otl vs))
          (fun r => Some ((min_first_tag ft, e) :: r)))) \/
   (exists d x, p = Def d /\ ohd vs = Some x /\ val_py_eq x d = None /\ cparts ((p, ft) :: fs') vs = Err EUnmodelled)).
Proof.
  rewrite cfields_ok_cons, cparts_cons, canon_fields_cons, canon_set_fields_cons. cbv zeta.
  intros H. apply andb_true_iff in H. destruct H as [H1 H2]. split; [exact H2|].
  destruct p as [| |d]; destruct (ohd vs) as [x|].
  - right; left. exists false, x. auto 8.
  - discriminate H1.
  - apply andb_true_iff in H1. destruct H1 as [Hx Hf]. apply Bool.negb_true_iff in Hf.
    right; left. exists true, x. auto 8.
  - left. auto.
  - apply andb_true_iff in H1. destruct H1 as [H1 Hdd]. apply andb_true_iff in H1. destruct H1 as [Hs Hx].
    destruct (cer_all_simple_val ft x Hs Hx) as [Hxr _]. destruct (cer_all_simple_val ft d Hs Hdd) as [Hdr _].
    rewrite <- (deep_simple ft _ Hs) in Hxr. rewrite <- (deep_simple ft _ Hs) in Hdr.
    destruct (val_py_eq x d) as [[|]|] eqn:Eq.
    + rewrite (py_eq_is_default ft x d true Hs Hxr Hdr Eq). left. auto.
    + rewrite (py_eq_is_default ft x d false Hs Hxr Hdr Eq). right; left. exists false, x. auto 8.
    + right; right. exists d, x. auto.
  - left. auto.
Qed.

(* of a whole encoding: the item written with the ifNotEmpty flag i is the reference's *)
Definition Pcer (T: ty) : Prop := forall i v b,
  cer_all T v = true -> (i = false \/ f24c T v = false) ->
  enc CER T (mkOpts false 1000 i) v = Ok b -> cer T v = Some b.

Definition container (B: ty) : Prop :=
  match B with TSeq _ | TSet _ | TSeqOf _ | TSetOf _ | TChoice _ | TAny => True | _ => False end.

(* of the contents: constructed, under an encoder with the indefinite form; the reference's encoding of
   the base type is these contents under the base type's tags *)
Definition Qcer (B: ty) : Prop := container B /\ forall v cd fl content ic,
  cer_all B v = true -> concrete_encoder CER B = Ok (cd, fl) ->
  enc_content CER B cd fl cer_opts v = Ok (content, ic) ->
  ic = true /\ ef_indef fl = true /\
  exists tsb, tagset_of B = Ok tsb /\ Forall (fun t => tcon t = true) tsb /\
              canon true B v = Some (cwrap true tsb content).

(* ifNotEmpty leaves out only what finding F24 is about: empty contents under CER's own tags *)
Lemma ifne_kept T v i t1 r1 tsb (content: bytes) : (i = false \/ f24c T v = false) -> tagset_of T = Ok (t1 :: r1) ->
  container (base_of T) -> tagset_of (base_of T) = Ok tsb ->
  canon true (base_of T) v = Some (cwrap true tsb content) -> i = false \/ content <> [].
Proof.
  intros Hi Ets HB Htsb Hcan. destruct Hi as [Hi|Hi]; [left; exact Hi|]. right. intros ->.
  assert (Hnb: bare T = false).
  { destruct (bare T) eqn:Eb; [|reflexivity]. rewrite (bare_tagset T Eb) in Ets. discriminate Ets. }
  unfold f24c, f24c_base, cer in Hi. rewrite Hnb, Hcan in Hi.
  destruct (base_of T); try contradiction; injection Htsb as <-; discriminate Hi.
Qed.

Theorem Pcer_of_Q T : Qcer (base_of T) -> Pcer T.
Proof.
  intros [HB HQ] i v b Hd Hi He. rewrite cer_all_base in Hd. apply andb_true_iff in Hd. destruct Hd as [Hw Hdb].
  pose proof (cer_wrap_imp_ok T Hw) as Himp.
  apply (enc_inv CER) in He. destruct He as (cd & fl & ts & content & ic & Ece & Ets & Ec & He).
  destruct (HQ v cd fl content ic Hdb Ece Ec) as (-> & Hfl & tsb & Htsb & Hcons & Hcan).
  rewrite Hfl in He.
  pose proof (tagset_all_cons2 T tsb ts Himp Htsb Hcons Ets) as Hall.
  unfold cer. rewrite (canon_wrappers_c T v true content tsb Himp Htsb Hcan ts Ets). f_equal. symmetry.
  destruct ts as [|t1 r1].
  - cbn [frame] in He. apply ok_inj in He. symmetry. exact He.
  - exact (frame_cwrap (t1 :: r1) content i b Hall (ifne_kept T v i t1 r1 tsb content Hi Ets HB Htsb Hcan) He).
Qed.

Theorem Pcer_simple T : simple_base (base_of T) = true -> Pcer T.
Proof.
  intros Hs i v b Hd _ He. destruct (cer_all_simple_val T v Hs Hd) as [Hv Hf].
  assert (He': enc CER T (mkOpts false 1000 false) v = Ok b).
  { destruct i; [rewrite <- (cer_simple_ifne T v Hv)|]; exact He. }
  exact (cer_is_reference_simple T v false 1000 b Hv Hf He').
Qed.

Lemma cfields_sound : forall fs, Forall (fun f => Pcer (snd f)) fs ->
  forall vs parts, cfields_ok fs vs = true -> cparts fs vs = Ok parts ->
  canon_fields true fs vs = Some (map snd parts) /\
  (forallb keyable (cpresent fs vs) = true ->
   canon_set_fields true fs vs = Some (map (fun p => (ref_key (fst p), snd p)) parts)).
Proof.
  induction fs as [|[p ft] fs' IH]; intros Hall vs parts Hd Hp.
  - cbn in Hp. injection Hp as <-. split; [reflexivity|intros _; reflexivity].
  - inversion Hall as [|? ? Hft Hall']; subst. cbn [snd] in Hft. specialize (IH Hall' (otl vs)).
    destruct (cfields_step p ft fs' vs Hd)
      as [Hd2 [(E1 & E2 & E3)|[(i & x & Ex & Hx & Hi & E1 & E2 & E3)|(d & x & _ & _ & _ & E1)]]];
      rewrite E1 in Hp; [| |discriminate Hp]; rewrite E2, E3; cbn [cpresent].
    + destruct (IH parts Hd2 Hp) as [I1 I2]. split; [exact I1|]. intros Hk. apply I2.
      destruct (ohd vs); [cbn [forallb] in Hk; apply andb_true_iff in Hk; tauto|exact Hk].
    + rewrite Ex.
      destruct (enc CER ft (mkOpts false 1000 i) x) as [b0|] eqn:Eb; cbn [bind] in Hp; [|discriminate Hp].
      destruct (cparts fs' (otl vs)) as [rest|] eqn:Er; cbn [bind] in Hp; [|discriminate Hp].
      injection Hp as <-.
      pose proof (Hft i x b0 Hx Hi Eb) as Hc. unfold cer in Hc.
      destruct (IH rest Hd2 eq_refl) as [IH1 IH2].
      split; [rewrite Hc, IH1; reflexivity|].
      intros Hk. cbn [forallb] in Hk. apply andb_true_iff in Hk. destruct Hk as [Hk1 Hk2].
      rewrite Hc, (IH2 Hk2). cbn [opt_bind map fst snd]. destruct (key_agree ft Hk1) as [_ ->]. reflexivity.
Qed.

(* the sort keys written are those of the component types present, some of these left out *)
Lemma cparts_keys : forall fs vs parts, cfields_ok fs vs = true -> cparts fs vs = Ok parts ->
  (forall Q, forallb Q (map smallest_outer (cpresent fs vs)) = true -> forallb Q (map fst parts) = true) /\
  (pairwise_ord (map smallest_outer (cpresent fs vs)) = true -> pairwise_ord (map fst parts) = true).
Proof.
  induction fs as [|[p ft] fs' IH]; intros vs parts Hd Hp.
  - cbn in Hp. injection Hp as <-. split; [intros Q _; reflexivity|intros _; reflexivity].
  - destruct (cfields_step p ft fs' vs Hd) as [Hd2 [(E1 & _)|[(i & x & Ex & _ & _ & E1 & _)|(d & x & _ & _ & _ & E1)]]];
      rewrite E1 in Hp; [| |discriminate Hp]; cbn [cpresent].
    + destruct (IH (otl vs) parts Hd2 Hp) as [IH1 IH2]. destruct (ohd vs); [|split; assumption]. split.
      * intros Q HQ. cbn [map forallb] in HQ. apply andb_true_iff in HQ. apply IH1. tauto.
      * intros HP. cbn [map pairwise_ord] in HP. apply andb_true_iff in HP. apply IH2. tauto.
    + rewrite Ex.
      destruct (enc CER ft (mkOpts false 1000 i) x) as [b0|]; cbn [bind] in Hp; [|discriminate Hp].
      destruct (cparts fs' (otl vs)) as [rest|] eqn:Er; cbn [bind] in Hp; [|discriminate Hp].
      injection Hp as <-. destruct (IH (otl vs) rest Hd2 Er) as [IH1 IH2].
      cbn [map fst]. split.
      * intros Q HQ. cbn [forallb] in *. apply andb_true_iff in HQ. destruct HQ as [H1 H2]. rewrite H1, (IH1 Q H2). reflexivity.
      * intros HP. cbn [pairwise_ord] in *. apply andb_true_iff in HP. destruct HP as [H1 H2].
        rewrite (IH1 _ H1), (IH2 H2). reflexivity.
Qed.

Lemma celems_sound t : Pcer t ->
  forall xs parts, forallb (cer_all t) xs = true -> celems t xs = Ok parts ->
  opt_all (map (canon true t) xs) = Some parts.
Proof.
  intros Ht xs parts Hd Hp. apply opt_all_F2. rewrite forallb_forall in Hd.
  apply Forall2_impl_in with (2 := proj1 (enc_elems_g_Forall2 CER t cer_opts xs parts) Hp). intros x p Hx _ E.
  exact (Ht false x p (Hd x Hx) (or_introl eq_refl) E).
Qed.

Lemma opt_all_hd_map (f: val -> option bytes) : forall xs es, opt_all (map f xs) = Some es ->
  map (fun x => match f x with Some e => e | None => [] end) xs = es.
Proof.
  induction xs as [|x r IH]; intros es H.
  - cbn in H. injection H as <-. reflexivity.
  - cbn [map opt_all] in H. destruct (f x) as [e|] eqn:E; [|discriminate H].
    destruct (opt_all (map f r)) as [es'|] eqn:Er; cbn [opt_bind] in H; [|discriminate H]. injection H as <-.
    cbn [map]. rewrite E, (IH es' eq_refl). reflexivity.
Qed.

Lemma keyable_singles l : forallb keyable l = true -> forallb single (map smallest_outer l) = true.
Proof.
  induction l as [|a l IH]; [reflexivity|]. cbn [forallb map]. intros H. apply andb_true_iff in H. destruct H as [A B].
  destruct (key_agree a A) as [-> _]. rewrite (IH B). reflexivity.
Qed.

Lemma cempty16 : cwrap true [utag true 16] [] = [48; 128; 0; 0]. Proof. reflexivity. Qed.
Lemma cempty17 : cwrap true [utag true 17] [] = [49; 128; 0; 0]. Proof. reflexivity. Qed.

(* proved of every type: its base is simple, or the contents fact holds of it *)
Definition Rcer (T: ty) : Prop := simple_base (base_of T) = true \/ Qcer (base_of T).

Lemma Pcer_of_R T : Rcer T -> Pcer T.
Proof. intros [Hs|HQ]; [apply Pcer_simple|apply Pcer_of_Q]; assumption. Qed.

Theorem Rcer_all : forall T, Rcer T.
Proof.
  induction T as [| | | | | | | | n|fs IH|fs IH|t IH|t IH|alts IH| |tg x IH|tg x IH] using ty_ind'.
  16: { (* IMPLICIT: the same base *) exact IH. }
  16: { (* EXPLICIT *) exact IH. }
  1-9: (left; reflexivity).
  all: right; cbn [base_of]; split; [exact I|]; intros v cd fl content ic Hd Hce He.
  - (* SEQUENCE *)
    destruct v as [bb|z|bs|bo|cs| |arcs|r|vs|xs|i x|ab]; try discriminate Hd.
    rewrite cer_all_seq in Hd. encoder_is Hce. rewrite enc_content_seq_cer in He by reflexivity.
    destruct (cparts fs vs) as [parts|] eqn:Ep; cbn [bind] in He; [|discriminate He].
    injection He as <- <-.
    pose proof (Forall_impl (fun f => Pcer (snd f)) (fun f Hf => Pcer_of_R _ Hf) IH) as HP.
    destruct (cfields_sound fs HP vs parts Hd Ep) as [Hc _].
    assert (Hcan: canon true (TSeq fs) (VRec vs) = Some (cwrap true [utag true 16] (concat (map snd parts)))).
    { rewrite canon_seq, Hc. reflexivity. }
    split; [reflexivity|split; [reflexivity|]].
    exists [utag true 16]. split; [reflexivity|split; [constructor; [reflexivity|constructor]|exact Hcan]].
  - (* SET *)
    destruct v as [bb|z|bs|bo|cs| |arcs|r|vs|xs|i x|ab]; try discriminate Hd.
    rewrite cer_all_set in Hd. apply andb_true_iff in Hd. destruct Hd as [Hk Hd].
    unfold cset_keys_ok in Hk. apply andb_true_iff in Hk. destruct Hk as [Hk1 Hk2].
    encoder_is Hce. rewrite enc_content_set_cer in He.
    destruct (cparts fs vs) as [parts|] eqn:Ep; cbn [bind] in He; [|discriminate He].
    injection He as <- <-.
    pose proof (Forall_impl (fun f => Pcer (snd f)) (fun f Hf => Pcer_of_R _ Hf) IH) as HP.
    destruct (cfields_sound fs HP vs parts Hd Ep) as [_ Hes]. specialize (Hes Hk1).
    destruct (cparts_keys fs vs parts Hd Ep) as [Hq1 Hq2].
    pose proof (Hq1 single (keyable_singles _ Hk1)) as Hsing. pose proof (Hq2 Hk2) as Hord.
    assert (Hcan: canon true (TSet fs) (VRec vs)
                  = Some (cwrap true [utag true 17] (concat (map snd (sort_by tagset_ltb fst parts))))).
    { rewrite canon_set, Hes. cbn [opt_bind]. rewrite (set_sort_is_reference parts Hsing Hord). reflexivity. }
    split; [reflexivity|split; [reflexivity|]].
    exists [utag true 17]. split; [reflexivity|split; [constructor; [reflexivity|constructor]|exact Hcan]].
  - (* SEQUENCE OF *)
    destruct v as [bb|z|bs|bo|cs| |arcs|r|vs|xs|i x|ab]; try discriminate Hd. cbn [cer_all] in Hd.
    encoder_is Hce. rewrite enc_content_seqof_g in He. cbn [listof_finish] in He. fold (celems t) in He.
    destruct (celems t xs) as [parts|] eqn:Ep; cbn [bind] in He; [|discriminate He].
    injection He as <- <-.
    assert (Hcan: canon true (TSeqOf t) (VList xs) = Some (cwrap true [utag true 16] (concat parts))).
    { rewrite canon_seqof, (celems_sound t (Pcer_of_R t IH) xs parts Hd Ep). reflexivity. }
    split; [reflexivity|split; [reflexivity|]].
    exists [utag true 16]. split; [reflexivity|split; [constructor; [reflexivity|constructor]|exact Hcan]].
  - (* SET OF *)
    destruct v as [bb|z|bs|bo|cs| |arcs|r|vs|xs|i x|ab]; try discriminate Hd. cbn [cer_all] in Hd.
    apply andb_true_iff in Hd. destruct Hd as [Hd1 Hd2].
    encoder_is Hce. rewrite enc_content_setof_g in He. cbn [listof_finish] in He. fold (celems t) in He.
    destruct (celems t xs) as [parts|] eqn:Ep; cbn [bind] in He; [|discriminate He].
    injection He as <- <-.
    pose proof (celems_sound t (Pcer_of_R t IH) xs parts Hd1 Ep) as Hes.
    unfold cer in Hd2. rewrite (opt_all_hd_map (canon true t) xs parts Hes) in Hd2.
    assert (Hcan: canon true (TSetOf t) (VList xs) = Some (cwrap true [utag true 17] (concat (sort_setof parts)))).
    { rewrite canon_setof, Hes. cbn [opt_bind].
      rewrite (sort_setof_is_reference parts (ties_ok_pad_distinct parts Hd2)). reflexivity. }
    split; [reflexivity|split; [reflexivity|]].
    exists [utag true 17]. split; [reflexivity|split; [constructor; [reflexivity|constructor]|exact Hcan]].
  - (* CHOICE *)
    destruct v as [bb|z|bs|bo|cs| |arcs|r|vs|xs|i x|ab]; try discriminate Hd.
    rewrite cer_all_choice in Hd. encoder_is Hce. rewrite enc_content_choice_g in He.
    destruct (nth_error alts i) as [a|] eqn:Ea; [|discriminate Hd].
    destruct (enc CER a cer_opts x) as [p|] eqn:Ep; cbn [bind] in He; [|discriminate He].
    injection He as <- <-.
    rewrite Forall_forall in IH. pose proof (Pcer_of_R a (IH a (nth_error_In _ _ Ea))) as Pa.
    pose proof (Pa false x p Hd (or_introl eq_refl) Ep) as Hc. unfold cer in Hc.
    assert (Hcan: canon true (TChoice alts) (VChoice i x) = Some p) by (rewrite canon_choice, Ea; exact Hc).
    split; [reflexivity|split; [reflexivity|]].
    exists []. split; [reflexivity|split; [constructor|exact Hcan]].
  - (* ANY *)
    destruct v as [bb|z|bs|bo|cs| |arcs|r|vs|xs|i x|ab]; try discriminate Hd.
    encoder_is Hce. cbn [enc_content octets_of o_def cer_opts negb] in He. injection He as <- <-.
    split; [reflexivity|split; [reflexivity|]].
    exists []. split; [reflexivity|split; [constructor|reflexivity]].
Qed.

(* Soundness of the CER encoder against the reference, whole universe, any mode asked for *)
Theorem cer_is_reference_all : forall T v d k b,
  cer_all T v = true -> encode CER d k T v = Ok b -> X690.cer T v = Some b.
Proof.
  intros T v d k b Hd He. rewrite encode_cer_fixed in He.
  exact (Pcer_of_R T (Rcer_all T) false v b Hd (or_introl eq_refl) He).
Qed.

(* the type of Proofs/DerReference2.v der_is_reference_all_witness under CER, called with defMode = true and
   maxChunkSize = 7 (both overridden): every constructed encoding indefinite, the SET in the order of the
   smallest tags of the component types (the CHOICE { OCTET STRING, [0], [5] } by UNIVERSAL 4 although [5]
   is chosen), the SET OF in the order of the padded member encodings *)
Example cer_is_reference_all_witness :
  let T := TExp (mkTag Appl false 1) (TSet [
     (Req, TImp (mkTag Ctx false 1) TInt);
     (Req, TChoice [TOcts; TImp (mkTag Ctx false 0) TBool; TExp (mkTag Ctx false 5) (TChoice [TNull; TAny])]);
     (Opt, TSetOf (TChoice [TInt; TStr 12; TAny]));
     (Def (VInt 7), TInt);
     (Opt, TExp (mkTag Priv false 2) TAny);
     (Req, TSeq [(Opt, TSeqOf TBool); (Req, TSetOf TNull)])]) in
  let v := VRec [Some (VInt 1);
     Some (VChoice 2 (VChoice 1 (VAny [4;1;9])));
     Some (VList [VChoice 1 (VOcts [104;105]); VChoice 0 (VInt 300); VChoice 2 (VAny [1;1;0]); VChoice 0 (VInt 3)]);
     Some (VInt 8); Some (VAny [5;0]);
     Some (VRec [Some (VList [VBool true]); Some (VList [])])] in
  let b := [97; 128; 49; 128; 2; 1; 8; 165; 128; 4; 1; 9; 0; 0; 48; 128; 48;
            128; 1; 1; 255; 0; 0; 49; 128; 0; 0; 0; 0; 49; 128; 1; 1; 0; 2; 1;
            3; 2; 2; 1; 44; 12; 2; 104; 105; 0; 0; 129; 1; 1; 226; 128; 5; 0;
            0; 0; 0; 0; 0; 0] in
  cer_all T v = true /\ encode CER true 7 T v = Ok b /\ cer T v = Some b.
Proof. vm_compute. repeat split. Qed.

(* SET OF whose members are themselves indefinite-length encodings; a 1001-octet string segmented
   inside a SEQUENCE OF *)
Example cer_is_reference_all_witness_nested :
  (let T := TSetOf (TSeqOf TInt) in let v := VList [VList [VInt 2]; VList []; VList [VInt 1; VInt 5]] in
   let b := [49; 128; 48; 128; 0; 0; 48; 128; 2; 1; 1; 2; 1; 5; 0; 0; 48; 128; 2; 1; 2; 0; 0; 0; 0] in
   cer_all T v = true /\ encode CER false 0 T v = Ok b /\ cer T v = Some b) /\
  (let T := TSeqOf TOcts in let v := VList [VOcts (repeat 65 1001%nat)] in
   cer_all T v = true /\ exists b, encode CER true 0 T v = Ok b /\ cer T v = Some b /\ length b = 1015%nat).
Proof.
  split; [vm_compute; repeat split|]. cbv zeta. split; [vm_compute; reflexivity|].
  eexists. split; [vm_compute; reflexivity|]. split; vm_compute; reflexivity.
Qed.

(* SET under CER, a CHOICE component: placed by the smallest tag of the CHOICE type on both sides (9.3),
   where DER (10.3) places it by the tag chosen *)
Example cer_set_choice_component :
  let T := TSet [(Req, TChoice [TOcts; TBool]); (Req, TInt)] in let v := VRec [Some (VChoice 0 (VOcts [9])); Some (VInt 1)] in
  cer_all T v = true /\ encode CER true 0 T v = Ok [49; 128; 4; 1; 9; 2; 1; 1; 0; 0] /\ cer T v = Some [49; 128; 4; 1; 9; 2; 1; 1; 0; 0]
  /\ encode DER true 0 T v = Ok [49; 6; 2; 1; 1; 4; 1; 9] /\ der T v = Some [49; 6; 2; 1; 1; 4; 1; 9].
Proof. vm_compute. repeat split. Qed.

(* finding F01 inside a container: [1] EXPLICIT BOOLEAN keeps a definite length and still gets 00 00 *)
Example cer_disagree_F01_component :
  let T := TSeq [(Req, TExp (mkTag Ctx false 1) TBool); (Req, TInt)] in let v := VRec [Some (VBool true); Some (VInt 5)] in
  encode CER true 0 T v = Ok [48; 128; 161; 3; 1; 1; 255; 0; 0; 2; 1; 5; 0; 0] /\
  cer T v = Some [48; 128; 161; 128; 1; 1; 255; 0; 0; 2; 1; 5; 0; 0] /\ cer_all T v = false.
Proof. vm_compute. repeat split. Qed.

(* finding F24 under CER: an empty OPTIONAL SET OF, an [0] EXPLICIT ANY holding no octets *)
Example cer_disagree_F24 :
  (let T := TSeq [(Opt, TSetOf TInt)] in let v := VRec [Some (VList [])] in
   encode CER true 0 T v = Ok [48; 128; 0; 0] /\ cer T v = Some [48; 128; 49; 128; 0; 0; 0; 0] /\ cer_all T v = false) /\
  (let T := TSeq [(Opt, TExp (mkTag Ctx false 0) TAny)] in let v := VRec [Some (VAny [])] in
   encode CER true 0 T v = Ok [48; 128; 0; 0] /\ cer T v = Some [48; 128; 160; 128; 0; 0; 0; 0] /\ cer_all T v = false).
Proof. vm_compute. repeat split. Qed.

(* SET OF under CER with members that the padded comparison cannot tell apart (arbitrary octets in an ANY
   inside an indefinite-length member: 30 80 00 00 against 30 80 00 00 00 00): the library's stable sort
   keeps the order given, the reference's insertion reverses it - the reason for setof_ties_ok *)
Example cer_disagree_setof_ties :
  let T := TSetOf (TSeq [(Req, TAny)]) in let v := VList [VRec [Some (VAny [])]; VRec [Some (VAny [0; 0])]] in
  encode CER true 0 T v = Ok [49; 128; 48; 128; 0; 0; 48; 128; 0; 0; 0; 0; 0; 0] /\
  cer T v = Some [49; 128; 48; 128; 0; 0; 0; 0; 48; 128; 0; 0; 0; 0] /\ cer_all T v = false.
Proof. vm_compute. repeat split. Qed.

(* setof_ties_ok holds of any members the reference's own parser reads as one TLV each
   (definite or indefinite, to any depth): BER encodings are self-delimiting *)

Theorem parsed_members_ties_ok es : Forall (fun e => exists n, parses e n) es -> setof_ties_ok es = true.
Proof.
  intros H. apply pad_distinct_ties_ok. intros a b Ha Hb E. rewrite Forall_forall in H.
  destruct (H a Ha) as (na & Hra & Hpa). destruct (H b Hb) as (nb & Hrb & Hpb).
  unfold pad_to in E.
  set (za := repeat 0 (ContainerCodecDefs.max_len es - length a)) in *.
  set (zb := repeat 0 (ContainerCodecDefs.max_len es - length b)) in *.
  pose proof (Hpa (length (a ++ za)) za ltac:(rewrite app_length; lia)) as P1.
  pose proof (Hpb (length (b ++ zb)) zb ltac:(rewrite app_length; lia)) as P2.
  rewrite E in P1. rewrite P1 in P2. injection P2 as -> _. rewrite <- Hra, <- Hrb. reflexivity.
Qed.

Example parsed_members_ties_ok_witness :
  setof_ties_ok [[48; 128; 0; 0]; [48; 128; 2; 1; 1; 2; 1; 5; 0; 0]; [48; 128; 2; 1; 2; 0; 0]] = true.
Proof. vm_compute. reflexivity. Qed.

Print Assumptions canon_wrappers_c.
Print Assumptions key_agree.
Print Assumptions Rcer_all.
Print Assumptions cer_is_reference_all.
Print Assumptions parsed_members_ties_ok.
