(* The type object a schemaless decode builds carries exactly the tags met on the wire (C16):
   re-encoding it writes the same identifier octets. *)
From Coq Require Import Lia.
From PV Require Import Base.Bytes Model.Tag Model.Types Model.Proc Model.Enc Model.Dec.
From PV Require Export Proofs.Basics.
Local Open Scope N_scope.

Definition non_universal (t: tag) : bool := negb (cls_eqb (tcls t) Univ).

Lemma wrap_explicit_tags : forall outer T ts0,
  forallb non_universal outer = true -> tagset_of T = Ok ts0 ->
  exists ts, tagset_of (wrap_explicit outer T) = Ok ts /\ tagset_eqb ts (ts0 ++ outer) = true.
Proof.
  induction outer as [|t r IH]; intros T ts0 Hnu HT; cbn [wrap_explicit].
  - exists ts0. rewrite app_nil_r. split; [exact HT|apply tagset_eqb_refl].
  - cbn [forallb] in Hnu. apply Bool.andb_true_iff in Hnu. destruct Hnu as [Ht Hr].
    assert (HE: tagset_of (TExp t T) = Ok (ts0 ++ [mkTag (tcls t) true (tnum t)])).
    { cbn [tagset_of]. rewrite HT. cbn [bind]. unfold tag_explicitly.
      unfold non_universal in Ht. destruct (tcls t); try reflexivity. discriminate. }
    destruct (IH (TExp t T) _ Hr HE) as (ts & Hts & Heq).
    exists ts. split; [exact Hts|].
    rewrite <- app_assoc in Heq. cbn [app] in Heq.
    assert (Hsame: tagset_eqb (ts0 ++ mkTag (tcls t) true (tnum t) :: r) (ts0 ++ t :: r) = true).
    { rewrite tagset_eqb_app by reflexivity. rewrite tagset_eqb_refl. cbn.
      unfold tag_eqb at 1. cbn [tcls tnum]. rewrite cls_eqb_refl, N.eqb_refl. cbn. apply tagset_eqb_refl. }
    exact (tagset_eqb_trans _ _ _ Heq Hsame).
Qed.

(* the decoded object's tag set is the wire tag set (up to the format bit, which TagSet equality ignores) *)
Theorem schemaless_ty_tags : forall proto p0 t0 outer,
  tagset_of proto = Ok [p0] -> forallb non_universal outer = true ->
  exists ts, tagset_of (schemaless_ty proto (t0 :: outer)) = Ok ts /\ tagset_eqb ts (t0 :: outer) = true.
Proof.
  intros proto p0 t0 outer Hp Hnu. unfold schemaless_ty, tagset_of'. rewrite Hp.
  destruct (tag_eqb p0 t0) eqn:E.
  - destruct (wrap_explicit_tags outer proto [p0] Hnu Hp) as (ts & Hts & Heq).
    exists ts. split; [exact Hts|]. cbn [app] in Heq.
    apply (tagset_eqb_trans _ _ _ Heq). rewrite tagset_eqb_cons, E. apply tagset_eqb_refl.
  - assert (HI: tagset_of (TImp t0 proto) = Ok [mkTag (tcls t0) (tcon p0) (tnum t0)]).
    { cbn [tagset_of]. rewrite Hp. reflexivity. }
    destruct (wrap_explicit_tags outer (TImp t0 proto) _ Hnu HI) as (ts & Hts & Heq).
    exists ts. split; [exact Hts|]. cbn [app] in Heq.
    revert Heq. destruct ts as [|a ts']; [discriminate|]. cbn. intros H.
    apply Bool.andb_true_iff in H. destruct H as [H1 H2]. rewrite H2, Bool.andb_true_r.
    unfold tag_eqb in *. cbn [tcls tnum] in H1. exact H1.
Qed.
