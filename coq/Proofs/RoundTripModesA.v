(* Round trip under every encoder mode (C01/C02), part A: what the framing of any defMode looks like
   to the decoder.  End-of-octets handling (00 00 is taken for the marker only where it is allowed, and
   nothing the encoder frames starts with a zero octet), the header with length octet 80, and the
   shape and size of what frame_one / frame_outer write.  The levels themselves are taken apart in
   RoundTripModes3a.v, under any guiding specification. *)
From Coq Require Import Lia.
From PV Require Import Base.Bytes Model.Tag Model.TableTypes Model.Types Model.Proc Model.Enc Model.Dec Gen.Tables
     Proofs.ProcBind Proofs.RunLemmas Proofs.TagOctets Proofs.TagAlgebra Proofs.DecHeader Proofs.DecFrame Proofs.DecPrim
     Proofs.TagsetShape Proofs.Schemaless Proofs.RoundTrip1 Proofs.RoundTrip2.
Local Open Scope N_scope.

Lemma setpos_back s n : setpos (adv s n) (pos (adv s n) - n) = s.
Proof.
  unfold adv, setpos. cbn [pos arrived closed mark].
  replace (pos s + n - n)%nat with (pos s) by lia. destruct s; reflexivity.
Qed.

(* where end-of-octets is allowed, 00 00 is taken for it *)
Lemma eoo_read c f sp acc rs sfun s tl : support_indef c = true -> avail s = [0; 0] ++ tl ->
  resume (dec_call c (S f) sp acc rs true sfun) s = inr (Ok DEoo, adv s 2).
Proof.
  intros Hsi Hav. cbn [dec_call]. unfold dec_body. rewrite Hsi. cbn [andb]. cbv zeta.
  rewrite (resume_readN s 2 [0; 0] tl _ Hav eq_refl). reflexivity.
Qed.

(* anything that does not start with a zero octet is not: the decoder seeks back and goes on
   ("ae": the allowEoo flag of the decoder's entry point) *)
Lemma ae_skip c f sp acc rs sfun s b0 b1 rest : support_indef c = true ->
  avail s = b0 :: b1 :: rest -> b0 <> 0 ->
  resume (dec_call c (S f) sp acc rs true sfun) s = resume (dec_call c (S f) sp acc rs false sfun) s.
Proof.
  intros Hsi Hav Hb0. cbn [dec_call]. unfold dec_body. rewrite Hsi. cbn [andb]. cbv zeta.
  rewrite (resume_readN s 2 [b0; b1] rest _ Hav eq_refl).
  destruct b0 as [|p]; [congruence|].
  cbn [resume]. rewrite setpos_back. reflexivity.
Qed.

Lemma ae_any c f sp acc sfun b v : support_indef c = true -> (2 <= length b)%nat -> hd 0 b <> 0 ->
  consumes (dec_call c f sp acc None false sfun) b v ->
  forall ae, consumes (dec_call c f sp acc None ae sfun) b v.
Proof.
  intros Hsi Hlen Hhd H [|]; [|exact H]. intros s tl Hav.
  destruct (H s tl Hav) as (s' & Hr & Hrest).
  destruct f as [|f]; [cbn in Hr; discriminate|].
  destruct b as [|b0 [|b1 rest]]; cbn [length] in Hlen; try lia. cbn [hd] in Hhd.
  rewrite (ae_skip c f sp acc None sfun s b0 b1 (rest ++ tl) Hsi Hav Hhd).
  exists s'. split; [exact Hr|exact Hrest].
Qed.

(* the first identifier octet is zero only for UNIVERSAL 0, primitive *)
Lemma enc_tag_hd t c : tcls t <> Univ \/ tnum t <> 0 -> hd 0 (enc_tag t c) <> 0.
Proof.
  intros H. unfold enc_tag.
  destruct (N.ltb_spec (tnum t) 31) as [Hs|Hl]; cbn [hd]; intros E; apply N.lor_eq_0_iff in E; destruct E as [E1 E2].
  - apply N.lor_eq_0_iff in E1. destruct E1 as [E1 _]. destruct H as [H|H]; [|congruence].
    destruct (tcls t); try discriminate E1. congruence.
  - discriminate E2.
Qed.

Lemma hd_app {X} (d: X) (a b: list X) : a <> [] -> hd d (a ++ b) = hd d a.
Proof. destruct a; [congruence|reflexivity]. Qed.

Lemma enc_tag_ne t c : enc_tag t c <> [].
Proof. unfold enc_tag. destruct (N.ltb (tnum t) 31); discriminate. Qed.

Lemma dec_call_header_indef : forall c f sp acc sfun t cns body s,
  support_indef c = true ->
  avail s = enc_tag t cns ++ [128] ++ body ->
  (length (enc_tag t cns) <= S f)%nat ->
  resume (dec_call c (S f) sp acc None false sfun) s =
  resume (dispatch c (dec_call c f) f sp (wire t cns :: acc) None sfun)
         (adv (setmark s (pos s)) (length (enc_tag t cns) + 1)).
Proof.
  intros c f sp acc sfun t cns body s Hsi Hav Hlen.
  cbn [dec_call]. unfold dec_body. cbn [andb]. cbn [resume].
  set (s0 := setmark s (pos s)).
  assert (Hav0: avail s0 = enc_tag t cns ++ [128] ++ body) by exact Hav.
  pose proof (dec_enc_tag t cns ([128] ++ body)) as Hid.
  assert (Hcons: Nat.sub (length (enc_tag t cns ++ [128] ++ body)) (length ([128] ++ body)) = length (enc_tag t cns)).
  { rewrite app_length. lia. }
  rewrite (resume_read_tag f (enc_tag t cns ++ [128] ++ body) (wire t cns) ([128] ++ body) s0 _ Hid Hav0) by (rewrite Hcons; exact Hlen).
  rewrite Hcons.
  assert (Hdl: dec_len ([128] ++ body) = Some (None, body)) by reflexivity.
  assert (Hav1: avail (adv s0 (length (enc_tag t cns))) = [128] ++ body) by (apply (avail_app_adv _ _ _ Hav0)).
  rewrite (resume_read_length c ([128] ++ body) None body _ _ Hdl Hav1) by (intros _; exact Hsi).
  rewrite adv_adv. f_equal. f_equal. cbn [app length]. lia.
Qed.

Lemma match_level_g : forall c f T acc0 t0 cns si content b v cd fl sfun,
  frame_one t0 cns true si content = Ok b ->
  tagset_eqb (wire t0 cns :: acc0) (tagset_of' T) = true ->
  tm_postponed (tagmap_of T) = false ->
  by_type c T = Some (cd, fl) ->
  (length (enc_tag t0 cns) <= S f)%nat ->
  consumes (dec_value (dec_call c f) f cd fl (Some T) (wire t0 cns :: acc0) (Some (N.of_nat (length content))) sfun) content v ->
  consumes (dec_call c (S f) (STy T) acc0 None false sfun) b v.
Proof.
  intros c f T acc0 t0 cns si content b v cd fl sfun Hfr Heq Hpp Hby Hlen Hin s tl Hav.
  unfold frame_one in Hfr. cbn [negb andb] in Hfr.
  destruct (enc_len (N.of_nat (length content)) false) as [l|e] eqn:El; cbn [bind] in Hfr; [|discriminate].
  inversion Hfr; subst b; clear Hfr. rewrite app_nil_r in Hav. rewrite <- !app_assoc in Hav.
  rewrite (dec_call_header c f (STy T) acc0 sfun t0 cns _ l (content ++ tl) s El Hav Hlen).
  set (s1 := adv (setmark s (pos s)) (length (enc_tag t0 cns) + length l)).
  assert (Hav1: avail s1 = content ++ tl).
  { subst s1. rewrite avail_adv, avail_setmark, Hav. rewrite app_assoc.
    rewrite <- app_length. apply skipn_app_exact. }
  assert (Hp1: pos s1 = (pos s + (length (enc_tag t0 cns) + length l))%nat) by reflexivity.
  assert (Ha1: arrived s1 = arrived s) by reflexivity.
  assert (Hc1: closed s1 = closed s) by reflexivity.
  clearbody s1.
  unfold dispatch. rewrite Heq. cbn [orb]. rewrite Hpp, Hby. rewrite resume_tell.
  destruct (Hin s1 tl Hav1) as (s2 & Hrun & Hpos & Harr & Hcl).
  rewrite (resume_pbind_done _ _ _ _ _ Hrun). rewrite resume_tell.
  rewrite Hpos. rewrite (Nat.add_comm (pos s1)), Nat.add_sub.
  rewrite N.eqb_refl. cbn [resume].
  exists s2. split; [reflexivity|].
  rewrite !app_length. cbn [length]. repeat split; [lia|congruence|congruence].
Qed.

Lemma frame_one_shape t c d si sub b : frame_one t c d si sub = Ok b ->
  exists l e, b = enc_tag t c ++ l ++ sub ++ e /\ (0 < length l)%nat.
Proof.
  unfold frame_one. intros H.
  destruct (enc_len (N.of_nat (length sub)) (negb d && si)) as [l|e] eqn:El; cbn [bind] in H; [|discriminate].
  inversion H; subst. exists l. eexists. split; [reflexivity|].
  unfold enc_len in El. destruct (negb d && si); [inversion El; cbn; lia|].
  destruct (N.of_nat (length sub) <? 128).
  - inversion El; subst. cbn. lia.
  - destruct (Nat.ltb 126 (length (b256 (N.of_nat (length sub))))); [discriminate|]. inversion El; subst. cbn [length]. lia.
Qed.

Lemma frame_one_facts t c d si sub b : frame_one t c d si sub = Ok b -> (tcls t <> Univ \/ tnum t <> 0) ->
  (length sub + 2 <= length b)%nat /\ (length (enc_tag t c) + length sub < length b)%nat /\ hd 0 b <> 0.
Proof.
  intros H Ht. destruct (frame_one_shape _ _ _ _ _ _ H) as (l & e & -> & Hl).
  pose proof (enc_tag_nonempty t c). rewrite !app_length.
  split; [lia|]. split; [lia|]. rewrite hd_app by apply enc_tag_ne. apply enc_tag_hd. exact Ht.
Qed.

Lemma explicit_like_nz t : explicit_like t -> tcls t <> Univ \/ tnum t <> 0.
Proof. intros [_ H]. left. exact H. Qed.

Lemma frame_outer_facts : forall r c d si sub b, frame_outer r c d si sub = Ok b -> Forall explicit_like r ->
  (length sub <= length b)%nat /\ (hd 0 sub <> 0 -> hd 0 b <> 0)
  /\ forall k, (length b <= k)%nat -> Forall (fun t => (length (enc_tag t c) <= k)%nat) r.
Proof.
  induction r as [|t r IH]; intros c d si sub b H Hex; cbn [frame_outer] in H.
  - inversion H; subst. split; [lia|]. split; [tauto|]. intros; constructor.
  - destruct (frame_one t c d si sub) as [s1|e] eqn:E1; cbn [bind] in H; [|discriminate].
    inversion Hex as [|? ? Ht Hr]; subst.
    destruct (IH _ _ _ _ _ H Hr) as (Hl & Hh & Hk).
    destruct (frame_one_facts _ _ _ _ _ _ E1 (explicit_like_nz _ Ht)) as (F1 & F2 & F3).
    split; [lia|]. split; [intros _; apply Hh; exact F3|].
    intros k Hbk. constructor; [lia|apply Hk; exact Hbk].
Qed.

Lemma wire_tagset_eqb t0 cns r : tagset_eqb (wire t0 cns :: r) (t0 :: r) = true.
Proof.
  change (tagset_eqb (wire t0 cns :: r) (t0 :: r)) with (tag_eqb (wire t0 cns) t0 && tagset_eqb r r)%bool.
  rewrite tagset_eqb_refl. unfold tag_eqb, wire. cbn [tcls tnum]. rewrite cls_eqb_refl, N.eqb_refl. reflexivity.
Qed.
