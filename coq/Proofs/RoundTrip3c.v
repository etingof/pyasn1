(* Stage 3 of the round trip: CHOICE, untagged and tagged, and the induction over the type for the whole
   universe ([stage3_val_ok], [stage3_decode]) with SET and ANY as parameters, supplied in 3d and 3e. *)
From Coq Require Import Lia Permutation.
From PV Require Import Base.Bytes Model.Tag Model.TableTypes Model.Types Model.Proc Model.Enc Model.Dec Gen.Tables
     Proofs.ProcBind Proofs.RunLemmas Proofs.TagOctets Proofs.TagAlgebra Proofs.DecHeader Proofs.DecFrame Proofs.DecPrim
     Proofs.TagsetShape Proofs.Schemaless Proofs.RoundTrip1 Proofs.RoundTrip2 Proofs.TagReject
     Proofs.RoundTrip3 Proofs.RoundTrip3a Proofs.RoundTrip3b.
Local Open Scope N_scope.

Definition untagged_base (T: ty) : bool := match base_of T with TChoice _ | TAny => true | _ => false end.
Definition is_wrapped (T: ty) : bool := match T with TImp _ _ | TExp _ _ => true | _ => false end.

(* the tag set of a type over an untagged base (CHOICE, ANY) inside at least one tag *)
Lemma tagset_shape_u srt ce : forall T, stage3_ty srt ce T = true -> untagged_base T = true -> is_wrapped T = true ->
  exists t0 r, tagset_of T = Ok (t0 :: r) /\ tcon t0 = true /\ Forall explicit_like (t0 :: r)
    /\ (S (length r) + ty_depth (base_of T) <= ty_depth T)%nat.
Proof.
  induction T as [| | | | | | | | n|fs IH|fs IH|t IH|t IH|alts IH| |tg x IH|tg x IH] using ty_ind';
    intros Hty Hub Hwr; try discriminate Hwr.
  - (* IMPLICIT: over a wrapped type *)
    cbn [stage3_ty] in Hty. apply Bool.andb_true_iff in Hty. destruct Hty as [Hty Hpt].
    apply Bool.andb_true_iff in Hty. destruct Hty as [Hn Hx].
    assert (Hnu: tcls tg <> Univ) by (unfold non_univ in Hn; destruct (tcls tg); try discriminate; cbn in Hn; congruence).
    assert (Hwx: is_wrapped x = true).
    { unfold untagged_base in Hub. cbn [base_of] in Hub. destruct x; try reflexivity; try discriminate Hpt; cbn [base_of] in Hub; discriminate Hub. }
    destruct (IH Hx Hub Hwx) as (t0 & r & Hts & Hc0 & Hex & Hd).
    cbn [tagset_of base_of]. rewrite Hts. cbn [bind]. inversion Hex as [|? ? Hex0 Hexr]; subst.
    destruct r as [|r1 r'].
    + exists (mkTag (tcls tg) (tcon t0) (tnum tg)), []. split; [reflexivity|]. split; [exact Hc0|]. split.
      * constructor; [|constructor]. split; [exact Hc0|exact Hnu].
      * cbn [ty_depth length] in *. lia.
    + destruct (tag_implicitly_cons t0 (r1 :: r') tg) as (r2 & E & Hl & Hf); [discriminate|].
      exists t0, r2. rewrite E. split; [reflexivity|]. split; [exact Hc0|]. split.
      * constructor; [exact Hex0|]. apply Hf; [exact Hexr|exact Hnu].
      * cbn [ty_depth]. lia.
  - (* EXPLICIT *)
    cbn [stage3_ty] in Hty. apply Bool.andb_true_iff in Hty. destruct Hty as [Hn Hx].
    assert (Hnu: tcls tg <> Univ) by (unfold non_univ in Hn; destruct (tcls tg); try discriminate; cbn in Hn; congruence).
    cbn [tagset_of base_of].
    destruct (is_wrapped x) eqn:Hwx.
    + destruct (IH Hx Hub eq_refl) as (t0 & r & Hts & Hc0 & Hex & Hd).
      rewrite Hts. cbn [bind]. unfold tag_explicitly.
      exists t0, (r ++ [mkTag (tcls tg) true (tnum tg)]).
      split; [destruct (tcls tg); try reflexivity; congruence|].
      split; [exact Hc0|]. split.
      * change (t0 :: r ++ [mkTag (tcls tg) true (tnum tg)]) with ((t0 :: r) ++ [mkTag (tcls tg) true (tnum tg)]).
        apply Forall_app. split; [exact Hex|]. constructor; [|constructor]. split; [reflexivity|exact Hnu].
      * rewrite app_length. cbn [length ty_depth]. lia.
    + (* directly over the CHOICE / ANY *)
      assert (Hx0: tagset_of x = Ok [] /\ base_of x = x).
      { unfold untagged_base in Hub. cbn [base_of] in Hub. destruct x; try discriminate Hwx; try discriminate Hub; split; reflexivity. }
      destruct Hx0 as [Hts Hbx]. rewrite Hts. cbn [bind]. unfold tag_explicitly. cbn [app].
      exists (mkTag (tcls tg) true (tnum tg)), [].
      split; [destruct (tcls tg); try reflexivity; congruence|].
      split; [reflexivity|]. split.
      * constructor; [|constructor]. split; [reflexivity|exact Hnu].
      * rewrite Hbx. cbn [length ty_depth]. lia.
Qed.

Lemma enc_content_choice ce alts fl o i x :
  enc_content ce (TChoice alts) EcChoice fl o (VChoice i x) =
  match nth_error alts i with Some a => (do p <- encw ce a o x; Ok (p, true)) | None => Err EMalformed end.
Proof. apply enc_content_choice_g. Qed.

Lemma abs_choice alts i x :
  abs (TChoice alts) (VChoice i x) = match nth_error alts i with Some a => AChoice i (abs a x) | None => ABad end.
Proof. exact (nth_loop (fun a => AChoice i (abs a x)) ABad alts i). Qed.

Lemma frame_cons_flag t0 r content si : tcon t0 = true -> Forall explicit_like r ->
  frame (t0 :: r) content false def_opts si = frame (t0 :: r) content true def_opts si.
Proof.
  intros Hc Hex. cbn [frame]. rewrite !Bool.andb_false_r. cbn [o_def def_opts].
  rewrite (frame_one_con t0 true true si content Hc).
  destruct (frame_one t0 false true si content) as [s0|e]; cbn [bind]; [|reflexivity].
  rewrite (frame_outer_con r true true si s0 Hex). reflexivity.
Qed.

Section Stage3c.
  Variables ce cd : codec.
  Hypothesis Hce : enc_ok ce.
  Variable R : aval -> aval -> Prop.
  Variable srt : bool.
  Hypothesis HR : rel_ok R srt.

  Lemma choice_codecs T' alts : base_of T' = TChoice alts ->
    (exists fl, concrete_encoder ce T' = Ok (EcChoice, fl) /\ ef_indef fl = true)
    /\ by_type cd T' = Some (DcChoice, mkDecFlags true (Some KChoice)).
  Proof.
    intros Hb. split.
    - rewrite concrete_encoder_base, Hb. destruct Hce as [E|E]; rewrite E; eexists; (split; [vm_compute; reflexivity|reflexivity]).
    - rewrite by_type_base, Hb. destruct cd; vm_compute; reflexivity.
  Qed.

  Lemma choice_place_ok f T' alts i a x x' : keys_ok (flat_map ckeys alts) = true -> nth_error alts i = Some a ->
    wire_tags a x <> [] -> wire_tags a x' = wire_tags a x -> (ty_depth a <= S f)%nat ->
    choice_place f T' alts (DV a x') = Ret (DV T' (VChoice i x')).
  Proof.
    intros HK En Hne Hw Hd. unfold choice_place.
    rewrite (effective_wire (S f) a x' Hd) by (rewrite Hw; exact Hne). rewrite Hw.
    rewrite (sib_pos alts HK i a (wire_tags a x) En (tm_mem_in _ _ (wire_in_ckeys a x Hne))). reflexivity.
  Qed.

  (* the untagged CHOICE: the value decoder is entered with the tags of the alternative already read *)
  Lemma choice_val_untagged (Pv: ty -> val -> Prop) alts :
    keys_ok (flat_map ckeys alts) = true ->
    Forall (fun a => forall x, Pv a x -> val_ok ce cd R a x) alts ->
    forall i x a, nth_error alts i = Some a -> Pv a x -> val_ok ce cd R (TChoice alts) (VChoice i x).
  Proof.
    intros HK IHa i x a En HPx b He Hmax.
    destruct (choice_codecs (TChoice alts) alts eq_refl) as [(fl & Hcenc & Hsi) Hby].
    destruct (enc_with_inv_g ce Hce _ _ b He) as (ec & fl' & ts & content & cns & Hcenc' & Hts & Hcont & Hfr).
    rewrite Hcenc in Hcenc'. inversion Hcenc'; subst ec fl'; clear Hcenc'.
    cbn [tagset_of] in Hts. inversion Hts; subst ts; clear Hts.
    rewrite enc_content_choice, En in Hcont.
    destruct (encw ce a def_opts x) as [p|e] eqn:Ep; cbn [bind] in Hcont; [|discriminate].
    inversion Hcont; subst content cns; clear Hcont. cbn [frame] in Hfr. inversion Hfr; subst p; clear Hfr.
    rewrite Forall_forall in IHa. pose proof (IHa a (nth_error_In _ _ En) x HPx) as Hva.
    destruct (Hva b Ep Hmax) as (t0 & r & content & si & x' & Hw & Hex & Hrd & Hfr & Hw' & HRx & dcd & dfl & Hbya & Hc).
    pose proof (depth_alt alts i a En) as Hda.
    exists t0, r, content, si, (VChoice i x').
    split; [rewrite wire_tags_choice, En; exact Hw|]. split; [exact Hex|]. split; [lia|]. split; [exact Hfr|].
    split; [rewrite wire_tags_choice, En; exact Hw'|].
    split; [rewrite !abs_choice, En; apply (r_choice _ _ HR); exact HRx|].
    exists DcChoice, (mkDecFlags true (Some KChoice)). split; [exact Hby|].
    intros f Hf. cbn [dec_value base_of]. unfold dec_choice.
    assert (Htag: tagset_eqb (tagset_of' (TChoice alts)) (t0 :: r) = false) by reflexivity.
    rewrite Htag.
    pose proof (frame_len_r _ _ _ _ _ _ Hfr) as Hlr.
    destruct f as [|f']; [lia|].
    intros s tl Hav.
    cbn [dec_call]. unfold dec_body. cbn [andb]. cbn [pbind resume].
    assert (Hwne: wire_tags a x <> []) by (rewrite Hw; discriminate).
    assert (Hhit: sp_hit (SMap (fields_tagmap true alts)) (t0 :: r) a).
    { apply (sib_hit true alts HK i a (t0 :: r) En). rewrite <- Hw. apply tm_mem_in, wire_in_ckeys. exact Hwne. }
    rewrite (dispatch_hit _ _ _ _ _ _ _ _ _ Hhit Hbya).
    destruct (consumes_run_value _ _ _ (Hc f' ltac:(lia)) s tl Hav) as (s1 & Hrun & Hpos & Harr & Hcl).
    rewrite (resume_pbind_done _ _ _ _ _ Hrun).
    rewrite (choice_place_ok (S f') (TChoice alts) alts i a x x' HK En Hwne ltac:(congruence) ltac:(lia)).
    cbn [resume]. exists s1. split; [reflexivity|]. repeat split; assumption.
  Qed.

  (* The invariant for a tagged CHOICE or ANY, from what the encoder and the value decoder do with the
     contents inside the tags. *)
  Lemma val_ok_wrapped srt0 T' v : untagged_base T' = true -> is_wrapped T' = true -> stage3_ty srt0 ce T' = true ->
    (forall ec fl content cns, concrete_encoder ce T' = Ok (ec, fl) ->
       enc_content ce (base_of T') ec fl def_opts v = Ok (content, cns) -> N.of_nat (length content) <= index_max ->
       exists v', R (abs (base_of T') v') (abs (base_of T') v) /\
         exists dcd dfl, by_type cd T' = Some (dcd, dfl) /\
           forall f, (length content + ty_depth (base_of T') < f)%nat ->
             consumes (dec_value (dec_call cd f) f dcd dfl (Some T') (tagset_of' T') (Some (N.of_nat (length content))) false)
                      content (DV T' v')) ->
    val_ok ce cd R T' v.
  Proof.
    intros Hub Hwr Hty Hbase b He Hmax.
    destruct (tagset_shape_u srt0 ce T' Hty Hub Hwr) as (t0 & r & Hts & Hc0 & Hexall & Hd).
    inversion Hexall as [|? ? _ Hex]; subst.
    destruct (enc_with_inv_g ce Hce _ _ b He) as (ec & fl & ts & content & cns & Hcenc & Hts' & Hcont & Hfr).
    rewrite Hts in Hts'. inversion Hts'; subst ts; clear Hts'. rewrite enc_content_base in Hcont.
    assert (Hfr': frame (t0 :: r) content (tcon t0) def_opts (ef_indef fl) = Ok b).
    { rewrite Hc0. destruct cns; [exact Hfr|]. rewrite <- (frame_cons_flag t0 r content _ Hc0 Hex). exact Hfr. }
    pose proof (frame_len_r _ _ _ _ _ _ Hfr') as Hlr.
    destruct (Hbase ec fl content cns Hcenc Hcont ltac:(lia)) as (v' & HRv & dcd & dfl & Hby & Hdec).
    assert (Hwt: forall x, wire_tags T' x = t0 :: r).
    { intros x. rewrite wire_tags_plain; [apply tagset_of'_ok; exact Hts|]. destruct T'; try exact I; discriminate Hwr. }
    exists t0, r, content, (ef_indef fl), v'.
    split; [apply Hwt|]. split; [exact Hex|]. split; [lia|]. split; [exact Hfr'|]. split; [apply Hwt|].
    split; [rewrite (abs_wrappers T' v'), (abs_wrappers T' v); exact HRv|].
    exists dcd, dfl. split; [exact Hby|]. intros f Hf. rewrite <- (tagset_of'_ok T' _ Hts). apply Hdec. lia.
  Qed.

  (* the tagged CHOICE: the contents are one complete encoding of an alternative, resolved by the tag map *)
  Lemma choice_val_tagged (Pv: ty -> val -> Prop) srt0 T' alts :
    base_of T' = TChoice alts -> is_wrapped T' = true -> stage3_ty srt0 ce T' = true ->
    keys_ok (flat_map ckeys alts) = true ->
    Forall (fun a => forall x, Pv a x -> val_ok ce cd R a x) alts ->
    forall i x a, nth_error alts i = Some a -> Pv a x -> val_ok ce cd R T' (VChoice i x).
  Proof.
    intros Hb Hwr Hty HK IHa i x a En HPx.
    apply (val_ok_wrapped srt0 T' _ ltac:(unfold untagged_base; rewrite Hb; reflexivity) Hwr Hty).
    destruct (choice_codecs T' alts Hb) as [(fl0 & Hcenc0 & _) Hby].
    intros ec fl content cns Hcenc Hcont Hmax. rewrite Hcenc0 in Hcenc. inversion Hcenc; subst ec fl; clear Hcenc.
    rewrite Hb, enc_content_choice, En in Hcont.
    destruct (encw ce a def_opts x) as [p|e] eqn:Ep; cbn [bind] in Hcont; [|discriminate].
    inversion Hcont; subst content cns; clear Hcont.
    rewrite Forall_forall in IHa. pose proof (IHa a (nth_error_In _ _ En) x HPx) as Hva.
    destruct (item_of_val ce cd R a x p Hva Ep Hmax) as (x' & HRx & Hwx & Hwne & Hit).
    destruct (Hit _ (resolves_sib true alts i a x HK En Hwne)) as [Hpl Hcons].
    pose proof (depth_alt alts i a En) as Hda.
    exists (VChoice i x'). split; [rewrite Hb, !abs_choice, En; apply (r_choice _ _ HR); exact HRx|].
    exists DcChoice, (mkDecFlags true (Some KChoice)). split; [exact Hby|].
    intros f Hf. rewrite Hb in Hf. cbn [dec_value]. rewrite Hb. unfold dec_choice. rewrite tagset_eqb_refl.
    intros s tl Hav.
    destruct (Hcons f ltac:(unfold fuel_ok; lia) s tl Hav) as (s1 & Hrun & Hpos & Harr & Hcl).
    rewrite (resume_pbind_done _ _ _ _ _ Hrun).
    rewrite (choice_place_ok f T' alts i a x x' HK En Hwne Hwx ltac:(lia)).
    cbn [resume]. exists s1. split; [reflexivity|]. repeat split; assumption.
  Qed.
End Stage3c.

(* the types in which SET occurs only if [aset], ANY only if [aany]: the fragment of the universe for
   which the induction below needs nothing of SET / of ANY *)
Fixpoint frag (aset aany: bool) (T: ty) : bool :=
  match T with
  | TSet fs => aset && forallb (fun f => frag aset aany (snd f)) fs
  | TAny => aany
  | TChoice alts => forallb (frag aset aany) alts
  | TSeq fs => forallb (fun f => frag aset aany (snd f)) fs
  | TSeqOf t | TSetOf t => frag aset aany t
  | TImp _ x | TExp _ x => frag aset aany x
  | _ => true
  end.

Lemma frag_base aset aany : forall T, frag aset aany T = true -> frag aset aany (base_of T) = true.
Proof.
  induction T as [| | | | | | | | n|fs IH|fs IH|t IH|t IH|alts IH| |tg x IH|tg x IH] using ty_ind'; intros H; try exact H.
  - exact (IH H).
  - exact (IH H).
Qed.

Lemma unwrapped_base T : is_wrapped T = false -> base_of T = T.
Proof. destruct T; intros H; try reflexivity; discriminate H. Qed.

Lemma keys_not_any T : keys_ok (ckeys T) = true -> T <> TAny.
Proof. intros H ->. discriminate H. Qed.

Section Master.
  Variables ce cd : codec.
  Hypothesis Hce : enc_ok ce.
  Variable R : aval -> aval -> Prop.
  Variable srt : bool.
  Hypothesis HR : rel_ok R srt.
  Variables aset aany : bool.

  (* the predicate on component values that the container lemmas ([comp_vals], [comp_ok]) are used with *)
  Definition Pv3 (t: ty) (x: val) : Prop := stage3_val ce cd t x = true.

  Hypothesis Hset : aset = true -> forall T' fs, base_of T' = TSet fs -> wf_tags T' = true ->
    keys_ok (flat_map ckeys (map snd fs)) = true ->
    Forall (comp_ok ce cd R Pv3) fs ->
    forall vs, comp_vals ce Pv3 fs vs -> val_ok ce cd R T' (VRec vs).
  Hypothesis Hany_item : aany = true -> forall v, stage3_val ce cd TAny v = true -> item_sty ce cd R TAny v.
  Hypothesis Hany_tagged : aany = true -> forall T', base_of T' = TAny -> is_wrapped T' = true ->
    stage3_ty srt ce T' = true -> forall v, stage3_val ce cd T' v = true -> val_ok ce cd R T' v.

  (* a type that guides the decoder directly: from the invariant, or the untagged ANY *)
  Lemma direct_item T' : (T' <> TAny -> forall v, Pv3 T' v -> val_ok ce cd R T' v) ->
    frag aset aany T' = true -> direct_ok T' = true -> forall v, Pv3 T' v -> item_sty ce cd R T' v.
  Proof.
    intros Hval Hfr Hdir v Hv. unfold direct_ok in Hdir. apply Bool.orb_true_iff in Hdir. destruct Hdir as [HK|Hany].
    - exact (keyed_item ce cd R T' v HK Hv (Hval (keys_not_any T' HK) v Hv)).
    - destruct T'; try discriminate Hany. exact (Hany_item Hfr v Hv).
  Qed.

  Theorem stage3_val_ok : forall T T', base_of T' = base_of T -> stage3_ty srt ce T' = true -> frag aset aany T' = true ->
    T' <> TAny -> forall v, stage3_val ce cd T' v = true -> val_ok ce cd R T' v.
  Proof.
    induction T as [| | | | | | | | n|fs IH|fs IH|t IH|t IH|alts IH| |tg x IH|tg x IH] using ty_ind';
      intros T' Hb Hty Hfr Hnany v Hv; cbn [base_of] in Hb;
      destruct (stage3_ty_base srt ce T' Hty) as [Hw Htb]; pose proof (frag_base aset aany T' Hfr) as Hfb;
      try (assert (Hna: base_of T' <> TAny) by (rewrite Hb; discriminate));
      try (assert (Hp: prim_base T' = true) by (unfold prim_base; rewrite Hb; reflexivity);
           apply (prim_val ce cd Hce R srt HR T' v Hp Hw); rewrite (stage1_val_base ce cd T' v), Hb;
           rewrite (stage3_val_base ce cd T' v Hna), Hb in Hv; exact Hv).
    - (* SEQUENCE *)
      rewrite Hb in Hfb. cbn [frag] in Hfb. rewrite forallb_forall in Hfb. rewrite Forall_forall in IH.
      apply (seq_stage3 ce cd Hce R srt HR T' fs v Hb Hty Hv).
      + intros f Hin Hfty x Hx HKf. exact (IH f Hin (snd f) eq_refl Hfty (Hfb f Hin) (keys_not_any _ HKf) x Hx).
      + intros f Hin Hfty Hdir x Hx. apply (direct_item (snd f)); [|exact (Hfb f Hin)|exact Hdir|exact Hx].
        intros Hn y Hy. exact (IH f Hin (snd f) eq_refl Hfty (Hfb f Hin) Hn y Hy).
    - (* SET *)
      rewrite Hb in Htb, Hfb. cbn [stage3_ty] in Htb. cbn [frag] in Hfb.
      apply Bool.andb_true_iff in Htb. destruct Htb as [Hfs HK].
      apply Bool.andb_true_iff in Hfb. destruct Hfb as [Haset Hfb].
      rewrite (stage3_val_base ce cd T' v Hna), Hb in Hv. destruct v; try discriminate Hv.
      rewrite (stage3_val_rec ce cd (TSet fs) fs fs0 (or_intror eq_refl)) in Hv.
      rewrite forallb_forall in Hfs, Hfb.
      apply (Hset Haset T' fs Hb Hw HK).
      + apply Forall_forall. intros f Hin. rewrite Forall_forall in IH.
        pose proof (Hfs f Hin) as Hf1. apply Bool.andb_true_iff in Hf1. destruct Hf1 as [Hfty _].
        assert (HKf: keys_ok (ckeys (snd f)) = true).
        { apply (keys_ok_sub (snd f) (map snd fs)); [apply in_map; exact Hin|exact HK]. }
        split; [intros _; exact HKf|]. intros x Hx.
        pose proof (IH f Hin (snd f) eq_refl Hfty (Hfb f Hin) (keys_not_any _ HKf) x Hx) as Hval.
        split; [intros _; exact Hval|]. intros _. exact (keyed_item ce cd R (snd f) x HKf Hx Hval).
      + apply comp_vals_of_bool; [|exact Hv]. apply forallb_forall. intros f Hin.
        specialize (Hfs f Hin). apply Bool.andb_true_iff in Hfs. exact (proj2 Hfs).
    - (* SEQUENCE OF *)
      rewrite Hb in Hfb. cbn [frag] in Hfb.
      apply (listof_stage3 ce cd Hce R srt HR T' t v (or_introl Hb) Hty Hv). intros Hty_t Hdir x Hx.
      apply (direct_item t); [|exact Hfb|exact Hdir|exact Hx].
      intros Hn y Hy. exact (IH t eq_refl Hty_t Hfb Hn y Hy).
    - (* SET OF *)
      rewrite Hb in Hfb. cbn [frag] in Hfb.
      apply (listof_stage3 ce cd Hce R srt HR T' t v (or_intror Hb) Hty Hv). intros Hty_t Hdir x Hx.
      apply (direct_item t); [|exact Hfb|exact Hdir|exact Hx].
      intros Hn y Hy. exact (IH t eq_refl Hty_t Hfb Hn y Hy).
    - (* CHOICE *)
      rewrite Hb in Htb, Hfb. cbn [stage3_ty] in Htb. cbn [frag] in Hfb.
      apply Bool.andb_true_iff in Htb. destruct Htb as [Halts HK].
      rewrite (stage3_val_base ce cd T' v Hna), Hb in Hv. destruct v as [bb|z|bs|bo|cs| |arcs|r|vfs|xs|i x|ab]; try discriminate Hv.
      rewrite stage3_val_choice in Hv. destruct (nth_error alts i) as [a|] eqn:En; [|discriminate Hv].
      rewrite forallb_forall in Halts, Hfb.
      assert (IHa: Forall (fun a => forall x, Pv3 a x -> val_ok ce cd R a x) alts).
      { apply Forall_forall. intros a0 Hin y Hy. rewrite Forall_forall in IH.
        exact (IH a0 Hin a0 eq_refl (Halts a0 Hin) (Hfb a0 Hin) (keys_not_any _ (keys_ok_sub a0 alts Hin HK)) y Hy). }
      destruct (is_wrapped T') eqn:Hwr.
      + exact (choice_val_tagged ce cd Hce R srt HR Pv3 srt T' alts Hb Hwr Hty HK IHa i x a En Hv).
      + rewrite (unwrapped_base T' Hwr) in Hb. subst T'.
        exact (choice_val_untagged ce cd Hce R srt HR Pv3 alts HK IHa i x a En Hv).
    - (* ANY: tagged *)
      rewrite Hb in Hfb. cbn [frag] in Hfb.
      assert (Hwr: is_wrapped T' = true).
      { destruct T'; try reflexivity; try discriminate Hb. congruence. }
      exact (Hany_tagged Hfb T' Hb Hwr Hty v Hv).
    - exact (IH T' Hb Hty Hfr Hnany v Hv).
    - exact (IH T' Hb Hty Hfr Hnany v Hv).
  Qed.

  Lemma top_keys T : stage3_ty srt ce T = true -> T <> TAny -> keys_ok (ckeys T) = true.
  Proof.
    intros Hty Hn. destruct (stage3_ty_base srt ce T Hty) as [Hw _].
    destruct T; try (apply plain_keys; [exact Hw|reflexivity|reflexivity]).
    - (* CHOICE *) cbn [stage3_ty] in Hty. apply Bool.andb_true_iff in Hty. rewrite ckeys_choice. exact (proj2 Hty).
    - congruence.
    - (* IMPLICIT *)
      destruct (untagged_base (TImp t T)) eqn:Hub.
      + destruct (tagset_shape_u srt ce _ Hty Hub eq_refl) as (t0 & r & Hts & _).
        cbn [ckeys]. rewrite (tagset_of'_ok _ _ Hts). reflexivity.
      + apply plain_keys; [exact Hw| |reflexivity]. unfold untagged_base, tagged_base in *. destruct (base_of (TImp t T)); try reflexivity; discriminate Hub.
    - destruct (untagged_base (TExp t T)) eqn:Hub.
      + destruct (tagset_shape_u srt ce _ Hty Hub eq_refl) as (t0 & r & Hts & _).
        cbn [ckeys]. rewrite (tagset_of'_ok _ _ Hts). reflexivity.
      + apply plain_keys; [exact Hw| |reflexivity]. unfold untagged_base, tagged_base in *. destruct (base_of (TExp t T)); try reflexivity; discriminate Hub.
  Qed.

  Theorem stage3_decode : forall T v b tl,
    stage3_ty srt ce T = true -> frag aset aany T = true -> stage3_val ce cd T v = true ->
    encode ce true 0 T v = Ok b -> N.of_nat (length b) <= index_max ->
    exists v', decode cd (Some T) (b ++ tl) = Ok (DV T v', tl) /\ R (abs T v') (abs T v).
  Proof.
    intros T v b tl Hty Hfr Hv He Hmax.
    assert (Hdir: direct_ok T = true).
    { unfold direct_ok. destruct T; try (rewrite top_keys; [reflexivity|exact Hty|discriminate]). apply Bool.orb_true_r. }
    pose proof (direct_item T (fun Hn y Hy => stage3_val_ok T T eq_refl Hty Hfr Hn y Hy) Hfr Hdir v Hv) as Hit.
    destruct (Hit b He Hmax) as (v' & HRv & Hdec).
    exists v'. split; [exact (item_dec_decode cd T b v' tl Hdec)|exact HRv].
  Qed.
End Master.

(* Round trip, stage 3 (c): as (b), plus CHOICE - untagged or tagged, nested, as component, element or
   alternative - whose alternatives have keys (complete tag sets) none of which is a suffix of another *)
Theorem roundtrip_stage3c : forall ce cd T v b tl,
  enc_ok ce -> stage3_ty false ce T = true -> frag false false T = true -> stage3_val ce cd T v = true ->
  encode ce true 0 T v = Ok b -> N.of_nat (length b) <= index_max ->
  exists v', decode cd (Some T) (b ++ tl) = Ok (DV T v', tl) /\ abs T v' = abs T v.
Proof.
  intros ce cd T v b tl Hce Hty Hfr Hv He Hmax.
  apply (stage3_decode ce cd Hce eq false rel_ok_eq false false); try assumption; intros E; discriminate E.
Qed.

Print Assumptions roundtrip_stage3c.

(* the hypotheses are met: DER encoder, BER decoder;
   SEQUENCE { CHOICE { INTEGER, [0] EXPLICIT INTEGER, CHOICE { BOOLEAN, [1] IMPLICIT OCTET STRING } },
              CHOICE { NULL, [5] EXPLICIT SEQUENCE OF INTEGER } OPTIONAL,
              [7] EXPLICIT CHOICE { INTEGER, BOOLEAN } OPTIONAL,
              SEQUENCE OF CHOICE { INTEGER, [APPLICATION 2] IMPLICIT [3] EXPLICIT CHOICE { NULL, OCTET STRING } } } *)
Definition stage3c_example_ty : ty :=
  TSeq [ (Req, TChoice [TInt; TExp (mkTag Ctx false 0) TInt; TChoice [TBool; TImp (mkTag Ctx false 1) TOcts]]);
         (Opt, TChoice [TNull; TExp (mkTag Ctx false 5) (TSeqOf TInt)]);
         (Opt, TExp (mkTag Ctx false 7) (TChoice [TInt; TBool]));
         (Req, TSeqOf (TChoice [TInt; TImp (mkTag Appl false 2) (TExp (mkTag Ctx false 3) (TChoice [TNull; TOcts]))])) ].
Definition stage3c_example_val : val :=
  VRec [ Some (VChoice 2 (VChoice 1 (VOcts [9])));
         None;
         Some (VChoice 1 (VBool false));
         Some (VList [VChoice 0 (VInt 5); VChoice 1 (VChoice 1 (VOcts [1;2]))]) ].

Example roundtrip_stage3c_nonvacuous :
  stage3_ty false DER stage3c_example_ty = true /\ frag false false stage3c_example_ty = true
  /\ stage3_val DER BER stage3c_example_ty stage3c_example_val = true
  /\ encode DER true 0 stage3c_example_ty stage3c_example_val
     = Ok [48; 19; 129; 1; 9; 167; 3; 1; 1; 0; 48; 9; 2; 1; 5; 98; 4; 4; 2; 1; 2]
  /\ N.of_nat 21 <= index_max.
Proof. vm_compute. repeat split; try reflexivity; discriminate. Qed.

(* the condition on the keys is the one the decoder needs: with [0] EXPLICIT INTEGER and [0] IMPLICIT OCTET STRING as
   alternatives the key of the second is a suffix of the key of the first, and the first alternative is not decodable:
   its outer tag is taken for the (constructed) OCTET STRING *)
Example choice_suffix_clash :
  let T := TChoice [TExp (mkTag Ctx false 0) TInt; TImp (mkTag Ctx false 0) TOcts] in
  stage3_ty false BER T = false
  /\ encode BER true 0 T (VChoice 0 (VInt 5)) = Ok [160; 3; 2; 1; 5]
  /\ decode BER (Some T) [160; 3; 2; 1; 5] = Err EMalformed.
Proof. vm_compute. repeat split; reflexivity. Qed.
