(* C03, clause 9 over containers: the CER encoder's output for SEQUENCE, SEQUENCE OF, SET, SET OF,
   CHOICE and ANY values (nested to any depth over the simple types, any tagging, on the domain
   [cer_all] of Proofs/CerReferenceDeep.v) satisfies the reference's canonical-form check [cer_canonical] (Spec/X690.v):
   indefinite length exactly for the constructed encodings, strings of at most 1000 contents octets
   primitive, longer ones a run of full 1000-octet primitive segments and a last non-empty one.

   The check is untyped, so two things the type must not do (all computable, [shape_dom]):
   - put a UNIVERSAL string tag number, by IMPLICIT tagging, on something that is not a string
     ([tags_ok], as [cer_tags_ok] of Proofs/ReaderCer.v);
   - produce a member that begins with the octet 00 inside an indefinite-length encoding, where any
     reader takes it for end-of-contents ([eoc_safe], [nz_ty]);
   and one thing the value must not do: the octets of an ANY are written as they are, so they must
   themselves be a canonical TLV that does not begin with 00 ([anys_ok], a proposition about the value;
   vacuous for types without ANY, [any_free]). *)
From Coq Require Import Lia Sorting.Permutation.
From PV Require Import Proofs.Basics Base.Bytes Model.Tag Model.TableTypes Model.Types Model.Enc Gen.Tables Spec.X690
     Proofs.SpecOctets Proofs.TagAlgebra Proofs.ContainerCodecDefs Proofs.ContainerCodecSort
     Proofs.EncUnfold Proofs.DerAbsFunction Proofs.DerReference Proofs.DerReference2
     Proofs.ReaderParse Proofs.ReaderInterp Proofs.ReaderFrame Proofs.ReaderModel Proofs.ReaderCer
     Proofs.CerReferenceDeep.
Local Open Scope N_scope.

Definition str_base (B: ty) : bool := match B with TBits | TOcts | TStr _ => true | _ => false end.

(* no UNIVERSAL string tag number on anything but the string's own (innermost) identifier *)
Definition tags_ok (T: ty) : bool :=
  match tagset_of T with
  | Ok (t0 :: r) => (str_base (base_of T) || negb (ustr_tag t0)) && forallb (fun t => negb (ustr_tag t)) r
  | _ => true
  end.

(* every encoding of the type begins with a non-zero octet (an ANY: see anys_ok) *)
Fixpoint nz_ty (T: ty) : bool :=
  match T with
  | TChoice alts => forallb nz_ty alts
  | TAny => true
  | _ => match tagset_of T with
         | Ok [t0] => negb (cls_eqb (tcls t0) Univ && N.eqb (tnum t0) 0)
         | _ => true
         end
  end.

Definition pos_ok (T: ty) : bool := tags_ok T && eoc_safe T.

Fixpoint sub_dom (T: ty) : bool :=
  match T with
  | TImp _ x => sub_dom x
  | TExp _ x => (negb (bare x) || nz_ty x) && sub_dom x
  | TSeqOf t | TSetOf t => pos_ok t && nz_ty t && sub_dom t
  | TSeq fs | TSet fs =>
      (fix go (fs: list (presence * ty)) : bool :=
         match fs with [] => true | (p, ft) :: r => pos_ok ft && nz_ty ft && sub_dom ft && go r end) fs
  | TChoice alts =>
      (fix go (l: list ty) : bool := match l with [] => true | a :: r => pos_ok a && sub_dom a && go r end) alts
  | _ => true
  end.

Definition sub_fields : list (presence * ty) -> bool :=
  fix go (fs: list (presence * ty)) : bool :=
    match fs with [] => true | (p, ft) :: r => pos_ok ft && nz_ty ft && sub_dom ft && go r end.
Definition sub_alts : list ty -> bool :=
  fix go (l: list ty) : bool := match l with [] => true | a :: r => pos_ok a && sub_dom a && go r end.

Lemma sub_dom_seq fs : sub_dom (TSeq fs) = sub_fields fs. Proof. reflexivity. Qed.
Lemma sub_dom_set fs : sub_dom (TSet fs) = sub_fields fs. Proof. reflexivity. Qed.
Lemma sub_dom_choice alts : sub_dom (TChoice alts) = sub_alts alts. Proof. reflexivity. Qed.

Lemma sub_alts_in a : forall alts, sub_alts alts = true -> In a alts -> pos_ok a = true /\ sub_dom a = true.
Proof.
  induction alts as [|x r IH]; intros H Hin; [contradiction|].
  change (sub_alts (x :: r)) with (pos_ok x && sub_dom x && sub_alts r)%bool in H.
  apply andb_true_iff in H. destruct H as [H H3]. apply andb_true_iff in H. destruct H as [H1 H2].
  destruct Hin as [->|Hin]; [split; assumption|apply IH; assumption].
Qed.

Definition shape_dom (T: ty) : bool := pos_ok T && sub_dom T.

(* the octets of every ANY held by the value are a canonical TLV that does not begin with 00 *)
Fixpoint anys_ok (T: ty) (v: val) {struct T} : Prop :=
  match T with
  | TImp _ x | TExp _ x => anys_ok x v
  | TSeqOf t | TSetOf t => match v with VList xs => Forall (anys_ok t) xs | _ => True end
  | TSeq fs | TSet fs =>
      match v with
      | VRec vs =>
          (fix go (fs: list (presence * ty)) (vs: list (option val)) : Prop :=
             match fs with
             | [] => True
             | (p, ft) :: fs' => (match ohd vs with Some x => anys_ok ft x | None => True end) /\ go fs' (otl vs)
             end) fs vs
      | _ => True
      end
  | TChoice alts =>
      match v with
      | VChoice i x =>
          (fix go (l: list ty) (k: nat) : Prop :=
             match l, k with
             | a :: _, O => anys_ok a x
             | _ :: r, S k' => go r k'
             | [], _ => True
             end) alts i
      | _ => True
      end
  | TAny => match v with VAny ab => cer_ok ab /\ nz_head ab | _ => True end
  | _ => True
  end.

Definition anys_fields : list (presence * ty) -> list (option val) -> Prop :=
  fix go (fs: list (presence * ty)) (vs: list (option val)) : Prop :=
    match fs with
    | [] => True
    | (p, ft) :: fs' => (match ohd vs with Some x => anys_ok ft x | None => True end) /\ go fs' (otl vs)
    end.

Lemma anys_ok_seq fs vs : anys_ok (TSeq fs) (VRec vs) = anys_fields fs vs. Proof. reflexivity. Qed.
Lemma anys_ok_set fs vs : anys_ok (TSet fs) (VRec vs) = anys_fields fs vs. Proof. reflexivity. Qed.
Lemma anys_ok_choice alts i x :
  anys_ok (TChoice alts) (VChoice i x) = match nth_error alts i with Some a => anys_ok a x | None => True end.
Proof. exact (nth_loop (fun a => anys_ok a x) True alts i). Qed.

Lemma anys_ok_base : forall T v, anys_ok T v = anys_ok (base_of T) v.
Proof.
  induction T as [| | | | | | | | n|fs IH|fs IH|t IH|t IH|alts IH| |tg x IH|tg x IH] using ty_ind'; intros v; try reflexivity.
  - cbn [anys_ok base_of]. apply IH.
  - cbn [anys_ok base_of]. apply IH.
Qed.

Lemma sub_dom_base : forall T, sub_dom T = true -> sub_dom (base_of T) = true.
Proof.
  induction T as [| | | | | | | | n|fs IH|fs IH|t IH|t IH|alts IH| |tg x IH|tg x IH] using ty_ind'; intros H; try exact H.
  - cbn [sub_dom base_of] in *. apply IH. exact H.
  - cbn [sub_dom base_of] in *. apply andb_true_iff in H. apply IH. tauto.
Qed.

(* types that hold no ANY: nothing is asked of the value *)
Fixpoint any_free (T: ty) : bool :=
  match T with
  | TImp _ x | TExp _ x => any_free x
  | TSeqOf t | TSetOf t => any_free t
  | TSeq fs | TSet fs =>
      (fix go (fs: list (presence * ty)) : bool := match fs with [] => true | (p, ft) :: r => any_free ft && go r end) fs
  | TChoice alts => forallb any_free alts
  | TAny => false
  | _ => true
  end.

Lemma any_free_anys_ok : forall T, any_free T = true -> forall v, anys_ok T v.
Proof.
  induction T as [| | | | | | | | n|fs IH|fs IH|t IH|t IH|alts IH| |tg x IH|tg x IH] using ty_ind'; intros H v;
    try exact I; try discriminate H.
  1-2: destruct v; try exact I; change (anys_fields fs fs0); cbn [any_free] in H; revert fs0 H;
    induction fs as [|[p ft] fs' IHfs]; intros vs H; [exact I|];
    inversion IH as [|? ? H1 H2]; subst; apply andb_true_iff in H; destruct H as [Ha Hb];
    (split; [destruct (ohd vs); [apply (H1 Ha)|exact I]|apply (IHfs H2 _ Hb)]).
  - destruct v; try exact I. cbn [anys_ok any_free] in *. apply Forall_forall. intros x _. apply (IH H).
  - destruct v; try exact I. cbn [anys_ok any_free] in *. apply Forall_forall. intros x _. apply (IH H).
  - destruct v; try exact I. rewrite anys_ok_choice. cbn [any_free] in H.
    destruct (nth_error alts i) as [a|] eqn:Ea; [|exact I].
    rewrite Forall_forall in IH. rewrite forallb_forall in H. pose proof (nth_error_In _ _ Ea) as Hin.
    apply (IH a Hin (H a Hin)).
  - cbn [anys_ok any_free] in *. apply (IH H).
  - cbn [anys_ok any_free] in *. apply (IH H).
Qed.

Lemma cwrap_cons indef t r c : cwrap indef (t :: r) c = cwrap indef r (ctlv indef (tcls t) (tnum t) c).
Proof. reflexivity. Qed.

Lemma cwrap_nz ts c : ts <> [] -> nz_head (cwrap true ts c).
Proof.
  intros Hne. destruct (exists_last Hne) as (ts0 & last & ->). rewrite cwrap_snoc.
  unfold ctlv. apply ident_nz_head. auto.
Qed.

Lemma ustr_false_of_negb t : negb (ustr_tag t) = true -> ustr (tcls t) (tnum t) = false.
Proof. unfold ustr_tag. intros H. apply Bool.negb_true_iff in H. exact H. Qed.

Lemma sort_setof_perm_self es : Permutation es (sort_setof es).
Proof.
  unfold sort_setof. destruct es as [|a [|b r]]; try apply Permutation_refl. apply sort_by_perm_self.
Qed.

Lemma tags_ok_simple T : simple_base (base_of T) = true -> tags_ok T = cer_tags_ok T.
Proof.
  intros Hs. unfold tags_ok, cer_tags_ok. destruct (tagset_of T) as [[|t0 r]|]; try reflexivity.
  destruct (base_of T); try discriminate Hs; reflexivity.
Qed.

Lemma nz_ty_tagged T : bare T = false ->
  nz_ty T = match tagset_of T with Ok [t0] => negb (cls_eqb (tcls t0) Univ && N.eqb (tnum t0) 0) | _ => true end.
Proof. destruct T; intros H; try discriminate H; reflexivity. Qed.

(* an EXPLICIT tag over a bare CHOICE / ANY somewhere in the stack: the bare type's encodings begin with a non-zero octet *)
Lemma sub_dom_bare_nz : forall T, cer_wrap_ok T = true -> sub_dom T = true -> bare (base_of T) = true -> bare T = false ->
  nz_ty (base_of T) = true.
Proof.
  induction T as [| | | | | | | | n|fs IH|fs IH|t IH|t IH|alts IH| |tg x IH|tg x IH] using ty_ind';
    intros Hw Hs Hb Hnb; cbn [base_of] in *; try congruence.
  - cbn [cer_wrap_ok sub_dom] in *. apply andb_true_iff in Hw. destruct Hw as [Hx Hw]. apply Bool.negb_true_iff in Hx.
    apply (IH Hw Hs Hb Hx).
  - cbn [cer_wrap_ok sub_dom] in *. apply andb_true_iff in Hw. destruct Hw as [_ Hw].
    apply andb_true_iff in Hs. destruct Hs as [Hn Hs].
    destruct (bare x) eqn:Ex.
    + rewrite (bare_base x Ex). cbn [negb orb] in Hn. exact Hn.
    + apply (IH Hw Hs Hb eq_refl).
Qed.

(* of a whole encoding: the item written with the ifNotEmpty flag i has canonical shape, and begins with
   a non-zero octet where the type promises it *)
Definition Pk (T: ty) : Prop := forall i v b,
  cer_all T v = true -> (i = false \/ f24c T v = false) ->
  pos_ok T = true -> sub_dom T = true -> anys_ok T v ->
  enc CER T (mkOpts false 1000 i) v = Ok b -> cer_ok b /\ (nz_ty T = true -> nz_head b).

Theorem Pk_simple T : simple_base (base_of T) = true -> Pk T.
Proof.
  intros Hs i v b Hd _ Hpos _ _ He. destruct (cer_all_simple_val T v Hs Hd) as [Hv Hf].
  assert (He': enc CER T (mkOpts false 1000 false) v = Ok b).
  { destruct i; [rewrite <- (cer_simple_ifne T v Hv)|]; exact He. }
  unfold pos_ok in Hpos. apply andb_true_iff in Hpos. destruct Hpos as [Ht Hsafe].
  rewrite (tags_ok_simple T Hs) in Ht.
  destruct (cer_output_cer_ok T v false 1000 b Hv Hf Hsafe Ht He') as [Hok Hz]. split; [exact Hok|].
  intros Hnz. apply Hz. intros t0 Hts.
  rewrite nz_ty_tagged, Hts in Hnz by (destruct T; try reflexivity; discriminate Hs).
  apply Bool.negb_true_iff in Hnz. destruct (tcls t0); try (left; discriminate). right.
  cbn [cls_eqb andb] in Hnz. destruct (N.eqb_spec (tnum t0) 0) as [E|E]; [discriminate Hnz|exact E].
Qed.

(* what the contents of a constructed or bare type are made of *)
Definition Qk (B: ty) : Prop := forall v cd fl content,
  cer_all B v = true -> sub_dom B = true -> anys_ok B v ->
  concrete_encoder CER B = Ok (cd, fl) -> enc_content CER B cd fl cer_opts v = Ok (content, true) ->
  exists es, content = concat es /\ Forall cer_ok es /\
    ((bare B = false \/ nz_ty B = true) -> Forall nz_head es) /\
    (bare B = true -> exists e, es = [e]).

(* the encoder, the tag set and finding F24's case are those of Proofs/CerReferenceDeep.v *)
Theorem Pk_of_Q T : simple_base (base_of T) = false -> Qk (base_of T) -> Pk T.
Proof.
  intros Hsb HQ i v b Hd Hi Hpos Hsub Hany He.
  assert (Hstr: str_base (base_of T) = false) by (destruct (base_of T); try reflexivity; discriminate Hsb).
  destruct (Rcer_all T) as [Hs|[HB HQc]]; [congruence|].
  rewrite cer_all_base in Hd. apply andb_true_iff in Hd. destruct Hd as [Hw Hdb].
  pose proof (cer_wrap_imp_ok T Hw) as Himp. rewrite anys_ok_base in Hany.
  apply (enc_inv CER) in He. destruct He as (cd & fl & ts & content & ic & Ece & Ets & Ec & He).
  destruct (HQc v cd fl content ic Hdb Ece Ec) as (-> & Hfl & tsb & Htsb & Hcons & Hcan).
  destruct (HQ v cd fl content Hdb (sub_dom_base T Hsub) Hany Ece Ec) as (es & Hcont & Hes & Hnz & Hone).
  rewrite Hfl in He.
  pose proof (tagset_all_cons2 T tsb ts Himp Htsb Hcons Ets) as Hall.
  destruct ts as [|t1 r1].
  - (* no tag: a CHOICE or an ANY as written *)
    cbn [frame] in He. apply ok_inj in He. subst b.
    pose proof (empty_tagset_bare T Ets) as Hb. pose proof (bare_base T Hb) as HbT. rewrite HbT in *.
    destruct (Hone Hb) as (e & ->). cbn [concat] in Hcont. rewrite app_nil_r in Hcont. subst content.
    inversion Hes as [|? ? He0 _]; subst. split; [exact He0|].
    intros Hn. specialize (Hnz (or_intror Hn)). inversion Hnz; subst. assumption.
  - assert (Hnb: bare T = false).
    { destruct (bare T) eqn:Eb; [|reflexivity]. rewrite (bare_tagset T Eb) in Ets. discriminate Ets. }
    rewrite (frame_cwrap (t1 :: r1) content i b Hall (ifne_kept T v i t1 r1 tsb content Hi Ets HB Htsb Hcan) He). split; [|intros _; apply cwrap_nz; discriminate].
    unfold pos_ok in Hpos. apply andb_true_iff in Hpos. destruct Hpos as [Ht _].
    unfold tags_ok in Ht. rewrite Ets, Hstr in Ht. cbn [orb] in Ht. apply andb_true_iff in Ht. destruct Ht as [Ht1 Htr].
    rewrite cwrap_cons. unfold cwrap. apply cer_ok_wrap.
    + apply Forall_forall. intros t Hin. rewrite forallb_forall in Htr. apply ustr_false_of_negb. apply Htr. exact Hin.
    + rewrite ctlv_true, Hcont. apply cer_ok_itlv; [exact Hes| |apply ustr_false_of_negb; exact Ht1].
      apply Hnz. destruct (bare (base_of T)) eqn:Eb; [right|left; reflexivity].
      apply (sub_dom_bare_nz T Hw Hsub Eb Hnb).
    + intros _. unfold ctlv. apply ident_nz_head. auto.
Qed.

Lemma sub_fields_cons p ft fs' : sub_fields ((p, ft) :: fs') = (pos_ok ft && nz_ty ft && sub_dom ft && sub_fields fs')%bool.
Proof. reflexivity. Qed.
Lemma anys_fields_cons p ft fs' vs :
  anys_fields ((p, ft) :: fs') vs = ((match ohd vs with Some x => anys_ok ft x | None => True end) /\ anys_fields fs' (otl vs)).
Proof. reflexivity. Qed.

Lemma cparts_ok : forall fs, Forall (fun f => Pk (snd f)) fs ->
  forall vs parts, cfields_ok fs vs = true -> sub_fields fs = true -> anys_fields fs vs ->
  cparts fs vs = Ok parts -> Forall cer_ok (map snd parts) /\ Forall nz_head (map snd parts).
Proof.
  induction fs as [|[p ft] fs' IH]; intros Hall vs parts Hd Hs Ha Hp.
  - cbn in Hp. injection Hp as <-. split; constructor.
  - inversion Hall as [|? ? Hft Hall']; subst. cbn [snd] in Hft. specialize (IH Hall' (otl vs)).
    rewrite sub_fields_cons in Hs. apply andb_true_iff in Hs. destruct Hs as [Hs Hs4].
    apply andb_true_iff in Hs. destruct Hs as [Hs Hs3]. apply andb_true_iff in Hs. destruct Hs as [Hs1 Hs2].
    rewrite anys_fields_cons in Ha. destruct Ha as [Ha1 Ha2].
    destruct (cfields_step p ft fs' vs Hd) as [Hd2 [(E1 & _)|[(i & x & Ex & Hx & Hi & E1 & _)|(d & x & _ & _ & _ & E1)]]];
      rewrite E1 in Hp; [| |discriminate Hp].
    + apply (IH parts Hd2 Hs4 Ha2 Hp).
    + rewrite Ex in Ha1.
      destruct (enc CER ft (mkOpts false 1000 i) x) as [b0|] eqn:Eb; cbn [bind] in Hp; [|discriminate Hp].
      destruct (cparts fs' (otl vs)) as [rest|] eqn:Er; cbn [bind] in Hp; [|discriminate Hp].
      injection Hp as <-.
      destruct (Hft i x b0 Hx Hi Hs1 Hs3 Ha1 Eb) as [H1 H2].
      destruct (IH rest Hd2 Hs4 Ha2 eq_refl) as [I1 I2].
      cbn [map snd]. split; constructor; try assumption. apply H2. exact Hs2.
Qed.

Lemma celems_ok t : Pk t -> pos_ok t = true -> nz_ty t = true -> sub_dom t = true ->
  forall xs parts, forallb (cer_all t) xs = true -> Forall (anys_ok t) xs -> celems t xs = Ok parts ->
  Forall cer_ok parts /\ Forall nz_head parts.
Proof.
  intros Ht Hp Hn Hs xs parts Hd Ha He. rewrite forallb_forall in Hd. rewrite Forall_forall in Ha.
  assert (H: forall p, In p parts -> cer_ok p /\ nz_head p).
  { intros p Hin. destruct (Forall2_in_r _ _ _ _ (proj1 (enc_elems_g_Forall2 CER t cer_opts xs parts) He) Hin) as (x & Hx & E).
    destruct (Ht false x p (Hd x Hx) (or_introl eq_refl) Hp Hs (Ha x Hx) E) as [H1 H2]. split; [exact H1|exact (H2 Hn)]. }
  split; apply Forall_forall; intros p Hin; apply (H p Hin).
Qed.

Definition Rk (T: ty) : Prop := forall T', base_of T' = base_of T -> Pk T'.

Theorem Rk_all : forall T, Rk T.
Proof.
  induction T as [| | | | | | | | n|fs IH|fs IH|t IH|t IH|alts IH| |tg x IH|tg x IH] using ty_ind'.
  16: { (* IMPLICIT: the same base *) exact IH. }
  16: { (* EXPLICIT *) exact IH. }
  1-9: (intros T' Hb; apply Pk_simple; rewrite Hb; reflexivity).
  all: intros T' Hb; apply Pk_of_Q; rewrite Hb; cbn [base_of]; [reflexivity|]; intros v cd fl content Hd Hs Ha Hce He.
  - (* SEQUENCE *)
    destruct v as [bb|z|bs|bo|cs| |arcs|r|vs|xs|i x|ab]; try discriminate Hd.
    rewrite cer_all_seq in Hd. rewrite sub_dom_seq in Hs. rewrite anys_ok_seq in Ha.
    encoder_is Hce. rewrite enc_content_seq_cer in He by reflexivity.
    destruct (cparts fs vs) as [parts|] eqn:Ep; cbn [bind] in He; [|discriminate He].
    injection He as <-.
    pose proof (Forall_impl (fun f => Pk (snd f)) (fun f (Hf: Rk (snd f)) => Hf _ eq_refl) IH) as HP.
    destruct (cparts_ok fs HP vs parts Hd Hs Ha Ep) as [H1 H2].
    exists (map snd parts). split; [reflexivity|split; [exact H1|split; [intros _; exact H2|discriminate]]].
  - (* SET *)
    destruct v as [bb|z|bs|bo|cs| |arcs|r|vs|xs|i x|ab]; try discriminate Hd.
    rewrite cer_all_set in Hd. apply andb_true_iff in Hd. destruct Hd as [_ Hd].
    rewrite sub_dom_set in Hs. rewrite anys_ok_set in Ha.
    encoder_is Hce. rewrite enc_content_set_cer in He.
    destruct (cparts fs vs) as [parts|] eqn:Ep; cbn [bind] in He; [|discriminate He].
    injection He as <-.
    pose proof (Forall_impl (fun f => Pk (snd f)) (fun f (Hf: Rk (snd f)) => Hf _ eq_refl) IH) as HP.
    destruct (cparts_ok fs HP vs parts Hd Hs Ha Ep) as [H1 H2].
    assert (Hperm: Permutation (map snd parts) (map snd (sort_by tagset_ltb fst parts))).
    { apply Permutation_map. apply sort_by_perm_self. }
    exists (map snd (sort_by tagset_ltb fst parts)).
    split; [reflexivity|split; [exact (Permutation_Forall Hperm H1)|split; [intros _; exact (Permutation_Forall Hperm H2)|discriminate]]].
  - (* SEQUENCE OF *)
    destruct v as [bb|z|bs|bo|cs| |arcs|r|vs|xs|i x|ab]; try discriminate Hd.
    cbn [cer_all] in Hd. cbn [sub_dom] in Hs. cbn [anys_ok] in Ha.
    apply andb_true_iff in Hs. destruct Hs as [Hs Hs3]. apply andb_true_iff in Hs. destruct Hs as [Hs1 Hs2].
    encoder_is Hce. rewrite enc_content_seqof_g in He. cbn [listof_finish] in He. fold (celems t) in He.
    destruct (celems t xs) as [parts|] eqn:Ep; cbn [bind] in He; [|discriminate He].
    injection He as <-.
    destruct (celems_ok t (IH t eq_refl) Hs1 Hs2 Hs3 xs parts Hd Ha Ep) as [H1 H2].
    exists parts. split; [reflexivity|split; [exact H1|split; [intros _; exact H2|discriminate]]].
  - (* SET OF *)
    destruct v as [bb|z|bs|bo|cs| |arcs|r|vs|xs|i x|ab]; try discriminate Hd.
    cbn [cer_all] in Hd. apply andb_true_iff in Hd. destruct Hd as [Hd _].
    cbn [sub_dom] in Hs. cbn [anys_ok] in Ha.
    apply andb_true_iff in Hs. destruct Hs as [Hs Hs3]. apply andb_true_iff in Hs. destruct Hs as [Hs1 Hs2].
    encoder_is Hce. rewrite enc_content_setof_g in He. cbn [listof_finish] in He. fold (celems t) in He.
    destruct (celems t xs) as [parts|] eqn:Ep; cbn [bind] in He; [|discriminate He].
    injection He as <-.
    destruct (celems_ok t (IH t eq_refl) Hs1 Hs2 Hs3 xs parts Hd Ha Ep) as [H1 H2].
    pose proof (sort_setof_perm_self parts) as Hperm.
    exists (sort_setof parts).
    split; [reflexivity|split; [exact (Permutation_Forall Hperm H1)|split; [intros _; exact (Permutation_Forall Hperm H2)|discriminate]]].
  - (* CHOICE *)
    destruct v as [bb|z|bs|bo|cs| |arcs|r|vs|xs|i x|ab]; try discriminate Hd.
    rewrite cer_all_choice in Hd. rewrite sub_dom_choice in Hs. rewrite anys_ok_choice in Ha.
    encoder_is Hce. rewrite enc_content_choice_g in He.
    destruct (nth_error alts i) as [a|] eqn:Ea; [|discriminate Hd].
    destruct (enc CER a cer_opts x) as [p|] eqn:Ep; cbn [bind] in He; [|discriminate He].
    injection He as <-.
    pose proof (nth_error_In _ _ Ea) as Hin.
    destruct (sub_alts_in a alts Hs Hin) as [Hpa Hsa].
    rewrite Forall_forall in IH. pose proof (IH a Hin a eq_refl) as Pa.
    destruct (Pa false x p Hd (or_introl eq_refl) Hpa Hsa Ha Ep) as [H1 H2].
    exists [p]. split; [cbn [concat]; rewrite app_nil_r; reflexivity|split; [constructor; [exact H1|constructor]|split]].
    + intros [Hbr|Hn]; [discriminate Hbr|]. constructor; [|constructor]. apply H2.
      cbn [nz_ty] in Hn. rewrite forallb_forall in Hn. apply Hn. exact Hin.
    + intros _. exists p. reflexivity.
  - (* ANY *)
    destruct v as [bb|z|bs|bo|cs| |arcs|r|vs|xs|i x|ab]; try discriminate Hd.
    cbn [anys_ok] in Ha. destruct Ha as [Ha1 Ha2].
    encoder_is Hce. cbn [enc_content octets_of o_def cer_opts negb] in He. injection He as <-.
    exists [ab]. split; [cbn [concat]; rewrite app_nil_r; reflexivity|split; [constructor; [exact Ha1|constructor]|split]].
    + intros _. constructor; [exact Ha2|constructor].
    + intros _. exists ab. reflexivity.
Qed.

(* Every CER encoder output over the universe of Proofs/CerReferenceDeep.v - containers, CHOICE and ANY
   included, in whatever mode the encoder is called - meets the canonical-form rules of clause 9 *)
Theorem cer_output_canonical_all : forall T v d k b,
  cer_all T v = true -> shape_dom T = true -> anys_ok T v ->
  encode CER d k T v = Ok b -> cer_canonical b = true.
Proof.
  intros T v d k b Hd Hs Ha He. apply cer_ok_canonical.
  unfold shape_dom in Hs. apply andb_true_iff in Hs. destruct Hs as [Hp Hs].
  rewrite encode_cer_fixed in He.
  exact (proj1 (Rk_all T T eq_refl false v b Hd (or_introl eq_refl) Hp Hs Ha He)).
Qed.

(* types without ANY: a statement about booleans only *)
Corollary cer_output_canonical_any_free : forall T v d k b,
  cer_all T v = true -> shape_dom T = true -> any_free T = true ->
  encode CER d k T v = Ok b -> cer_canonical b = true.
Proof.
  intros T v d k b Hd Hs Hf He.
  exact (cer_output_canonical_all T v d k b Hd Hs (any_free_anys_ok T Hf v) He).
Qed.

(* what is asked of an ANY holds, for instance, of a primitive TLV *)
Lemma any_prim_ok c num contents : N.of_nat (length contents) < max_len ->
  (ustr c num = true -> (length contents <= 1000)%nat) -> (c <> Univ \/ num <> 0) ->
  cer_ok (tlv c false num contents) /\ nz_head (tlv c false num contents).
Proof.
  intros Hl Hu Hn. split; [apply cer_ok_prim; assumption|]. unfold tlv. apply ident_nz_head. tauto.
Qed.

(* the universe witness of Proofs/CerReferenceDeep.v, ANY values [04 01 09], [01 01 00], [05 00] *)
Example cer_output_canonical_all_witness :
  let T := TExp (mkTag Appl false 1) (TSet [
     (Req, TImp (mkTag Ctx false 1) TInt);
     (Req, TChoice [TOcts; TImp (mkTag Ctx false 0) TBool; TExp (mkTag Ctx false 5) (TChoice [TNull; TAny])]);
     (Opt, TSetOf (TChoice [TInt; TStr 12; TAny]));
     (Def (VInt 7), TInt);
     (Opt, TExp (mkTag Priv false 2) TAny);
     (Req, TSeq [(Opt, TSeqOf TBool); (Req, TSetOf TNull)])]) in
  let v := VRec [Some (VInt 1);
     Some (VChoice 2 (VChoice 1 (VAny [4;1;9])));
     Some (VList [VChoice 1 (VOcts [104;105]); VChoice 0 (VInt 300); VChoice 2 (VAny [1;1;0]); VChoice 0 (VInt 3)]);
     Some (VInt 8); Some (VAny [5;0]);
     Some (VRec [Some (VList [VBool true]); Some (VList [])])] in
  cer_all T v = true /\ shape_dom T = true /\ anys_ok T v /\
  exists b, encode CER true 7 T v = Ok b /\ cer_canonical b = true.
Proof.
  cbv zeta. split; [vm_compute; reflexivity|]. split; [vm_compute; reflexivity|]. split.
  - assert (A1: cer_ok [4;1;9] /\ nz_head [4;1;9]).
    { apply (any_prim_ok Univ 4 [9]); [vm_compute; reflexivity|intros _; cbn [length]; lia|right; lia]. }
    assert (A2: cer_ok [1;1;0] /\ nz_head [1;1;0]).
    { apply (any_prim_ok Univ 1 [0]); [vm_compute; reflexivity|intros H; discriminate H|right; lia]. }
    assert (A3: cer_ok [5;0] /\ nz_head [5;0]).
    { apply (any_prim_ok Univ 5 []); [vm_compute; reflexivity|intros H; discriminate H|right; lia]. }
    cbn [anys_ok ohd otl]. repeat split; try exact I; try (apply A1); try (apply A2); try (apply A3).
    + repeat (constructor; [first [exact I | exact A2]|]). constructor.
    + repeat constructor.
    + constructor.
  - eexists. split; [vm_compute; reflexivity|vm_compute; reflexivity].
Qed.

(* a SEQUENCE OF segmented strings under tags, a SET OF SEQUENCE: no ANY, booleans only *)
Example cer_output_canonical_any_free_witness :
  let T := TSeq [(Req, TSeqOf (TImp (mkTag Ctx false 2) TOcts)); (Opt, TSetOf (TSeq [(Req, TInt); (Opt, TBits)]))] in
  let v := VRec [Some (VList [VOcts (repeat 65 (25 * 100)%nat); VOcts []]);
                 Some (VList [VRec [Some (VInt 2); None]; VRec [Some (VInt 1); Some (VBits [true])]])] in
  cer_all T v = true /\ shape_dom T = true /\ any_free T = true /\
  exists b, encode CER false 0 T v = Ok b /\ cer_canonical b = true.
Proof.
  cbv zeta. repeat (split; [vm_compute; reflexivity|]).
  eexists. split; [vm_compute; reflexivity|vm_compute; reflexivity].
Qed.

(* why shape_dom: [UNIVERSAL 4] IMPLICIT SEQUENCE - the untyped check takes the SEQUENCE for a constructed
   OCTET STRING and asks for segments; a component [UNIVERSAL 0] IMPLICIT NULL reads as end-of-contents *)
Example cer_canonical_needs_shape_dom :
  (let T := TImp (mkTag Univ false 4) (TSeq [(Req, TSeq [])]) in let v := VRec [Some (VRec [])] in
   cer_all T v = true /\ shape_dom T = false /\
   exists b, encode CER true 0 T v = Ok b /\ cer T v = Some b /\ cer_canonical b = false) /\
  (let T := TSeq [(Req, TImp (mkTag Univ false 0) TNull); (Req, TInt)] in let v := VRec [Some VNull; Some (VInt 5)] in
   cer_all T v = true /\ shape_dom T = false /\
   exists b, encode CER true 0 T v = Ok b /\ cer T v = Some b /\ cer_canonical b = false).
Proof.
  split; cbv zeta; (split; [vm_compute; reflexivity|]); (split; [vm_compute; reflexivity|]);
    eexists; (split; [vm_compute; reflexivity|]); split; vm_compute; reflexivity.
Qed.

(* why anys_ok: an ANY whose octets are a definite-length constructed TLV is written as it is *)
Example cer_canonical_needs_anys_ok :
  let T := TSeq [(Req, TAny)] in let v := VRec [Some (VAny [48; 0])] in
  cer_all T v = true /\ shape_dom T = true /\ cer_canonical [48; 0] = false /\
  exists b, encode CER true 0 T v = Ok b /\ cer T v = Some b /\ cer_canonical b = false.
Proof.
  cbv zeta. repeat (split; [vm_compute; reflexivity|]).
  eexists. split; [vm_compute; reflexivity|]. split; vm_compute; reflexivity.
Qed.

Print Assumptions Rk_all.
Print Assumptions cer_output_canonical_all.
Print Assumptions cer_output_canonical_any_free.
