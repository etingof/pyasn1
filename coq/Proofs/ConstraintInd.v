(* Induction principles for the nested inductives of Model/Constraint.v (a constraint from its
   operands, a shape from the members of a tuple), and the unfolding equations of the evaluator, of the
   denotation and of the well-formedness / applicability predicates, one per combinator. *)
From Coq Require Import Lia.
From PV Require Import Model.Constraint Spec.SetTheory.
Local Open Scope Z_scope.

Definition operands (c: constr) : list constr :=
  match c with
  | CContained pre _ post => pre ++ post
  | CWith fields => map snd fields
  | CInner args => map snd args
  | CAnd cs | COr cs | CExcl cs => cs
  | _ => []
  end.

Section constr_induction.
  Variable P : constr -> Prop.
  Hypothesis step : forall c, Forall P (operands c) -> P c.

  Fixpoint constr_operands_ind (c: constr) : P c :=
    let all :=
      (fix go (l: list constr) : Forall P l :=
         match l with
         | [] => Forall_nil P
         | c' :: r => Forall_cons c' (constr_operands_ind c') (go r)
         end) in
    step c
      match c return Forall P (operands c) with
      | CContained pre _ post => proj2 (Forall_app P pre post) (conj (all pre) (all post))
      | CWith fields =>
          (fix go (l: list (sval * constr)) : Forall P (map snd l) :=
             match l with
             | [] => Forall_nil P
             | (_, c') :: r => Forall_cons c' (constr_operands_ind c') (go r)
             end) fields
      | CInner args =>
          (fix go (l: list (option (sval * sval) * constr)) : Forall P (map snd l) :=
             match l with
             | [] => Forall_nil P
             | (_, c') :: r => Forall_cons c' (constr_operands_ind c') (go r)
             end) args
      | CAnd cs | COr cs | CExcl cs => all cs
      | _ => Forall_nil P
      end.
End constr_induction.

Section shape_induction.
  Variable P : shape -> Prop.
  Hypothesis HV : forall s, P (ShV s).
  Hypothesis HT : forall l, Forall P l -> P (ShT l).
  Fixpoint shape_nested_ind (a: shape) : P a :=
    match a with
    | ShV s => HV s
    | ShT l => HT l ((fix go (l: list shape) : Forall P l :=
                        match l with
                        | [] => Forall_nil P
                        | x :: r => Forall_cons x (shape_nested_ind x) (go r)
                        end) l)
    end.
End shape_induction.

(* The loops of the _testValue methods, over any list of operands [l] with verdicts [f].  The
   intersection's loop also serves ContainedSubtypeConstraint, which has its own answer [last]
   once every operand has accepted. *)
Definition and_v {A} (f: A -> verdict) (last: verdict) : list A -> verdict :=
  fix all (l: list A) : verdict :=
    match l with
    | [] => last
    | a :: r => match f a with Pass => all r | v => v end
    end.
Definition or_v {A} (f: A -> verdict) : list A -> verdict :=
  fix any (l: list A) : verdict :=
    match l with
    | [] => Fail
    | a :: r => match f a with Pass => Pass | Fail => any r | Crash k => Crash k end
    end.
Definition excl_v {A} (f: A -> verdict) : list A -> verdict :=
  fix none (l: list A) : verdict :=
    match l with
    | [] => Pass
    | a :: r => match f a with Pass => Fail | Fail => none r | Crash k => Crash k end
    end.

Lemma ceval_and cs idx x : ceval (CAnd cs) idx x = and_v (fun c => ceval c idx x) Pass cs.
Proof. destruct cs; reflexivity. Qed.

Lemma ceval_contained pre plain post idx x :
  truthy (CContained pre plain post) = true ->
  ceval (CContained pre plain post) idx x =
    and_v (fun c => ceval c idx x) (match plain with [] => Pass | _ :: _ => Crash AttributeError end) pre.
Proof. intros Ht. destruct pre; cbn [ceval]; rewrite Ht; reflexivity. Qed.

Lemma ceval_or c0 cs idx x :
  ceval (COr (c0 :: cs)) idx x = or_v (fun c => ceval c idx x) (c0 :: cs).
Proof. reflexivity. Qed.

Lemma ceval_excl cs idx x : ceval (CExcl cs) idx x = excl_v (fun c => ceval c idx x) cs.
Proof. destruct cs; reflexivity. Qed.

Lemma ceval_with fields idx m :
  ceval (CWith fields) idx (VMap m) =
    and_v (fun fc => ceval (snd fc) None (map_get m (fst fc))) Pass fields.
Proof.
  destruct fields as [|f0 fields]; [reflexivity|].
  change (ceval (CWith (f0 :: fields)) idx (VMap m)) with
    ((fix all (l: list (sval * constr)) : verdict :=
        match l with
        | [] => Pass
        | (f, c') :: r => match ceval c' None (map_get m f) with Pass => all r | v => v end
        end) (f0 :: fields)).
  generalize (f0 :: fields). induction l as [|[f a] l IH]; [reflexivity|].
  cbn [and_v fst snd]. rewrite <- IH. reflexivity.
Qed.

Lemma ceval_with_nonmap f0 fields idx x :
  (forall m, x <> VMap m) -> ceval (CWith (f0 :: fields)) idx x = Crash AttributeError.
Proof. intros H. destruct x; [reflexivity|reflexivity|]. exfalso. eapply H. reflexivity. Qed.

(* the conjunction over an operand list, as the denotation writes it *)
Lemma all_Forall {A} (D: A -> Prop) l :
  (fix all (l: list A) : Prop := match l with [] => True | a :: r => D a /\ all r end) l
  <-> Forall D l.
Proof.
  induction l as [|a l IH]; [split; constructor|]. rewrite Forall_cons_iff, <- IH. reflexivity.
Qed.

Lemma denote_and cs idx x : denote (CAnd cs) idx x <-> Forall (fun c => denote c idx x) cs.
Proof. exact (all_Forall (fun c => denote c idx x) cs). Qed.

Lemma denote_excl cs idx x : denote (CExcl cs) idx x <-> Forall (fun c => ~ denote c idx x) cs.
Proof. exact (all_Forall (fun c => ~ denote c idx x) cs). Qed.

Lemma denote_or cs idx x : denote (COr cs) idx x <-> Exists (fun c => denote c idx x) cs.
Proof.
  change (denote (COr cs) idx x) with
    ((fix any (l: list constr) : Prop :=
        match l with [] => False | c' :: r => denote c' idx x \/ any r end) cs).
  induction cs as [|a l IH]; [rewrite Exists_nil; reflexivity|].
  rewrite Exists_cons, <- IH. reflexivity.
Qed.

Lemma denote_contained pre plain post idx x :
  denote (CContained pre plain post) idx x <->
    Forall (fun c => denote c idx x) pre /\ Forall (fun c => denote c idx x) post
    /\ (plain = [] \/ exists s, x = VS s /\ In s plain).
Proof. rewrite <- !denote_and. reflexivity. Qed.

Lemma denote_with fields idx x :
  denote (CWith fields) idx x <->
    exists m, x = VMap m /\ Forall (fun fc => denote (snd fc) None (component m (fst fc))) fields.
Proof.
  cbn [denote]. split; intros [m [Hx H]]; exists m; (split; [exact Hx|]); clear Hx.
  all: induction fields as [|[f a] l IH]; [constructor|].
  all: rewrite Forall_cons_iff in *; split; [apply H|apply IH, H].
Qed.

(* every operand of a list is well-formed *)
Definition wf_list (l: list constr) : bool := forallb wf l.

Lemma all_forallb {A} (f: A -> bool) l :
  (fix all (l: list A) : bool := match l with [] => true | a :: r => f a && all r end) l
  = forallb f l.
Proof. induction l as [|a l IH]; [reflexivity|]. cbn [forallb]. rewrite IH. reflexivity. Qed.

Lemma wf_ops_and cs : wf (CAnd cs) = nonnil cs && forallb wf cs.
Proof. cbn [wf]. rewrite (all_forallb wf). reflexivity. Qed.
Lemma wf_ops_or cs : wf (COr cs) = nonnil cs && forallb wf cs.
Proof. cbn [wf]. rewrite (all_forallb wf). reflexivity. Qed.
Lemma wf_ops_excl cs : wf (CExcl cs) = nonnil cs && forallb wf cs.
Proof. cbn [wf]. rewrite (all_forallb wf). reflexivity. Qed.
Lemma wf_ops_contained pre plain post :
  wf (CContained pre plain post) =
    (nonnil pre || nonnil plain || nonnil post) && forallb nonbits plain
    && (nonnil plain || negb (nonnil post))
    && forallb wf pre && forallb wf post.
Proof. cbn [wf]. rewrite !(all_forallb wf). reflexivity. Qed.
Lemma wf_ops_with fields :
  wf (CWith fields) = nonnil fields && forallb (fun fc => nonbits (fst fc) && wf (snd fc)) fields.
Proof.
  cbn [wf]. f_equal. induction fields as [|[f a] l IH]; [reflexivity|].
  cbn [forallb fst snd]. rewrite IH. reflexivity.
Qed.
Lemma wf_ops_inner args :
  wf (CInner args) =
    nonnil args
    && forallb (fun a => match fst a with Some (k, _) => nonbits k | None => true end && wf (snd a)) args.
Proof.
  cbn [wf]. f_equal. induction args as [|[[[k st]|] a] l IH]; [reflexivity| |];
    cbn [forallb fst snd]; rewrite IH; reflexivity.
Qed.

Lemma typed_ops_and cs idx x : typed (CAnd cs) idx x = forallb (fun c => typed c idx x) cs.
Proof. cbn [typed]. apply (all_forallb (fun c => typed c idx x)). Qed.
Lemma typed_ops_or cs idx x : typed (COr cs) idx x = forallb (fun c => typed c idx x) cs.
Proof. cbn [typed]. apply (all_forallb (fun c => typed c idx x)). Qed.
Lemma typed_ops_excl cs idx x : typed (CExcl cs) idx x = forallb (fun c => typed c idx x) cs.
Proof. cbn [typed]. apply (all_forallb (fun c => typed c idx x)). Qed.
Lemma typed_ops_contained pre plain post idx x :
  typed (CContained pre plain post) idx x =
    match plain with [] => true | _ :: _ => false end
    && forallb (fun c => typed c idx x) pre && forallb (fun c => typed c idx x) post.
Proof. cbn [typed]. rewrite !(all_forallb (fun c => typed c idx x)). reflexivity. Qed.
Lemma typed_ops_with fields idx m :
  typed (CWith fields) idx (VMap m) =
    forallb (fun kv => nonbits (fst kv)) m
    && forallb (fun fc => typed (snd fc) None (component m (fst fc))) fields.
Proof.
  cbn [typed]. f_equal. induction fields as [|[f a] l IH]; [reflexivity|].
  cbn [forallb fst snd]. rewrite IH. reflexivity.
Qed.
Lemma typed_ops_inner args idx x :
  typed (CInner args) idx x =
    opt_nonbits idx && forallb (fun a => typed (snd a) None x) args.
Proof.
  cbn [typed]. f_equal. induction args as [|[t a] l IH]; [reflexivity|].
  cbn [forallb snd]. rewrite IH. reflexivity.
Qed.
