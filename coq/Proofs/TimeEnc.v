(* C20, the CER/DER time encoder: what TimeEncoderMixIn.encodeValue makes of a UTC time string
   digits '.' digits 'Z', when its output is canonical, and when it denotes the same instant
   per X.680 (Spec/X680Time.v). *)
From Coq Require Import Lia.
From PV Require Import Base.Bytes Spec.X680Time Model.Time Proofs.Basics Proofs.TimeText.
Local Open Scope N_scope.

Definition nz : text -> text := filter (fun c => negb (c =? 48)).
Definition squeeze_n (n: nat) (l: text) : text := nz (firstn n l) ++ skipn n l.
Definition dotfrac (f: text) : text := match f with [] => [] | _ => 46 :: f end.

Lemma squeeze_is_squeeze_n l : squeeze l = squeeze_n 4 l. Proof. reflexivity. Qed.

Lemma has_rev c l : has c (rev l) = has c l.
Proof.
  induction l as [|x l IH]; [reflexivity|].
  cbn [rev]. rewrite has_app, IH, !has_cons. cbn [has existsb]. rewrite orb_false_r. apply orb_comm.
Qed.

Lemma firstn_min_len {A} (l: list A) n : firstn (Nat.min n (length l)) l = firstn n l.
Proof.
  destruct (Nat.le_ge_cases n (length l)) as [H|H].
  - rewrite Nat.min_l by assumption. reflexivity.
  - rewrite Nat.min_r by assumption. rewrite !firstn_all2 by lia. reflexivity.
Qed.
Lemma skipn_min_len {A} (l: list A) n : skipn (Nat.min n (length l)) l = skipn n l.
Proof.
  destruct (Nat.le_ge_cases n (length l)) as [H|H].
  - rewrite Nat.min_l by assumption. reflexivity.
  - rewrite Nat.min_r by assumption. rewrite !skipn_all2 by lia. reflexivity.
Qed.

Lemma nz_app a b : nz (a ++ b) = nz a ++ nz b.
Proof. apply filter_app. Qed.

Lemma scan_back_spec r : forall l acc, has 46 l = false ->
  scan_back (l ++ 46 :: r) acc = Some (r, nz (rev l) ++ acc).
Proof.
  induction l as [|c l IH]; intros acc H.
  - reflexivity.
  - rewrite has_cons in H. apply orb_false_iff in H. destruct H as [Hc Hl].
    cbn [app scan_back rev]. rewrite N.eqb_sym, Hc, nz_app.
    destruct (N.eqb_spec c 48) as [->|Hn].
    + rewrite IH by assumption. cbn. rewrite app_nil_r. reflexivity.
    + rewrite IH by assumption. unfold nz at 3. cbn [filter].
      apply N.eqb_neq in Hn. rewrite Hn. cbn [negb]. rewrite <- app_assoc. reflexivity.
Qed.

Lemma trim_shape pre X : has 46 pre = false -> has 46 X = false -> X <> [] ->
  trim (pre ++ 46 :: X) =
  match squeeze_n 4 X with
  | c :: _ => if c =? 90 then pre ++ squeeze_n 4 X else pre ++ 46 :: squeeze_n 4 X
  | [] => pre ++ [46]
  end.
Proof.
  intros Hp HX Hne. unfold trim.
  rewrite length_split_at_fst by assumption.
  replace (pre ++ 46 :: X) with ((pre ++ [46]) ++ X) by (rewrite <- app_assoc; reflexivity).
  assert (Hi: S (Nat.min (length pre + 4) (length ((pre ++ [46]) ++ X) - 1))
              = (length (pre ++ [46%N]) + Nat.min 4 (length X))%nat).
  { rewrite !app_length. cbn [length]. destruct X; [congruence|]. cbn [length]. lia. }
  rewrite Hi, firstn_app_2, skipn_add, skipn_app_exact, firstn_min_len, skipn_min_len.
  rewrite rev_app_distr, rev_unit.
  rewrite scan_back_spec.
  2:{ rewrite has_rev. rewrite <- (firstn_skipn 4 X), has_app in HX.
      apply orb_false_iff in HX. apply HX. }
  rewrite rev_involutive, app_nil_r. fold (squeeze_n 4 X). rewrite rev_involutive. reflexivity.
Qed.

Lemma squeeze_n_snoc : forall n X, squeeze_n n (X ++ [90]) = squeeze_n n X ++ [90].
Proof.
  induction n as [|n IH]; intros X; [reflexivity|].
  destruct X as [|x X].
  - unfold squeeze_n. cbn [app firstn skipn]. rewrite firstn_nil, skipn_nil. reflexivity.
  - unfold squeeze_n in *. cbn [app firstn skipn nz filter].
    destruct (negb (x =? 48)); cbn [app]; rewrite IH; reflexivity.
Qed.

(* what holds of every character still holds after the loop: it only deletes *)
Lemma forallb_incl {A} (p: A -> bool) l l' : incl l' l -> forallb p l = true -> forallb p l' = true.
Proof. rewrite !forallb_forall. auto. Qed.
Lemma incl_firstn {A} n (l: list A) : incl (firstn n l) l.
Proof. rewrite <- (firstn_skipn n l) at 2. apply incl_appl, incl_refl. Qed.
Lemma incl_skipn {A} n (l: list A) : incl (skipn n l) l.
Proof. rewrite <- (firstn_skipn n l) at 2. apply incl_appr, incl_refl. Qed.

Lemma squeeze_n_forallb (p: N -> bool) n l : forallb p l = true -> forallb p (squeeze_n n l) = true.
Proof.
  apply forallb_incl, incl_app; [|apply incl_skipn].
  eapply incl_tran; [apply incl_filter|apply incl_firstn].
Qed.

(* the loop on a string  digits . digits Z *)
Lemma trim_gram pre frac : all_digits pre = true -> all_digits frac = true ->
  trim (pre ++ 46 :: frac ++ [90]) = pre ++ dotfrac (squeeze frac) ++ [90].
Proof.
  intros Hp Hf.
  assert (Hs: all_digits (squeeze frac) = true) by (apply squeeze_n_forallb; assumption).
  rewrite trim_shape.
  - rewrite squeeze_n_snoc, <- squeeze_is_squeeze_n.
    destruct (squeeze frac) as [|c r] eqn:E; [reflexivity|].
    cbn [app dotfrac]. cbn [all_digits forallb] in Hs. apply andb_true_iff in Hs. destruct Hs as [Hc _].
    rewrite (digit_ne c 90 Hc eq_refl). reflexivity.
  - apply has_digits; [reflexivity|assumption].
  - rewrite has_app, (has_digits 46 frac eq_refl Hf). reflexivity.
  - destruct frac; discriminate.
Qed.

(* what acceptance says of the input, and the output it fixes *)
Lemma time_enc_inv a b s s' : time_enc a b s = Ok s' ->
  has 43 s = false /\ has 45 s = false /\ has 44 s = false /\ last s 0 = 90
  /\ s' = (if has 46 s then trim s else s).
Proof.
  destruct s as [|c0 s0]; [discriminate|]. cbn [time_enc]. unfold time_enc_body.
  destruct (has 43 _); [discriminate|]. destruct (has 45 _); [discriminate|]. cbn [orb].
  destruct (N.eqb_spec (last (c0 :: s0) 0) 90) as [Hl|]; [|discriminate]. cbn [negb].
  destruct (has 44 _); [discriminate|]. destruct (_ && _); [|discriminate].
  intros [= <-]. repeat split. exact Hl.
Qed.

Lemma has46_digits_Z pre : all_digits pre = true -> has 46 (pre ++ [90]) = false.
Proof. intros H. rewrite has_app, (has_digits 46 pre eq_refl H). reflexivity. Qed.

Lemma time_enc_frac a b pre frac s' :
  all_digits pre = true -> all_digits frac = true ->
  time_enc a b (pre ++ 46 :: frac ++ [90]) = Ok s' ->
  s' = pre ++ dotfrac (squeeze frac) ++ [90].
Proof.
  intros Hp Hf (_ & _ & _ & _ & ->)%time_enc_inv.
  rewrite has_app, has_cons, N.eqb_refl, orb_true_r. apply trim_gram; assumption.
Qed.

Lemma time_enc_nofrac a b pre s' :
  all_digits pre = true -> time_enc a b (pre ++ [90]) = Ok s' -> s' = pre ++ [90].
Proof. intros Hp (_ & _ & _ & _ & ->)%time_enc_inv. rewrite has46_digits_Z by exact Hp. reflexivity. Qed.

(* non-UTC values are refused, whatever the limits *)
Theorem refuses_non_utc a b s : non_utc s = true ->
  time_enc a b s = Err (match s with [] => ECrash IndexError | _ => EMalformed end).
Proof.
  intros H. destruct s as [|c s]; [reflexivity|].
  cbn [time_enc]. unfold time_enc_body. unfold non_utc in H.
  destruct (has 43 (c :: s) || has 45 (c :: s)); [reflexivity|].
  cbn [orb] in H. rewrite H. reflexivity.
Qed.

Lemma span_digits_app pre rest : forallb is_dig pre = true ->
  match rest with [] => True | c :: _ => is_dig c = false end ->
  span_digits (pre ++ rest) = (pre, rest).
Proof.
  induction pre as [|x pre IH]; intros Hp Hr.
  - destruct rest as [|c r]; [reflexivity|]. cbn [app span_digits]. rewrite Hr. reflexivity.
  - cbn [forallb] in Hp. apply andb_true_iff in Hp. destruct Hp as [Hx Hp].
    cbn [app span_digits]. rewrite Hx, IH by assumption. reflexivity.
Qed.

Lemma canonical_shape pre f : all_digits pre = true -> all_digits f = true ->
  (f = [] \/ last f 0 <> 48) -> canonical (pre ++ dotfrac f ++ [90]) = true.
Proof.
  intros Hp Hf Hl. unfold canonical.
  rewrite app_assoc, rev_unit, rev_involutive.
  rewrite span_digits_app; [|exact Hp|destruct f; exact I || reflexivity].
  destruct f as [|c r]; [reflexivity|]. cbn [dotfrac].
  change (forallb is_dig (c :: r)) with (all_digits (c :: r)). rewrite Hf.
  destruct Hl as [Hl|Hl]; [discriminate|]. apply N.eqb_neq in Hl. rewrite Hl. reflexivity.
Qed.

Lemma last_skipn {A} (l: list A) n d : (n < length l)%nat -> last (skipn n l) d = last l d.
Proof.
  intros H. rewrite <- (firstn_skipn n l) at 2. rewrite last_app_ne; [reflexivity|].
  intros E. apply (f_equal (@length A)) in E. rewrite skipn_length in E. cbn in E. lia.
Qed.

Lemma squeeze_last frac : no_far_trailing_zero frac = true ->
  squeeze frac = [] \/ last (squeeze frac) 0 <> 48.
Proof.
  unfold no_far_trailing_zero. intros H.
  destruct (Nat.le_gt_cases (length frac) 4) as [Hle|Hgt].
  - (* nothing beyond the fourth digit: what is left are the non-zero digits *)
    unfold squeeze. rewrite skipn_all2, firstn_all2, app_nil_r by assumption.
    destruct (filter _ frac) eqn:E; [left; reflexivity|right]. rewrite <- E.
    destruct (@exists_last _ (filter (fun c => negb (c =? 48)) frac)) as (l' & a & El);
      [rewrite E; discriminate|].
    assert (Ha: In a (filter (fun c => negb (c =? 48)) frac))
      by (rewrite El; apply in_or_app; right; left; reflexivity).
    rewrite El, last_last. apply filter_In in Ha as [_ Ha]. apply negb_true_iff, N.eqb_neq in Ha. exact Ha.
  - right. apply orb_true_iff in H. destruct H as [H|H]; [apply Nat.leb_le in H; lia|].
    unfold squeeze. rewrite last_app_ne.
    + rewrite last_skipn by lia. apply negb_true_iff, N.eqb_neq in H. exact H.
    + intros E. apply (f_equal (@length N)) in E. rewrite skipn_length in E. cbn in E. lia.
Qed.

Theorem canonical_output a b pre frac s' :
  all_digits pre = true -> all_digits frac = true ->
  time_enc a b (pre ++ 46 :: frac ++ [90]) = Ok s' ->
  no_far_trailing_zero frac = true ->
  canonical s' = true.
Proof.
  intros Hp Hf He Ht. rewrite (time_enc_frac _ _ _ _ _ Hp Hf He).
  apply canonical_shape; [assumption|apply squeeze_n_forallb; assumption|apply squeeze_last; assumption].
Qed.

Theorem canonical_output_nofrac a b pre s' :
  all_digits pre = true -> time_enc a b (pre ++ [90]) = Ok s' -> s' = pre ++ [90] /\ canonical s' = true.
Proof.
  intros Hp He. rewrite (time_enc_nofrac _ _ _ _ Hp He). split; [reflexivity|].
  apply (canonical_shape pre []); auto.
Qed.

Lemma fracval_zeros l : forallb (N.eqb 48) l = true -> (fracval l == 0)%Q.
Proof.
  induction l as [|c l IH]; intros H; [reflexivity|].
  cbn [forallb] in H. apply andb_true_iff in H. destruct H as [Hc Hl]. apply N.eqb_eq in Hc. subst c.
  cbn [fracval]. rewrite (IH Hl). reflexivity.
Qed.

Lemma nz_zeros l : forallb (N.eqb 48) l = true -> nz l = [].
Proof.
  induction l as [|c l IH]; intros H; [reflexivity|].
  cbn [forallb] in H. apply andb_true_iff in H. destruct H as [Hc Hl]. apply N.eqb_eq in Hc. subst c.
  cbn. apply IH. assumption.
Qed.

Lemma squeeze_n_value : forall n l, zeros_only_trailing n l = true ->
  (fracval (squeeze_n n l) == fracval l)%Q.
Proof.
  induction n as [|n IH]; intros l H; [reflexivity|].
  destruct l as [|c r]; [reflexivity|].
  cbn [zeros_only_trailing] in H. unfold squeeze_n. cbn [firstn skipn nz filter].
  destruct (N.eqb_spec c 48) as [->|Hc].
  - cbn [negb]. fold nz. rewrite (nz_zeros (firstn n r)) by (exact (forallb_incl _ _ _ (incl_firstn n r) H)).
    cbn [app]. rewrite (fracval_zeros (skipn n r)) by (exact (forallb_incl _ _ _ (incl_skipn n r) H)).
    cbn [fracval]. rewrite (fracval_zeros r H). reflexivity.
  - cbn [negb app]. fold nz. fold (squeeze_n n r). cbn [fracval]. rewrite (IH r H). reflexivity.
Qed.

Lemma split_zone_Z tt body : split_zone tt (body ++ [90]) = Some (body, Some 0%Z).
Proof. unfold split_zone. rewrite rev_unit, rev_involutive. reflexivity. Qed.

Lemma split_fraction_none pre : all_digits pre = true -> split_fraction pre = Some (pre, None).
Proof.
  intros Hp. unfold split_fraction.
  pose proof (span_digits_app pre [] Hp I) as E. rewrite app_nil_r in E. rewrite E. reflexivity.
Qed.

Lemma split_fraction_dot pre f : all_digits pre = true -> all_digits f = true ->
  split_fraction (pre ++ 46 :: f) = match f with [] => None | _ => Some (pre, Some f) end.
Proof.
  intros Hp Hf. unfold split_fraction. rewrite span_digits_app; [|exact Hp|reflexivity].
  change (forallb is_dig f) with (all_digits f). rewrite Hf. destruct f; reflexivity.
Qed.

Theorem same_instant a b tt pre frac s' i :
  all_digits pre = true -> all_digits frac = true ->
  time_enc a b (pre ++ 46 :: frac ++ [90]) = Ok s' ->
  zeros_only_trailing 4 frac = true ->
  instant tt (pre ++ 46 :: frac ++ [90]) = Some i -> instant tt s' = Some i.
Proof.
  intros Hp Hf He Hz. rewrite (time_enc_frac _ _ _ _ _ Hp Hf He).
  assert (Hs: all_digits (squeeze frac) = true) by (apply squeeze_n_forallb; assumption).
  pose proof (squeeze_n_value 4 frac Hz) as Hv. rewrite <- squeeze_is_squeeze_n in Hv.
  replace (pre ++ 46 :: frac ++ [90]) with ((pre ++ 46 :: frac) ++ [90]) by (rewrite <- app_assoc; reflexivity).
  rewrite app_assoc.
  unfold instant. rewrite !split_zone_Z.
  rewrite split_fraction_dot by assumption.
  destruct frac as [|c0 r0]; [discriminate|]. set (frac := c0 :: r0) in *.
  destruct (squeeze frac) as [|c r] eqn:E; cbn [dotfrac].
  1: rewrite app_nil_r, split_fraction_none by assumption.
  2: rewrite split_fraction_dot by assumption.
  (* the date-time digits are untouched; the fractions have the same value *)
  all: destruct (date_time tt pre) as [[secs unit]|]; [|discriminate].
  all: destruct tt; [|discriminate].
  all: intros H; rewrite <- H; do 2 f_equal; apply Qred_complete; rewrite <- Hv; reflexivity.
Qed.

(* from "in the grammar and accepted" to the shape  digits [. digits] Z *)

Lemma span_digits_spec : forall l a b, span_digits l = (a, b) ->
  l = a ++ b /\ forallb is_dig a = true.
Proof.
  induction l as [|c l IH]; intros a b H.
  - inversion H. split; reflexivity.
  - cbn [span_digits] in H. destruct (is_dig c) eqn:Ec.
    + destruct (span_digits l) as [a' b'] eqn:E. inversion H; subst.
      destruct (IH a' b eq_refl) as [-> Hd]. split; [reflexivity|]. cbn [forallb]. rewrite Ec, Hd. reflexivity.
    + inversion H; subst. split; reflexivity.
Qed.

Lemma accepted_in_grammar_shape a b tt s s' i :
  time_enc a b s = Ok s' -> instant tt s = Some i ->
  (exists pre, all_digits pre = true /\ s = pre ++ [90])
  \/ (exists pre frac, all_digits pre = true /\ all_digits frac = true /\ s = pre ++ 46 :: frac ++ [90]).
Proof.
  intros (_ & _ & H44 & Hl & _)%time_enc_inv Hi.
  assert (Hne: s <> []) by (intros ->; discriminate Hl).
  destruct (exists_last Hne) as (body & z & Es).
  rewrite Es in Hl, Hi, H44 |- *. rewrite last_last in Hl. subst z.
  unfold instant in Hi. rewrite split_zone_Z in Hi.
  unfold split_fraction in Hi. destruct (span_digits body) as [main rest] eqn:Esp.
  destruct (span_digits_spec _ _ _ Esp) as [-> Hm].
  destruct rest as [|sep f].
  - left. exists main. rewrite app_nil_r. split; [exact Hm|reflexivity].
  - right. destruct ((sep =? 46) || (sep =? 44)) eqn:Esep; [|discriminate].
    cbn [andb] in Hi. destruct (forallb is_dig f) eqn:Ef; [|rewrite andb_false_r in Hi; discriminate].
    exists main, f. split; [exact Hm|]. split; [exact Ef|].
    destruct (N.eqb_spec sep 46) as [->|Hn]; [rewrite <- app_assoc; reflexivity|].
    cbn [orb] in Esep. apply N.eqb_eq in Esep. subst sep.
    rewrite !has_app, has_cons in H44. cbn [N.eqb Pos.eqb] in H44.
    rewrite orb_true_r in H44. cbn in H44. discriminate.
Qed.

Lemma frac_of_shape pre frac : all_digits pre = true -> frac_of (pre ++ 46 :: frac ++ [90]) = frac.
Proof.
  intros Hp. unfold frac_of. rewrite split_at_app by (apply has_digits; [reflexivity|assumption]).
  cbn [snd]. apply removelast_last.
Qed.

(* the statement closest to the property text: any string that X.680 gives an instant to and
   that the encoder accepts *)
Theorem accepted_canonical_same_instant a b tt s s' i :
  time_enc a b s = Ok s' -> instant tt s = Some i ->
  (has 46 s = true -> no_far_trailing_zero (frac_of s) = true -> canonical s' = true)
  /\ (has 46 s = true -> zeros_only_trailing 4 (frac_of s) = true -> instant tt s' = Some i)
  /\ (has 46 s = false -> s' = s /\ canonical s' = true).
Proof.
  intros He Hi.
  destruct (accepted_in_grammar_shape _ _ _ _ _ _ He Hi) as [(pre & Hp & ->)|(pre & frac & Hp & Hf & ->)].
  - rewrite has46_digits_Z by assumption. repeat split; try discriminate.
    + apply (time_enc_nofrac _ _ _ _ Hp He).
    + apply (canonical_output_nofrac _ _ _ _ Hp He).
  - rewrite frac_of_shape by assumption. repeat split.
    + intros _ Ht. exact (canonical_output a b pre frac s' Hp Hf He Ht).
    + intros _ Hz. exact (same_instant a b tt pre frac s' i Hp Hf He Hz Hi).
    + rewrite has_app, has_cons, N.eqb_refl, orb_true_r in H. discriminate.
    + rewrite has_app, has_cons, N.eqb_refl, orb_true_r in H. discriminate.
Qed.
