(* Round trip under every encoder mode for the whole type universe (C01/C02): the stage-3 universe of
   Proofs/RoundTrip3*.v (simple types, SEQUENCE OF, SET OF, SEQUENCE and SET with mandatory, OPTIONAL and
   DEFAULT components, CHOICE, ANY, IMPLICIT/EXPLICIT tagging, to any depth) under the modes of
   Proofs/RoundTripModes*.v: the BER encoder with any defMode and maxChunkSize (indefinite lengths,
   segmented strings), the CER encoder (indefinite lengths, segments of 1000 octets, SET components and
   SET OF elements sorted) and the DER encoder, read by the BER and the CER decoder.
   Parts (a)-(f) are in RoundTripModes3a.v ... RoundTripModes3f.v. *)
From Coq Require Import Lia Permutation.
From PV Require Import Base.Bytes Model.Tag Model.TableTypes Model.Types Model.Proc Model.Enc Model.Dec Gen.Tables
     Proofs.ProcBind Proofs.RunLemmas Proofs.TagOctets Proofs.TagAlgebra Proofs.DecHeader Proofs.DecFrame Proofs.DecPrim
     Proofs.TagsetShape Proofs.Schemaless Proofs.RoundTrip1 Proofs.RoundTrip2 Proofs.TagReject Proofs.ContainerCodecSort
     Proofs.RoundTripModesA Proofs.RoundTripModesB Proofs.RoundTripModesC Proofs.RoundTripModesBag Proofs.RoundTripModes
     Proofs.RoundTrip3 Proofs.RoundTrip3a Proofs.RoundTrip3b Proofs.RoundTrip3c Proofs.RoundTrip3d Proofs.RoundTrip3e Proofs.RoundTrip3f
     Proofs.RoundTripModes3a Proofs.RoundTripModes3b Proofs.RoundTripModes3c Proofs.RoundTripModes3d Proofs.RoundTripModes3e
     Proofs.RoundTripModes3f.
Local Open Scope N_scope.

Definition payload_ok (v: val) : bool := match v with VAny b | VOcts b => any_payload_ok b | _ => false end.

(* the octets of every TAGGED ANY are a sequence of complete TLVs ([any_payload_ok], RoundTripModes3f.v):
   the decoder reads them back TLV by TLV up to the end-of-octets marker *)
Fixpoint anys_ok (T: ty) (v: val) {struct T} : bool :=
  match T with
  | TImp _ x | TExp _ x =>
      match base_of x with
      | TAny => payload_ok v
      | _ => anys_ok x v
      end
  | TSeqOf t | TSetOf t => match v with VList xs => forallb (anys_ok t) xs | _ => true end
  | TSeq fs | TSet fs =>
      match v with
      | VRec vs =>
          (fix go (fs: list (presence * ty)) (vs: list (option val)) : bool :=
             match fs, vs with
             | (p, ft) :: fs', Some x :: vs' => anys_ok ft x && go fs' vs'
             | _ :: fs', None :: vs' => go fs' vs'
             | _, _ => true
             end) fs vs
      | _ => true
      end
  | TChoice alts =>
      match v with
      | VChoice i x =>
          (fix go (l: list ty) (k: nat) : bool :=
             match l, k with
             | a :: _, O => anys_ok a x
             | _ :: r, S k' => go r k'
             | [], _ => true
             end) alts i
      | _ => true
      end
  | _ => true
  end.

Definition anys_fields : list (presence * ty) -> list (option val) -> bool :=
  fix go (fs: list (presence * ty)) (vs: list (option val)) : bool :=
    match fs, vs with
    | (p, ft) :: fs', Some x :: vs' => anys_ok ft x && go fs' vs'
    | _ :: fs', None :: vs' => go fs' vs'
    | _, _ => true
    end.

Lemma anys_ok_rec T fs vs : T = TSeq fs \/ T = TSet fs -> anys_ok T (VRec vs) = anys_fields fs vs.
Proof. intros [-> | ->]; reflexivity. Qed.

Lemma anys_ok_list T t xs : T = TSeqOf t \/ T = TSetOf t -> anys_ok T (VList xs) = forallb (anys_ok t) xs.
Proof. intros [-> | ->]; reflexivity. Qed.

Lemma anys_ok_choice alts i x :
  anys_ok (TChoice alts) (VChoice i x) = match nth_error alts i with Some a => anys_ok a x | None => true end.
Proof.
  cbn [anys_ok]. apply nth_loop.
Qed.

Lemma anys_ok_base : forall T v, base_of T <> TAny -> anys_ok T v = anys_ok (base_of T) v.
Proof.
  induction T as [| | | | | | | | n|fs IH|fs IH|t IH|t IH|alts IH| |tg x IH|tg x IH] using ty_ind'; intros v Hb; try reflexivity.
  - cbn [base_of] in *. cbn [anys_ok]. destruct (base_of x) eqn:E; try (apply IH; exact Hb). congruence.
  - cbn [base_of] in *. cbn [anys_ok]. destruct (base_of x) eqn:E; try (apply IH; exact Hb). congruence.
Qed.

Lemma anys_ok_tagged_any : forall T v, base_of T = TAny -> is_wrapped T = true -> anys_ok T v = payload_ok v.
Proof.
  induction T as [| | | | | | | | n|fs IH|fs IH|t IH|t IH|alts IH| |tg x IH|tg x IH] using ty_ind'; intros v Hb Hwr;
    try discriminate Hwr; cbn [base_of] in Hb; cbn [anys_ok]; rewrite Hb; reflexivity.
Qed.

Lemma stage3_val_tagged_any ce cd : forall T v, base_of T = TAny -> is_wrapped T = true ->
  stage3_val ce cd T v = match v with VAny _ | VOcts _ => true | _ => false end.
Proof.
  induction T as [| | | | | | | | n|fs IH|fs IH|t IH|t IH|alts IH| |tg x IH|tg x IH] using ty_ind'; intros v Hb Hwr;
    try discriminate Hwr; cbn [base_of] in Hb; cbn [stage3_val]; rewrite Hb; reflexivity.
Qed.

Lemma comp_vals_anys ce (P: ty -> val -> Prop) (c: Prop) fs vs : comp_vals ce P fs vs -> (c -> anys_fields fs vs = true) ->
  comp_vals ce (fun t x => P t x /\ (c -> anys_ok t x = true)) fs vs.
Proof.
  (* where a component is present the condition is that of its value and that of the other components *)
  assert (Hsplit: forall p ft x fs vs, (c -> anys_fields ((p, ft) :: fs) (Some x :: vs) = true) ->
            (c -> anys_ok ft x = true) /\ (c -> anys_fields fs vs = true)).
  { intros p ft x fs0 vs0 H. split; intros Hc; specialize (H Hc); cbn [anys_fields] in H; apply Bool.andb_true_iff in H;
      [exact (proj1 H)|exact (proj2 H)]. }
  induction 1 as [|ft x fs vs HPx HCV IH|ft fs vs HCV IH|ft x fs vs HPx Hne HCV IH|dv ft fs vs HCV IH|dv ft x fs vs HPx Hpy HCV IH];
    intros Ha.
  - constructor.
  - destruct (Hsplit _ _ _ _ _ Ha) as [H1 H2]. constructor; [exact (conj HPx H1)|exact (IH H2)].
  - constructor. exact (IH Ha).
  - destruct (Hsplit _ _ _ _ _ Ha) as [H1 H2]. constructor; [exact (conj HPx H1)|exact Hne|exact (IH H2)].
  - constructor. exact (IH Ha).
  - destruct (Hsplit _ _ _ _ _ Ha) as [H1 H2]. constructor; [exact (conj HPx H1)|exact Hpy|exact (IH H2)].
Qed.

Section Master3.
  Variables ce cd : codec.
  Variable d : bool.
  Variable k : N.
  Hypothesis Hst : stable ce d k.
  Hypothesis Hcd : dec_ok cd.
  Variable R : aval -> aval -> Prop.
  Variable srt : bool.
  Hypothesis HR : rel_ok R srt.

  Notation val_ok_m := (val_ok_m ce cd d k R).
  Notation item_sty_m := (item_sty_m ce cd d k R).

  (* the values of the theorem: [stage3_val], and under indefinite lengths [anys_ok] *)
  Definition Pvm (t: ty) (x: val) : Prop := stage3_val ce cd t x = true /\ (d = false -> anys_ok t x = true).

  (* a type that guides the decoder directly: from the invariant, or the untagged ANY *)
  Lemma direct_item_m T' : (T' <> TAny -> forall v, Pvm T' v -> val_ok_m T' v) ->
    direct_ok T' = true -> forall v, Pvm T' v -> item_sty_m T' v.
  Proof.
    intros Hval Hdir v Hv. unfold direct_ok in Hdir. apply Bool.orb_true_iff in Hdir. destruct Hdir as [HK|Hany].
    - apply (item_sty_of_val_m ce cd d k Hcd R); [exact (Hval (keys_not_any T' HK) v Hv)|].
      apply resolves_sty; [exact HK|exact (wire_nonempty ce cd T' v HK (proj1 Hv))].
    - destruct T'; try discriminate Hany. exact (any_item_m ce cd d k Hst Hcd R srt HR v (proj1 Hv)).
  Qed.

  (* the values of a SEQUENCE / SET, component by component *)
  Lemma rec_vals_m T' fs : (base_of T' = TSeq fs \/ base_of T' = TSet fs) -> forallb def_ok fs = true ->
    forall v, Pvm T' v -> exists vs, v = VRec vs /\ comp_vals ce Pvm fs vs.
  Proof.
    intros Hb Hdef v [Hv Ha].
    assert (Hna: base_of T' <> TAny) by (destruct Hb as [-> | ->]; discriminate).
    rewrite (stage3_val_base ce cd T' v Hna) in Hv.
    assert (Hr: exists vs, v = VRec vs)
      by (destruct Hb as [Hb|Hb]; rewrite Hb in Hv; destruct v; try discriminate Hv; eexists; reflexivity).
    destruct Hr as (vs & ->). exists vs. split; [reflexivity|].
    rewrite (stage3_val_rec ce cd (base_of T') fs vs Hb) in Hv.
    apply comp_vals_anys; [exact (comp_vals_of_bool ce cd fs Hdef vs Hv)|].
    intros Hd0. rewrite <- (anys_ok_rec (base_of T') fs vs Hb), <- (anys_ok_base T' _ Hna). exact (Ha Hd0).
  Qed.

  (* SEQUENCE OF / SET OF, given the invariant for the element type *)
  Lemma listof_case_m T' t : (base_of T' = TSeqOf t \/ base_of T' = TSetOf t) -> wf_tags T' = true ->
    (base_of T' = TSetOf t -> sorts_setof ce = true -> srt = true) -> direct_ok t = true ->
    (t <> TAny -> forall y, Pvm t y -> val_ok_m t y) ->
    forall v, Pvm T' v -> val_ok_m T' v.
  Proof.
    intros Hb Hw Hsrt Hdir IHt v [Hv Ha].
    assert (Hna: base_of T' <> TAny) by (destruct Hb as [-> | ->]; discriminate).
    rewrite (stage3_val_base ce cd T' v Hna) in Hv.
    assert (Hl: exists xs, v = VList xs /\ forallb (stage3_val ce cd t) xs = true)
      by (destruct Hb as [Hb|Hb]; rewrite Hb in Hv; destruct v; try discriminate Hv; (eexists; split; [reflexivity|exact Hv])).
    destruct Hl as (xs & -> & Hxs).
    apply (listof_val_m ce cd d k Hst Hcd R srt HR T' t Hb Hw Hsrt).
    apply Forall_forall. intros x Hin. rewrite forallb_forall in Hxs.
    apply (direct_item_m t IHt Hdir). split; [exact (Hxs x Hin)|].
    intros Hd0. specialize (Ha Hd0). rewrite (anys_ok_base T' _ Hna), (anys_ok_list (base_of T') t xs Hb), forallb_forall in Ha.
    exact (Ha x Hin).
  Qed.

  (* the claim is about T'; T only drives the induction, through the tagging of T' down to its base type *)
  Theorem modes3_val_ok : forall T T', base_of T' = base_of T -> stage3_ty srt ce T' = true ->
    (d = false -> no_f01 T' = true) -> T' <> TAny -> forall v, Pvm T' v -> val_ok_m T' v.
  Proof.
    induction T as [| | | | | | | | n|fs IH|fs IH|t IH|t IH|alts IH| |tg x IH|tg x IH] using ty_ind';
      intros T' Hb Hty Hf01 Hnany v [Hv Ha]; cbn [base_of] in Hb;
      destruct (stage3_ty_base srt ce T' Hty) as [Hw Htb];
      assert (Hf01b: d = false -> no_f01 (base_of T') = true /\ f01_class T' = false)
        by (intros Hd0; exact (no_f01_base T' (Hf01 Hd0)));
      try (assert (Hna: base_of T' <> TAny) by (rewrite Hb; discriminate));
      try (assert (Hp: prim_base T' = true) by (unfold prim_base; rewrite Hb; reflexivity);
           apply (prim_val_m ce cd d k Hst Hcd R srt HR T' v Hp Hw (fun Hd0 => f01_single T' (proj2 (Hf01b Hd0))));
           rewrite (stage1_val_base ce cd T' v), Hb;
           rewrite (stage3_val_base ce cd T' v Hna), Hb in Hv; exact Hv).
    - (* SEQUENCE *)
      rewrite Hb in Htb. cbn [stage3_ty] in Htb.
      apply Bool.andb_true_iff in Htb. destruct Htb as [Hfs Hwf]. rewrite forallb_forall in Hfs.
      assert (Hnf: d = false -> forall f, In f fs -> no_f01 (snd f) = true).
      { intros Hd0 f Hin. destruct (Hf01b Hd0) as [H1 _]. rewrite Hb in H1. cbn [no_f01] in H1.
        rewrite forallb_forall in H1. exact (H1 f Hin). }
      destruct (rec_vals_m T' fs (or_introl Hb)) with (v := v) as (vs & -> & HCV); [|exact (conj Hv Ha)|].
      { apply forallb_forall. intros f Hin. specialize (Hfs f Hin). apply Bool.andb_true_iff in Hfs. exact (proj2 Hfs). }
      apply (record_val_m ce cd d k Hst Hcd R srt HR Pvm T' fs Hb Hw Hwf); [|exact HCV].
      apply Forall_forall. intros f Hin. rewrite Forall_forall in IH.
      pose proof (Hfs f Hin) as Hf1. apply Bool.andb_true_iff in Hf1. destruct Hf1 as [Hf1 _].
      apply Bool.andb_true_iff in Hf1. destruct Hf1 as [Hfty Hdir].
      split; [intros Hnr; exact (seq_wf_nonreq_keys fs Hwf f Hin Hnr)|].
      intros x Hx. split.
      + intros HKf. exact (IH f Hin (snd f) eq_refl Hfty (fun Hd0 => Hnf Hd0 f Hin) (keys_not_any _ HKf) x Hx).
      + intros Hreq. rewrite Hreq in Hdir. cbn [negb orb] in Hdir.
        apply (direct_item_m (snd f)); [|exact Hdir|exact Hx].
        intros Hn y Hy. exact (IH f Hin (snd f) eq_refl Hfty (fun Hd0 => Hnf Hd0 f Hin) Hn y Hy).
    - (* SET *)
      rewrite Hb in Htb. cbn [stage3_ty] in Htb.
      apply Bool.andb_true_iff in Htb. destruct Htb as [Hfs HK]. rewrite forallb_forall in Hfs.
      assert (Hnf: d = false -> forall f, In f fs -> no_f01 (snd f) = true).
      { intros Hd0 f Hin. destruct (Hf01b Hd0) as [H1 _]. rewrite Hb in H1. cbn [no_f01] in H1.
        rewrite forallb_forall in H1. exact (H1 f Hin). }
      destruct (rec_vals_m T' fs (or_intror Hb)) with (v := v) as (vs & -> & HCV); [|exact (conj Hv Ha)|].
      { apply forallb_forall. intros f Hin. specialize (Hfs f Hin). apply Bool.andb_true_iff in Hfs. exact (proj2 Hfs). }
      apply (set_val_m ce cd d k Hst Hcd R srt HR Pvm T' fs Hb Hw HK); [|exact HCV].
      apply Forall_forall. intros f Hin. rewrite Forall_forall in IH.
      pose proof (Hfs f Hin) as Hf1. apply Bool.andb_true_iff in Hf1. destruct Hf1 as [Hfty _].
      assert (HKf: keys_ok (ckeys (snd f)) = true).
      { apply (keys_ok_sub (snd f) (map snd fs)); [apply in_map; exact Hin|exact HK]. }
      split; [intros _; exact HKf|]. intros x Hx.
      pose proof (IH f Hin (snd f) eq_refl Hfty (fun Hd0 => Hnf Hd0 f Hin) (keys_not_any _ HKf) x Hx) as Hval.
      split; [intros _; exact Hval|]. intros _.
      apply (item_sty_of_val_m ce cd d k Hcd R); [exact Hval|].
      apply resolves_sty; [exact HKf|exact (wire_nonempty ce cd (snd f) x HKf (proj1 Hx))].
    - (* SEQUENCE OF *)
      rewrite Hb in Htb. cbn [stage3_ty] in Htb.
      apply Bool.andb_true_iff in Htb. destruct Htb as [Hty_t Hdir].
      apply (listof_case_m T' t (or_introl Hb) Hw); [intros E; rewrite Hb in E; discriminate|exact Hdir| |exact (conj Hv Ha)].
      intros Hn y Hy. apply (IH t eq_refl Hty_t); [|exact Hn|exact Hy].
      intros Hd0. destruct (Hf01b Hd0) as [H1 _]. rewrite Hb in H1. exact H1.
    - (* SET OF *)
      rewrite Hb in Htb. cbn [stage3_ty] in Htb.
      apply Bool.andb_true_iff in Htb. destruct Htb as [Htb Hsrt].
      apply Bool.andb_true_iff in Htb. destruct Htb as [Hty_t Hdir].
      apply (listof_case_m T' t (or_intror Hb) Hw); [|exact Hdir| |exact (conj Hv Ha)].
      { intros _ Hs. rewrite Hs in Hsrt. cbn [negb] in Hsrt. rewrite Bool.orb_false_r in Hsrt. exact Hsrt. }
      intros Hn y Hy. apply (IH t eq_refl Hty_t); [|exact Hn|exact Hy].
      intros Hd0. destruct (Hf01b Hd0) as [H1 _]. rewrite Hb in H1. exact H1.
    - (* CHOICE *)
      rewrite Hb in Htb. cbn [stage3_ty] in Htb.
      apply Bool.andb_true_iff in Htb. destruct Htb as [Halts HK].
      rewrite (stage3_val_base ce cd T' v Hna), Hb in Hv. destruct v as [bb|z|bs|bo|cs| |arcs|r|vfs|xs|i x|ab]; try discriminate Hv.
      rewrite stage3_val_choice in Hv. destruct (nth_error alts i) as [a|] eqn:En; [|discriminate Hv].
      assert (Ha': d = false -> anys_ok a x = true).
      { intros Hd0. specialize (Ha Hd0). rewrite (anys_ok_base T' _ Hna), Hb, anys_ok_choice, En in Ha. exact Ha. }
      assert (Hnf: d = false -> forall a0, In a0 alts -> no_f01 a0 = true).
      { intros Hd0 a0 Hin. destruct (Hf01b Hd0) as [H1 _]. rewrite Hb in H1. cbn [no_f01] in H1.
        rewrite forallb_forall in H1. exact (H1 a0 Hin). }
      rewrite forallb_forall in Halts.
      assert (IHa: Forall (fun a => forall x, Pvm a x -> val_ok_m a x) alts).
      { apply Forall_forall. intros a0 Hin y Hy. rewrite Forall_forall in IH.
        exact (IH a0 Hin a0 eq_refl (Halts a0 Hin) (fun Hd0 => Hnf Hd0 a0 Hin) (keys_not_any _ (keys_ok_sub a0 alts Hin HK)) y Hy). }
      destruct (is_wrapped T') eqn:Hwr.
      + exact (choice_val_tagged_m ce cd d k Hst Hcd R srt HR Pvm T' alts Hb Hwr Hty HK IHa i x a En (conj Hv Ha')).
      + rewrite (unwrapped_base T' Hwr) in Hb. subst T'.
        exact (choice_val_untagged_m ce cd d k Hst Hcd R srt HR Pvm alts HK IHa i x a En (conj Hv Ha')).
    - (* ANY: tagged *)
      assert (Hwr: is_wrapped T' = true).
      { destruct T'; try reflexivity; try discriminate Hb. congruence. }
      rewrite (stage3_val_tagged_any ce cd T' v Hb Hwr) in Hv.
      destruct (any_octets v Hv) as (bs & Hoct & Habs).
      apply (any_val_tagged_m ce cd d k Hst Hcd R srt HR T' Hb Hwr Hty v bs Hoct Habs).
      intros Hd0. specialize (Ha Hd0). rewrite (anys_ok_tagged_any T' v Hb Hwr) in Ha.
      destruct v; try discriminate Hv; cbn [octets_of] in Hoct; inversion Hoct; subst; exact Ha.
    - exact (IH T' Hb Hty Hf01 Hnany v (conj Hv Ha)).
    - exact (IH T' Hb Hty Hf01 Hnany v (conj Hv Ha)).
  Qed.

  (* the round trip for any congruence R; the hypotheses are explained at [roundtrip_modes3] *)
  Theorem modes3_decode : forall T v b tl,
    stage3_ty srt ce T = true -> (d = false -> no_f01 T = true) ->
    stage3_val ce cd T v = true -> (d = false -> anys_ok T v = true) ->
    encode ce d k T v = Ok b -> N.of_nat (length b) <= index_max ->
    exists v', decode cd (Some T) (b ++ tl) = Ok (DV T v', tl) /\ R (abs T v') (abs T v).
  Proof.
    intros T v b tl Hty Hf Hv Ha He Hmax.
    assert (Hdir: direct_ok T = true).
    { unfold direct_ok. destruct T; try (rewrite (top_keys ce srt); [reflexivity|exact Hty|discriminate]). apply Bool.orb_true_r. }
    pose proof (direct_item_m T (fun Hn y Hy => modes3_val_ok T T eq_refl Hty Hf Hn y Hy) Hdir v (conj Hv Ha)) as Hit.
    destruct (Hit b He Hmax) as (v' & HRv & _ & _ & Hc).
    exists v'. split; [|exact HRv]. unfold decode.
    assert (Hfu: fuel_ok T b (dec_fuel (Some T) (b ++ tl))).
    { unfold fuel_ok, dec_fuel. rewrite app_length. lia. }
    pose proof (consumes_decode_with cd _ (Some T) b tl (DV T v') (Hc _ false Hfu)) as Hdw.
    unfold decode_with in Hdw. exact Hdw.
  Qed.

End Master3.

(* Round trip under every encoder mode, for the whole type universe.
   [stable ce d k]: the options reach the encoder (any for BER; CER fixes defMode=False, maxChunkSize=1000; DER
   fixes defMode=True, maxChunkSize=0 - see the corollaries for arbitrary caller options).
   [stage3_ty false ce]: the well-formedness the decoder needs (RoundTrip3b.v); SET OF only under the BER encoder
   here, the CER/DER encoders sort its elements (see [roundtrip_modes3_bag]).
   [no_f01]: finding F01, hereditarily, where lengths are indefinite.
   [stage3_val ce cd]: as in definite mode; includes that a present OPTIONAL component is not emptied by the
   CER/DER encoder (finding F24, stated through [fix_opts] for the options CER/DER really use).
   [anys_ok]: where lengths are indefinite, the octets of a TAGGED ANY are a sequence of TLVs. *)
Theorem roundtrip_modes3 : forall ce cd d k T v b tl,
  stable ce d k -> dec_ok cd ->
  stage3_ty false ce T = true -> (d = false -> no_f01 T = true) ->
  stage3_val ce cd T v = true -> (d = false -> anys_ok T v = true) ->
  encode ce d k T v = Ok b -> N.of_nat (length b) <= index_max ->
  exists v', decode cd (Some T) (b ++ tl) = Ok (DV T v', tl) /\ abs T v' = abs T v.
Proof.
  intros ce cd d k T v b tl Hst Hcd Hty Hf Hv Ha He Hmax.
  exact (modes3_decode ce cd d k Hst Hcd eq false rel_ok_eq T v b tl Hty Hf Hv Ha He Hmax).
Qed.

(* with SET OF under the sorting encoders: abstract contents equal up to the order of SET OF elements, at any depth *)
Theorem roundtrip_modes3_bag : forall ce cd d k T v b tl,
  stable ce d k -> dec_ok cd ->
  stage3_ty true ce T = true -> (d = false -> no_f01 T = true) ->
  stage3_val ce cd T v = true -> (d = false -> anys_ok T v = true) ->
  encode ce d k T v = Ok b -> N.of_nat (length b) <= index_max ->
  exists v', decode cd (Some T) (b ++ tl) = Ok (DV T v', tl) /\ aeq (abs T v') (abs T v).
Proof.
  intros ce cd d k T v b tl Hst Hcd Hty Hf Hv Ha He Hmax.
  exact (modes3_decode ce cd d k Hst Hcd aeq true rel_ok_aeq T v b tl Hty Hf Hv Ha He Hmax).
Qed.

(* the same with the model's own comparison (SET OF contents as multisets) *)
Theorem roundtrip_modes3_eqb : forall ce cd d k T v b tl,
  stable ce d k -> dec_ok cd ->
  stage3_ty true ce T = true -> (d = false -> no_f01 T = true) ->
  stage3_val ce cd T v = true -> (d = false -> anys_ok T v = true) -> agoodb (abs T v) = true ->
  encode ce d k T v = Ok b -> N.of_nat (length b) <= index_max ->
  exists v', decode cd (Some T) (b ++ tl) = Ok (DV T v', tl) /\ aval_eqb (abs T v) (abs T v') = true.
Proof.
  intros ce cd d k T v b tl Hst Hcd Hty Hf Hv Ha Hg He Hmax.
  destruct (roundtrip_modes3_bag ce cd d k T v b tl Hst Hcd Hty Hf Hv Ha He Hmax) as (v' & Hd & Hq).
  exists v'. split; [exact Hd|]. apply (proj2 (aval_eqb_aeq (abs T v)) Hg). apply aeq_sym. exact Hq.
Qed.

(* indefinite-length mode of the BER encoder, any maxChunkSize *)
Theorem roundtrip_indefinite_stage3 : forall cd chunk T v b tl,
  dec_ok cd -> stage3_ty false BER T = true -> no_f01 T = true ->
  stage3_val BER cd T v = true -> anys_ok T v = true ->
  encode BER false chunk T v = Ok b -> N.of_nat (length b) <= index_max ->
  exists v', decode cd (Some T) (b ++ tl) = Ok (DV T v', tl) /\ abs T v' = abs T v.
Proof.
  intros cd chunk T v b tl Hcd Hty Hf Hv Ha He Hmax.
  exact (roundtrip_modes3 BER cd false chunk T v b tl (stable_ber false chunk) Hcd Hty (fun _ => Hf) Hv (fun _ => Ha) He Hmax).
Qed.

(* segmented mode of the BER encoder, definite lengths, any maxChunkSize *)
Theorem roundtrip_segmented_stage3 : forall cd chunk T v b tl,
  dec_ok cd -> stage3_ty false BER T = true -> stage3_val BER cd T v = true ->
  encode BER true chunk T v = Ok b -> N.of_nat (length b) <= index_max ->
  exists v', decode cd (Some T) (b ++ tl) = Ok (DV T v', tl) /\ abs T v' = abs T v.
Proof.
  intros cd chunk T v b tl Hcd Hty Hv He Hmax.
  apply (roundtrip_modes3 BER cd true chunk T v b tl (stable_ber true chunk) Hcd Hty); try assumption; intros E; discriminate E.
Qed.

(* the CER encoder, whatever options the caller passes; decoders CER and BER; no SET OF (sorted: see below) *)
Theorem roundtrip_cer_encoder_stage3 : forall cd d k T v b tl,
  dec_ok cd -> stage3_ty false CER T = true -> no_f01 T = true ->
  stage3_val CER cd T v = true -> anys_ok T v = true ->
  encode CER d k T v = Ok b -> N.of_nat (length b) <= index_max ->
  exists v', decode cd (Some T) (b ++ tl) = Ok (DV T v', tl) /\ abs T v' = abs T v.
Proof.
  intros cd d k T v b tl Hcd Hty Hf Hv Ha He Hmax. rewrite encode_cer_fixed in He.
  exact (roundtrip_modes3 CER cd false 1000 T v b tl stable_cer Hcd Hty (fun _ => Hf) Hv (fun _ => Ha) He Hmax).
Qed.

(* the CER encoder with SET OF: equal up to the order of SET OF elements; with the model's comparison *)
Theorem roundtrip_cer_encoder_stage3_setof : forall cd d k T v b tl,
  dec_ok cd -> stage3_ty true CER T = true -> no_f01 T = true ->
  stage3_val CER cd T v = true -> anys_ok T v = true ->
  encode CER d k T v = Ok b -> N.of_nat (length b) <= index_max ->
  exists v', decode cd (Some T) (b ++ tl) = Ok (DV T v', tl) /\ aeq (abs T v') (abs T v)
             /\ (agoodb (abs T v) = true -> aval_eqb (abs T v) (abs T v') = true).
Proof.
  intros cd d k T v b tl Hcd Hty Hf Hv Ha He Hmax. rewrite encode_cer_fixed in He.
  destruct (roundtrip_modes3_bag CER cd false 1000 T v b tl stable_cer Hcd Hty (fun _ => Hf) Hv (fun _ => Ha) He Hmax) as (v' & Hd & Hq).
  exists v'. split; [exact Hd|]. split; [exact Hq|].
  intros Hg. apply (proj2 (aval_eqb_aeq (abs T v)) Hg). apply aeq_sym. exact Hq.
Qed.

(* the DER encoder, whatever options the caller passes, read by the BER or the CER decoder *)
Theorem roundtrip_der_encoder_stage3 : forall cd d k T v b tl,
  dec_ok cd -> stage3_ty true DER T = true -> stage3_val DER cd T v = true ->
  encode DER d k T v = Ok b -> N.of_nat (length b) <= index_max ->
  exists v', decode cd (Some T) (b ++ tl) = Ok (DV T v', tl) /\ aeq (abs T v') (abs T v).
Proof.
  intros cd d k T v b tl Hcd Hty Hv He Hmax. rewrite encode_der_fixed in He.
  apply (roundtrip_modes3_bag DER cd true 0 T v b tl stable_der Hcd Hty); try assumption; intros E; discriminate E.
Qed.

Print Assumptions roundtrip_modes3.
Print Assumptions roundtrip_modes3_bag.
Print Assumptions roundtrip_modes3_eqb.
Print Assumptions roundtrip_indefinite_stage3.
Print Assumptions roundtrip_segmented_stage3.
Print Assumptions roundtrip_cer_encoder_stage3.
Print Assumptions roundtrip_cer_encoder_stage3_setof.
Print Assumptions roundtrip_der_encoder_stage3.

(* [APPLICATION 9] EXPLICIT SEQUENCE { ANY, [0] EXPLICIT ANY OPTIONAL, INTEGER OPTIONAL, BOOLEAN DEFAULT FALSE,
     SET { [1] IMPLICIT [2] EXPLICIT ANY OPTIONAL, BOOLEAN DEFAULT FALSE, CHOICE { INTEGER, [3] EXPLICIT SEQUENCE OF ANY },
           OCTET STRING OPTIONAL },
     [7] EXPLICIT CHOICE { NULL, [5] IMPLICIT OCTET STRING } OPTIONAL, SET OF ANY, UTF8String OPTIONAL } *)
Definition modes3_example_ty : ty :=
  TExp (mkTag Appl false 9)
   (TSeq [ (Req, TAny);
           (Opt, TExp (mkTag Ctx false 0) TAny);
           (Opt, TInt);
           (Def (VBool false), TBool);
           (Req, TSet [ (Opt, TImp (mkTag Ctx false 1) (TExp (mkTag Ctx false 2) TAny));
                        (Def (VBool false), TBool);
                        (Req, TChoice [TInt; TExp (mkTag Ctx false 3) (TSeqOf TAny)]);
                        (Opt, TOcts) ]);
           (Opt, TExp (mkTag Ctx false 7) (TChoice [TNull; TImp (mkTag Ctx false 5) TOcts]));
           (Req, TSetOf TAny);
           (Opt, TStr 12) ]).
(* untagged ANY = one TLV; tagged ANY = two TLVs; an OPTIONAL absent in the middle of a run; both DEFAULTs overridden;
   the CHOICE under the EXPLICIT tag present *)
Definition modes3_example_val : val :=
  VRec [ Some (VAny [4; 2; 7; 8]);
         Some (VAny [2; 1; 5; 5; 0]);
         None;
         Some (VBool true);
         Some (VRec [ Some (VOcts [4; 1; 9]); Some (VBool true); Some (VChoice 1 (VList [VAny [5; 0]; VAny [160; 3; 2; 1; 5]]));
                      Some (VOcts [1; 2; 3; 4; 5]) ]);
         Some (VChoice 1 (VOcts [9; 8; 7]));
         Some (VList [VAny [2; 1; 9]; VAny [1; 1; 0]]);
         Some (VOcts [104; 105; 106]) ].

(* BER encoder, indefinite lengths, maxChunkSize = 2 (the three strings are segmented), BER decoder *)
Example roundtrip_indefinite_stage3_nonvacuous :
  stage3_ty false BER modes3_example_ty = true /\ no_f01 modes3_example_ty = true
  /\ stage3_val BER BER modes3_example_ty modes3_example_val = true /\ anys_ok modes3_example_ty modes3_example_val = true
  /\ encode BER false 2 modes3_example_ty modes3_example_val
     = Ok [105; 128; 48; 128; 4; 2; 7; 8; 160; 128; 2; 1; 5; 5; 0; 0; 0; 1; 1;
           1; 49; 128; 161; 128; 4; 1; 9; 0; 0; 1; 1; 1; 163; 128; 48; 128; 5;
           0; 160; 3; 2; 1; 5; 0; 0; 0; 0; 36; 128; 4; 2; 1; 2; 4; 2; 3; 4; 4;
           1; 5; 0; 0; 0; 0; 167; 128; 165; 128; 4; 2; 9; 8; 4; 1; 7; 0; 0; 0;
           0; 49; 128; 2; 1; 9; 1; 1; 0; 0; 0; 44; 128; 4; 2; 104; 105; 4; 1;
           106; 0; 0; 0; 0; 0; 0]
  /\ N.of_nat 104 <= index_max
  /\ (* segmented, definite lengths *)
     encode BER true 2 modes3_example_ty modes3_example_val
     = Ok [105; 78; 48; 76; 4; 2; 7; 8; 160; 5; 2; 1; 5; 5; 0; 1; 1; 1; 49;
           32; 161; 3; 4; 1; 9; 1; 1; 1; 163; 9; 48; 7; 5; 0; 160; 3; 2; 1; 5;
           36; 11; 4; 2; 1; 2; 4; 2; 3; 4; 4; 1; 5; 167; 9; 165; 7; 4; 2; 9;
           8; 4; 1; 7; 49; 6; 2; 1; 9; 1; 1; 0; 44; 7; 4; 2; 104; 105; 4; 1;
           106].
Proof. vm_compute. repeat split; try reflexivity; discriminate. Qed.

(* the CER encoder (BOOLEAN TRUE as FF; SET components sorted: BOOLEAN, the CHOICE - counted for INTEGER, its smallest
   alternative, though [3] is on the wire -, OCTET STRING, [1]; SET OF elements sorted), CER and BER decoders *)
Example roundtrip_cer_encoder_stage3_nonvacuous :
  stage3_ty true CER modes3_example_ty = true /\ no_f01 modes3_example_ty = true
  /\ stage3_val CER CER modes3_example_ty modes3_example_val = true
  /\ stage3_val CER BER modes3_example_ty modes3_example_val = true
  /\ anys_ok modes3_example_ty modes3_example_val = true
  /\ agoodb (abs modes3_example_ty modes3_example_val) = true
  /\ encode CER true 0 modes3_example_ty modes3_example_val
     = Ok [105; 128; 48; 128; 4; 2; 7; 8; 160; 128; 2; 1; 5; 5; 0; 0; 0; 1; 1;
           255; 49; 128; 1; 1; 255; 163; 128; 48; 128; 5; 0; 160; 3; 2; 1; 5;
           0; 0; 0; 0; 4; 5; 1; 2; 3; 4; 5; 161; 128; 4; 1; 9; 0; 0; 0; 0;
           167; 128; 133; 3; 9; 8; 7; 0; 0; 49; 128; 1; 1; 0; 2; 1; 9; 0; 0;
           12; 3; 104; 105; 106; 0; 0; 0; 0]
  /\ N.of_nat 84 <= index_max.
Proof. vm_compute. repeat split; try reflexivity; discriminate. Qed.

(* the same without the SET OF, for the statements with equality of abstract contents under CER *)
Definition modes3_example_cer_ty : ty :=
  TSeq [ (Opt, TExp (mkTag Ctx false 0) TAny);
         (Def (VInt 7), TInt);
         (Req, TSet [ (Opt, TBits); (Req, TChoice [TNull; TExp (mkTag Ctx false 3) (TSeqOf TAny)]); (Def (VOcts [1]), TOcts) ]);
         (Opt, TExp (mkTag Priv false 77) (TChoice [TBool; TImp (mkTag Ctx false 5) (TStr 22)])) ].
Definition modes3_example_cer_val : val :=
  VRec [ Some (VAny [48; 3; 2; 1; 1]); Some (VInt 7);
         Some (VRec [ None; Some (VChoice 1 (VList [VAny [5; 0]])); Some (VOcts [2]) ]);
         Some (VChoice 0 (VBool true)) ].

Example roundtrip_cer_encoder_stage3_eq_nonvacuous :
  stage3_ty false CER modes3_example_cer_ty = true /\ no_f01 modes3_example_cer_ty = true
  /\ stage3_val CER CER modes3_example_cer_ty modes3_example_cer_val = true
  /\ stage3_val CER BER modes3_example_cer_ty modes3_example_cer_val = true
  /\ anys_ok modes3_example_cer_ty modes3_example_cer_val = true
  /\ match encode CER false 5 modes3_example_cer_ty modes3_example_cer_val with
     | Ok b => N.leb (N.of_nat (length b)) index_max && Nat.ltb 20 (length b)
     | Err _ => false end = true.
Proof. vm_compute. repeat split; reflexivity. Qed.

Definition rt_probe (ce cd: codec) (d: bool) (k: N) (T: ty) (v: val) : res bytes * res (dval * bytes) :=
  match encode ce d k T v with Ok b => (Ok b, decode cd (Some T) b) | Err e => (Err e, Err e) end.

(* [anys_ok]: a tagged ANY whose octets are not a sequence of TLVs.  With definite lengths any octets come back;
   with indefinite lengths the decoder reads them as TLVs up to an end-of-octets marker:
   FF FF FF is no TLV (the decoder runs off the end); 00 00 is taken for the marker and the real one is left unread;
   05 00 00 00 02 01 01 is cut at the embedded 00 00 *)
Example tagged_any_indefinite_needs_tlvs :
  let T := TExp (mkTag Ctx false 0) TAny in
  stage3_ty false BER T = true /\ no_f01 T = true /\ stage3_val BER BER T (VAny [255; 255; 255]) = true
  /\ anys_ok T (VAny [255; 255; 255]) = false
  /\ rt_probe BER BER true 0 T (VAny [255; 255; 255]) = (Ok [160; 3; 255; 255; 255], Ok (DV T (VAny [255; 255; 255]), []))
  /\ rt_probe BER BER false 0 T (VAny [255; 255; 255]) = (Ok [160; 128; 255; 255; 255; 0; 0], Err EEndOfStream)
  /\ anys_ok T (VAny [0; 0]) = false
  /\ rt_probe BER BER false 0 T (VAny [0; 0]) = (Ok [160; 128; 0; 0; 0; 0], Ok (DV T (VAny []), [0; 0]))
  /\ anys_ok T (VAny [5; 0; 0; 0; 2; 1; 1]) = false
  /\ rt_probe BER BER false 0 T (VAny [5; 0; 0; 0; 2; 1; 1])
     = (Ok [160; 128; 5; 0; 0; 0; 2; 1; 1; 0; 0], Ok (DV T (VAny [5; 0]), [2; 1; 1; 0; 0]))
  /\ (* no octets at all are a (void) sequence of TLVs *)
     anys_ok T (VAny []) = true
  /\ rt_probe BER BER false 0 T (VAny []) = (Ok [160; 128; 0; 0], Ok (DV T (VAny []), [])).
Proof. vm_compute. repeat split; reflexivity. Qed.

(* [no_f01] inside an indefinite-length SEQUENCE with OPTIONAL components: the stray 00 00 that finding F01 puts
   after [0] EXPLICIT INTEGER is taken for the end of the SEQUENCE - the second component is silently lost (reported
   absent) and the rest of the encoding is left unread; with a mandatory component after it the input is refused *)
Example f01_truncates_indefinite_sequence :
  let T := TSeq [(Opt, TExp (mkTag Ctx false 0) TInt); (Opt, TExp (mkTag Ctx false 1) TInt)] in
  let v := VRec [Some (VInt 5); Some (VInt 6)] in
  stage3_ty false BER T = true /\ stage3_val BER BER T v = true /\ no_f01 T = false
  /\ rt_probe BER BER false 0 T v
     = (Ok [48; 128; 160; 3; 2; 1; 5; 0; 0; 161; 3; 2; 1; 6; 0; 0; 0; 0],
        Ok (DV T (VRec [Some (VInt 5); None]), [161; 3; 2; 1; 6; 0; 0; 0; 0]))
  /\ rt_probe BER BER false 0 (TSeq [(Opt, TExp (mkTag Ctx false 0) TInt); (Req, TNull)]) (VRec [Some (VInt 5); Some VNull])
     = (Ok [48; 128; 160; 3; 2; 1; 5; 0; 0; 5; 0; 0; 0], Err EMalformed).
Proof. vm_compute. repeat split; reflexivity. Qed.

(* finding F24 under the CER encoder: a present but empty OPTIONAL SEQUENCE OF is dropped, the decoder reports the
   component absent; [stage3_val CER] excludes it (the non-emptiness condition is evaluated with the options the CER
   encoder really uses); the BER encoder in indefinite-length mode keeps the component *)
Example f24_under_cer :
  stage3_ty false CER f24_ty = true /\ no_f01 f24_ty = true /\ stage3_val CER CER f24_ty f24_val = false
  /\ rt_probe CER CER false 1000 f24_ty f24_val = (Ok [48; 128; 5; 0; 0; 0], Ok (DV f24_ty (VRec [None; Some VNull]), []))
  /\ abs f24_ty (VRec [None; Some VNull]) <> abs f24_ty f24_val
  /\ stage3_val BER BER f24_ty f24_val = true
  /\ rt_probe BER BER false 0 f24_ty f24_val = (Ok [48; 128; 48; 128; 0; 0; 5; 0; 0; 0], Ok (DV f24_ty f24_val, [])).
Proof. vm_compute. repeat split; try reflexivity; discriminate. Qed.

(* the untagged ANY must not hold the end-of-octets marker itself: refused in every mode *)
Example any_holding_eoo_refused :
  let T := TSeq [(Req, TAny); (Req, TNull)] in
  let v := VRec [Some (VAny [0; 0]); Some VNull] in
  stage3_val BER BER T v = false
  /\ rt_probe BER BER false 0 T v = (Ok [48; 128; 0; 0; 5; 0; 0; 0], Err EMalformed)
  /\ rt_probe BER BER true 0 T v = (Ok [48; 4; 0; 0; 5; 0], Err EMalformed).
Proof. vm_compute. repeat split; reflexivity. Qed.

(* the non-emptiness condition of [stage3_val] on a present OPTIONAL component, spelt out for the CER encoder: it is
   evaluated with the options that encoder really uses (defMode=False, maxChunkSize=1000, ifNotEmpty=True) *)
Lemma nonempty_enc_cer_options T v :
  nonempty_enc CER T v = match enc_with CER (enc_content CER) T (mkOpts false 1000 true) v with Ok [] => false | _ => true end.
Proof. reflexivity. Qed.
