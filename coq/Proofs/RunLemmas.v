(* Running the stream primitives on a stream that holds the bytes they need. *)
From Coq Require Import Lia.
From PV Require Import Base.Bytes Model.Proc Proofs.TagOctets.
From PV Require Export Proofs.Basics.
Local Open Scope nat_scope.

Definition adv (s: stream) (n: nat) : stream := setpos s (pos s + n).

Lemma avail_adv s n : avail (adv s n) = skipn n (avail s).
Proof.
  unfold avail, adv, setpos. cbn [pos arrived].
  generalize (pos s) (arrived s). intros p l. revert l.
  induction p as [|p IH]; intros l; [reflexivity|].
  destruct l as [|x l]; [cbn; destruct n; reflexivity|]. cbn [Nat.add skipn]. apply IH.
Qed.

Lemma adv_adv s a b : adv (adv s a) b = adv s (a + b).
Proof. unfold adv, setpos. cbn [pos arrived closed mark]. f_equal. lia. Qed.

Lemma adv_0 s : adv s 0 = s.
Proof. unfold adv, setpos. rewrite Nat.add_0_r. destruct s; reflexivity. Qed.

Lemma pos_adv s n : pos (adv s n) = pos s + n. Proof. reflexivity. Qed.
Lemma mark_adv s n : mark (adv s n) = mark s. Proof. reflexivity. Qed.
Lemma closed_adv s n : closed (adv s n) = closed s. Proof. reflexivity. Qed.
Lemma arrived_adv s n : arrived (adv s n) = arrived s. Proof. reflexivity. Qed.

(* a read of n octets when at least n are there *)
Lemma attempt_enough s n b rest : avail s = b ++ rest -> length b = n ->
  attempt s n = (Got b, adv s n).
Proof.
  intros Hav Hlen. unfold attempt.
  destruct (Nat.eqb_spec n 0) as [->|Hn].
  - destruct b; [|discriminate]. rewrite adv_0. reflexivity.
  - rewrite Hav, app_length.
    destruct (Nat.ltb_spec (length b + length rest) n) as [Hl|_]; [lia|].
    rewrite <- Hlen, firstn_app, Nat.sub_diag, firstn_all. cbn [firstn]. rewrite app_nil_r. reflexivity.
Qed.

Lemma resume_readN {A} s n b rest (f: bytes -> proc A) : avail s = b ++ rest -> length b = n ->
  resume (pbind (readN n) f) s = resume (f b) (adv s n).
Proof.
  intros Hav Hlen. unfold readN. cbn [pbind resume]. rewrite (attempt_enough s n b rest Hav Hlen). reflexivity.
Qed.

Lemma resume_ReadN {A} s n b rest (k: bytes -> proc A) : avail s = b ++ rest -> length b = n ->
  resume (ReadN n k) s = resume (k b) (adv s n).
Proof. intros Hav Hlen. cbn [resume]. rewrite (attempt_enough s n b rest Hav Hlen). reflexivity. Qed.

Lemma resume_tell {A} s (f: nat -> proc A) : resume (pbind tell f) s = resume (f (pos s)) s.
Proof. reflexivity. Qed.

Lemma resume_getmark {A} s (f: nat -> proc A) : resume (pbind getmark f) s = resume (f (mark s)) s.
Proof. reflexivity. Qed.

Lemma avail_cons_adv s o r : avail s = o :: r -> avail (adv s 1) = r.
Proof. intros H. rewrite avail_adv, H. reflexivity. Qed.

Lemma avail_app_adv s a b : avail s = a ++ b -> avail (adv s (length a)) = b.
Proof. intros H. rewrite avail_adv, H. apply skipn_app_exact. Qed.
