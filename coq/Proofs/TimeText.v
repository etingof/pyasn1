(* Text-level lemmas shared by the time proofs: membership, partition, digits written by
   the '%.2d' family and read back by int(). *)
From Coq Require Import Lia.
From PV Require Import Base.Bytes Spec.X680Time Model.Time.
From PV Require Export Proofs.Basics.
Local Open Scope N_scope.

(* lia for goals with / and mod by a numeral *)
Ltac dlia := zify; Z.to_euclidean_division_equations; lia.

Lemma has_app c a b : has c (a ++ b) = has c a || has c b.
Proof. apply existsb_app. Qed.

Lemma has_cons c x l : has c (x :: l) = N.eqb c x || has c l.
Proof. reflexivity. Qed.

Lemma is_digit_bounds c : is_digit c = true <-> 48 <= c <= 57.
Proof. unfold is_digit. rewrite andb_true_iff, !N.leb_le. tauto. Qed.

Lemma has_digits c l : is_digit c = false -> all_digits l = true -> has c l = false.
Proof.
  intros Hc. induction l as [|x l IH]; intros Hl; [reflexivity|].
  cbn [all_digits forallb] in Hl. apply andb_true_iff in Hl. destruct Hl as [Hx Hl].
  rewrite has_cons, (IH Hl), orb_false_r.
  destruct (N.eqb_spec c x) as [->|]; [congruence|reflexivity].
Qed.

Lemma all_digits_app a b : all_digits (a ++ b) = all_digits a && all_digits b.
Proof. apply forallb_app. Qed.

Lemma split_at_app c a b : has c a = false -> split_at c (a ++ c :: b) = (a, b).
Proof.
  induction a as [|x a IH]; intros H.
  - cbn. rewrite N.eqb_refl. reflexivity.
  - rewrite has_cons in H. apply orb_false_iff in H. destruct H as [H1 H2].
    cbn [app split_at]. rewrite N.eqb_sym, H1, (IH H2). reflexivity.
Qed.

Lemma length_split_at_fst c a b : has c a = false -> length (fst (split_at c (a ++ c :: b))) = length a.
Proof. intros H. rewrite split_at_app by assumption. reflexivity. Qed.

Lemma dg_digit n : is_digit (dg n) = true.
Proof. apply is_digit_bounds. unfold dg. dlia. Qed.

Lemma dg_val n : dg n - 48 = n mod 10.
Proof. unfold dg. dlia. Qed.

Lemma all_digits_d2 n : all_digits (d2 n) = true.
Proof. unfold d2. cbn [all_digits forallb]. rewrite !dg_digit. reflexivity. Qed.
Lemma all_digits_d4 n : all_digits (d4 n) = true.
Proof. unfold d4. cbn [all_digits forallb]. rewrite !dg_digit. reflexivity. Qed.
Lemma all_digits_dec3 n : all_digits (dec3 n) = true.
Proof. unfold dec3, d2. destruct (n <? 10); [|destruct (n <? 100)]; cbn [all_digits forallb]; rewrite !dg_digit; reflexivity. Qed.

Lemma num_d2 n : n < 100 -> num (d2 n) = n.
Proof. intros H. unfold num, d2. cbn [fold_left]. rewrite !dg_val. dlia. Qed.
Lemma num_d4 n : n < 10000 -> num (d4 n) = n.
Proof. intros H. unfold num, d4. cbn [fold_left]. rewrite !dg_val. dlia. Qed.
Lemma num_dec3 n : n < 1000 -> num (dec3 n) = n.
Proof.
  intros H. unfold dec3. destruct (N.ltb_spec n 10); [|destruct (N.ltb_spec n 100)].
  - unfold num. cbn [fold_left]. rewrite dg_val. dlia.
  - apply num_d2. assumption.
  - unfold num. cbn [fold_left]. rewrite !dg_val. dlia.
Qed.
Lemma dec3_nonempty n : dec3 n <> [].
Proof. unfold dec3, d2. destruct (n <? 10); [|destruct (n <? 100)]; discriminate. Qed.

Lemma pyint_digits l : l <> [] -> all_digits l = true -> pyint l = IntOk (num l).
Proof. intros Hn Hd. destruct l; [congruence|]. unfold pyint. rewrite Hd. reflexivity. Qed.

Lemma digit_ne c x : is_digit c = true -> is_digit x = false -> N.eqb c x = false.
Proof. intros H1 H2. destruct (N.eqb_spec c x) as [->|]; [congruence|reflexivity]. Qed.
