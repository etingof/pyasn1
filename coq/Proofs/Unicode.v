(* The three Unicode checkers of Model/Dec.v (utf8_ok, utf16be_ok, utf32be_ok: what CPython's strict
   'utf-8' / 'utf-16-be' / 'utf-32-be' decoders accept) against the independent reference
   Spec/Unicode.v: a byte string is accepted iff it is the encoding of a sequence of Unicode scalar
   values.  Consequences for str_octets_ok: the model answers for every character-string type.
   The encoders write the digits of a code point in base 64, 1024 or 256; once a code point is given
   by its digits, every bound is linear. *)
From Coq Require Import Lia ZifyBool ZifyN.
From PV Require Import Base.Bytes Model.Types Model.Proc Model.Dec Proofs.AcceptedWellFormed Spec.Unicode.
Local Open Scope N_scope.

Definition octets (b: bytes) : Prop := Forall (fun x => x < 256) b.

Lemma wf_bytes_octets b : wf_bytes b = true -> octets b.
Proof.
  unfold wf_bytes, octets. rewrite forallb_forall, Forall_forall. intros H x Hx.
  specialize (H x Hx). unfold wf_byte in H. lia.
Qed.

(* split every boolean test in the goal; arithmetic closes the impossible branches *)
Ltac conds :=
  repeat match goal with
         | |- context[if ?c then _ else _] => let E := fresh "E" in destruct c eqn:E; try (exfalso; lia)
         end.

(* [guards && rest = rest]: the guards hold by arithmetic *)
Ltac guards :=
  first [ reflexivity
        | match goal with |- ?a && ?x = ?x => replace a with true; [reflexivity | symmetry; lia] end
        | exfalso; lia ].

Lemma div_digit k a b : b < k -> (a * k + b) / k = a.
Proof. intros H. rewrite N.div_add_l by lia. rewrite (N.div_small b k H). apply N.add_0_r. Qed.

Lemma mod_digit k a b : b < k -> (a * k + b) mod k = b.
Proof. intros H. rewrite N.add_comm, N.mod_add by lia. apply N.mod_small, H. Qed.

Lemma digits_of k c : k <> 0 -> exists q d, c = q * k + d /\ d < k.
Proof.
  intros Hk. exists (c / k), (c mod k). split; [rewrite N.mul_comm; apply N.div_mod, Hk|apply N.mod_upper_bound, Hk].
Qed.

Section Image.
  Variable enc1 : N -> bytes.

  Lemma image_cons c b r : scalar c -> enc1 c = b ->
    (exists cps, Forall scalar cps /\ flat_map enc1 cps = r) ->
    exists cps, Forall scalar cps /\ flat_map enc1 cps = b ++ r.
  Proof. intros Hc <- (cps & F & <-). exists (c :: cps). split; [constructor; assumption|reflexivity]. Qed.

  (* a checker that walks over one encoded scalar value accepts every image *)
  Lemma image_ok (ok: bytes -> bool) : ok [] = true -> (forall c r, scalar c -> ok (enc1 c ++ r) = ok r) ->
    forall cps, Forall scalar cps -> ok (flat_map enc1 cps) = true.
  Proof.
    intros Hnil Hstep. induction 1 as [|c cps Hc _ IH]; [exact Hnil|]. cbn [flat_map]. rewrite Hstep by exact Hc. exact IH.
  Qed.
End Image.

(* UTF-8: a code point by its digits in base 64 *)

Lemma utf8_enc1_2 a b : 2 <= a < 32 -> b < 64 -> utf8_enc1 (a * 64 + b) = [0xC0 + a; 0x80 + b].
Proof.
  intros Ha Hb. unfold utf8_enc1. rewrite (proj2 (N.ltb_ge _ 0x80)), (proj2 (N.ltb_lt _ 0x800)) by lia.
  rewrite div_digit, mod_digit by exact Hb. reflexivity.
Qed.

Lemma utf8_enc1_3 a b d : a < 16 -> b < 64 -> d < 64 -> 0x800 <= (a * 64 + b) * 64 + d ->
  utf8_enc1 ((a * 64 + b) * 64 + d) = [0xE0 + a; 0x80 + b; 0x80 + d].
Proof.
  intros Ha Hb Hd Hc. unfold utf8_enc1.
  rewrite (proj2 (N.ltb_ge _ 0x80)), (proj2 (N.ltb_ge _ 0x800)), (proj2 (N.ltb_lt _ 0x10000)) by lia.
  change 4096 with (64 * 64). rewrite <- N.div_div by discriminate.
  rewrite !div_digit, !mod_digit by assumption. reflexivity.
Qed.

Lemma utf8_enc1_4 a b d e : b < 64 -> d < 64 -> e < 64 -> 0x10000 <= ((a * 64 + b) * 64 + d) * 64 + e ->
  utf8_enc1 (((a * 64 + b) * 64 + d) * 64 + e) = [0xF0 + a; 0x80 + b; 0x80 + d; 0x80 + e].
Proof.
  intros Hb Hd He Hc. unfold utf8_enc1.
  rewrite (proj2 (N.ltb_ge _ 0x80)), (proj2 (N.ltb_ge _ 0x800)), (proj2 (N.ltb_ge _ 0x10000)) by lia.
  change 262144 with (64 * 64 * 64). change 4096 with (64 * 64). rewrite <- !N.div_div by discriminate.
  rewrite !div_digit, !mod_digit by assumption. reflexivity.
Qed.

(* encoder direction: the checker walks over one encoded scalar value *)
Lemma utf8_ok_enc1 c r : scalar c -> utf8_ok (utf8_enc1 c ++ r) = utf8_ok r.
Proof.
  intros [H1 H2]. destruct (c <? 0x80) eqn:L1.
  { unfold utf8_enc1. rewrite L1. cbn [app utf8_ok]. rewrite L1. reflexivity. }
  destruct (digits_of 64 c) as (q & d & -> & Hd); [discriminate|]. destruct (N.ltb_spec q 32) as [L2|L2].
  { rewrite utf8_enc1_2 by lia. cbn [app utf8_ok]. unfold utf8_cont. conds; guards. }
  destruct (digits_of 64 q) as (p & e & -> & He); [discriminate|]. destruct (N.ltb_spec p 16) as [L3|L3].
  { rewrite utf8_enc1_3 by lia. cbn [app utf8_ok]. unfold utf8_cont. conds; guards. }
  destruct (digits_of 64 p) as (o & f & -> & Hf); [discriminate|].
  rewrite utf8_enc1_4 by lia. cbn [app utf8_ok]. unfold utf8_cont. conds; guards.
Qed.

Theorem utf8_ok_enc cps : Forall scalar cps -> utf8_ok (utf8_enc cps) = true.
Proof. apply (image_ok utf8_enc1 utf8_ok eq_refl utf8_ok_enc1). Qed.

(* checker direction: a well-formed sequence of each length is the encoding of a scalar value *)
Lemma utf8_head2 x c1 : (0xC2 <=? x) && (x <=? 0xDF) = true -> utf8_cont c1 = true ->
  exists c, scalar c /\ utf8_enc1 c = [x; c1].
Proof.
  unfold utf8_cont. intros Hx H1. exists ((x - 0xC0) * 64 + (c1 - 0x80)).
  split; [unfold scalar; lia|]. rewrite utf8_enc1_2 by lia. repeat f_equal; lia.
Qed.

Lemma utf8_head3 x c1 c2 : (0xE0 <=? x) && (x <=? 0xEF) = true ->
  ((if x =? 0xE0 then 0xA0 else 0x80) <=? c1) = true -> (c1 <=? (if x =? 0xED then 0x9F else 0xBF)) = true ->
  utf8_cont c2 = true -> exists c, scalar c /\ utf8_enc1 c = [x; c1; c2].
Proof.
  unfold utf8_cont. intros Hx L1 U1 H2. exists (((x - 0xE0) * 64 + (c1 - 0x80)) * 64 + (c2 - 0x80)).
  assert (Hc1: 0x80 <= c1 <= 0xBF /\ (x = 0xE0 -> 0xA0 <= c1) /\ (x = 0xED -> c1 <= 0x9F))
    by (destruct (N.eqb_spec x 0xE0); destruct (N.eqb_spec x 0xED); lia).
  clear L1 U1. split; [unfold scalar; lia|]. rewrite utf8_enc1_3 by lia. repeat f_equal; lia.
Qed.

Lemma utf8_head4 x c1 c2 c3 : (0xF0 <=? x) && (x <=? 0xF4) = true ->
  ((if x =? 0xF0 then 0x90 else 0x80) <=? c1) = true -> (c1 <=? (if x =? 0xF4 then 0x8F else 0xBF)) = true ->
  utf8_cont c2 = true -> utf8_cont c3 = true -> exists c, scalar c /\ utf8_enc1 c = [x; c1; c2; c3].
Proof.
  unfold utf8_cont. intros Hx L1 U1 H2 H3.
  exists ((((x - 0xF0) * 64 + (c1 - 0x80)) * 64 + (c2 - 0x80)) * 64 + (c3 - 0x80)).
  assert (Hc1: 0x80 <= c1 <= 0xBF /\ (x = 0xF0 -> 0x90 <= c1) /\ (x = 0xF4 -> c1 <= 0x8F))
    by (destruct (N.eqb_spec x 0xF0); destruct (N.eqb_spec x 0xF4); lia).
  clear L1 U1. split; [unfold scalar; lia|]. rewrite utf8_enc1_4 by lia. repeat f_equal; lia.
Qed.

Theorem utf8_ok_sound : forall b, utf8_ok b = true -> exists cps, Forall scalar cps /\ utf8_enc cps = b.
Proof.
  intros b. induction b as [b IH] using (well_founded_ind (well_founded_ltof _ (@length N))). intros H.
  destruct b as [|x r]; [exists []; split; [constructor|reflexivity]|]. cbn [utf8_ok] in H.
  destruct (x <? 0x80) eqn:E1.
  { apply (image_cons utf8_enc1 x [x]); [unfold scalar; lia|unfold utf8_enc1; rewrite E1; reflexivity|].
    apply IH; [unfold ltof; cbn; lia|exact H]. }
  destruct ((0xC2 <=? x) && (x <=? 0xDF)) eqn:E2.
  { destruct r as [|c1 r1]; [discriminate|]. apply andb_true_iff in H. destruct H as [H1 H].
    destruct (utf8_head2 x c1 E2 H1) as (c & Hs & He).
    apply (image_cons utf8_enc1 c [x; c1] r1 Hs He). apply IH; [unfold ltof; cbn; lia|exact H]. }
  destruct ((0xE0 <=? x) && (x <=? 0xEF)) eqn:E3.
  { destruct r as [|c1 [|c2 r2]]; try discriminate. rewrite !andb_true_iff in H. destruct H as [[[L1 U1] H2] H'].
    destruct (utf8_head3 x c1 c2 E3 L1 U1 H2) as (c & Hs & He).
    apply (image_cons utf8_enc1 c [x; c1; c2] r2 Hs He). apply IH; [unfold ltof; cbn; lia|exact H']. }
  destruct ((0xF0 <=? x) && (x <=? 0xF4)) eqn:E4; [|discriminate].
  destruct r as [|c1 [|c2 [|c3 r3]]]; try discriminate. rewrite !andb_true_iff in H. destruct H as [[[[L1 U1] H2] H3] H'].
  destruct (utf8_head4 x c1 c2 c3 E4 L1 U1 H2 H3) as (c & Hs & He).
  apply (image_cons utf8_enc1 c [x; c1; c2; c3] r3 Hs He). apply IH; [unfold ltof; cbn; lia|exact H'].
Qed.

(* soundness and completeness, for every list of numbers (no octet bound needed: the checker
   itself refuses anything above F4) *)
Theorem utf8_ok_iff b : utf8_ok b = true <-> exists cps, Forall scalar cps /\ utf8_enc cps = b.
Proof.
  split; [apply utf8_ok_sound|]. intros (cps & F & <-). apply utf8_ok_enc. exact F.
Qed.

(* UTF-16, big-endian: a unit by its two octets, a supplementary code point by its digits in base 1024 *)

Lemma be16_digits h l : l < 256 -> be16 (h * 256 + l) = [h; l].
Proof. intros Hl. unfold be16. rewrite div_digit, mod_digit by exact Hl. reflexivity. Qed.

Lemma utf16be_enc1_pair a b : b < 1024 ->
  utf16be_enc1 (0x10000 + (a * 1024 + b)) = be16 (0xD800 + a) ++ be16 (0xDC00 + b).
Proof.
  intros Hb. unfold utf16be_enc1. destruct (N.ltb_spec (0x10000 + (a * 1024 + b)) 0x10000); [lia|]. cbv zeta.
  replace (0x10000 + (a * 1024 + b) - 0x10000) with (a * 1024 + b) by lia.
  rewrite div_digit, mod_digit by exact Hb. reflexivity.
Qed.

Lemma utf16be_ok_enc1 c r : scalar c -> utf16be_ok (utf16be_enc1 c ++ r) = utf16be_ok r.
Proof.
  intros [H1 H2]. destruct (N.ltb_spec c 0x10000) as [L|L].
  - destruct (digits_of 256 c) as (h & l & -> & Hl); [discriminate|].
    unfold utf16be_enc1. rewrite (proj2 (N.ltb_lt _ _) L), be16_digits by exact Hl.
    cbn [app utf16be_ok]. cbv zeta. conds; guards.
  - destruct (digits_of 1024 (c - 0x10000)) as (a & b & Ec & Hb); [discriminate|].
    replace c with (0x10000 + (a * 1024 + b)) by lia. rewrite utf16be_enc1_pair by exact Hb.
    destruct (digits_of 256 (0xD800 + a)) as (h & l & Eh & Hl); [discriminate|].
    destruct (digits_of 256 (0xDC00 + b)) as (h2 & l2 & Eh2 & Hl2); [discriminate|].
    rewrite Eh, Eh2, !be16_digits by assumption. cbn [app utf16be_ok]. cbv zeta. conds; guards.
Qed.

Theorem utf16be_ok_enc cps : Forall scalar cps -> utf16be_ok (utf16be_enc cps) = true.
Proof. apply (image_ok utf16be_enc1 utf16be_ok eq_refl utf16be_ok_enc1). Qed.

Lemma utf16be_pair h l h2 l2 : l < 256 -> l2 < 256 ->
  (0xD800 <=? h * 256 + l) && (h * 256 + l <=? 0xDBFF) = true ->
  (0xDC00 <=? h2 * 256 + l2) && (h2 * 256 + l2 <=? 0xDFFF) = true ->
  exists c, scalar c /\ utf16be_enc1 c = [h; l; h2; l2].
Proof.
  intros Hl Hl2 E1 E2. exists (0x10000 + ((h * 256 + l - 0xD800) * 1024 + (h2 * 256 + l2 - 0xDC00))).
  split; [unfold scalar; lia|]. rewrite utf16be_enc1_pair by lia.
  replace (0xD800 + (h * 256 + l - 0xD800)) with (h * 256 + l) by lia.
  replace (0xDC00 + (h2 * 256 + l2 - 0xDC00)) with (h2 * 256 + l2) by lia.
  rewrite !be16_digits by assumption. reflexivity.
Qed.

Theorem utf16be_ok_sound : forall b, octets b -> utf16be_ok b = true ->
  exists cps, Forall scalar cps /\ utf16be_enc cps = b.
Proof.
  intros b. induction b as [b IH] using (well_founded_ind (well_founded_ltof _ (@length N))). intros O H.
  destruct b as [|h [|l r]]; [exists []; split; [constructor|reflexivity]|discriminate|].
  cbn [utf16be_ok] in H. cbv zeta in H.
  inversion O as [|? ? Hh O1]; subst. inversion O1 as [|? ? Hl O2]; subst.
  destruct ((0xD800 <=? h * 256 + l) && (h * 256 + l <=? 0xDBFF)) eqn:E1.
  { destruct r as [|h2 [|l2 r2]]; try discriminate.
    apply andb_true_iff in H. destruct H as [E2 H].
    inversion O2 as [|? ? Hh2 O3]; subst. inversion O3 as [|? ? Hl2 O4]; subst.
    destruct (utf16be_pair h l h2 l2 Hl Hl2 E1 E2) as (c & Hs & He).
    apply (image_cons utf16be_enc1 c [h; l; h2; l2] r2 Hs He). apply IH; [unfold ltof; cbn; lia|exact O4|exact H]. }
  destruct ((0xDC00 <=? h * 256 + l) && (h * 256 + l <=? 0xDFFF)) eqn:E2; [discriminate|].
  apply (image_cons utf16be_enc1 (h * 256 + l) [h; l] r); [unfold scalar; lia| |apply IH; [unfold ltof; cbn; lia|exact O2|exact H]].
  unfold utf16be_enc1. rewrite (proj2 (N.ltb_lt _ 0x10000)) by lia. apply be16_digits, Hl.
Qed.

Theorem utf16be_ok_iff b : octets b ->
  (utf16be_ok b = true <-> exists cps, Forall scalar cps /\ utf16be_enc cps = b).
Proof.
  intros O. split; [apply utf16be_ok_sound; exact O|]. intros (cps & F & <-). apply utf16be_ok_enc. exact F.
Qed.

(* UTF-32, big-endian: a code point by its digits in base 256 *)

Lemma utf32be_enc1_digits b3 b2 b1 b0 : b2 < 256 -> b1 < 256 -> b0 < 256 ->
  utf32be_enc1 (((b3 * 256 + b2) * 256 + b1) * 256 + b0) = [b3; b2; b1; b0].
Proof.
  intros H2 H1 H0. unfold utf32be_enc1.
  change 16777216 with (256 * 256 * 256). change 65536 with (256 * 256). rewrite <- !N.div_div by discriminate.
  rewrite !div_digit, !mod_digit by assumption. reflexivity.
Qed.

Lemma utf32be_ok_enc1 c r : scalar c -> utf32be_ok (utf32be_enc1 c ++ r) = utf32be_ok r.
Proof.
  intros [H1 H2]. destruct (digits_of 256 c) as (q & b0 & -> & H0); [discriminate|].
  destruct (digits_of 256 q) as (p & b1 & -> & Hb1); [discriminate|].
  destruct (digits_of 256 p) as (b3 & b2 & -> & Hb2); [discriminate|].
  rewrite utf32be_enc1_digits by assumption. cbn [app utf32be_ok]. cbv zeta. guards.
Qed.

Theorem utf32be_ok_enc cps : Forall scalar cps -> utf32be_ok (utf32be_enc cps) = true.
Proof. apply (image_ok utf32be_enc1 utf32be_ok eq_refl utf32be_ok_enc1). Qed.

Theorem utf32be_ok_sound : forall b, octets b -> utf32be_ok b = true ->
  exists cps, Forall scalar cps /\ utf32be_enc cps = b.
Proof.
  intros b. induction b as [b IH] using (well_founded_ind (well_founded_ltof _ (@length N))). intros O H.
  destruct b as [|b3 [|b2 [|b1 [|b0 r]]]]; try discriminate; [exists []; split; [constructor|reflexivity]|].
  cbn [utf32be_ok] in H. cbv zeta in H.
  inversion O as [|? ? H3 O1]; subst. inversion O1 as [|? ? H2 O2]; subst.
  inversion O2 as [|? ? H1 O3]; subst. inversion O3 as [|? ? H0 O4]; subst.
  apply andb_true_iff in H. destruct H as [E H].
  refine (image_cons utf32be_enc1 _ _ r _ (utf32be_enc1_digits b3 b2 b1 b0 H2 H1 H0) _); [unfold scalar; lia|].
  apply IH; [unfold ltof; cbn; lia|exact O4|exact H].
Qed.

Theorem utf32be_ok_iff b : octets b ->
  (utf32be_ok b = true <-> exists cps, Forall scalar cps /\ utf32be_enc cps = b).
Proof.
  intros O. split; [apply utf32be_ok_sound; exact O|]. intros (cps & F & <-). apply utf32be_ok_enc. exact F.
Qed.

(* the ASCII short cut of str_octets_ok 12 agrees with the checker *)
Lemma utf8_ok_ascii b : forallb (fun x => x <? 128) b = true -> utf8_ok b = true.
Proof.
  induction b as [|x r IH]; [reflexivity|]. cbn [forallb utf8_ok]. intros H.
  apply andb_true_iff in H. destruct H as [Hx Hr]. change 128 with 0x80 in Hx. rewrite Hx. exact (IH Hr).
Qed.

Lemma str_octets_ok_utf8 b : str_octets_ok 12 b = Some (utf8_ok b).
Proof.
  unfold str_octets_ok. cbv zeta. cbn [existsb N.eqb Pos.eqb orb].
  destruct (forallb (fun x => x <? 128) b) eqn:E; [|reflexivity]. rewrite (utf8_ok_ascii b E). reflexivity.
Qed.
Lemma str_octets_ok_bmp b : str_octets_ok 30 b = Some (utf16be_ok b).
Proof. reflexivity. Qed.
Lemma str_octets_ok_universal b : str_octets_ok 28 b = Some (utf32be_ok b).
Proof. reflexivity. Qed.

(* the model declines for no character-string type of pyasn1/type/char.py (nor for
   ObjectDescriptor, 7) *)
Theorem str_octets_ok_total : forall n b,
  In n [12; 18; 19; 20; 21; 22; 23; 24; 25; 26; 27; 28; 30; 7] -> str_octets_ok n b <> None.
Proof.
  intros n b H. cbn [In] in H.
  repeat (destruct H as [<-|H]; [try (rewrite str_octets_ok_utf8; discriminate);
                                 unfold str_octets_ok; cbv zeta; cbn [existsb N.eqb Pos.eqb orb]; discriminate|]).
  contradiction.
Qed.

(* an accepted string value is a sequence of Unicode scalar values, and a refused one is not *)
Theorem str_utf8_is_unicode b : str_octets_ok 12 b = Some true ->
  exists cps, Forall scalar cps /\ utf8_enc cps = b.
Proof. rewrite str_octets_ok_utf8. intros H. apply utf8_ok_sound. congruence. Qed.

Theorem str_bmp_is_unicode b : octets b -> str_octets_ok 30 b = Some true ->
  exists cps, Forall scalar cps /\ utf16be_enc cps = b.
Proof. rewrite str_octets_ok_bmp. intros O H. apply utf16be_ok_sound; [exact O|congruence]. Qed.

Theorem str_universal_is_unicode b : octets b -> str_octets_ok 28 b = Some true ->
  exists cps, Forall scalar cps /\ utf32be_enc cps = b.
Proof. rewrite str_octets_ok_universal. intros O H. apply utf32be_ok_sound; [exact O|congruence]. Qed.

Theorem str_utf8_refused_not_unicode b : str_octets_ok 12 b = Some false ->
  ~ exists cps, Forall scalar cps /\ utf8_enc cps = b.
Proof. rewrite str_octets_ok_utf8. intros H X. apply utf8_ok_iff in X. congruence. Qed.

Theorem str_bmp_refused_not_unicode b : str_octets_ok 30 b = Some false ->
  ~ exists cps, Forall scalar cps /\ utf16be_enc cps = b.
Proof.
  rewrite str_octets_ok_bmp. intros H (cps & F & <-). rewrite (utf16be_ok_enc cps F) in H. discriminate.
Qed.

Theorem str_universal_refused_not_unicode b : str_octets_ok 28 b = Some false ->
  ~ exists cps, Forall scalar cps /\ utf32be_enc cps = b.
Proof.
  rewrite str_octets_ok_universal. intros H (cps & F & <-). rewrite (utf32be_ok_enc cps F) in H. discriminate.
Qed.

(* the decoders: for EVERY input, every codec and fuel, every guiding type whose base is a Unicode
   string type (any stack of tags; primitive or segmented encoding) *)

Theorem accepted_utf8_is_unicode : forall c fuel T b d tl,
  base_of T = TStr 12 -> decode_with c fuel (Some T) b = Ok (d, tl) ->
  exists bs cps, d = DV T (VOcts bs) /\ Forall scalar cps /\ utf8_enc cps = bs.
Proof.
  intros c fuel T b d tl HB H.
  destruct (accepted_string_codec_ok _ _ _ _ _ _ _ HB H) as (bs & -> & Hs).
  destruct (str_utf8_is_unicode bs Hs) as (cps & F & E). exists bs, cps. auto.
Qed.

Theorem accepted_bmp_is_unicode : forall c fuel T b d tl,
  base_of T = TStr 30 -> decode_with c fuel (Some T) b = Ok (d, tl) ->
  exists bs, d = DV T (VOcts bs) /\ (octets bs -> exists cps, Forall scalar cps /\ utf16be_enc cps = bs).
Proof.
  intros c fuel T b d tl HB H.
  destruct (accepted_string_codec_ok _ _ _ _ _ _ _ HB H) as (bs & -> & Hs).
  exists bs. split; [reflexivity|]. intros O. exact (str_bmp_is_unicode bs O Hs).
Qed.

Theorem accepted_universal_is_unicode : forall c fuel T b d tl,
  base_of T = TStr 28 -> decode_with c fuel (Some T) b = Ok (d, tl) ->
  exists bs, d = DV T (VOcts bs) /\ (octets bs -> exists cps, Forall scalar cps /\ utf32be_enc cps = bs).
Proof.
  intros c fuel T b d tl HB H.
  destruct (accepted_string_codec_ok _ _ _ _ _ _ _ HB H) as (bs & -> & Hs).
  exists bs. split; [reflexivity|]. intros O. exact (str_universal_is_unicode bs O Hs).
Qed.

(* non-vacuity: "é中😀" (U+00E9 U+4E2D U+1F600) and the classical ill-formed sequences *)

Example utf8_sample_accepted :
  str_octets_ok 12 [0xC3; 0xA9; 0xE4; 0xB8; 0xAD; 0xF0; 0x9F; 0x98; 0x80] = Some true
  /\ utf8_enc [0xE9; 0x4E2D; 0x1F600] = [0xC3; 0xA9; 0xE4; 0xB8; 0xAD; 0xF0; 0x9F; 0x98; 0x80].
Proof. split; vm_compute; reflexivity. Qed.

Example utf8_ill_formed_refused :
  map (str_octets_ok 12) [[0xE0; 0x80; 0x80]; [0xED; 0xA0; 0x80]; [0xF4; 0x90; 0x80; 0x80]; [0xF0; 0x8F; 0xBF; 0xBF];
                          [0xC0; 0x80]; [0xC1; 0xBF]; [0xC2]; [0x80]; [0xF5; 0x80; 0x80; 0x80]; [0xE1; 0x80]]
  = repeat (Some false) 10
  /\ map (str_octets_ok 12) [[0xED; 0x9F; 0xBF]; [0xF4; 0x8F; 0xBF; 0xBF]; [0xEF; 0xBB; 0xBF]; []] = repeat (Some true) 4.
Proof. split; vm_compute; reflexivity. Qed.

Example bmp_sample_accepted :
  str_octets_ok 30 [0x00; 0xE9; 0x4E; 0x2D; 0xD8; 0x3D; 0xDE; 0x00] = Some true
  /\ utf16be_enc [0xE9; 0x4E2D; 0x1F600] = [0x00; 0xE9; 0x4E; 0x2D; 0xD8; 0x3D; 0xDE; 0x00]
  /\ map (str_octets_ok 30) [[0xDC; 0]; [0xD8; 0]; [0xD8; 0; 0; 0x41]; [0xD8; 0; 0xD8; 0]; [0]; [0; 0x41; 0]]
     = repeat (Some false) 6
  /\ map (str_octets_ok 30) [[0xFE; 0xFF]; [0xFF; 0xFE]; [0xDB; 0xFF; 0xDF; 0xFF]; []] = repeat (Some true) 4.
Proof. repeat split; vm_compute; reflexivity. Qed.

Example universal_sample_accepted :
  str_octets_ok 28 [0; 0; 0; 0xE9; 0; 0; 0x4E; 0x2D; 0; 1; 0xF6; 0] = Some true
  /\ utf32be_enc [0xE9; 0x4E2D; 0x1F600] = [0; 0; 0; 0xE9; 0; 0; 0x4E; 0x2D; 0; 1; 0xF6; 0]
  /\ map (str_octets_ok 28) [[0; 0x11; 0; 0]; [0; 0; 0xD8; 0]; [0; 0; 0xDF; 0xFF]; [1; 0; 0; 0]; [0; 0; 0]; [0; 0; 0; 0x41; 0]]
     = repeat (Some false) 6
  /\ map (str_octets_ok 28) [[0; 0x10; 0xFF; 0xFF]; [0; 0; 0xFE; 0xFF]; [0; 0; 0xD7; 0xFF]; []] = repeat (Some true) 4.
Proof. repeat split; vm_compute; reflexivity. Qed.

Example str_octets_ok_total_nonvacuous :
  map (fun n => str_octets_ok n [0xC3; 0xA9]) [12; 18; 20; 28; 30; 7; 4]
  = [Some true; Some false; Some true; Some false; Some true; Some true; None].
Proof. vm_compute. reflexivity. Qed.

(* the decoder theorems are not vacuous: "é中😀" as a UTF8String, primitive and under an
   explicit tag; an overlong form and a CESU-8 surrogate are refused with a Unicode error *)
Example accepted_utf8_nonvacuous :
  decode BER (Some (TStr 12)) [12; 9; 0xC3; 0xA9; 0xE4; 0xB8; 0xAD; 0xF0; 0x9F; 0x98; 0x80]
    = Ok (DV (TStr 12) (VOcts [0xC3; 0xA9; 0xE4; 0xB8; 0xAD; 0xF0; 0x9F; 0x98; 0x80]), [])
  /\ decode DER (Some (TExp (mkTag Ctx false 0) (TStr 12))) [160; 4; 12; 2; 0xC3; 0xA9]
    = Ok (DV (TExp (mkTag Ctx false 0) (TStr 12)) (VOcts [0xC3; 0xA9]), [])
  /\ decode BER (Some (TStr 12)) [12; 2; 0xC0; 0x80] = Err EUnicode
  /\ decode BER (Some (TStr 12)) [12; 3; 0xED; 0xA0; 0x80] = Err EUnicode
  /\ decode BER (Some (TStr 30)) [30; 4; 0xD8; 0x3D; 0xDE; 0x00] = Ok (DV (TStr 30) (VOcts [0xD8; 0x3D; 0xDE; 0x00]), [])
  /\ decode BER (Some (TStr 30)) [30; 2; 0xDE; 0x00] = Err EUnicode
  /\ decode BER (Some (TStr 28)) [28; 4; 0; 1; 0xF6; 0] = Ok (DV (TStr 28) (VOcts [0; 1; 0xF6; 0]), [])
  /\ decode BER (Some (TStr 28)) [28; 4; 0; 0x11; 0; 0] = Err EUnicode.
Proof. repeat split; vm_compute; reflexivity. Qed.
