(* Round trip under every encoder mode (C01/C02): segmented strings (maxChunkSize), indefinite
   length mode (defMode=False) and the CER encoder's fixed options, for the recursive fragment of
   RoundTrip2.v (simple types, SEQUENCE OF, SET OF, SEQUENCE with mandatory components, IMPLICIT /
   EXPLICIT tagging at any depth), read back by the BER and the CER decoder.
   The fragment is a part of the whole universe: its induction ([modes_val_ok]) runs on the lemmas
   of RoundTripModes3b.v (simple types, SEQUENCE OF / SET OF) and RoundTripModes3c.v (SEQUENCE), for any
   relation between abstract contents that is a congruence. *)
From Coq Require Import Lia Sorting.Permutation.
From PV Require Import Base.Bytes Model.Tag Model.TableTypes Model.Types Model.Proc Model.Enc Model.Dec Gen.Tables
     Proofs.ProcBind Proofs.RunLemmas Proofs.TagOctets Proofs.TagAlgebra Proofs.DecHeader Proofs.DecFrame Proofs.DecPrim
     Proofs.TagsetShape Proofs.Schemaless Proofs.RoundTrip1 Proofs.RoundTrip2
     Proofs.RoundTripModesA Proofs.RoundTripModesB Proofs.RoundTripModesC Proofs.RoundTripModesBag
     Proofs.TagReject Proofs.RoundTrip3 Proofs.RoundTrip3a Proofs.RoundTrip3b Proofs.RoundTrip3e Proofs.RoundTrip3f
     Proofs.RoundTripModes3a Proofs.RoundTripModes3b Proofs.RoundTripModes3c.
From PV Require Proofs.LeafOidBits Proofs.ContainerCodecSort.
(* the files that import this one take the encoder's named loops through it *)
From PV Require Export Proofs.EncUnfold.
Local Open Scope N_scope.

(* number of EXPLICIT tags over the base type *)
Fixpoint n_explicit (T: ty) : nat :=
  match T with TExp _ x => S (n_explicit x) | TImp _ x => n_explicit x | _ => O end.

(* finding F01: in indefinite-length mode an EXPLICIT tag over BOOLEAN / INTEGER / ENUMERATED / NULL /
   OBJECT IDENTIFIER / REAL (with any IMPLICIT tags in between) is written with a definite length
   AND a trailing 00 00 *)
Definition f01_class (T: ty) : bool := six T && negb (Nat.eqb (n_explicit T) 0).

Fixpoint no_f01 (T: ty) : bool :=
  match T with
  | TSeqOf t | TSetOf t => no_f01 t
  | TSeq fs | TSet fs => forallb (fun f => no_f01 (snd f)) fs
  | TChoice alts => forallb no_f01 alts
  | TImp _ x | TExp _ x => negb (f01_class T) && no_f01 x
  | _ => true
  end.

Fixpoint no_setof (T: ty) : bool :=
  match T with
  | TSetOf _ => false
  | TSeqOf t => no_setof t
  | TSeq fs | TSet fs => forallb (fun f => no_setof (snd f)) fs
  | TChoice alts => forallb no_setof alts
  | TImp _ x | TExp _ x => no_setof x
  | _ => true
  end.

(* the CER and DER encoders sort the element encodings of a SET OF *)
Definition sorts (ce: codec) : bool := match ce with BER => false | _ => true end.

(* stage-2 types; without the F01 class when lengths are indefinite (d = false); without SET OF
   under a sorting encoder unless the comparison is up to the order of SET OF elements (so) *)
Definition dom (ce: codec) (d so: bool) (T: ty) : bool :=
  stage2_ty T && (d || no_f01 T) && (so || negb (sorts ce) || no_setof T).

Fixpoint modes_val (ce cd: codec) (T: ty) (v: val) {struct T} : bool :=
  match T with
  | TImp _ x | TExp _ x => modes_val ce cd x v
  | TSeqOf t | TSetOf t => match v with VList xs => forallb (modes_val ce cd t) xs | _ => false end
  | TSeq fs =>
      match v with
      | VRec vs =>
          (fix go (fs: list (presence * ty)) (vs: list (option val)) : bool :=
             match fs, vs with
             | [], [] => true
             | f :: fs', Some x :: vs' => modes_val ce cd (snd f) x && go fs' vs'
             | _, _ => false
             end) fs vs
      | _ => false
      end
  | TSet _ | TChoice _ | TAny => false
  | _ => stage1_val ce cd T v
  end.

Definition mv_fields (ce cd: codec) : list (presence * ty) -> list (option val) -> bool :=
  fix go (fs: list (presence * ty)) (vs: list (option val)) : bool :=
    match fs, vs with
    | [], [] => true
    | f :: fs', Some x :: vs' => modes_val ce cd (snd f) x && go fs' vs'
    | _, _ => false
    end.

Lemma modes_val_seq ce cd fs vs : modes_val ce cd (TSeq fs) (VRec vs) = mv_fields ce cd fs vs.
Proof. reflexivity. Qed.

Lemma modes_val_base ce cd : forall T v, modes_val ce cd T v = modes_val ce cd (base_of T) v.
Proof.
  induction T as [| | | | | | | | n|fs IH|fs IH|t IH|t IH|alts IH| |tg x IH|tg x IH] using ty_ind'; intros v; try reflexivity.
  - cbn [base_of modes_val]. apply IH.
  - cbn [base_of modes_val]. apply IH.
Qed.

Lemma modes_val_prim ce cd T v : prim_base T = true -> modes_val ce cd T v = stage1_val ce cd T v.
Proof.
  intros Hp. rewrite modes_val_base, (stage1_val_base ce cd T). unfold prim_base in Hp.
  destruct (base_of T); try discriminate Hp; reflexivity.
Qed.

Lemma six_base T : six T = six (base_of T).
Proof. unfold six. rewrite base_of_idem. reflexivity. Qed.

Lemma n_explicit_base T : n_explicit (base_of T) = O.
Proof. pose proof (base_of_plain T) as H. destruct (base_of T); try reflexivity; contradiction. Qed.

Lemma no_f01_base : forall T, no_f01 T = true -> no_f01 (base_of T) = true /\ f01_class T = false.
Proof.
  induction T as [| | | | | | | | n|fs IH|fs IH|t IH|t IH|alts IH| |tg x IH|tg x IH] using ty_ind'; intros H;
    try (split; [exact H|unfold f01_class; cbn [n_explicit Nat.eqb negb]; apply Bool.andb_false_r]).
  - cbn [no_f01] in H. apply Bool.andb_true_iff in H. destruct H as [H1 H2]. cbn [base_of].
    split; [exact (proj1 (IH H2))|]. apply Bool.negb_true_iff. exact H1.
  - cbn [no_f01] in H. apply Bool.andb_true_iff in H. destruct H as [H1 H2]. cbn [base_of].
    split; [exact (proj1 (IH H2))|]. apply Bool.negb_true_iff. exact H1.
Qed.

Lemma no_setof_base : forall T, no_setof T = true -> no_setof (base_of T) = true.
Proof.
  induction T as [| | | | | | | | n|fs IH|fs IH|t IH|t IH|alts IH| |tg x IH|tg x IH] using ty_ind'; intros H; try exact H.
  - cbn [no_setof] in H. cbn [base_of]. exact (IH H).
  - cbn [no_setof] in H. cbn [base_of]. exact (IH H).
Qed.

Lemma dom_base ce d so T : dom ce d so T = true ->
  wf_tags T = true /\ dom ce d so (base_of T) = true /\ (d = false -> f01_class T = false).
Proof.
  unfold dom. intros H. apply Bool.andb_true_iff in H. destruct H as [H H3].
  apply Bool.andb_true_iff in H. destruct H as [H1 H2].
  destruct (stage2_ty_base T H1) as [Hw Hb]. split; [exact Hw|]. rewrite Hb. cbn [andb].
  split.
  - apply Bool.andb_true_iff. split.
    + destruct d; [reflexivity|]. cbn [orb] in *. exact (proj1 (no_f01_base T H2)).
    + destruct so; [reflexivity|]. destruct (sorts ce); [|reflexivity]. cbn [orb negb] in *. exact (no_setof_base T H3).
  - intros ->. cbn [orb] in H2. exact (proj2 (no_f01_base T H2)).
Qed.

(* without an EXPLICIT tag there is one tag on the wire *)
Lemma no_explicit_single : forall T, n_explicit T = O -> forall t0 r, tagset_of T = Ok (t0 :: r) -> r = [].
Proof.
  induction T as [| | | | | | | | n|fs IH|fs IH|t IH|t IH|alts IH| |tg x IH|tg x IH] using ty_ind'; intros Hn t0 r H;
    try (cbn [tagset_of] in H; inversion H; reflexivity); try discriminate Hn.
  cbn [tagset_of] in H. destruct (tagset_of x) as [[|a r0]|e] eqn:E; cbn [bind] in H; [| |discriminate].
  - inversion H. reflexivity.
  - rewrite (IH Hn a r0 eq_refl) in H. inversion H. reflexivity.
Qed.

Lemma f01_single T : f01_class T = false -> six T = true -> forall t0 r, tagset_of T = Ok (t0 :: r) -> r = [].
Proof.
  unfold f01_class. intros Hf H6. rewrite H6 in Hf. cbn [andb] in Hf.
  apply Bool.negb_false_iff, Nat.eqb_eq in Hf. exact (no_explicit_single T Hf).
Qed.

Lemma dom_stage2 ce d so T : dom ce d so T = true -> stage2_ty T = true.
Proof. unfold dom. intros H. apply Bool.andb_true_iff in H. destruct H as [H _]. apply Bool.andb_true_iff in H. exact (proj1 H). Qed.

Lemma dom_seqof ce d so t : dom ce d so (TSeqOf t) = dom ce d so t.
Proof. reflexivity. Qed.

Lemma dom_setof ce d so t : dom ce d so (TSetOf t) = true -> dom ce d so t = true /\ (sorts ce = true -> so = true).
Proof.
  unfold dom. cbn [stage2_ty no_f01 no_setof]. rewrite Bool.orb_false_r. intros H.
  apply Bool.andb_true_iff in H. destruct H as [H H3]. rewrite H. cbn [andb].
  split.
  - destruct so; [reflexivity|]. destruct (sorts ce); [discriminate H3|reflexivity].
  - intros Hs. rewrite Hs in H3. destruct so; [reflexivity|discriminate H3].
Qed.

Lemma dom_seq ce d so fs : dom ce d so (TSeq fs) = true ->
  forall f, In f fs -> is_req (fst f) = true /\ dom ce d so (snd f) = true.
Proof.
  unfold dom. cbn [stage2_ty no_f01 no_setof]. intros H f Hin.
  apply Bool.andb_true_iff in H. destruct H as [H H3].
  apply Bool.andb_true_iff in H. destruct H as [H1 H2].
  rewrite forallb_forall in H1. specialize (H1 f Hin). apply Bool.andb_true_iff in H1. destruct H1 as [Hr H1].
  split; [exact Hr|]. rewrite H1. cbn [andb]. apply Bool.andb_true_iff. split.
  - destruct d; [reflexivity|]. cbn [orb] in *. rewrite forallb_forall in H2. exact (H2 f Hin).
  - destruct so; [reflexivity|]. destruct (sorts ce); [|reflexivity]. cbn [orb negb] in *.
    rewrite forallb_forall in H3. exact (H3 f Hin).
Qed.

Lemma mv_comp_vals ce cd fs : forallb (fun f => is_req (fst f)) fs = true -> forall vs, mv_fields ce cd fs vs = true ->
  comp_vals ce (fun t x => modes_val ce cd t x = true) fs vs.
Proof.
  induction fs as [|[p ft] fs IH]; intros Hreq vs Hs.
  - destruct vs; [constructor|discriminate Hs].
  - cbn [forallb fst] in Hreq. apply Bool.andb_true_iff in Hreq. destruct Hreq as [Hp Hreq].
    destruct p; try discriminate Hp. destruct vs as [|[x|] vs]; try discriminate Hs.
    change (mv_fields ce cd ((Req, ft) :: fs) (Some x :: vs)) with (modes_val ce cd ft x && mv_fields ce cd fs vs)%bool in Hs.
    apply Bool.andb_true_iff in Hs. destruct Hs as [Hx Hs]. constructor; [exact Hx|exact (IH Hreq vs Hs)].
Qed.

Lemma stage2_resolves T v : stage2_ty T = true -> resolves (STy T) T v.
Proof.
  intros H. apply resolves_sty_plain.
  - apply plain_map_tagged. destruct T; try exact I; discriminate H.
  - apply wire_tags_plain. destruct T; try exact I; discriminate H.
Qed.

Section Stage2.
  Variable R : aval -> aval -> Prop.
  Variable srt : bool.
  Hypothesis HR : rel_ok R srt.
  Variables ce cd : codec.
  Variable d : bool.
  Variable k : N.
  Hypothesis Hst : stable ce d k.
  Hypothesis Hcd : dec_ok cd.

  (* the claim is about T'; T only drives the induction.  [sorts] and [sorts_setof] of RoundTrip3.v are the
     same function of the codec *)
  Theorem modes_val_ok : forall T T', base_of T' = base_of T -> dom ce d srt T' = true ->
    forall v, modes_val ce cd T' v = true -> val_ok_m ce cd d k R T' v.
  Proof.
    induction T as [| | | | | | | | n|fs IH|fs IH|t IH|t IH|alts IH| |tg x IH|tg x IH] using ty_ind';
      intros T' Hb Hty v Hv; cbn [base_of] in Hb;
      destruct (dom_base ce d srt T' Hty) as (Hw & Htb & Hf01);
      try (assert (Hp: prim_base T' = true) by (unfold prim_base; rewrite Hb; reflexivity);
           rewrite (modes_val_prim ce cd T' v Hp) in Hv;
           exact (prim_val_m ce cd d k Hst Hcd R srt HR T' v Hp Hw (fun Hd0 => f01_single T' (Hf01 Hd0)) Hv));
      try (rewrite Hb in Htb; discriminate Htb).
    - (* SEQUENCE *)
      rewrite Hb in Htb. pose proof (dom_seq ce d srt fs Htb) as Hfs.
      rewrite modes_val_base, Hb in Hv. destruct v; try discriminate Hv. rewrite modes_val_seq in Hv.
      assert (Hreq: forallb (fun f => is_req (fst f)) fs = true).
      { apply forallb_forall. intros f Hin. exact (proj1 (Hfs f Hin)). }
      apply (record_val_m ce cd d k Hst Hcd R srt HR (fun t x => modes_val ce cd t x = true) T' fs Hb Hw (seq_wf_req fs Hreq));
        [|exact (mv_comp_vals ce cd fs Hreq _ Hv)].
      apply Forall_forall. intros f Hin. rewrite Forall_forall in IH. destruct (Hfs f Hin) as [Hr Hdf].
      split; [intros E; rewrite Hr in E; discriminate E|].
      intros x Hx. pose proof (IH f Hin (snd f) eq_refl Hdf x Hx) as Hval.
      split; [intros _; exact Hval|]. intros _.
      exact (item_sty_of_val_m ce cd d k Hcd R _ _ Hval (stage2_resolves _ x (dom_stage2 _ _ _ _ Hdf))).
    - (* SEQUENCE OF *)
      rewrite Hb in Htb. rewrite dom_seqof in Htb.
      rewrite modes_val_base, Hb in Hv. destruct v; try discriminate Hv. cbn [modes_val] in Hv.
      apply (listof_val_m ce cd d k Hst Hcd R srt HR T' t (or_introl Hb) Hw); [intros Hc; rewrite Hb in Hc; discriminate|].
      apply Forall_forall. intros x Hin. rewrite forallb_forall in Hv.
      exact (item_sty_of_val_m ce cd d k Hcd R _ _ (IH t eq_refl Htb x (Hv x Hin)) (stage2_resolves _ x (dom_stage2 _ _ _ _ Htb))).
    - (* SET OF *)
      rewrite Hb in Htb. destruct (dom_setof ce d srt t Htb) as [Htb' Hso].
      rewrite modes_val_base, Hb in Hv. destruct v; try discriminate Hv. cbn [modes_val] in Hv.
      apply (listof_val_m ce cd d k Hst Hcd R srt HR T' t (or_intror Hb) Hw); [intros _; exact Hso|].
      apply Forall_forall. intros x Hin. rewrite forallb_forall in Hv.
      exact (item_sty_of_val_m ce cd d k Hcd R _ _ (IH t eq_refl Htb' x (Hv x Hin)) (stage2_resolves _ x (dom_stage2 _ _ _ _ Htb'))).
    - exact (IH T' Hb Hty v Hv).
    - exact (IH T' Hb Hty v Hv).
  Qed.

  (* one complete item of the stage-2 universe, in any mode, wherever end-of-octets is or is not allowed *)
  Theorem modes_item_rel : forall T v, dom ce d srt T = true -> modes_val ce cd T v = true ->
    forall b, enc_with ce (enc_content ce) T (mo d k) v = Ok b -> N.of_nat (length b) <= index_max ->
    (2 <= length b)%nat /\ hd 0 b <> 0 /\ exists v', R (abs T v') (abs T v) /\
      forall f ae, fuel_ok T b f -> consumes (dec_call cd f (STy T) [] None ae false) b (DV T v').
  Proof.
    intros T v Hty Hv b He Hmax.
    destruct (item_sty_of_val_m ce cd d k Hcd R T v (modes_val_ok T T eq_refl Hty v Hv)
                (stage2_resolves T v (dom_stage2 _ _ _ _ Hty)) b He Hmax) as (v' & HRv & Hl & Hh & Hc).
    split; [exact Hl|]. split; [exact Hh|]. exists v'. split; [exact HRv|exact Hc].
  Qed.

End Stage2.

(* no REAL of the stage-2 values went through a Python float: the model's comparison takes their contents as
   equal to themselves *)
Lemma leaf_agood ce cd T v : stage1_val ce cd T v = true -> agoodb (abs T v) = true.
Proof.
  intros Hs. rewrite abs_wrappers. unfold stage1_val in Hs.
  destruct (base_of T); destruct v as [bb|z|bs|bo|cs| |arcs|r|vfs|xs|i x|ab]; try discriminate Hs; try reflexivity.
  destruct r as [| |m e|m e|]; try discriminate Hs; try reflexivity.
  cbn [abs abs_real agoodb]. destruct (Z.eqb m 0); [reflexivity|]. destruct (strip_factor _ 2 m e). reflexivity.
Qed.

Lemma modes_agood ce cd : forall T v, modes_val ce cd T v = true -> agoodb (abs T v) = true.
Proof.
  induction T as [| | | | | | | | n|fs IH|fs IH|t IH|t IH|alts IH| |tg x IH|tg x IH] using ty_ind'; intros v Hv;
    try exact (leaf_agood ce cd _ v Hv); try discriminate Hv.
  - (* SEQUENCE *)
    destruct v as [bb|z|bs|bo|cs| |arcs|r|vfs|xs|i x|ab]; try discriminate Hv.
    rewrite modes_val_seq in Hv. rewrite abs_seq. cbn [agoodb].
    revert vfs Hv. induction IH as [|[p ft] fs IHf _ IHfs]; intros vs Hv.
    + destruct vs; [reflexivity|discriminate Hv].
    + destruct vs as [|[x|] vs]; try discriminate Hv.
      change (mv_fields ce cd ((p, ft) :: fs) (Some x :: vs)) with (modes_val ce cd ft x && mv_fields ce cd fs vs)%bool in Hv.
      apply Bool.andb_true_iff in Hv. destruct Hv as [Hx Hv].
      change (abs_fields ((p, ft) :: fs) (Some x :: vs)) with (Some (abs ft x) :: abs_fields fs vs).
      cbn [snd] in IHf. cbn [forallb]. rewrite (IHf x Hx). exact (IHfs vs Hv).
  - destruct v as [bb|z|bs|bo|cs| |arcs|r|vfs|xs|i x|ab]; try discriminate Hv. cbn [modes_val] in Hv. cbn [abs agoodb].
    apply forallb_forall. intros a Hin. apply in_map_iff in Hin. destruct Hin as (x & <- & Hx).
    rewrite forallb_forall in Hv. exact (IH x (Hv x Hx)).
  - destruct v as [bb|z|bs|bo|cs| |arcs|r|vfs|xs|i x|ab]; try discriminate Hv. cbn [modes_val] in Hv. cbn [abs agoodb].
    apply forallb_forall. intros a Hin. apply in_map_iff in Hin. destruct Hin as (x & <- & Hx).
    rewrite forallb_forall in Hv. exact (IH x (Hv x Hx)).
  - rewrite abs_wrappers. cbn [base_of]. rewrite <- abs_wrappers. exact (IH v Hv).
  - rewrite abs_wrappers. cbn [base_of]. rewrite <- abs_wrappers. exact (IH v Hv).
Qed.

Theorem roundtrip_modes_gen R srt : rel_ok R srt -> forall ce cd d k T v b tl,
  stable ce d k -> dec_ok cd -> dom ce d srt T = true -> modes_val ce cd T v = true ->
  encode ce d k T v = Ok b -> N.of_nat (length b) <= index_max ->
  exists v', decode cd (Some T) (b ++ tl) = Ok (DV T v', tl) /\ R (abs T v') (abs T v).
Proof.
  intros HR ce cd d k T v b tl Hst Hcd Hty Hv He Hmax.
  destruct (modes_item_rel R srt HR ce cd d k Hst Hcd T v Hty Hv b He Hmax) as (_ & _ & v' & Habs & Hc).
  exists v'. split; [|exact Habs]. unfold decode.
  assert (Hf: fuel_ok T b (dec_fuel (Some T) (b ++ tl))).
  { unfold fuel_ok, dec_fuel. rewrite app_length. lia. }
  pose proof (consumes_decode_with cd _ (Some T) b tl (DV T v') (Hc _ false Hf)) as Hdw.
  unfold decode_with in Hdw. exact Hdw.
Qed.

(* equality of abstract values: every mode, SET OF only where the encoder keeps the order *)
Theorem roundtrip_modes : forall ce cd d k T v b tl,
  stable ce d k -> dec_ok cd -> dom ce d false T = true -> modes_val ce cd T v = true ->
  encode ce d k T v = Ok b -> N.of_nat (length b) <= index_max ->
  exists v', decode cd (Some T) (b ++ tl) = Ok (DV T v', tl) /\ abs T v' = abs T v.
Proof.
  intros ce cd d k T v b tl. exact (roundtrip_modes_gen eq false rel_ok_eq ce cd d k T v b tl).
Qed.

Definition string_ty (T: ty) : bool := match base_of T with TOcts | TBits | TStr _ => true | _ => false end.

Lemma prim_stage2 : forall T, prim_base T = true -> wf_tags T = true -> stage2_ty T = true /\ no_setof T = true.
Proof.
  induction T as [| | | | | | | | n|fs IH|fs IH|t IH|t IH|alts IH| |tg x IH|tg x IH] using ty_ind'; intros Hp Hw;
    try discriminate Hp; try (split; reflexivity).
  - cbn [wf_tags] in Hw. apply Bool.andb_true_iff in Hw. destruct Hw as [H1 H2].
    destruct (IH Hp H2) as [I1 I2]. cbn [stage2_ty no_setof]. unfold non_univ. rewrite H1, I1, I2. split; reflexivity.
  - cbn [wf_tags] in Hw. apply Bool.andb_true_iff in Hw. destruct Hw as [H1 H2].
    destruct (IH Hp H2) as [I1 I2]. cbn [stage2_ty no_setof]. unfold non_univ. rewrite H1, I1, I2. split; reflexivity.
Qed.

Lemma string_no_f01 : forall T, string_ty T = true -> no_f01 T = true.
Proof.
  induction T as [| | | | | | | | n|fs IH|fs IH|t IH|t IH|alts IH| |tg x IH|tg x IH] using ty_ind'; intros Hs;
    try discriminate Hs; try reflexivity.
  - cbn [no_f01]. rewrite (IH Hs). unfold f01_class, six, string_ty in *. cbn [base_of] in *.
    destruct (base_of x); try discriminate Hs; reflexivity.
  - cbn [no_f01]. rewrite (IH Hs). unfold f01_class, six, string_ty in *. cbn [base_of] in *.
    destruct (base_of x); try discriminate Hs; reflexivity.
Qed.

Lemma string_prim T : string_ty T = true -> prim_base T = true.
Proof. unfold string_ty, prim_base. destruct (base_of T); try discriminate; reflexivity. Qed.

(* segmented strings: OCTET STRING, BIT STRING and the character / useful strings under any tag
   stack, any maxChunkSize, definite or indefinite lengths, BER encoder, BER or CER decoder *)
Theorem roundtrip_segmented_strings : forall cd d chunk T v b tl,
  dec_ok cd -> wf_tags T = true -> string_ty T = true -> stage1_val BER cd T v = true ->
  encode BER d chunk T v = Ok b -> N.of_nat (length b) <= index_max ->
  exists v', decode cd (Some T) (b ++ tl) = Ok (DV T v', tl) /\ abs T v' = abs T v.
Proof.
  intros cd d chunk T v b tl Hcd Hw Hs Hv He Hmax.
  pose proof (string_prim T Hs) as Hp. destruct (prim_stage2 T Hp Hw) as [H2 _].
  apply (roundtrip_modes BER cd d chunk T v b tl (stable_ber d chunk) Hcd); try assumption.
  - unfold dom. rewrite H2, (string_no_f01 T Hs). cbn [sorts negb]. rewrite !Bool.orb_true_r. reflexivity.
  - rewrite (modes_val_prim BER cd T v Hp). exact Hv.
Qed.

(* the whole stage-2 fragment, segmented, definite lengths *)
Theorem roundtrip_segmented_stage2 : forall cd chunk T v b tl,
  dec_ok cd -> stage2_ty T = true -> modes_val BER cd T v = true ->
  encode BER true chunk T v = Ok b -> N.of_nat (length b) <= index_max ->
  exists v', decode cd (Some T) (b ++ tl) = Ok (DV T v', tl) /\ abs T v' = abs T v.
Proof.
  intros cd chunk T v b tl Hcd Hty Hv He Hmax.
  apply (roundtrip_modes BER cd true chunk T v b tl (stable_ber true chunk) Hcd); try assumption.
  unfold dom. rewrite Hty. reflexivity.
Qed.

(* indefinite-length mode, any maxChunkSize, for the stage-2 fragment minus the F01 class *)
Theorem roundtrip_indefinite : forall cd chunk T v b tl,
  dec_ok cd -> stage2_ty T = true -> no_f01 T = true -> modes_val BER cd T v = true ->
  encode BER false chunk T v = Ok b -> N.of_nat (length b) <= index_max ->
  exists v', decode cd (Some T) (b ++ tl) = Ok (DV T v', tl) /\ abs T v' = abs T v.
Proof.
  intros cd chunk T v b tl Hcd Hty Hf Hv He Hmax.
  apply (roundtrip_modes BER cd false chunk T v b tl (stable_ber false chunk) Hcd); try assumption.
  unfold dom. rewrite Hty, Hf. reflexivity.
Qed.

(* the options of the caller do not reach the CER encoder *)
Lemma encode_cer_fixed d k T v : encode CER d k T v = encode CER false 1000 T v.
Proof. reflexivity. Qed.

(* the CER encoder (indefinite lengths, segments of 1000 octets, whatever the caller asks for),
   read by the CER or the BER decoder; no SET OF, whose elements the encoder sorts *)
Theorem roundtrip_cer_encoder : forall cd d k T v b tl,
  dec_ok cd -> stage2_ty T = true -> no_f01 T = true -> no_setof T = true -> modes_val CER cd T v = true ->
  encode CER d k T v = Ok b -> N.of_nat (length b) <= index_max ->
  exists v', decode cd (Some T) (b ++ tl) = Ok (DV T v', tl) /\ abs T v' = abs T v.
Proof.
  intros cd d k T v b tl Hcd Hty Hf Hns Hv He Hmax. rewrite encode_cer_fixed in He.
  apply (roundtrip_modes CER cd false 1000 T v b tl stable_cer Hcd); try assumption.
  unfold dom. rewrite Hty, Hf, Hns. reflexivity.
Qed.

(* the DER encoder, for completeness: definite, unsegmented whatever the caller asks for *)
Lemma encode_der_fixed d k T v : encode DER d k T v = encode DER true 0 T v.
Proof. reflexivity. Qed.

Theorem roundtrip_der_encoder : forall cd d k T v b tl,
  dec_ok cd -> stage2_ty T = true -> no_setof T = true -> modes_val DER cd T v = true ->
  encode DER d k T v = Ok b -> N.of_nat (length b) <= index_max ->
  exists v', decode cd (Some T) (b ++ tl) = Ok (DV T v', tl) /\ abs T v' = abs T v.
Proof.
  intros cd d k T v b tl Hcd Hty Hns Hv He Hmax. rewrite encode_der_fixed in He.
  apply (roundtrip_modes DER cd true 0 T v b tl stable_der Hcd); try assumption.
  unfold dom. rewrite Hty, Hns. reflexivity.
Qed.

Print Assumptions roundtrip_modes_gen.
Print Assumptions roundtrip_modes.
Print Assumptions roundtrip_segmented_strings.
Print Assumptions roundtrip_segmented_stage2.
Print Assumptions roundtrip_indefinite.
Print Assumptions roundtrip_cer_encoder.
Print Assumptions roundtrip_der_encoder.

Theorem roundtrip_modes_setof : forall ce cd d k T v b tl,
  stable ce d k -> dec_ok cd -> dom ce d true T = true -> modes_val ce cd T v = true ->
  encode ce d k T v = Ok b -> N.of_nat (length b) <= index_max ->
  exists v', decode cd (Some T) (b ++ tl) = Ok (DV T v', tl) /\ aval_eqb (abs T v') (abs T v) = true.
Proof.
  intros ce cd d k T v b tl Hst Hcd Hty Hv He Hmax.
  destruct (roundtrip_modes_gen aeq true rel_ok_aeq ce cd d k T v b tl Hst Hcd Hty Hv He Hmax) as (v' & Hd & Hq).
  exists v'. split; [exact Hd|]. apply aval_eqb_sym.
  exact (proj2 (aval_eqb_aeq (abs T v)) (modes_agood ce cd T v Hv) _ (aeq_sym _ _ Hq)).
Qed.

(* with SET OF: the CER encoder sorts the element encodings; the decoded SET OF holds the same
   elements as a multiset (aval_eqb compares ABag contents with bag_eqb, at any depth) *)
Theorem roundtrip_cer_encoder_setof : forall cd d k T v b tl,
  dec_ok cd -> stage2_ty T = true -> no_f01 T = true -> modes_val CER cd T v = true ->
  encode CER d k T v = Ok b -> N.of_nat (length b) <= index_max ->
  exists v', decode cd (Some T) (b ++ tl) = Ok (DV T v', tl) /\ aval_eqb (abs T v') (abs T v) = true.
Proof.
  intros cd d k T v b tl Hcd Hty Hf Hv He Hmax. rewrite encode_cer_fixed in He.
  apply (roundtrip_modes_setof CER cd false 1000 T v b tl stable_cer Hcd); try assumption.
  unfold dom. rewrite Hty, Hf. reflexivity.
Qed.

Theorem roundtrip_der_encoder_setof : forall cd d k T v b tl,
  dec_ok cd -> stage2_ty T = true -> modes_val DER cd T v = true ->
  encode DER d k T v = Ok b -> N.of_nat (length b) <= index_max ->
  exists v', decode cd (Some T) (b ++ tl) = Ok (DV T v', tl) /\ aval_eqb (abs T v') (abs T v) = true.
Proof.
  intros cd d k T v b tl Hcd Hty Hv He Hmax. rewrite encode_der_fixed in He.
  apply (roundtrip_modes_setof DER cd true 0 T v b tl stable_der Hcd); try assumption.
  unfold dom. rewrite Hty. reflexivity.
Qed.

Print Assumptions roundtrip_modes_setof.
Print Assumptions roundtrip_cer_encoder_setof.
Print Assumptions roundtrip_der_encoder_setof.

(* [0] EXPLICIT [APPLICATION 5] IMPLICIT BIT STRING, 11 bits, maxChunkSize = 1: two segments, the
   last one (03 02 05 C0) with 5 unused bits; definite and indefinite lengths; BER and CER decoders *)
Definition modes_ex_bits_ty : ty := TExp (mkTag Ctx false 0) (TImp (mkTag Appl false 5) TBits).
Definition modes_ex_bits_val : val := VBits [true;false;true;true;false;false;true;false; true;true;false].

Example roundtrip_segmented_bits_nonvacuous :
  wf_tags modes_ex_bits_ty = true /\ string_ty modes_ex_bits_ty = true
  /\ stage1_val BER BER modes_ex_bits_ty modes_ex_bits_val = true
  /\ stage1_val BER CER modes_ex_bits_ty modes_ex_bits_val = true
  /\ encode BER true 1 modes_ex_bits_ty modes_ex_bits_val = Ok [160; 10; 101; 8; 3; 2; 0; 178; 3; 2; 5; 192]
  /\ encode BER false 1 modes_ex_bits_ty modes_ex_bits_val
     = Ok [160; 128; 101; 128; 3; 2; 0; 178; 3; 2; 5; 192; 0; 0; 0; 0]
  /\ decode BER (Some modes_ex_bits_ty) ([160; 10; 101; 8; 3; 2; 0; 178; 3; 2; 5; 192] ++ [7; 7])
     = Ok (DV modes_ex_bits_ty modes_ex_bits_val, [7; 7])
  /\ decode CER (Some modes_ex_bits_ty) ([160; 128; 101; 128; 3; 2; 0; 178; 3; 2; 5; 192; 0; 0; 0; 0] ++ [7; 7])
     = Ok (DV modes_ex_bits_ty modes_ex_bits_val, [7; 7])
  /\ N.of_nat 16 <= index_max.
Proof. vm_compute. repeat split; try reflexivity; discriminate. Qed.

(* the DER decoder refuses the same octets: indefinite lengths are not DER *)
Example der_decoder_refuses_indefinite :
  decode DER (Some modes_ex_bits_ty) [160; 128; 101; 128; 3; 2; 0; 178; 3; 2; 5; 192; 0; 0; 0; 0] = Err EMalformed
  /\ decode DER (Some modes_ex_bits_ty) [160; 10; 101; 8; 3; 2; 0; 178; 3; 2; 5; 192] = Err EMalformed.
Proof. vm_compute. split; reflexivity. Qed.

(* SEQUENCE OF SEQUENCE { INTEGER, [1] EXPLICIT SET OF IA5String, [PRIVATE 40] IMPLICIT SEQUENCE {} }:
   indefinite containers nested three deep, an indefinite EXPLICIT tag over a container, a segmented
   string (maxChunkSize = 2) inside, empty containers *)
Definition modes_ex_nested_ty : ty :=
  TSeqOf (TSeq [(Req, TInt); (Req, TExp (mkTag Ctx false 1) (TSetOf (TStr 22))); (Req, TImp (mkTag Priv false 40) (TSeq []))]).
Definition modes_ex_nested_val : val :=
  VList [VRec [Some (VInt 300); Some (VList [VOcts [97;98;99;100;101]; VOcts []]); Some (VRec [])];
         VRec [Some (VInt (-1)); Some (VList []); Some (VRec [])]].

Example roundtrip_indefinite_nonvacuous :
  stage2_ty modes_ex_nested_ty = true /\ no_f01 modes_ex_nested_ty = true
  /\ modes_val BER BER modes_ex_nested_ty modes_ex_nested_val = true
  /\ modes_val BER CER modes_ex_nested_ty modes_ex_nested_val = true
  /\ encode BER false 2 modes_ex_nested_ty modes_ex_nested_val
     = Ok [48; 128; 48; 128; 2; 2; 1; 44; 161; 128; 49; 128; 54; 128; 4; 2;
           97; 98; 4; 2; 99; 100; 4; 1; 101; 0; 0; 22; 0; 0; 0; 0; 0; 255; 40;
           128; 0; 0; 0; 0; 48; 128; 2; 1; 255; 161; 128; 49; 128; 0; 0; 0; 0;
           255; 40; 128; 0; 0; 0; 0; 0; 0]
  /\ N.of_nat 62 <= index_max.
Proof. vm_compute. repeat split; try reflexivity; discriminate. Qed.

(* the CER encoder: BOOLEAN TRUE as FF, a 1001-octet OCTET STRING in segments of 1000 under an
   indefinite EXPLICIT tag, indefinite containers; read by the BER decoder *)
Definition modes_ex_cer_ty : ty :=
  TSeq [(Req, TBool); (Req, TExp (mkTag Ctx false 0) TOcts); (Req, TSeqOf TBits); (Req, TInt)].
Definition modes_ex_cer_val : val :=
  VRec [Some (VBool true); Some (VOcts (repeat 7 (N.to_nat 1001))); Some (VList [VBits [true; false; true]]); Some (VInt 5)].

Example roundtrip_cer_encoder_nonvacuous :
  stage2_ty modes_ex_cer_ty = true /\ no_f01 modes_ex_cer_ty = true /\ no_setof modes_ex_cer_ty = true
  /\ modes_val CER CER modes_ex_cer_ty modes_ex_cer_val = true
  /\ modes_val CER BER modes_ex_cer_ty modes_ex_cer_val = true
  /\ exists b, encode CER true 0 modes_ex_cer_ty modes_ex_cer_val = Ok b /\ length b = 1033%nat
       /\ firstn 12 b = [48; 128; 1; 1; 255; 160; 128; 36; 128; 4; 130; 3]
       /\ skipn 1013 b = [4; 1; 7; 0; 0; 0; 0; 48; 128; 3; 2; 5; 160; 0; 0; 2; 1; 5; 0; 0]
       /\ decode BER (Some modes_ex_cer_ty) (b ++ [1; 2]) = Ok (DV modes_ex_cer_ty modes_ex_cer_val, [1; 2])
       /\ N.of_nat (length b) <= index_max.
Proof.
  do 5 (split; [vm_compute; reflexivity|]).
  exists (match encode CER true 0 modes_ex_cer_ty modes_ex_cer_val with Ok b => b | Err _ => [] end).
  vm_compute. repeat split; try reflexivity; discriminate.
Qed.

(* BIT STRING under CER: 7993 bits do not fit 999 content octets after the initial octet, so there are
   two segments - 03 82 03 E8 00 (999 octets) and 03 02 07 80, the last with 7 unused bits *)
Example roundtrip_cer_bits_nonvacuous :
  let T := TSeqOf TBits in
  let v := VList [VBits (repeat true (N.to_nat 7993))] in
  match encode CER true 0 T v with
  | Ok b => (stage2_ty T && no_f01 T && no_setof T && modes_val CER BER T v && N.leb (N.of_nat (length b)) index_max
             && bytes_eqb (firstn 9 b) [48; 128; 35; 128; 3; 130; 3; 232; 0]
             && bytes_eqb (skipn 1008 b) [3; 2; 7; 128; 0; 0; 0; 0]
             && match decode BER (Some T) (b ++ [1; 2]) with
                | Ok (DV _ v', tl) => aval_eqb (abs T v') (abs T v) && bytes_eqb tl [1; 2]
                | _ => false
                end)%bool
  | Err _ => false
  end = true.
Proof.
  cbv zeta.
  (* the encoding first, its 999 octets of bits computed by shifts; then everything else on the octets *)
  eassert (E: encode CER true 0 (TSeqOf TBits) (VList [VBits (repeat true (N.to_nat 7993))]) = Ok _).
  { unfold encode, enc, enc_with.
    set (ce := concrete_encoder CER (TSeqOf TBits)). vm_compute in ce. subst ce.
    cbn [bind tagset_of enc_content]. unfold enc_with.
    set (ce := concrete_encoder CER TBits). vm_compute in ce. subst ce.
    cbn [bind tagset_of enc_content]. rewrite LeafOidBits.enc_bits_shift. vm_compute. reflexivity. }
  rewrite E. vm_compute. reflexivity.
Qed.

(* SET OF under the CER encoder: the elements come back sorted by their encodings, at both levels;
   equal as multisets, not as lists *)
Definition modes_ex_setof_ty : ty := TSeq [(Req, TSetOf (TSetOf TInt)); (Req, TImp (mkTag Ctx false 3) (TSetOf TOcts))].
Definition modes_ex_setof_val : val :=
  VRec [Some (VList [VList [VInt 5; VInt 1; VInt 3]; VList [VInt 2; VInt 1]]); Some (VList [VOcts [9;9]; VOcts [1]; VOcts []])].
Definition modes_ex_setof_back : val :=
  VRec [Some (VList [VList [VInt 1; VInt 2]; VList [VInt 1; VInt 3; VInt 5]]); Some (VList [VOcts []; VOcts [1]; VOcts [9; 9]])].

Example roundtrip_cer_setof_nonvacuous :
  stage2_ty modes_ex_setof_ty = true /\ no_f01 modes_ex_setof_ty = true
  /\ modes_val CER CER modes_ex_setof_ty modes_ex_setof_val = true
  /\ encode CER true 0 modes_ex_setof_ty modes_ex_setof_val
     = Ok [48; 128; 49; 128; 49; 128; 2; 1; 1; 2; 1; 2; 0; 0; 49; 128; 2; 1;
           1; 2; 1; 3; 2; 1; 5; 0; 0; 0; 0; 163; 128; 4; 0; 4; 1; 1; 4; 2; 9;
           9; 0; 0; 0; 0]
  /\ decode CER (Some modes_ex_setof_ty)
       [48; 128; 49; 128; 49; 128; 2; 1; 1; 2; 1; 2; 0; 0; 49; 128; 2; 1;
        1; 2; 1; 3; 2; 1; 5; 0; 0; 0; 0; 163; 128; 4; 0; 4; 1; 1; 4; 2; 9; 9; 0; 0; 0; 0]
     = Ok (DV modes_ex_setof_ty modes_ex_setof_back, [])
  /\ aval_eqb (abs modes_ex_setof_ty modes_ex_setof_back) (abs modes_ex_setof_ty modes_ex_setof_val) = true
  /\ abs modes_ex_setof_ty modes_ex_setof_back <> abs modes_ex_setof_ty modes_ex_setof_val
  /\ N.of_nat 44 <= index_max.
Proof. vm_compute. repeat split; try reflexivity; discriminate. Qed.

(* the statement with equality of abstract values is false for SET OF under the CER encoder *)
Example roundtrip_cer_setof_eq_refuted :
  ~ (forall T v b, stage2_ty T = true -> no_f01 T = true -> modes_val CER CER T v = true ->
       encode CER true 0 T v = Ok b -> N.of_nat (length b) <= index_max ->
       exists v', decode CER (Some T) (b ++ []) = Ok (DV T v', []) /\ abs T v' = abs T v).
Proof.
  intros H.
  destruct (H modes_ex_setof_ty modes_ex_setof_val _ eq_refl eq_refl eq_refl eq_refl ltac:(vm_compute; discriminate)) as (v' & Hd & Ha).
  vm_compute in Hd. inversion Hd; subst v'. vm_compute in Ha. discriminate Ha.
Qed.

(* finding F01: [1] EXPLICIT INTEGER in indefinite-length mode is a1 03 02 01 05 00 00 - a definite
   length and a trailing end-of-octets - so the decoder returns the value and leaves 00 00 unread *)
Definition f01_witness_ty : ty := TExp (mkTag Ctx false 1) TInt.

Example f01_class_examples :
  f01_class f01_witness_ty = true
  /\ f01_class (TExp (mkTag Ctx false 1) (TImp (mkTag Ctx false 2) TNull)) = true      (* IMPLICIT tags in between *)
  /\ f01_class (TImp (mkTag Ctx false 1) (TExp (mkTag Ctx false 2) TReal)) = true      (* an IMPLICIT tag renaming the EXPLICIT one *)
  /\ f01_class (TExp (mkTag Appl false 1) (TExp (mkTag Ctx false 2) TBool)) = true
  /\ f01_class (TImp (mkTag Ctx false 1) TInt) = false                                  (* no EXPLICIT tag *)
  /\ f01_class (TExp (mkTag Ctx false 1) TBits) = false                                 (* the string types are written correctly *)
  /\ f01_class (TExp (mkTag Ctx false 1) TOcts) = false
  /\ f01_class (TExp (mkTag Ctx false 1) (TSeq [])) = false                             (* and so are the containers *)
  /\ no_f01 (TSeqOf (TSeq [(Req, f01_witness_ty)])) = false.                            (* hereditary *)
Proof. vm_compute. repeat split; reflexivity. Qed.

Example roundtrip_indefinite_f01_refuted :
  stage2_ty f01_witness_ty = true /\ f01_class f01_witness_ty = true
  /\ modes_val BER BER f01_witness_ty (VInt 5) = true
  /\ encode BER false 0 f01_witness_ty (VInt 5) = Ok [161; 3; 2; 1; 5; 0; 0]
  /\ decode BER (Some f01_witness_ty) ([161; 3; 2; 1; 5; 0; 0] ++ []) = Ok (DV f01_witness_ty (VInt 5), [0; 0])
  /\ ~ (exists v', decode BER (Some f01_witness_ty) ([161; 3; 2; 1; 5; 0; 0] ++ []) = Ok (DV f01_witness_ty v', [])).
Proof.
  vm_compute. repeat split; try reflexivity. intros (v' & H). discriminate H.
Qed.

(* each of the six base types of the class, under one EXPLICIT tag: encoding, then what the decoder
   returns and leaves; the string types under the same tag for comparison *)
Definition f01_probe (B: ty) (v: val) : bytes * option (val * bytes) :=
  let T := TExp (mkTag Ctx false 1) B in
  match encode BER false 0 T v with
  | Ok b => (b, match decode BER (Some T) b with Ok (DV _ v', tl) => Some (v', tl) | _ => None end)
  | Err _ => ([], None)
  end.

Example f01_all_six_bases :
  f01_probe TBool (VBool true) = ([161; 3; 1; 1; 1; 0; 0], Some (VBool true, [0; 0]))
  /\ f01_probe TInt (VInt 5) = ([161; 3; 2; 1; 5; 0; 0], Some (VInt 5, [0; 0]))
  /\ f01_probe TEnum (VInt 2) = ([161; 3; 10; 1; 2; 0; 0], Some (VInt 2, [0; 0]))
  /\ f01_probe TNull VNull = ([161; 2; 5; 0; 0; 0], Some (VNull, [0; 0]))
  /\ f01_probe TOid (VOid [1; 2; 3]) = ([161; 4; 6; 2; 42; 3; 0; 0], Some (VOid [1; 2; 3], [0; 0]))
  /\ f01_probe TReal (VReal RPInf) = ([161; 3; 9; 1; 64; 0; 0], Some (VReal RPInf, [0; 0]))
  /\ f01_probe TOcts (VOcts [1]) = ([161; 128; 4; 1; 1; 0; 0], Some (VOcts [1], []))
  /\ f01_probe TBits (VBits [true]) = ([161; 128; 3; 2; 7; 128; 0; 0], Some (VBits [true], [])).
Proof. vm_compute. repeat split; reflexivity. Qed.
