(* What the native encoder makes of a value object is read back - by the native decoder and by the
   bare-value branches of the BER-family encoders alike - as the value's canonical form [canon];
   [canon] has the abstract content of the value. *)
From Coq Require Import Lia.
From PV Require Import Model.Native Proofs.NativeText.
From PV Require Export Proofs.Basics.
Local Open Scope N_scope.

(* The canonical form, what comes back: character strings as their octets, an unassigned DEFAULT
   member as its default, exact REALs in the form Real(float) gives them, ANY as an ANY value *)

Definition canon_real (r: real) : real :=
  match r with RPInf => RPInf | RNInf => RNInf | _ => RDec 0 0 end.

Fixpoint canon (T: ty) (v: val) {struct T} : val :=
  match T with
  | TImp _ x | TExp _ x => canon x v
  | TStr _ => match v with VChars cs => VOcts (concat cs) | _ => v end
  | TReal => match v with VReal r => VReal (canon_real r) | _ => v end
  | TAny => match v with VOcts b => VAny b | _ => v end
  | TSeqOf t | TSetOf t => match v with VList xs => VList (map (canon t) xs) | _ => v end
  | TChoice alts =>
      match v with
      | VChoice i x =>
          VChoice i ((fix go (alts: list ty) (k: nat) : val :=
                        match alts, k with
                        | a :: _, O => canon a x
                        | _ :: r, S k' => go r k'
                        | [], _ => x
                        end) alts i)
      | _ => v
      end
  | TSeq fs | TSet fs =>
      match v with
      | VRec vs =>
          VRec ((fix go (fs: list (presence * ty)) (vs: list (option val)) : list (option val) :=
                   match fs with
                   | [] => []
                   | (p, ft) :: fs' =>
                       let ov := match vs with x :: _ => x | [] => None end in
                       let vs' := match vs with _ :: r => r | [] => [] end in
                       (match ov, p with
                        | Some x, _ => Some (canon ft x)
                        | None, Def d => Some (canon ft d)
                        | None, _ => None
                        end) :: go fs' vs'
                   end) fs vs)
      | _ => v
      end
  | _ => v
  end.

(* the shapes of the inner loops *)

(* a list converted element by element, up to the first error *)
Definition map_res {A B} (f: A -> res B) : list A -> res (list B) :=
  fix go (xs: list A) : res (list B) :=
    match xs with
    | [] => Ok []
    | x :: r => do p <- f x; do ps <- go r; Ok (p :: ps)
    end.

Lemma map_res_round {A B C} (f: A -> res B) (g: B -> res C) (h: A -> C) l :
  Forall (fun x => exists p, f x = Ok p /\ g p = Ok (h x)) l ->
  exists ps, map_res f l = Ok ps /\ map_res g ps = Ok (map h l).
Proof.
  induction 1 as [|x l [p [E1 E2]] _ [ps [E3 E4]]]; [exists []; split; reflexivity|].
  exists (p :: ps). cbn [map_res map]. fold (map_res f) (map_res g).
  rewrite E1, E2. cbn [bind]. rewrite E3, E4. split; reflexivity.
Qed.

Lemma map_res_map_ext {A B} (f: A -> res B) (h: A -> A) l :
  Forall (fun x => f (h x) = f x) l -> map_res f (map h l) = map_res f l.
Proof.
  induction 1 as [|x l E _ IH]; [reflexivity|].
  cbn [map map_res]. fold (map_res f). rewrite E, IH. reflexivity.
Qed.

(* SEQUENCE / SET: the loops over the declared components, by name.  The slot of a component is
   the head of the remaining values; when the values run out the slot counts as unassigned. *)

Fixpoint canon_fields (fs: list (presence * ty)) (vs: list (option val)) : list (option val) :=
  match fs with
  | [] => []
  | (p, ft) :: fs' =>
      (match hd None vs, p with
       | Some x, _ => Some (canon ft x)
       | None, Def d => Some (canon ft d)
       | None, _ => None
       end) :: canon_fields fs' (tl vs)
  end.

Fixpoint wf_fields (fs: list (presence * ty)) (vs: list (option val)) : bool :=
  match fs with
  | [] => true
  | (p, ft) :: fs' =>
      (match hd None vs, p with
       | Some x, _ => wf_native ft x
       | None, Opt => true
       | None, Def d => wf_native ft d
       | None, Req => false
       end) && wf_fields fs' (tl vs)
  end.

Fixpoint to_fields (i: nat) (fs: list (presence * ty)) (vs: list (option val)) : res (list (nat * pyval)) :=
  match fs with
  | [] => Ok []
  | (p, ft) :: fs' =>
      match hd None vs, p with
      | Some x, _ => do q <- to_native ft x; do rest <- to_fields (S i) fs' (tl vs); Ok ((i, q) :: rest)
      | None, Opt => to_fields (S i) fs' (tl vs)
      | None, Def d => do q <- to_native ft d; do rest <- to_fields (S i) fs' (tl vs); Ok ((i, q) :: rest)
      | None, Req => Err EUnmodelled
      end
  end.

Definition from_fields (strict: bool) (kvs: list (nat * pyval)) : nat -> list (presence * ty) -> res (list (option val)) :=
  fix go (i: nat) (fs: list (presence * ty)) : res (list (option val)) :=
    match fs with
    | [] => Ok []
    | (pr, ft) :: fs' =>
        match lookup_py i kvs with
        | Some q => do x <- from_py strict ft q; do r <- go (S i) fs'; Ok (Some x :: r)
        | None =>
            match pr, strict with
            | Opt, _ | _, false => do r <- go (S i) fs'; Ok (None :: r)
            | _, true => Err EMalformed
            end
        end
    end.

Lemma canon_seq : forall fs vs, canon (TSeq fs) (VRec vs) = VRec (canon_fields fs vs).
Proof. reflexivity. Qed.
Lemma to_native_seq : forall fs vs, to_native (TSeq fs) (VRec vs) = do kvs <- to_fields O fs vs; Ok (PDict kvs).
Proof. reflexivity. Qed.
Lemma from_py_seq : forall s fs kvs, from_py s (TSeq fs) (PDict kvs) = do vs <- from_fields s kvs O fs; Ok (VRec vs).
Proof. reflexivity. Qed.

(* SEQUENCE OF *)
Lemma to_native_seqof : forall t xs,
  to_native (TSeqOf t) (VList xs) = do ps <- map_res (to_native t) xs; Ok (PList ps).
Proof. reflexivity. Qed.
Lemma from_py_seqof : forall s t ps,
  from_py s (TSeqOf t) (PList ps) = do xs <- map_res (from_py s t) ps; Ok (VList xs).
Proof. reflexivity. Qed.

(* CHOICE *)
Lemma canon_choice : forall alts i x,
  canon (TChoice alts) (VChoice i x)
  = VChoice i (match nth_error alts i with Some a => canon a x | None => x end).
Proof. intros. exact (f_equal (VChoice i) (nth_loop (fun a => canon a x) x alts i)). Qed.
Lemma wf_choice : forall alts i x,
  wf_native (TChoice alts) (VChoice i x)
  = match nth_error alts i with Some a => wf_native a x | None => false end.
Proof. intros. exact (nth_loop (fun a => wf_native a x) false alts i). Qed.
Lemma to_native_choice : forall alts i x,
  to_native (TChoice alts) (VChoice i x)
  = match nth_error alts i with
    | Some a => do p <- to_native a x; Ok (PDict [(i, p)])
    | None => Err EUnmodelled
    end.
Proof.
  intros. exact (nth_loop (fun a => do p <- to_native a x; Ok (PDict [(i, p)])) (Err EUnmodelled) alts i).
Qed.

(* the native decoder takes the first key that names an alternative *)
Lemma from_py_choice_lax : forall alts k q rest,
  from_py false (TChoice alts) (PDict ((k, q) :: rest))
  = match nth_error alts k with
    | Some a => do x <- from_py false a q; Ok (VChoice k x)
    | None => from_py false (TChoice alts) (PDict rest)
    end.
Proof.
  intros. pose proof (nth_loop (fun a => Some (from_py false a q)) None alts k) as E. cbn beta in E.
  destruct (nth_error alts k); cbn [from_py]; rewrite E; reflexivity.
Qed.

(* the encoders collect every alternative whose name is a key, and want exactly one *)
Definition from_collect (strict: bool) (kvs: list (nat * pyval)) : nat -> list ty -> list (nat * res val) :=
  fix go (i: nat) (alts: list ty) : list (nat * res val) :=
    match alts with
    | [] => []
    | a :: r => match lookup_py i kvs with
                | Some q => (i, from_py strict a q) :: go (S i) r
                | None => go (S i) r
                end
    end.

Lemma from_py_choice_strict : forall alts kvs,
  from_py true (TChoice alts) (PDict kvs) =
  match from_collect true kvs O alts with
  | [(k, r)] => do x <- r; Ok (VChoice k x)
  | _ => Err EMalformed
  end.
Proof. reflexivity. Qed.

(* induction over the type, by shape *)

Definition plain (T: ty) : bool :=
  match T with
  | TSeq _ | TSet _ | TSeqOf _ | TSetOf _ | TChoice _ | TImp _ _ | TExp _ _ => false
  | _ => true
  end.

Lemma ty_shape_ind (P: ty -> Prop) :
  (forall T, plain T = true -> P T) ->
  (forall fs, Forall (fun f => P (snd f)) fs -> P (TSeq fs)) ->
  (forall fs, Forall (fun f => P (snd f)) fs -> P (TSet fs)) ->
  (forall t, P t -> P (TSeqOf t)) ->
  (forall t, P t -> P (TSetOf t)) ->
  (forall alts, Forall P alts -> P (TChoice alts)) ->
  (forall t x, P x -> P (TImp t x)) ->
  (forall t x, P x -> P (TExp t x)) ->
  forall T, P T.
Proof. intros Hp. intros. apply ty_ind'; try assumption; intros; apply Hp; reflexivity. Qed.

(* the round trip through built-ins *)

Definition RT (T: ty) : Prop :=
  forall strict v, wf_native T v = true ->
  exists p, to_native T v = Ok p /\ from_py strict T p = Ok (canon T v).

Lemma rt_plain T : plain T = true -> RT T.
Proof.
  intros HT s v H. destruct T; try discriminate HT; destruct v; try discriminate H;
    try (eexists; split; reflexivity).
  - (* BIT STRING *) eexists. split; [reflexivity|].
    cbn [from_py scalar_of_py]. rewrite parse_bits_text. reflexivity.
  - (* OBJECT IDENTIFIER *) eexists. split; [reflexivity|].
    cbn [from_py scalar_of_py]. rewrite parse_oid_text. reflexivity.
  - (* REAL: [real_exact] leaves the infinities and zero *)
    destruct r as [| |m e|m e|]; try discriminate H; try (eexists; split; reflexivity);
      (eexists; split; [cbn [to_native float_of_real]; cbn [wf_native real_exact] in H; rewrite H|]; reflexivity).
Qed.

(* the reader of the components from position [i] on never asks for a smaller key *)
Lemma from_fields_skip strict k q kvs : forall fs i, (k < i)%nat ->
  from_fields strict ((k, q) :: kvs) i fs = from_fields strict kvs i fs.
Proof.
  induction fs as [|[p ft] fs IH]; intros i Hk; [reflexivity|].
  cbn [from_fields lookup_py]. fold (from_fields strict ((k, q) :: kvs)) (from_fields strict kvs).
  destruct (Nat.eqb_spec k i); [lia|]. rewrite IH by lia. reflexivity.
Qed.

(* The keys come out in increasing order from [i] on, so the reader finds each component's
   entry, or its absence, at the head of what is left. *)
Lemma fields_rt : forall strict fs, Forall (fun f => RT (snd f)) fs ->
  forall i vs, wf_fields fs vs = true ->
  exists kvs, to_fields i fs vs = Ok kvs
    /\ (forall j, (j < i)%nat -> lookup_py j kvs = None)
    /\ from_fields strict kvs i fs = Ok (canon_fields fs vs).
Proof.
  intros strict fs HF. induction HF as [|[p ft] fs Hft _ IH]; intros i vs Hwf.
  { exists []. repeat split; reflexivity. }
  cbn [wf_fields] in Hwf. apply andb_prop in Hwf as [Hslot Hrest].
  destruct (IH (S i) (tl vs) Hrest) as [kvs [E3 [Hkeys Hfrom]]].
  cbn [to_fields canon_fields]. cbn [snd] in Hft.
  (* a component that has a value [x]: assigned, or the default of an unassigned DEFAULT one *)
  assert (Hemit: forall x, wf_native ft x = true ->
    exists kvs0,
      (do q <- to_native ft x; do rest <- to_fields (S i) fs (tl vs); Ok ((i, q) :: rest)) = Ok kvs0
      /\ (forall j, (j < i)%nat -> lookup_py j kvs0 = None)
      /\ from_fields strict kvs0 i ((p, ft) :: fs) = Ok (Some (canon ft x) :: canon_fields fs (tl vs))).
  { intros x Hx. destruct (Hft strict x Hx) as [q [E1 E2]].
    exists ((i, q) :: kvs). split; [rewrite E1; cbn [bind]; rewrite E3; reflexivity|]. split.
    - intros j Hj. cbn [lookup_py]. destruct (Nat.eqb_spec i j); [lia|]. apply Hkeys. lia.
    - cbn [from_fields lookup_py]. fold (from_fields strict ((i, q) :: kvs)).
      rewrite Nat.eqb_refl, E2. cbn [bind]. rewrite from_fields_skip, Hfrom by lia. reflexivity. }
  destruct (hd None vs) as [x|], p as [| |d]; try discriminate Hslot; try exact (Hemit _ Hslot).
  (* an OPTIONAL component without a value: no key *)
  exists kvs. split; [exact E3|]. split; [intros j Hj; apply Hkeys; lia|].
  cbn [from_fields]. fold (from_fields strict kvs).
  rewrite (Hkeys i (Nat.lt_succ_diag_r i)), Hfrom. reflexivity.
Qed.

Lemma rt_record fs : Forall (fun f => RT (snd f)) fs -> RT (TSeq fs).
Proof.
  intros HF s v H. destruct v as [| | | | | | | |vs| | |]; try discriminate H.
  destruct (fields_rt s fs HF O vs H) as [kvs [E1 [_ E2]]].
  exists (PDict kvs). split.
  - rewrite to_native_seq, E1. reflexivity.
  - rewrite from_py_seq, canon_seq, E2. reflexivity.
Qed.

Lemma rt_list t : RT t -> RT (TSeqOf t).
Proof.
  intros IH s v H. destruct v as [| | | | | | | | |xs| |]; try discriminate H.
  cbn [wf_native] in H. rewrite forallb_forall in H.
  destruct (map_res_round (to_native t) (from_py s t) (canon t) xs) as [ps [E1 E2]].
  { apply Forall_forall. intros x Hx. exact (IH s x (H x Hx)). }
  exists (PList ps). split.
  - rewrite to_native_seqof, E1. reflexivity.
  - rewrite from_py_seqof, E2. reflexivity.
Qed.

Lemma collect_none : forall strict key p alts j, (key < j)%nat ->
  from_collect strict [(key, p)] j alts = [].
Proof.
  intros strict key p. induction alts as [|a r IH]; intros j H; [reflexivity|].
  cbn [from_collect]. fold (from_collect strict [(key, p)]). cbn [lookup_py].
  destruct (Nat.eqb_spec key j); [lia|]. apply IH. lia.
Qed.

Lemma collect_one : forall strict p alts j k a, nth_error alts k = Some a ->
  from_collect strict [((j + k)%nat, p)] j alts = [((j + k)%nat, from_py strict a p)].
Proof.
  intros strict p. induction alts as [|b r IH]; intros j k a H; [destruct k; discriminate H|].
  cbn [from_collect]. fold (from_collect strict [((j + k)%nat, p)]). cbn [lookup_py].
  destruct k as [|k'].
  - injection H as ->. rewrite Nat.add_0_r, Nat.eqb_refl, collect_none by lia. reflexivity.
  - destruct (Nat.eqb_spec (j + S k') j); [lia|].
    replace (j + S k')%nat with (S j + k')%nat by lia. apply (IH (S j) k' a H).
Qed.

Lemma rt_choice alts : Forall RT alts -> RT (TChoice alts).
Proof.
  intros HF s v H. destruct v as [| | | | | | | | | |i x|]; try discriminate H.
  rewrite wf_choice in H. destruct (nth_error alts i) as [a|] eqn:Hn; [|discriminate H].
  rewrite Forall_forall in HF. destruct (HF a (nth_error_In _ _ Hn) s x H) as [p [E1 E2]].
  exists (PDict [(i, p)]). split.
  - rewrite to_native_choice, Hn, E1. reflexivity.
  - rewrite canon_choice, Hn. destruct s.
    + rewrite from_py_choice_strict. pose proof (collect_one true p alts O i a Hn) as Hc.
      cbn [Nat.add] in Hc. rewrite Hc, E2. reflexivity.
    + rewrite from_py_choice_lax, Hn, E2. reflexivity.
Qed.

(* SET, SET OF and EXPLICIT are handled by the same branches as SEQUENCE, SEQUENCE OF and
   IMPLICIT in every function [RT] speaks of *)
Theorem native_builtins_roundtrip : forall T, RT T.
Proof.
  exact (ty_shape_ind RT rt_plain rt_record rt_record rt_list rt_list rt_choice
           (fun _ _ IH => IH) (fun _ _ IH => IH)).
Qed.

(* the canonical form has the value's abstract content *)

Definition abs_fields : list (presence * ty) -> list (option val) -> list (option aval) :=
  fix go (fs: list (presence * ty)) (vs: list (option val)) : list (option aval) :=
    match fs, vs with
    | (p, ft) :: fs', ov :: vs' =>
        (match ov, p with
         | Some x, _ => Some (abs ft x)
         | None, Def d => Some (abs ft d)
         | None, _ => None
         end) :: go fs' vs'
    | (p, ft) :: fs', [] =>
        (match p with Def d => Some (abs ft d) | _ => None end) :: go fs' []
    | [], _ => []
    end.

Lemma abs_seq : forall fs vs, abs (TSeq fs) (VRec vs) = ARec (abs_fields fs vs).
Proof. reflexivity. Qed.

Lemma abs_fields_cons : forall p ft fs vs,
  abs_fields ((p, ft) :: fs) vs =
  (match hd None vs, p with
   | Some x, _ => Some (abs ft x)
   | None, Def d => Some (abs ft d)
   | None, _ => None
   end) :: abs_fields fs (tl vs).
Proof. intros. destruct vs; reflexivity. Qed.

Lemma abs_choice : forall alts i x,
  abs (TChoice alts) (VChoice i x)
  = match nth_error alts i with Some a => AChoice i (abs a x) | None => ABad end.
Proof. intros. exact (nth_loop (fun a => AChoice i (abs a x)) ABad alts i). Qed.

Definition AbsOk (T: ty) : Prop := forall v, wf_native T v = true -> abs T (canon T v) = abs T v.

Lemma absok_plain T : plain T = true -> AbsOk T.
Proof.
  intros HT v H. destruct T; try discriminate HT; destruct v; try discriminate H; try reflexivity.
  (* REAL: an exact zero in any base is zero *)
  destruct r as [| |m e|m e|]; try discriminate H; try reflexivity;
    apply Z.eqb_eq in H; subst m; reflexivity.
Qed.

Lemma abs_fields_canon : forall fs, Forall (fun f => AbsOk (snd f)) fs ->
  forall vs, wf_fields fs vs = true -> abs_fields fs (canon_fields fs vs) = abs_fields fs vs.
Proof.
  intros fs HF. induction HF as [|[p ft] fs Hft _ IH]; intros vs H; [reflexivity|].
  cbn [wf_fields] in H. apply andb_prop in H as [Hs Hr].
  cbn [canon_fields]. rewrite !abs_fields_cons. cbn [hd tl snd] in *. rewrite (IH _ Hr). f_equal.
  destruct (hd None vs) as [x|], p as [| |d]; try discriminate Hs; rewrite ?(Hft _ Hs); reflexivity.
Qed.

Lemma absok_record fs : Forall (fun f => AbsOk (snd f)) fs -> AbsOk (TSeq fs).
Proof.
  intros HF v H. destruct v as [| | | | | | | |vs| | |]; try discriminate H.
  rewrite canon_seq, !abs_seq, (abs_fields_canon fs HF vs H). reflexivity.
Qed.

Lemma abs_list_canon t xs : AbsOk t -> forallb (wf_native t) xs = true ->
  map (abs t) (map (canon t) xs) = map (abs t) xs.
Proof.
  intros IH H. rewrite forallb_forall in H. rewrite map_map. apply map_ext_in.
  intros x Hx. exact (IH x (H x Hx)).
Qed.

Lemma absok_choice alts : Forall AbsOk alts -> AbsOk (TChoice alts).
Proof.
  intros HF v H. destruct v as [| | | | | | | | | |i x|]; try discriminate H.
  rewrite wf_choice in H. rewrite canon_choice, !abs_choice.
  destruct (nth_error alts i) as [a|] eqn:Hn; [|reflexivity].
  rewrite Forall_forall in HF. rewrite (HF a (nth_error_In _ _ Hn) x H). reflexivity.
Qed.

Theorem canon_abs : forall T, AbsOk T.
Proof.
  apply ty_shape_ind.
  - exact absok_plain.
  - exact absok_record.
  - exact absok_record.
  - (* SEQUENCE OF *) intros t IH v H. destruct v as [| | | | | | | | |xs| |]; try discriminate H.
    exact (f_equal AList (abs_list_canon t xs IH H)).
  - (* SET OF *) intros t IH v H. destruct v as [| | | | | | | | |xs| |]; try discriminate H.
    exact (f_equal ABag (abs_list_canon t xs IH H)).
  - exact absok_choice.
  - intros t x IH. exact IH.
  - intros t x IH. exact IH.
Qed.

Theorem native_roundtrip : forall T v, wf_native T v = true ->
  exists p v', to_native T v = Ok p /\ of_native T p = Ok v' /\ abs T v' = abs T v.
Proof.
  intros T v H. destruct (native_builtins_roundtrip T false v H) as [p [E1 E2]].
  exists p, (canon T v). repeat split; [exact E1|exact E2|apply canon_abs, H].
Qed.

(* a REAL that is not exact is what the model declines, not an error of the codec *)
Lemma inexact_real_unmodelled : forall m e, Z.eqb m 0 = false ->
  to_native TReal (VReal (RBin m e)) = Err EUnmodelled.
Proof. intros m e H. simpl. rewrite H. reflexivity. Qed.
