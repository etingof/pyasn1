(* Live type maps (Model/OpenTypeMap.v): lookups after a history, independence of the moment an
   OpenType object was made, and the schema-module pattern (defined empty, filled later) evaluated. *)
From PV Require Import Model.Types Model.Proc Model.Enc Model.Dec Model.Obs Model.OpenType Model.OpenTypeDef Model.OpenTypeMap.
From PV Require Import Proofs.Basics Proofs.OpenType Proofs.OpenTypeDef.
Local Open Scope N_scope.

Lemma gov_eqb_eq : forall a b, gov_eqb a b = true -> a = b.
Proof.
  intros a b H. destruct a, b; simpl in H; try discriminate.
  - apply Z.eqb_eq in H. now subst.
  - apply (list_eqb_eq N.eqb (fun x y => proj1 (N.eqb_eq x y))) in H. now subst.
Qed.

Lemma find_remove_same : forall g m, omap_find g (omap_remove g m) = None.
Proof.
  intros g m. induction m as [|[k t] r IH]; simpl; [reflexivity|].
  destruct (gov_eqb g k) eqn:E; [exact IH|]. simpl. rewrite E. exact IH.
Qed.

Lemma find_remove_other : forall g g' m, gov_eqb g' g = false -> omap_find g' (omap_remove g m) = omap_find g' m.
Proof.
  intros g g' m H. induction m as [|[k t] r IH]; simpl; [reflexivity|].
  destruct (gov_eqb g k) eqn:E.
  - apply gov_eqb_eq in E. subst k. rewrite H. exact IH.
  - simpl. rewrite IH. reflexivity.
Qed.

(* typeMap[g] = t registers or replaces the entry of g and nothing else ([gov_eqb g g = true]: g is a key a dict can
   hold here, an INTEGER or OBJECT IDENTIFIER value) *)
Theorem find_after_set : forall m g t, gov_eqb g g = true -> omap_find g (map_step m (MSet g t)) = Some t.
Proof. intros m g t H. simpl. rewrite H. reflexivity. Qed.

Theorem find_after_set_other : forall m g t g', gov_eqb g' g = false ->
  omap_find g' (map_step m (MSet g t)) = omap_find g' m.
Proof. intros m g t g' H. simpl. rewrite H. apply find_remove_other. exact H. Qed.

(* del typeMap[g] unregisters g and nothing else *)
Theorem find_after_del : forall m g, omap_find g (map_step m (MDel g)) = None.
Proof. intros. simpl. apply find_remove_same. Qed.

Theorem find_after_del_other : forall m g g', gov_eqb g' g = false ->
  omap_find g' (map_step m (MDel g)) = omap_find g' m.
Proof. intros. simpl. apply find_remove_other. assumption. Qed.

Lemma map_now_app : forall m a b, map_now m (a ++ b) = map_now (map_now m a) b.
Proof. intros. unfold map_now. apply fold_left_app. Qed.

(* two OpenType objects over one dict, whenever they were made, show the same content *)
Theorem views_agree : forall m0 h1 h2 h1' h2', h1 ++ h2 = h1' ++ h2' -> view_of m0 h1 h2 = view_of m0 h1' h2'.
Proof. intros. unfold view_of. rewrite <- !map_now_app. now rewrite H. Qed.

(* the last word on g decides, whatever the dict held when the type was defined - nothing, in particular *)
Theorem registered_later_resolves : forall m0 ops g t, gov_eqb g g = true ->
  resolve_type [] (map_now m0 (ops ++ [MSet g t])) g = Some t.
Proof.
  intros. rewrite map_now_app. unfold resolve_type. simpl omap_find at 1.
  change (map_now (map_now m0 ops) [MSet g t]) with (map_step (map_now m0 ops) (MSet g t)).
  now rewrite find_after_set.
Qed.

Theorem removed_later_unmapped : forall m0 ops g,
  resolve_type [] (map_now m0 (ops ++ [MDel g])) g = None.
Proof.
  intros. rewrite map_now_app. unfold resolve_type. simpl omap_find at 1.
  change (map_now (map_now m0 ops) [MDel g]) with (map_step (map_now m0 ops) (MDel g)).
  now rewrite find_after_del.
Qed.

(* ---- witnesses: SEQUENCE { id INTEGER, blob ANY DEFINED BY id } with a map that is empty when the
        type is defined ---- *)
Definition TL1 := TSeq [(Req, TInt); (Req, TAny)].
Definition TL2 := TSet [(Req, TInt); (Req, TSetOf (TImp (mkTag Ctx false 3) TAny))].

Lemma ex_defined_empty_then_filled :
  dec_open_live BER TL1 0 1 [] [MSet (VInt 3) Pt] [] true [48;11;2;1;3;48;6;2;1;3;2;1;252]
    = Ok (DV (TSeq [(Req, TInt); (Req, Pt)]) (VRec [Some (VInt 3); Some pt]), [])
  /\ dec_open_live BER TL1 0 1 [] [] [] true [48;11;2;1;3;48;6;2;1;3;2;1;252]
    = Ok (DV TL1 (VRec [Some (VInt 3); Some (VAny [48;6;2;1;3;2;1;252])]), [])
  /\ dec_open_live DER TL2 0 1 [] [MSet (VInt 5) TNull; MSet (VInt 3) Pt] [] true [49;15;2;1;3;49;10;163;8;48;6;2;1;3;2;1;252]
    = Ok (DV (TSet [(Req, TInt); (Req, TSetOf Pt)]) (VRec [Some (VInt 3); Some (VList [pt])]), []).
Proof. repeat split; vm_compute; reflexivity. Qed.

Lemma ex_replaced_and_removed :
  dec_open_live BER TL1 0 1 [(VInt 3, TOcts)] [MSet (VInt 3) Pt] [] true [48;11;2;1;3;48;6;2;1;3;2;1;252]
    = Ok (DV (TSeq [(Req, TInt); (Req, Pt)]) (VRec [Some (VInt 3); Some pt]), [])
  /\ dec_open_live BER TL1 0 1 [(VInt 3, Pt)] [MDel (VInt 3)] [] true [48;11;2;1;3;48;6;2;1;3;2;1;252]
    = Ok (DV TL1 (VRec [Some (VInt 3); Some (VAny [48;6;2;1;3;2;1;252])]), []).
Proof. split; vm_compute; reflexivity. Qed.
