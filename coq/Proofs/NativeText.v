(* The text forms the native codec goes through (BIT STRING as '0'/'1' text, OBJECT IDENTIFIER as
   dotted decimal text) read back exactly. *)
From Coq Require Import Lia.
From PV Require Import Model.Native.
Local Open Scope N_scope.

Lemma parse_bits_text : forall bs, parse_bits (bits_text bs) = Ok bs.
Proof.
  induction bs as [|b bs IH]; [reflexivity|].
  change (bits_text (b :: bs)) with (bit_char b :: bits_text bs).
  cbn [parse_bits]. rewrite IH. destruct b; reflexivity.
Qed.

(* decimal numerals *)

Lemma dec_digits_S : forall f n acc,
  dec_digits (S f) n acc = if N.ltb n 10 then (48 + n mod 10) :: acc
                           else dec_digits f (n / 10) ((48 + n mod 10) :: acc).
Proof. reflexivity. Qed.

Lemma dec_digits_app : forall f n acc, dec_digits f n acc = dec_digits f n [] ++ acc.
Proof.
  induction f as [|f IH]; intros n acc; [reflexivity|].
  rewrite !dec_digits_S. destruct (N.ltb n 10); [reflexivity|].
  rewrite (IH (n / 10) ((48 + n mod 10) :: acc)), (IH (n / 10) [48 + n mod 10]).
  rewrite <- app_assoc. reflexivity.
Qed.

Lemma parse_dec_snoc : forall l d, parse_dec (l ++ [d]) = 10 * parse_dec l + (d - 48).
Proof. intros. unfold parse_dec. rewrite fold_left_app. reflexivity. Qed.

Lemma is_digit_mod10 : forall n, is_digit (48 + n mod 10) = true.
Proof.
  intro n. unfold is_digit. assert (H: n mod 10 < 10) by (apply N.mod_lt; discriminate).
  generalize dependent (n mod 10). intros m H.
  apply andb_true_intro; split; apply N.leb_le; lia.
Qed.

Lemma dec_digits_sound : forall f n, n < 2 ^ N.of_nat f ->
  parse_dec (dec_digits (S f) n []) = n
  /\ forallb is_digit (dec_digits (S f) n []) = true
  /\ dec_digits (S f) n [] <> [].
Proof.
  induction f as [|f IH]; intros n Hn.
  - simpl in Hn. assert (n = 0) by lia. subst. simpl. repeat split; discriminate.
  - rewrite (dec_digits_S (S f)).
    destruct (N.ltb n 10) eqn:E.
    + apply N.ltb_lt in E. repeat split.
      * unfold parse_dec. cbn [fold_left]. rewrite N.mod_small by exact E. lia.
      * cbn [forallb]. rewrite is_digit_mod10. reflexivity.
      * discriminate.
    + apply N.ltb_ge in E.
      assert (Hd: n / 10 < 2 ^ N.of_nat f).
      { rewrite Nat2N.inj_succ, N.pow_succ_r' in Hn.
        apply N.div_lt_upper_bound; [discriminate|]. lia. }
      destruct (IH (n / 10) Hd) as [Hp [Hdig Hne]].
      rewrite (dec_digits_app (S f) (n / 10) [48 + n mod 10]).
      repeat split.
      * rewrite parse_dec_snoc, Hp.
        assert (Hdm: n = 10 * (n / 10) + n mod 10) by (apply N.div_mod; discriminate).
        revert Hdm. generalize (n / 10) (n mod 10). intros q r Hdm. lia.
      * rewrite forallb_app, Hdig. cbn [forallb]. rewrite is_digit_mod10. reflexivity.
      * intro Hnil. apply app_eq_nil in Hnil. destruct Hnil as [_ Hnil]. discriminate.
Qed.

Lemma pos_lt_size : forall p, N.pos p < 2 ^ N.of_nat (Pos.size_nat p).
Proof.
  induction p as [p IH|p IH|]; simpl Pos.size_nat.
  - rewrite Nat2N.inj_succ, N.pow_succ_r'. lia.
  - rewrite Nat2N.inj_succ, N.pow_succ_r'. lia.
  - reflexivity.
Qed.

Lemma N_lt_size : forall n, n < 2 ^ N.of_nat (N.size_nat n).
Proof. destruct n as [|p]; [reflexivity|apply pos_lt_size]. Qed.

Lemma dec_N_sound : forall n,
  parse_dec (dec_N n) = n /\ forallb is_digit (dec_N n) = true /\ dec_N n <> [].
Proof. intro n. unfold dec_N. apply dec_digits_sound, N_lt_size. Qed.

(* dotted text *)

Definition nodot (p: list N) : Prop := forallb is_digit p = true.

Lemma digit_not_dot : forall c, is_digit c = true -> N.eqb c 46 = false.
Proof.
  intros c H. unfold is_digit in H. apply andb_prop in H. destruct H as [H _].
  apply N.leb_le in H. apply N.eqb_neq. lia.
Qed.

Lemma split_dot_digits : forall p rest, nodot p ->
  split_dot (p ++ rest) = (p ++ fst (split_dot rest), snd (split_dot rest)).
Proof.
  induction p as [|c p IH]; intros rest H.
  - simpl. destruct (split_dot rest); reflexivity.
  - unfold nodot in H. simpl in H. apply andb_prop in H. destruct H as [Hc Hp].
    simpl. rewrite (IH rest Hp). rewrite (digit_not_dot c Hc). reflexivity.
Qed.

Lemma split_dot_dot : forall s,
  split_dot (46 :: s) = ([], fst (split_dot s) :: snd (split_dot s)).
Proof. intro s. simpl. destruct (split_dot s). reflexivity. Qed.

Lemma split_join : forall p ps, Forall nodot (p :: ps) ->
  split_dot (join_dot (p :: ps)) = (p, ps).
Proof.
  intros p ps. revert p. induction ps as [|q r IH]; intros p H.
  - simpl. inversion H; subst. rewrite <- (app_nil_r p) at 1.
    rewrite split_dot_digits by assumption. simpl. rewrite app_nil_r. reflexivity.
  - inversion H; subst.
    change (join_dot (p :: q :: r)) with (p ++ 46 :: join_dot (q :: r)).
    rewrite split_dot_digits by assumption.
    rewrite split_dot_dot, (IH q) by assumption. simpl. rewrite app_nil_r. reflexivity.
Qed.

Lemma join_dot_chars : forall parts, Forall nodot parts ->
  forallb (fun c => is_digit c || N.eqb c 46) (join_dot parts) = true.
Proof.
  induction parts as [|p r IH]; intros H; [reflexivity|].
  inversion H; subst.
  assert (Hp: forallb (fun c => is_digit c || N.eqb c 46) p = true).
  { unfold nodot in H2. rewrite forallb_forall in *. intros c Hc. rewrite (H2 c Hc). reflexivity. }
  destruct r as [|q r]; [exact Hp|].
  change (join_dot (p :: q :: r)) with (p ++ 46 :: join_dot (q :: r)).
  rewrite forallb_app, Hp. cbn [forallb andb].
  change (is_digit 46 || N.eqb 46 46) with true. cbn [andb]. apply IH. assumption.
Qed.

Lemma parse_oid_text : forall arcs, parse_oid (oid_text arcs) = Ok arcs.
Proof.
  intro arcs. unfold parse_oid, oid_text.
  assert (Hall: Forall nodot (map dec_N arcs)).
  { apply Forall_forall. intros x Hx. apply in_map_iff in Hx. destruct Hx as [n [<- _]].
    apply (dec_N_sound n). }
  rewrite (join_dot_chars _ Hall).
  destruct arcs as [|a r]; [reflexivity|].
  assert (Hs: split_dot (join_dot (map dec_N (a :: r))) = (dec_N a, map dec_N r))
    by (apply split_join; exact Hall).
  rewrite Hs.
  assert (Hf: forall l, filter (fun f : list N => match f with [] => false | _ :: _ => true end) (map dec_N l)
                        = map dec_N l).
  { induction l as [|x l IHl]; [reflexivity|]. simpl.
    destruct (dec_N x) eqn:E; [exfalso; apply (proj2 (proj2 (dec_N_sound x))); exact E|].
    rewrite IHl. reflexivity. }
  change (dec_N a :: map dec_N r) with (map dec_N (a :: r)).
  rewrite Hf, map_map. f_equal.
  rewrite <- (map_id (a :: r)) at 2. apply map_ext. intro x. apply (dec_N_sound x).
Qed.
