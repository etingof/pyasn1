(* C10, lengths: an accepted input really starts with identifier and length octets, and under a
   definite length the decoder consumed exactly the announced number of contents octets; what is
   handed back as unread is what follows them.  For EVERY input and every guiding type. *)
From Coq Require Import Lia.
From PV Require Import Base.Bytes Model.Tag Model.TableTypes Model.Types Model.Proc Model.Enc Model.Dec Gen.Tables
     Proofs.ProcBind Proofs.ProcSim Proofs.RunLemmas Proofs.TagOctets Proofs.DecSound Proofs.AcceptedWellFormed.
Local Open Scope N_scope.

(* a sequenced run that ended with a value: its first part did (resume_pbind_inv) *)
Ltac binv H := let a := fresh "a" in let s1 := fresh "s" in let Ha := fresh "Ha" in
  apply resume_pbind_inv in H; destruct H as (a & s1 & Ha & H).

Ltac dead H := solve [cbn [resume] in H; discriminate H].

Lemma readN_inv n s b s1 : resume (readN n) s = inr (Ok b, s1) ->
  avail s = b ++ avail s1 /\ length b = n /\ s1 = adv s n.
Proof.
  unfold readN. cbn [resume]. unfold attempt. destruct (Nat.eqb_spec n 0) as [->|Hn].
  - cbn [resume]. intros H. inversion H; subst. rewrite adv_0. auto.
  - destruct (Nat.ltb_spec (length (avail s)) n) as [Hl|Hl]; [destruct (closed s); discriminate|].
    cbn [resume]. intros H. inversion H; subst. fold (adv s n). rewrite avail_adv.
    split; [symmetry; apply firstn_skipn|]. split; [apply firstn_length_le; exact Hl|reflexivity].
Qed.

Lemma read1_inv s o s1 : resume read1 s = inr (Ok o, s1) -> avail s = o :: avail s1 /\ s1 = adv s 1.
Proof.
  unfold read1. intros H. binv H. apply readN_inv in Ha. destruct Ha as (Hav & Hlen & ->).
  cbn [resume] in H. inversion H; subst. destruct a as [|x [|y r]]; try discriminate Hlen.
  cbn [hd]. split; [exact Hav|reflexivity].
Qed.

Lemma long_tag_inv cl fm : forall k acc s t s', resume (long_tag cl fm k acc) s = inr (Ok t, s') ->
  exists n m, dec_b128 acc (avail s) = Some (n, avail s') /\ t = mkTag cl fm n /\ s' = adv s m.
Proof.
  induction k as [|k IH]; intros acc s t s' H; cbn [long_tag] in H; [dead H|].
  binv H. apply read1_inv in Ha. destruct Ha as [Hav ->]. cbv zeta in H.
  rewrite Hav. cbn [dec_b128]. destruct (N.eqb (N.land a 128) 0).
  - cbn [resume] in H. inversion H; subst. eexists; exists 1%nat; auto.
  - destruct (IH _ _ _ _ H) as (n & m & Hd & Ht & Hs). exists n, (1 + m)%nat. rewrite Hd. rewrite Hs, adv_adv. auto.
Qed.

Lemma read_tag_inv lf s t s' : resume (read_tag lf) s = inr (Ok t, s') ->
  exists m, dec_ident (avail s) = Some (t, avail s') /\ s' = adv s m.
Proof.
  unfold read_tag. intros H. binv H. apply read1_inv in Ha. destruct Ha as [Hav ->]. cbv zeta in H.
  rewrite Hav. cbn [dec_ident]. cbv zeta. destruct (N.eqb (N.land a 31) 31).
  - apply long_tag_inv in H. destruct H as (n & m & Hd & -> & Hs). rewrite Hd. exists (1 + m)%nat. rewrite Hs, adv_adv. auto.
  - cbn [resume] in H. inversion H; subst. exists 1%nat. auto.
Qed.

Lemma read_length_inv c s ol s' : resume (read_length c) s = inr (Ok ol, s') ->
  (ol = None -> support_indef c = true) /\ exists m, dec_len (avail s) = Some (ol, avail s') /\ s' = adv s m.
Proof.
  unfold read_length. intros H. binv H. apply read1_inv in Ha. destruct Ha as [Hav ->].
  rewrite Hav, dec_len_cons. destruct (N.ltb a 128).
  - cbn [resume] in H. inversion H; subst. split; [discriminate|]. exists 1%nat. auto.
  - destruct (N.eqb a 128).
    + destruct (support_indef c); [|dead H]. cbn [resume] in H. inversion H; subst. split; [reflexivity|]. exists 1%nat. auto.
    + binv H. apply readN_inv in Ha. destruct Ha as (Hav2 & Hlen & ->). cbn [resume] in H. inversion H; subst.
      split; [discriminate|]. cbv zeta. rewrite Hav2, app_length.
      destruct (Nat.ltb_spec (length a0 + length (avail (adv (adv s 1) (N.to_nat (N.land a 127))))) (N.to_nat (N.land a 127))) as [Hc|_]; [lia|].
      rewrite <- Hlen, firstn_app_exact, skipn_app_exact. exists (1 + length a0)%nat. rewrite adv_adv. auto.
Qed.

(* every successful path of the dispatcher under a definite length goes through the length check *)
Lemma dispatch_length c rec lf sp ts l sfun : forall s d s',
  resume (dispatch c rec lf sp ts (Some l) sfun) s = inr (Ok d, s') -> N.of_nat (pos s' - pos s) = l.
Proof.
  assert (Hrun: forall k s d s', resume (run_value (Some l) k) s = inr (Ok d, s') -> N.of_nat (pos s' - pos s) = l).
  { intros k s d s' H. apply run_value_exact in H. destruct H as (s2 & _ & Hl & ->). exact Hl. }
  apply (dispatch_cases (fun p => forall s d s', resume p s = inr (Ok d, s') -> N.of_nat (pos s' - pos s) = l)).
  - intros s d s' H. dead H.
  - apply Hrun.
  - intros cd fl osp _. apply Hrun.
Qed.

(* an accepted input starts with identifier octets and length octets; under a definite non-zero
   length what follows splits into exactly that many contents octets and the unread tail.  Non-zero:
   the decoder checks a truncated difference of positions, which for 0 does not exclude that the
   position moved back (an untagged ANY seeks back to re-read its header) *)
Theorem accepted_length_respected : forall c fuel sp b d tl,
  decode_with c fuel sp b = Ok (d, tl) ->
  exists t r ol r2, dec_ident b = Some (t, r) /\ dec_len r = Some (ol, r2)
    /\ (ol = None -> support_indef c = true)
    /\ forall l, ol = Some l -> l <> 0 -> exists content, r2 = content ++ tl /\ N.of_nat (length content) = l.
Proof.
  intros c fuel sp b d tl H. unfold decode_with, run_complete in H.
  destruct (resume (dec_item c fuel sp) (mkStream b 0 true 0)) as [[p s]|[[d0|e] s3]] eqn:E; try discriminate.
  inversion H; subst d0 tl. clear H.
  destruct (resume_frame (dec_item c fuel sp) (mkStream b 0 true 0)) as (Ha3 & _ & Hb3). rewrite E in Ha3, Hb3.
  specialize (Hb3 (Nat.le_0_l _)). cbn [end_stream] in Ha3, Hb3. rewrite <- Ha3 in Hb3.
  unfold dec_item in E. destruct fuel as [|f]; [dead E|].
  cbn [dec_call] in E. unfold dec_body in E. cbn [andb resume] in E.
  apply resume_pbind_inv in E. destruct E as (t & s1 & Ht & E). apply read_tag_inv in Ht. destruct Ht as (m1 & Hid & _).
  apply resume_pbind_inv in E. destruct E as (ol & s2 & Hol & E). apply read_length_inv in Hol. destruct Hol as (Hind & m2 & Hlen & _).
  exists t, (avail s1), ol, (avail s2). split; [exact Hid|]. split; [exact Hlen|]. split; [exact Hind|].
  intros l -> Hl0.
  pose proof (dispatch_length _ _ _ _ _ _ _ _ _ _ E) as Hl.
  match type of E with resume ?p _ = _ => destruct (resume_frame p s2) as [Harr _] end. rewrite E in Harr. cbn [end_stream] in Harr.
  assert (Hpos: pos s3 = (pos s2 + N.to_nat l)%nat) by lia.
  exists (firstn (N.to_nat l) (avail s2)). split.
  - unfold avail at 3. rewrite Hpos, Harr, skipn_add. symmetry. apply firstn_skipn.
  - rewrite firstn_length_le; [lia|]. unfold avail. rewrite skipn_length. rewrite Harr in Hb3. lia.
Qed.

Print Assumptions accepted_length_respected.

Example accepted_length_witness :
  decode BER (Some (TSeqOf TInt)) [48;129;6; 2;1;5; 2;1;7; 99] = Ok (DV (TSeqOf TInt) (VList [VInt 5; VInt 7]), [99])
  /\ dec_ident [48;129;6; 2;1;5; 2;1;7; 99] = Some (mkTag Univ true 16, [129;6; 2;1;5; 2;1;7; 99])
  /\ dec_len [129;6; 2;1;5; 2;1;7; 99] = Some (Some 6, [2;1;5; 2;1;7; 99]).
Proof. repeat split; vm_compute; reflexivity. Qed.
