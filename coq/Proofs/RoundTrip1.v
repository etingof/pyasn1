(* Stage 1 of the BER round trip (C01): every simple type under any stack of IMPLICIT/EXPLICIT
   tags of any class and number, definite-length mode, unsegmented. *)
From Coq Require Import Lia.
From PV Require Import Base.Bytes Model.Tag Model.TableTypes Model.Types Model.Proc Model.Enc Model.Dec Gen.Tables
     Proofs.ProcBind Proofs.RunLemmas Proofs.TagOctets Proofs.LeafInt Proofs.LeafOidBits Proofs.LeafReal
     Proofs.DecHeader Proofs.DecFrame Proofs.DecPrim Proofs.TagsetShape Proofs.Schemaless Proofs.Spine.
(* the later round-trip files take the encoder's unfolding equations from here *)
From PV Require Export Proofs.EncUnfold.
Local Open Scope N_scope.

Definition def_opts : eopts := mkOpts true 0 false.

(* encoder codecs whose fixed options leave definite-length, unsegmented mode alone; BER and DER
   are such ([enc_ok] below names the two) *)
Definition def_codec (ce: codec) : Prop := fix_opts ce def_opts = def_opts.
Lemma def_codec_ber : def_codec BER. Proof. reflexivity. Qed.

(* what the generic framing argument needs to know about one base type *)
Record leaf_ok (ce cd: codec) (T: ty) (v: val) (content: bytes) (vdec: val) : Prop := {
  lo_enc : exists ec fl, concrete_encoder ce T = Ok (ec, fl)
                         /\ enc_content ce T ec fl def_opts v = Ok (content, false);
  lo_dec : exists dcd dfl, by_type cd T = Some (dcd, dfl)
             /\ forall f ts, tag0_simple ts = true -> fits f content ->
                consumes (dec_value (dec_call cd f) f dcd dfl (Some T) ts (Some (N.of_nat (length content))) false)
                         content (DV T vdec)
}.

Lemma tagset_of'_ok T ts : tagset_of T = Ok ts -> tagset_of' T = ts.
Proof. intros H. unfold tagset_of'. rewrite H. reflexivity. Qed.

(* the encoding of a leaf in definite-length mode: one header around the contents, then the
   outer tags *)
Lemma encode_leaf_frames ce T v ec fl t0 r content b :
  def_codec ce -> concrete_encoder ce T = Ok (ec, fl) -> tagset_of T = Ok (t0 :: r) ->
  enc_content ce T ec fl def_opts v = Ok (content, false) -> encode ce true 0 T v = Ok b ->
  exists s0, frame_one t0 false true (ef_indef fl) content = Ok s0
             /\ frame_outer r false true (ef_indef fl) s0 = Ok b.
Proof.
  intros Hdef Hce Hts Hcont He. unfold def_codec in Hdef.
  unfold encode, enc, enc_with in He. change (mkOpts true 0 false) with def_opts in He.
  rewrite Hdef, Hce in He. cbn [bind] in He. rewrite Hts in He. cbn [bind] in He.
  change (mkOpts (o_def def_opts) (o_chunk def_opts) false) with def_opts in He.
  rewrite Hcont in He. cbn [bind frame] in He. rewrite Bool.andb_false_r in He. cbn [andb o_def def_opts] in He.
  destruct (frame_one t0 false true (ef_indef fl) content) as [s0|e]; cbn [bind] in He; [|discriminate].
  exists s0. split; [reflexivity|exact He].
Qed.

Theorem stage1_generic : forall ce cd T v content vdec b f0,
  def_codec ce ->
  prim_base T = true -> wf_tags T = true -> leaf_ok ce cd T v content vdec ->
  encode ce true 0 T v = Ok b ->
  fits f0 content -> (length b <= S f0)%nat ->
  consumes (dec_item cd (S f0 + (length (tagset_of' T) - 1)) (Some T)) b (DV T vdec).
Proof.
  intros ce cd T v content vdec b f0 Hdef Hp Hw [Henc Hdec] He Hfit Hb.
  destruct (tagset_prim_shape T Hp Hw) as (t0 & r & Hts & Hc0 & Hex & Hd).
  destruct Henc as (ec & fl & Hce & Hcont). destruct Hdec as (dcd & dfl & Hby & Hval).
  destruct (encode_leaf_frames _ _ _ _ _ _ _ _ _ Hdef Hce Hts Hcont He) as (s0 & E0 & Hfr).
  rewrite (tagset_of'_ok T _ Hts). replace (length (t0 :: r) - 1)%nat with (length r) by (cbn [length]; lia).
  unfold dec_item.
  assert (Hpm: plain_map T).
  { apply plain_map_tagged. destruct T; try exact I; discriminate Hp. }
  pose proof (frame_outer_length _ _ _ _ _ Hfr) as Hlen0.
  (* every identifier of the encoding is shorter than the encoding itself *)
  pose proof (frame_outer_taglens _ _ _ _ _ (S (S f0)) Hfr ltac:(lia)) as Htaglens.
  apply (peel_all cd T (S f0) (ef_indef fl) r [] s0 b (DV T vdec) Hfr Hex Htaglens Hpm).
  - rewrite (tagset_of'_ok T _ Hts). cbn [length]. lia.
  - rewrite app_nil_r.
    apply (match_level cd f0 T r t0 false (ef_indef fl) content s0 (DV T vdec) dcd dfl E0).
    + rewrite wire_false, (tagset_of'_ok T _ Hts). apply tagset_eqb_refl.
    + rewrite Hpm. reflexivity.
    + exact Hby.
    + destruct (frame_one_length _ _ _ _ _ E0) as (l & -> & _). rewrite !app_length in Hlen0. lia.
    + apply Hval; [|exact Hfit]. rewrite wire_false. unfold tag0_simple. rewrite Hc0. reflexivity.
Qed.


Lemma key_of_base T : key_of T = key_of (base_of T).
Proof.
  unfold key_of.
  assert (H: base_of (base_of T) = base_of T).
  { induction T as [| | | | | | | | n|fs IH|fs IH|t IH|t IH|alts IH| |tg x IH|tg x IH] using ty_ind'; try reflexivity; exact IH. }
  rewrite H. reflexivity.
Qed.

Lemma by_type_base c T : by_type c T = by_type c (base_of T).
Proof. unfold by_type, tag_fallback_key. rewrite (key_of_base T), (key_of_base (base_of T)). reflexivity. Qed.

(* encoder codecs BER and DER (definite, unsegmented), decoder codecs BER, CER and DER *)
Definition enc_ok (ce: codec) : Prop := ce = BER \/ ce = DER.


Lemma leaf_int ce cd T z : enc_ok ce -> (base_of T = TInt \/ base_of T = TEnum) ->
  leaf_ok ce cd T (VInt z) (enc_integer false z) (VInt z).
Proof.
  intros Hce Hb. split.
  - rewrite concrete_encoder_base. destruct Hb as [Hb|Hb]; rewrite Hb; eexists; eexists;
      (split; [destruct Hce as [-> | ->]; vm_compute; reflexivity|]); rewrite enc_content_base, Hb; reflexivity.
  - rewrite by_type_base. destruct Hb as [Hb|Hb]; rewrite Hb; eexists; eexists; (split; [destruct cd; vm_compute; reflexivity|]);
      intros f ts Hts Hfit; cbn [dec_value df_proto];
      replace (DV T (VInt z)) with (DV T (VInt (from_bytes_signed (enc_integer false z))))
        by (rewrite (enc_integer_roundtrip_all false z); reflexivity);
      apply consumes_integer; try assumption; rewrite Hb; exact I.
Qed.

Definition bool_octet (ce: codec) (b: bool) : N := if b then (match ce with BER => 1 | _ => 255 end) else 0.

(* the strict BOOLEAN decoder of CER/DER takes 00 and FF only; the BER encoder writes 01 for TRUE *)
Definition bool_compat (ce cd: codec) (b: bool) : bool :=
  match ce, cd with BER, (CER | DER) => negb b | _, _ => true end.

Lemma consumes_bool_cer f T ts (b: bool) :
  base_of T = TBool ->
  consumes (dec_bool_cer f (Some T) ts 1) [if b then 255 else 0] (DV T (VBool b)).
Proof. intros Hb. apply consumes_bool_cer_g. unfold create. rewrite Hb. destruct b; reflexivity. Qed.

Lemma leaf_bool ce cd T b : enc_ok ce -> base_of T = TBool -> bool_compat ce cd b = true ->
  leaf_ok ce cd T (VBool b) [bool_octet ce b] (VBool b).
Proof.
  intros Hce Hb Hcompat. split.
  - rewrite concrete_encoder_base, Hb. destruct Hce as [-> | ->]; eexists; eexists;
      (split; [vm_compute; reflexivity|]); rewrite enc_content_base, Hb; destruct b; reflexivity.
  - rewrite by_type_base, Hb.
    destruct cd; (eexists; eexists; split; [vm_compute; reflexivity|]); intros f ts Hts Hfit.
    + cbn [dec_value df_proto].
      replace (DV T (VBool b)) with (DV T (VBool (negb (Z.eqb (from_bytes_signed [bool_octet ce b]) 0))))
        by (destruct Hce as [-> | ->]; destruct b; reflexivity).
      apply consumes_boolean; assumption.
    + (* CER and DER read with the strict decoder *)
      cbn [dec_value length].
      destruct Hce as [-> | ->]; [destruct b; [discriminate Hcompat|apply (consumes_bool_cer f T ts false Hb)]|];
        apply (consumes_bool_cer f T ts b Hb).
    + cbn [dec_value length].
      destruct Hce as [-> | ->]; [destruct b; [discriminate Hcompat|apply (consumes_bool_cer f T ts false Hb)]|];
        apply (consumes_bool_cer f T ts b Hb).
Qed.

Lemma leaf_null ce cd T : enc_ok ce -> base_of T = TNull -> leaf_ok ce cd T VNull [] VNull.
Proof.
  intros Hce Hb. split.
  - rewrite concrete_encoder_base, Hb. eexists; eexists. split; [destruct Hce as [-> | ->]; vm_compute; reflexivity|].
    rewrite enc_content_base, Hb. reflexivity.
  - rewrite by_type_base, Hb. eexists; eexists. split; [destruct cd; vm_compute; reflexivity|].
    intros f ts Hts Hfit. cbn [dec_value length]. apply consumes_null; [assumption|]. rewrite Hb. exact I.
Qed.

Lemma leaf_octets ce cd T bs : enc_ok ce -> base_of T = TOcts -> leaf_ok ce cd T (VOcts bs) bs (VOcts bs).
Proof.
  intros Hce Hb. split.
  - rewrite concrete_encoder_base, Hb. eexists; eexists. split; [destruct Hce as [-> | ->]; vm_compute; reflexivity|].
    rewrite enc_content_base, Hb. reflexivity.
  - rewrite by_type_base, Hb. destruct cd; (eexists; eexists; split; [vm_compute; reflexivity|]);
    intros f ts Hts Hfit; cbn [dec_value]; rewrite Hb; apply consumes_octets; assumption.
Qed.

Lemma leaf_oid ce cd T arcs content : enc_ok ce -> base_of T = TOid -> enc_oid arcs = Ok content ->
  leaf_ok ce cd T (VOid arcs) content (VOid arcs).
Proof.
  intros Hce Hb He. split.
  - rewrite concrete_encoder_base, Hb. eexists; eexists. split; [destruct Hce as [-> | ->]; vm_compute; reflexivity|].
    rewrite enc_content_base, Hb. cbn [enc_content]. rewrite He. reflexivity.
  - rewrite by_type_base, Hb. eexists; eexists. split; [destruct cd; vm_compute; reflexivity|].
    intros f ts Hts Hfit. cbn [dec_value]. apply consumes_oid; try assumption. exact (oid_roundtrip arcs content He).
Qed.

Lemma leaf_real ce cd T r content r' : enc_ok ce -> base_of T = TReal -> enc_real r = Ok content -> dec_real content = Ok r' ->
  leaf_ok ce cd T (VReal r) content (VReal r').
Proof.
  intros Hce Hb He Hd. split.
  - rewrite concrete_encoder_base, Hb. destruct Hce as [-> | ->]; (eexists; eexists; split; [vm_compute; reflexivity|]);
    rewrite enc_content_base, Hb; cbn [enc_content]; rewrite He; reflexivity.
  - rewrite by_type_base, Hb. eexists; eexists. split; [destruct cd; vm_compute; reflexivity|].
    intros f ts Hts Hfit. cbn [dec_value]. apply consumes_real; assumption.
Qed.

Lemma leaf_bits ce cd T bs : enc_ok ce -> base_of T = TBits ->
  leaf_ok ce cd T (VBits bs) (enc_bits_prim bs) (VBits bs).
Proof.
  intros Hce Hb. split.
  - rewrite concrete_encoder_base, Hb. destruct Hce as [-> | ->]; (eexists; eexists; split; [vm_compute; reflexivity|]);
    rewrite enc_content_base, Hb; reflexivity.
  - rewrite by_type_base, Hb. destruct cd; (eexists; eexists; split; [vm_compute; reflexivity|]);
    intros f ts Hts Hfit; cbn [dec_value]; unfold enc_bits_prim in *;
    (apply consumes_bits; try assumption; [pose proof (pad_of_lt (length bs)); lia|apply bits_roundtrip]).
Qed.

Lemma leaf_string ce cd T n bs efl dfl : base_of T = TStr n -> str_octets_ok n bs = Some true ->
  lookup3 (KStr n) (enc_type_map ce) = Some (EcOcts, efl) ->
  lookup3 (KStr n) (dec_type_map cd) = Some (DcStr, dfl) ->
  leaf_ok ce cd T (VOcts bs) bs (VOcts bs).
Proof.
  intros Hb Hok Hle Hld. split.
  - rewrite concrete_encoder_base, Hb. eexists; eexists. split.
    + unfold concrete_encoder. cbn [key_of base_of]. rewrite Hle. reflexivity.
    + rewrite enc_content_base, Hb. reflexivity.
  - rewrite by_type_base, Hb. eexists; eexists. split.
    + unfold by_type. cbn [key_of base_of]. rewrite Hld. reflexivity.
    + intros f ts Hts Hfit. cbn [dec_value]. rewrite Hb. apply consumes_string; assumption.
Qed.

(* the string types registered in the type maps regenerated from /repo, on both sides *)
Definition known_string (ce cd: codec) (n: N) : bool :=
  (match lookup3 (KStr n) (enc_type_map ce) with Some (EcOcts, _) => true | _ => false end)
  && (match lookup3 (KStr n) (dec_type_map cd) with Some (DcStr, _) => true | _ => false end).

Lemma consumes_decode_with : forall c fuel sp b tl v,
  consumes (dec_item c fuel sp) b v -> decode_with c fuel sp (b ++ tl) = Ok (v, tl).
Proof.
  intros c fuel sp b tl v H. unfold decode_with, run_complete.
  destruct (H (mkStream (b ++ tl) 0 true 0) tl eq_refl) as (s' & Hr & Hp & Ha & Hc).
  rewrite Hr. f_equal. f_equal.
  apply (consumes_avail b (mkStream (b ++ tl) 0 true 0) tl s' eq_refl Hp Ha).
Qed.

(* the values of this file: a value of a simple type that fits it (a character string of a type
   both codec tables know, with octets the type's checker accepts) *)
Definition stage1_val (ce cd: codec) (T: ty) (v: val) : bool :=
  match base_of T, v with
  | (TInt | TEnum), VInt _ | TNull, VNull | TOcts, VOcts _ | TBits, VBits _ | TOid, VOid _ => true
  | TBool, VBool b => bool_compat ce cd b
  | TReal, VReal (RBin m _) => negb (Z.eqb m 0)
  | TReal, VReal (RPInf | RNInf) => true
  | TStr n, VOcts bs => known_string ce cd n && match str_octets_ok n bs with Some true => true | _ => false end
  | _, _ => false
  end.

Lemma stage1_leaf ce cd T v b : enc_ok ce -> stage1_val ce cd T v = true -> encode ce true 0 T v = Ok b ->
  exists content vdec, leaf_ok ce cd T v content vdec /\ abs T vdec = abs T v.
Proof.
  unfold stage1_val. intros Hce Hs He.
  assert (Hdef: def_codec ce) by (destruct Hce as [-> | ->]; reflexivity).
  assert (Hpb: forall ec fl, concrete_encoder ce T = Ok (ec, fl) -> exists cc, enc_content ce (base_of T) ec fl def_opts v = Ok cc).
  { intros ec fl Hc. unfold encode, enc, enc_with in He. change (mkOpts true 0 false) with def_opts in He.
    unfold def_codec in Hdef. rewrite Hdef, Hc in He. cbn [bind] in He.
    destruct (tagset_of T); cbn [bind] in He; [|discriminate].
    change (mkOpts (o_def def_opts) (o_chunk def_opts) false) with def_opts in He.
    rewrite enc_content_base in He. destruct (enc_content ce (base_of T) ec fl def_opts v) as [cc|]; [eauto|discriminate]. }
  destruct (base_of T) eqn:Hb; destruct v as [bb|z|bs|bo|cs| |arcs|r|vfs|xs|i x|ab]; try discriminate.
  - exists [bool_octet ce bb], (VBool bb). split; [apply leaf_bool; assumption|reflexivity].
  - exists (enc_integer false z), (VInt z). split; [apply leaf_int; [assumption|left; exact Hb]|reflexivity].
  - exists (enc_integer false z), (VInt z). split; [apply leaf_int; [assumption|right; exact Hb]|reflexivity].
  - exists (enc_bits_prim bs), (VBits bs). split; [apply leaf_bits; assumption|reflexivity].
  - exists bo, (VOcts bo). split; [apply leaf_octets; assumption|reflexivity].
  - exists [], VNull. split; [apply leaf_null; assumption|reflexivity].
  - (* OID: the encoder succeeded, so enc_oid did *)
    destruct (Hpb EcOid (mkEncFlags false false false None 0 0)) as [cc Hcc].
    { rewrite concrete_encoder_base, Hb. destruct Hce as [-> | ->]; vm_compute; reflexivity. }
    cbn [enc_content] in Hcc. destruct (enc_oid arcs) as [content|] eqn:Eo; cbn [bind] in Hcc; [|discriminate].
    exists content, (VOid arcs). split; [apply leaf_oid; assumption|reflexivity].
  - (* REAL *)
    assert (Hr: exists content, enc_real r = Ok content).
    { destruct Hce as [-> | ->].
      1: destruct (Hpb EcRealBer (mkEncFlags false false false (Some 2) 0 0)) as [cc Hcc];
           [rewrite concrete_encoder_base, Hb; vm_compute; reflexivity|].
      2: destruct (Hpb EcRealCer (mkEncFlags false false false (Some 2) 0 0)) as [cc Hcc];
           [rewrite concrete_encoder_base, Hb; vm_compute; reflexivity|].
      all: cbn [enc_content] in Hcc; destruct (enc_real r) as [content|]; cbn [bind] in Hcc; [eauto|discriminate]. }
    destruct Hr as [content Er].
    destruct r as [| |m e|m e|]; try discriminate.
    + exists content, (VReal RPInf). destruct real_roundtrip_special as [[E1 D1] _].
      rewrite E1 in Er. inversion Er; subst. split; [apply (leaf_real ce cd T RPInf [64] RPInf Hce Hb E1 D1)|reflexivity].
    + exists content, (VReal RNInf). destruct real_roundtrip_special as [_ [[E1 D1] _]].
      rewrite E1 in Er. inversion Er; subst. split; [apply (leaf_real ce cd T RNInf [65] RNInf Hce Hb E1 D1)|reflexivity].
    + assert (Hm: m <> 0%Z) by (destruct (Z.eqb_spec m 0); [discriminate|assumption]).
      destruct (real_roundtrip_bin m e content Hm Er) as (r' & Hd & Habs).
      exists content, (VReal r'). split; [apply (leaf_real ce cd T _ content r' Hce Hb Er Hd)|].
      rewrite (abs_wrappers T (VReal r')), (abs_wrappers T (VReal (RBin m e))), Hb. cbn [abs]. rewrite Habs. reflexivity.
  - (* strings *)
    apply Bool.andb_true_iff in Hs. destruct Hs as [Hk Hok].
    destruct (str_octets_ok n bo) as [[|]|] eqn:Eok; try discriminate.
    unfold known_string in Hk. apply Bool.andb_true_iff in Hk. destruct Hk as [Hk1 Hk2].
    destruct (lookup3 (KStr n) (enc_type_map ce)) as [[ec ef]|] eqn:Ele; [|discriminate].
    destruct (lookup3 (KStr n) (dec_type_map cd)) as [[dc df]|] eqn:Eld; [|discriminate].
    destruct ec; try discriminate. destruct dc; try discriminate.
    exists bo, (VOcts bo). split; [apply (leaf_string ce cd T n bo ef df Hb Eok Ele Eld)|reflexivity].
Qed.

Lemma stage1_prim ce cd T v : stage1_val ce cd T v = true -> prim_base T = true.
Proof. unfold stage1_val, prim_base. destruct (base_of T); try reflexivity; destruct v; discriminate. Qed.

Lemma content_le_encoding : forall ce cd T v content vdec b,
  def_codec ce ->
  prim_base T = true -> wf_tags T = true -> leaf_ok ce cd T v content vdec -> encode ce true 0 T v = Ok b ->
  (length content <= length b)%nat.
Proof.
  intros ce cd T v content vdec b Hdef Hp Hw [Henc _] He.
  destruct (tagset_prim_shape T Hp Hw) as (t0 & r & Hts & _ & _ & _).
  destruct Henc as (ec & fl & Hce & Hcont).
  destruct (encode_leaf_frames _ _ _ _ _ _ _ _ _ Hdef Hce Hts Hcont He) as (s0 & E0 & Hfr).
  pose proof (frame_outer_length _ _ _ _ _ Hfr) as H1.
  destruct (frame_one_length _ _ _ _ _ E0) as (l & -> & _). rewrite !app_length in H1.
  lia.
Qed.

(* Round trip, stage 1: every simple type - BOOLEAN, INTEGER, ENUMERATED, BIT STRING, OCTET STRING,
   NULL, OBJECT IDENTIFIER, REAL (binary and infinite), character and useful strings (octets
   acceptable to the type's text codec as far as modelled) - under ANY stack of IMPLICIT/EXPLICIT
   tags of any class and number, definite lengths, unsegmented, written by the BER or the DER
   encoder and read by the BER, the CER or the DER decoder: the decoder returns a value with the same
   abstract content and exactly the bytes that followed the encoding. *)
Theorem roundtrip_stage1 : forall ce cd T v b tl,
  enc_ok ce -> wf_tags T = true -> stage1_val ce cd T v = true ->
  encode ce true 0 T v = Ok b -> N.of_nat (length b) <= index_max ->
  exists v', decode cd (Some T) (b ++ tl) = Ok (DV T v', tl) /\ abs T v' = abs T v.
Proof.
  intros ce cd T v b tl Hce Hw Hs He Hmax.
  assert (Hdef: def_codec ce) by (destruct Hce as [-> | ->]; reflexivity).
  destruct (stage1_leaf ce cd T v b Hce Hs He) as (content & vdec & Hleaf & Habs).
  pose proof (stage1_prim ce cd T v Hs) as Hp.
  pose proof (content_le_encoding ce cd T v content vdec b Hdef Hp Hw Hleaf He) as Hcl.
  destruct (tagset_prim_shape T Hp Hw) as (t0 & r & Hts & _ & _ & Hd).
  exists vdec. split; [|exact Habs]. unfold decode.
  set (fuel := dec_fuel (Some T) (b ++ tl)).
  assert (Hfuel: fuel = (S (fuel - 1 - length r) + (length (tagset_of' T) - 1))%nat).
  { rewrite (tagset_of'_ok T _ Hts). cbn [length]. subst fuel. unfold dec_fuel. rewrite app_length. lia. }
  assert (Hbig: (length b <= S (fuel - 1 - length r))%nat).
  { subst fuel. unfold dec_fuel. rewrite app_length. lia. }
  pose proof (stage1_generic ce cd T v content vdec b (fuel - 1 - length r) Hdef Hp Hw Hleaf He) as Hg.
  rewrite <- Hfuel in Hg.
  assert (Hfit: DecPrim.fits (fuel - 1 - length r) content) by (split; lia).
  specialize (Hg Hfit Hbig).
  pose proof (consumes_decode_with cd fuel (Some T) b tl (DV T vdec) Hg) as Hdw.
  unfold decode_with in Hdw. exact Hdw.
Qed.

Corollary ber_roundtrip_stage1 : forall T v b tl,
  wf_tags T = true -> stage1_val BER BER T v = true ->
  encode BER true 0 T v = Ok b -> N.of_nat (length b) <= index_max ->
  exists v', decode BER (Some T) (b ++ tl) = Ok (DV T v', tl) /\ abs T v' = abs T v.
Proof. intros. eapply roundtrip_stage1; eauto. left; reflexivity. Qed.

(* DER encodings of stage-1 values are accepted by all three decoders (C02) *)
Corollary der_accepted_stage1 : forall cd T v b tl,
  wf_tags T = true -> stage1_val DER cd T v = true ->
  encode DER true 0 T v = Ok b -> N.of_nat (length b) <= index_max ->
  exists v', decode cd (Some T) (b ++ tl) = Ok (DV T v', tl) /\ abs T v' = abs T v.
Proof. intros. eapply roundtrip_stage1; eauto. right; reflexivity. Qed.
