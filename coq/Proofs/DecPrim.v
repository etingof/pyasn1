(* The value decoders of the simple types consume exactly the contents octets and return what the
   contents denote. *)
From Coq Require Import Lia.
From PV Require Import Base.Bytes Model.Tag Model.TableTypes Model.Types Model.Proc Model.Enc Model.Dec Gen.Tables
     Proofs.ProcBind Proofs.RunLemmas Proofs.TagOctets Proofs.DecHeader Proofs.DecFrame.
Local Open Scope N_scope.

Lemma resume_read_len {A} : forall f (content tl: bytes) s (g: bytes -> proc A),
  avail s = content ++ tl -> N.of_nat (length content) <= index_max -> (length content <= S f)%nat ->
  resume (pbind (read_len f (N.of_nat (length content))) g) s = resume (g content) (adv s (length content)).
Proof.
  intros f content tl s g Hav Hmax Hf. unfold read_len.
  destruct (N.ltb_spec index_max (N.of_nat (length content))) as [Hc|_]; [lia|].
  replace (N.to_nat (N.min (N.of_nat (length content)) (N.of_nat (S f)))) with (length content) by lia.
  apply (resume_readN s (length content) content tl g Hav eq_refl).
Qed.

Definition fits (f: nat) (content: bytes) : Prop :=
  N.of_nat (length content) <= index_max /\ (length content <= S f)%nat.

Lemma consumes_ret (v: dval) (content: bytes) (k: bytes -> proc dval) f :
  fits f content -> k content = Ret v ->
  consumes (pbind (read_len f (N.of_nat (length content))) k) content v.
Proof.
  intros [Hmax Hf] Hk s tl Hav. rewrite (resume_read_len f content tl s k Hav Hmax Hf). rewrite Hk. cbn [resume].
  exists (adv s (length content)). repeat split.
Qed.

(* INTEGER / ENUMERATED / BOOLEAN (BER: any non-zero is TRUE) *)
Lemma consumes_integer f T proto ts content :
  tag0_simple ts = true -> fits f content ->
  (match base_of T with TBool | TStr _ => False | _ => True end) ->
  consumes (dec_integer f (Some T) proto ts (N.of_nat (length content))) content (DV T (VInt (from_bytes_signed content))).
Proof.
  intros Hts Hfit Hb. unfold dec_integer. rewrite Hts. cbn [negb].
  apply consumes_ret; [exact Hfit|]. unfold create.
  destruct (base_of T); try reflexivity; contradiction.
Qed.

Lemma consumes_boolean f T proto ts content :
  tag0_simple ts = true -> fits f content -> base_of T = TBool ->
  consumes (dec_integer f (Some T) proto ts (N.of_nat (length content))) content
           (DV T (VBool (negb (Z.eqb (from_bytes_signed content) 0)))).
Proof.
  intros Hts Hfit Hb. unfold dec_integer. rewrite Hts. cbn [negb].
  apply consumes_ret; [exact Hfit|]. unfold create. rewrite Hb. reflexivity.
Qed.

Lemma consumes_null f T ts :
  tag0_simple ts = true -> (match base_of T with TBool | TStr _ => False | _ => True end) ->
  consumes (dec_null f (Some T) ts 0) [] (DV T VNull).
Proof.
  intros Hts Hb. unfold dec_null. rewrite Hts. cbn [negb].
  change 0 with (N.of_nat (length (@nil N))).
  apply consumes_ret; [split; [vm_compute; discriminate|cbn; lia]|]. unfold create.
  destruct (base_of T); try reflexivity; contradiction.
Qed.

Lemma consumes_octets rec f fl T ts content sfun :
  tag0_simple ts = true -> fits f content -> base_of T = TOcts ->
  consumes (dec_octets rec f TOcts fl (Some T) ts (N.of_nat (length content)) sfun) content (DV T (VOcts content)).
Proof.
  intros Hts Hfit Hb. unfold dec_octets. rewrite Hts.
  apply consumes_ret; [exact Hfit|]. unfold create. rewrite Hb. reflexivity.
Qed.

Lemma consumes_bind_lift {X} (f: nat) (content: bytes) (x: X) (g: bytes -> res X) (k: X -> proc dval) v :
  fits f content -> g content = Ok x -> k x = Ret v ->
  consumes (pbind (read_len f (N.of_nat (length content))) (fun b => pbind (lift (g b)) k)) content v.
Proof.
  intros Hfit Hg Hk. apply consumes_ret; [exact Hfit|]. rewrite Hg. cbn [lift pbind]. exact Hk.
Qed.

Lemma consumes_oid f T ts content arcs :
  tag0_simple ts = true -> fits f content -> base_of T = TOid -> dec_oid content = Ok arcs ->
  consumes (dec_oid_v f (Some T) ts (N.of_nat (length content))) content (DV T (VOid arcs)).
Proof.
  intros Hts Hfit Hb Hd. unfold dec_oid_v. rewrite Hts. cbn [negb].
  apply (consumes_bind_lift f content arcs dec_oid); [exact Hfit|exact Hd|]. unfold create. rewrite Hb. reflexivity.
Qed.

Lemma consumes_real f T ts content r :
  tag0_simple ts = true -> fits f content -> base_of T = TReal -> dec_real content = Ok r ->
  consumes (dec_real_v f (Some T) ts (N.of_nat (length content))) content (DV T (VReal r)).
Proof.
  intros Hts Hfit Hb Hd. unfold dec_real_v. rewrite Hts. cbn [negb].
  apply (consumes_bind_lift f content r dec_real); [exact Hfit|exact Hd|]. unfold create. rewrite Hb. reflexivity.
Qed.

(* primitive BIT STRING: initial octet (unused bits), then the octets; with or without a guiding
   type, [dv] being the object made of the bits *)
Lemma consumes_bits_g rec f fl sp ts (pad: N) (octs: bytes) bs dv :
  tag0_simple ts = true -> fits f (pad :: octs) ->
  pad <= 7 -> bits_of_octets octs pad = Ok bs -> create sp TBits ts (VBits bs) = Ret dv ->
  consumes (dec_bits rec f fl sp ts (N.of_nat (length (pad :: octs))) false) (pad :: octs) dv.
Proof.
  intros Hts [Hmax Hf] Hpad Hd Hc s tl Hav. unfold dec_bits.
  destruct (N.eqb_spec (N.of_nat (length (pad :: octs))) 0) as [E|_]; [cbn [length] in E; lia|].
  rewrite Hts.
  rewrite (resume_read1 s pad (octs ++ tl) _ Hav).
  destruct (N.ltb_spec 7 pad) as [Hc7|_]; [lia|].
  replace (N.of_nat (length (pad :: octs)) - 1) with (N.of_nat (length octs)) by (cbn [length]; lia).
  assert (Hav1: avail (adv s 1) = octs ++ tl) by (apply (avail_cons_adv _ _ _ Hav)).
  cbn [length] in Hmax, Hf.
  rewrite (resume_read_len f octs tl (adv s 1) _ Hav1) by lia.
  rewrite Hd. cbn [lift pbind]. rewrite Hc. cbn [resume].
  exists (adv (adv s 1) (length octs)). rewrite adv_adv. cbn [length]. split; [reflexivity|]. split; [rewrite pos_adv; lia|]. split; reflexivity.
Qed.

Lemma consumes_bits rec f fl T ts (pad: N) (octs: bytes) bs :
  tag0_simple ts = true -> fits f (pad :: octs) -> base_of T = TBits ->
  pad <= 7 -> bits_of_octets octs pad = Ok bs ->
  consumes (dec_bits rec f fl (Some T) ts (N.of_nat (length (pad :: octs))) false) (pad :: octs) (DV T (VBits bs)).
Proof.
  intros Hts Hfit Hb Hpad Hd. apply (consumes_bits_g _ _ _ _ _ _ _ bs); try assumption.
  unfold create. rewrite Hb. reflexivity.
Qed.

(* the strict BOOLEAN decoder of CER/DER on the two octets it takes *)
Lemma consumes_bool_cer_g f sp ts (b: bool) dv :
  create sp TBool ts (VInt (if b then 1 else 0)) = Ret dv ->
  consumes (dec_bool_cer f sp ts 1) [if b then 255 else 0] dv.
Proof.
  intros Hc s tl Hav. unfold dec_bool_cer. cbn [N.eqb Pos.eqb negb].
  change 1 with (N.of_nat (length [if b then 255 else 0])).
  rewrite (resume_read_len f [if b then 255 else 0] tl s _ Hav); [|vm_compute; discriminate|cbn; lia].
  destruct b; rewrite Hc; cbn [resume]; (eexists; split; [reflexivity|]; repeat split).
Qed.

(* character and useful strings: the octets must be acceptable to the type's text codec *)
Lemma consumes_string rec f fl T n ts content sfun :
  tag0_simple ts = true -> fits f content -> base_of T = TStr n -> str_octets_ok n content = Some true ->
  consumes (dec_octets rec f (TStr n) fl (Some T) ts (N.of_nat (length content)) sfun) content (DV T (VOcts content)).
Proof.
  intros Hts Hfit Hb Hok. unfold dec_octets. rewrite Hts.
  apply consumes_ret; [exact Hfit|]. unfold create. rewrite Hb, Hok. reflexivity.
Qed.
