(* Round trip under every encoder mode for the whole type universe (C01/C02), part (e): SET with
   mandatory, OPTIONAL and DEFAULT components in every mode.  The BER encoder keeps the order of the
   declaration, the CER encoder sorts the components by the smallest outermost tag of their types, the
   DER encoder by the outermost tag of the value written; the decoder finds the position of each
   component by its tags, and in an indefinite-length SET it ends at the 00 00 the encoder wrote. *)
From Coq Require Import Lia Permutation.
From PV Require Import Base.Bytes Model.Tag Model.TableTypes Model.Types Model.Proc Model.Enc Model.Dec Gen.Tables
     Proofs.ProcBind Proofs.RunLemmas Proofs.TagOctets Proofs.TagAlgebra Proofs.DecHeader Proofs.DecFrame Proofs.DecPrim
     Proofs.TagsetShape Proofs.Schemaless Proofs.RoundTrip1 Proofs.RoundTrip2 Proofs.TagReject Proofs.ContainerCodecSort
     Proofs.RoundTripModesA Proofs.RoundTripModesB Proofs.RoundTripModesC Proofs.RoundTripModesBag Proofs.RoundTripModes
     Proofs.RoundTrip3 Proofs.RoundTrip3a Proofs.RoundTrip3b Proofs.RoundTrip3c Proofs.RoundTrip3d
     Proofs.RoundTripModes3a Proofs.RoundTripModes3b Proofs.RoundTripModes3c Proofs.RoundTripModes3d.
Local Open Scope N_scope.

Section SetLoopIndef.
  Variable rec : spec -> tagset -> option (option N) -> bool -> bool -> proc dval.
  Variable lf : nat.
  Variable T : ty.
  Variable fs : list (presence * ty).
  Hypothesis Hne : (match fs with [] => true | _ => false end) = false.
  Hypothesis Heoo : eoo_ok rec.

  Lemma set_loop_indef : forall items, Forall (sitem_ok (rec_ae rec true) lf fs) items ->
    forall vs idx n start s tl,
      (length items < n)%nat ->
      avail s = concat (map sbytes items) ++ [0; 0] ++ tl ->
      required_seen fs (place items vs) = true ->
      exists s', resume (record_loop rec lf T fs true None start n idx vs 0%nat) s
                 = inr (Ok (DV T (VRec (place items vs))), s')
        /\ pos s' = (pos s + length (concat (map sbytes items)) + 2)%nat /\ arrived s' = arrived s /\ closed s' = closed s.
  Proof.
    induction 1 as [|it items (ft & Hdec & Hpl & Hposn & Hlt) HF IH]; intros vs idx n start s tl Hn Hav Hseen.
    - destruct n as [|n']; [cbn [length] in Hn; lia|].
      cbn [record_loop]. cbv zeta. rewrite resume_tell. cbn [negb andb]. rewrite Hne.
      cbn [map concat app] in Hav.
      rewrite (resume_pbind_done _ _ _ _ _ (Heoo _ false s tl Hav)).
      cbn [place fold_left] in *. rewrite Hseen. cbn [resume].
      exists (adv s 2). cbn [map concat length]. rewrite pos_adv. repeat split. lia.
    - unfold rec_ae in Hdec.
      destruct n as [|n']; [cbn [length] in Hn; lia|].
      cbn [record_loop]. cbv zeta. rewrite resume_tell. cbn [negb andb]. rewrite Hne.
      cbn [map concat] in Hav. rewrite <- app_assoc in Hav.
      destruct (Hdec s _ Hav) as (s1 & Hrun & Hpos & Harr & Hcl).
      rewrite (resume_pbind_done _ _ _ _ _ Hrun).
      pose proof (consumes_avail (sbytes it) s _ s1 Hav Hpos Harr) as Hav1.
      unfold seq_position. cbn [negb andb]. rewrite Hposn. cbn [lift pbind].
      assert (Hleb: Nat.leb (length fs) (sidx it) = false) by (apply Nat.leb_gt; exact Hlt).
      rewrite Hleb.
      cbn [length] in Hn. cbn [place fold_left] in Hseen.
      destruct (IH (set_nth (sidx it) (Some (sval it)) vs) (S (sidx it)) n' start s1 tl ltac:(lia) Hav1 Hseen)
        as (s2 & Hrun2 & Hpos2 & Harr2 & Hcl2).
      exists s2. cbn [place fold_left map concat]. rewrite app_length. split; [exact Hrun2|]. split; [lia|]. split; congruence.
  Qed.

End SetLoopIndef.

Section Modes3e.
  Variables ce cd : codec.
  Variable d : bool.
  Variable k : N.
  Hypothesis Hst : stable ce d k.
  Hypothesis Hcd : dec_ok cd.
  Variable R : aval -> aval -> Prop.
  Variable srt : bool.
  Hypothesis HR : rel_ok R srt.

  Notation val_ok_m := (val_ok_m ce cd d k R).
  Notation comp_ok_m := (comp_ok_m ce cd d k R).

  Lemma set_val_m (Pv: ty -> val -> Prop) T' fs : base_of T' = TSet fs -> wf_tags T' = true ->
    keys_ok (flat_map ckeys (map snd fs)) = true ->
    Forall (comp_ok_m Pv) fs ->
    forall vs, comp_vals ce Pv fs vs -> val_ok_m T' (VRec vs).
  Proof.
    intros Hb Hw HK Hcomp vs HCV b He Hmax.
    assert (Hcb: container_base T' = true) by (unfold container_base; rewrite Hb; reflexivity).
    destruct (container_frame_m ce d k T' _ b Hst Hcb Hw He)
      as (t0 & r & ec & fl & content & cns & Hts & Hex & Hd & Hnz' & Hcon & Hcenc & Hcont & Hfr).
    assert (Hdep: ty_depth (base_of T') = S (max_depth fs)) by (rewrite Hb; reflexivity).
    assert (Hnc: match T' with TChoice _ => False | _ => True end).
    { destruct T'; try exact I. discriminate Hb. }
    rewrite (enc_content_rec ce (base_of T') fs ec fl (mo d k) vs (or_intror Hb)) in Hcont.
    set (omit := match ec with EcSeq => ef_omit_empty fl | EcSetCer | EcSetDer => true | _ => false end) in Hcont.
    assert (Hec: ef_indef fl = true /\ (omit = true -> omits ce = true)).
    { subst omit. unfold omits. rewrite Hb in Hcenc. destruct ce; vm_compute in Hcenc;
        inversion Hcenc; subst ec fl; (split; [reflexivity|]); cbn; intros H; solve [discriminate H|reflexivity]. }
    destruct Hec as (Hsi & Homit).
    destruct (enc_rec_fields_g ce ec omit (mo d k) fs vs) as [parts|e] eqn:Eparts; cbn [bind] in Hcont; [|discriminate].
    destruct (rec_content_wire ec parts content cns Hcont) as (wparts & -> & -> & Hperm). rewrite Hsi in Hfr.
    pose proof (frame_modes_len _ _ _ _ _ _ _ _ Hex Hfr) as Hlen.
    assert (Hcl: length (concat (map snd parts)) = length (concat (map snd wparts))).
    { apply concat_perm_length. apply Permutation_map, Permutation_sym. exact Hperm. }
    destruct (fields_plan_m ce cd d k Hst Hcd R srt HR Pv ec omit Homit fs Hcomp vs parts HCV Eparts ltac:(lia)) as (ds & Habs & Hplan).
    set (bound := (length (concat (map snd parts)) + max_depth fs)%nat).
    destruct (set_items_wire (fun f rec => (bound <= f)%nat /\ exists ae, rec = rec_ae (dec_call cd f) ae) fs vs (map snd parts) ds
                (map snd wparts) bound (rec_ae (dec_call cd bound) false) HK) as (witems & Hwbytes & Hwok' & Hpw & Hseen & Hcnt & Hds0);
      [intros f rec [Hf [ae ->]]; exact (Hplan f ae Hf)|split; [apply le_n|exists false; reflexivity]
      |exact (Permutation_map snd Hperm)|].
    rewrite <- Hwbytes in Hcnt.
    exists t0, r, (concat (map snd wparts)), true, true, (VRec ds).
    split; [rewrite (wire_tags_plain T' _ Hnc); apply tagset_of'_ok; exact Hts|].
    split; [exact Hex|]. split; [lia|]. split; [exact Hnz'|]. split; [reflexivity|]. split; [exact Hfr|].
    split; [rewrite (wire_tags_plain T' _ Hnc); apply tagset_of'_ok; exact Hts|].
    split.
    { rewrite (abs_wrappers T' (VRec ds)), (abs_wrappers T' (VRec vs)), Hb. rewrite !abs_set.
      apply (r_rec _ _ HR). exact Habs. }
    exists DcSet, (mkDecFlags true (Some KSet)). split.
    { rewrite by_type_base, Hb. destruct Hcd as [-> | ->]; vm_compute; reflexivity. }
    intros f Hf.
    assert (Hw1: wire t0 true = t0) by (apply wire_con; exact Hcon). rewrite Hw1.
    assert (Hwok: forall ae, Forall (sitem_ok (rec_ae (dec_call cd f) ae) f fs) witems).
    { intros ae. apply Hwok'. split; [subst bound; lia|exists ae; reflexivity]. }
    (* the same with [bytes] unfolded in the type arguments of map: the form the available octets have below *)
    assert (Hwb: map sbytes witems = @map (tagset * list N) (list N) (@snd tagset (list N)) wparts) by exact Hwbytes.
    unfold val_consumes. destruct d; cbn [andb negb]; cbn [dec_value tag0_cons]; rewrite Hcon; cbn [negb]; rewrite Hb.
    - (* definite *)
      rewrite <- Hwb.
      apply (dec_record_set (dec_call cd f) f T' fs witems ds (Hwok false) Hpw Hseen); [|exact Hds0].
      rewrite Hwb in Hcnt. unfold bytes in *. lia.
    - (* indefinite *)
      intros s tl Hav. unfold dec_record. rewrite resume_tell.
      rewrite <- Hwb in Hav |- *. rewrite <- app_assoc in Hav.
      destruct f as [|f']; [lia|].
      destruct fs as [|f0 fs0] eqn:Efs.
      + destruct (Hds0 eq_refl) as [Hds Hw0]. rewrite Hw0 in *. cbn [map concat length app] in *.
        cbn [record_loop]. cbv zeta. rewrite resume_tell. cbn [negb].
        rewrite (resume_pbind_done _ _ _ _ _ (eoo_ok_call cd f' Hcd SNone false s tl Hav)). cbn [resume map].
        rewrite Hds. exists (adv s 2). rewrite pos_adv. repeat split.
      + rewrite <- Efs in *.
        assert (Hne: (match fs with [] => true | _ => false end) = false) by (rewrite Efs; reflexivity).
        destruct (set_loop_indef (dec_call cd (S f')) (S f') T' fs Hne (eoo_ok_call cd f' Hcd) witems (Hwok true)
                    (map (fun _ => None) fs) 0%nat (S f') (pos s) s tl) as (s' & Hrun & Hpos & Harr & Hcl2).
        * rewrite Hwb in Hcnt. unfold bytes in *. lia.
        * exact Hav.
        * rewrite Hpw. exact Hseen.
        * rewrite Hpw in Hrun. exists s'. split; [exact Hrun|]. rewrite app_length. cbn [length]. repeat split; try assumption. lia.
  Qed.

End Modes3e.
