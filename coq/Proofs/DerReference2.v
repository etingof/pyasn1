(* C03, second stage: the DER encoder against the independent reference (Spec/X690.v) over the WHOLE
   universe of types: SET OF (canonical order of the element encodings), SET (canonical order of the
   tags), CHOICE (untagged and explicitly tagged), ANY, OPTIONAL components of constructed type outside
   finding F24 - on top of Proofs/DerReference.v (simple types, SEQUENCE, SEQUENCE OF, tagging, framing).

   The library sorts SET OF and SET with a stable insertion (before its equals), the reference inserts
   after its equals: the two agree when ties are identical members (sort_with_is_sort_by), which the
   domain der_all makes sure of.  Then one induction over the type for each direction (Qsound_all,
   Qcomp_all); the fragment of Proofs/DerReference.v is a special case (deep_in_all). *)
From Coq Require Import Lia Sorting.Permutation Sorting.Sorted.
From PV Require Import Base.Bytes Model.Tag Model.TableTypes Model.Types Model.Enc Gen.Tables Spec.X690
     Proofs.SpecOctets Proofs.TagAlgebra Proofs.ContainerCodecDefs Proofs.ContainerCodecSort
     Proofs.DerAbsFunction Proofs.DerReference.
Local Open Scope N_scope.

Lemma ins_sorted_in {A} (f: A -> A -> bool) x y l : In y (insert_sorted f x l) -> y = x \/ In y l.
Proof.
  induction l as [|z l IH]; cbn [insert_sorted].
  - cbn. intuition.
  - destruct (f x z); cbn [In]; intuition.
Qed.

Section TwoSorts.
  Context {A K: Type} (ltb: K -> K -> bool) (key: A -> K).
  Hypothesis ltb_irrefl: forall k, ltb k k = false.
  Hypothesis ltb_trans: forall a b c, ltb a b = true -> ltb b c = true -> ltb a c = true.
  Hypothesis ltb_negtrans: forall a b c, ltb a c = true -> ltb a b = true \/ ltb b c = true.

  Let lt (a b: A) : bool := ltb (key a) (key b).
  Let le (x y: A) : Prop := ltb (key y) (key x) = false.

  Lemma ins_sorted_perm x l : Permutation (x :: l) (insert_sorted lt x l).
  Proof.
    induction l as [|z l IH]; cbn [insert_sorted]; [apply Permutation_refl|].
    destruct (lt x z); [apply Permutation_refl|].
    eapply perm_trans; [apply perm_swap|]. apply perm_skip. exact IH.
  Qed.

  Lemma sort_with_perm l : Permutation l (sort_with lt l).
  Proof.
    induction l as [|x l IH]; [apply perm_nil|].
    change (sort_with lt (x :: l)) with (insert_sorted lt x (sort_with lt l)).
    eapply perm_trans; [apply perm_skip; exact IH|]. apply ins_sorted_perm.
  Qed.

  Lemma ins_sorted_sorted x l : StronglySorted le l -> StronglySorted le (insert_sorted lt x l).
  Proof.
    induction 1 as [|z l Hs IH Hz]; cbn [insert_sorted].
    - constructor; constructor.
    - destruct (lt x z) eqn:E.
      + constructor; [constructor; assumption|]. constructor.
        * unfold le. apply (ltb_asym ltb ltb_irrefl ltb_trans). exact E.
        * rewrite Forall_forall in *. intros w Hw. specialize (Hz w Hw). unfold le in *.
          destruct (ltb (key w) (key x)) eqn:E2; [|reflexivity].
          pose proof (ltb_trans _ _ _ E2 E) as C. congruence.
      + constructor; [exact IH|]. rewrite Forall_forall in *. intros w Hw.
        apply ins_sorted_in in Hw. destruct Hw as [->|Hw]; [exact E|apply Hz; exact Hw].
  Qed.

  Lemma sort_with_sorted l : StronglySorted le (sort_with lt l).
  Proof.
    induction l as [|x l IH]; [constructor|].
    change (sort_with lt (x :: l)) with (insert_sorted lt x (sort_with lt l)).
    apply ins_sorted_sorted. exact IH.
  Qed.

  (* members whose keys do not order them are the same member: then the two sorts agree *)
  Theorem sort_with_is_sort_by l : ties_identical ltb key l -> sort_with lt l = sort_by ltb key l.
  Proof.
    intros Ht.
    apply (sorted_perm_unique ltb key); [apply sort_with_sorted|apply (sort_by_sorted ltb key ltb_irrefl ltb_trans ltb_negtrans)| |].
    - eapply perm_trans; [apply Permutation_sym, sort_with_perm|]. apply (sort_by_perm_self ltb key).
    - intros x y Hx Hy. apply Ht; eapply Permutation_in; try apply Permutation_sym, sort_with_perm; assumption.
  Qed.
End TwoSorts.

(* the reference's sort only looks at its comparison on the members *)
Lemma ins_sorted_ext {A} (f g: A -> A -> bool) x l : (forall y, In y l -> f x y = g x y) ->
  insert_sorted f x l = insert_sorted g x l.
Proof.
  induction l as [|z l IH]; intros H; [reflexivity|]. cbn [insert_sorted].
  rewrite (H z (or_introl eq_refl)). destruct (g x z); [reflexivity|]. f_equal. apply IH. intros y Hy. apply H. right. exact Hy.
Qed.

Lemma sort_with_in {A} (f: A -> A -> bool) y l : In y (sort_with f l) -> In y l.
Proof.
  induction l as [|x l IH]; [cbn; auto|].
  change (sort_with f (x :: l)) with (insert_sorted f x (sort_with f l)).
  intros H. apply ins_sorted_in in H. destruct H as [->|H]; [left; reflexivity|right; apply IH; exact H].
Qed.

Lemma sort_with_ext {A} (f g: A -> A -> bool) l : (forall x y, In x l -> In y l -> f x y = g x y) ->
  sort_with f l = sort_with g l.
Proof.
  induction l as [|x l IH]; intros H; [reflexivity|].
  change (sort_with f (x :: l)) with (insert_sorted f x (sort_with f l)).
  change (sort_with g (x :: l)) with (insert_sorted g x (sort_with g l)).
  rewrite <- IH by (intros a b Ha Hb; apply H; right; assumption).
  apply ins_sorted_ext. intros y Hy. apply H; [left; reflexivity|right; apply (sort_with_in f); exact Hy].
Qed.

Lemma ins_sorted_map {A B} (g: A -> B) (f: B -> B -> bool) x l :
  insert_sorted f (g x) (map g l) = map g (insert_sorted (fun a b => f (g a) (g b)) x l).
Proof.
  induction l as [|z l IH]; [reflexivity|]. cbn [map insert_sorted].
  destruct (f (g x) (g z)); [reflexivity|]. cbn [map]. f_equal. exact IH.
Qed.

Lemma sort_with_map {A B} (g: A -> B) (f: B -> B -> bool) l :
  sort_with f (map g l) = map g (sort_with (fun a b => f (g a) (g b)) l).
Proof.
  induction l as [|x l IH]; [reflexivity|]. cbn [map].
  change (sort_with f (g x :: map g l)) with (insert_sorted f (g x) (sort_with f (map g l))).
  rewrite IH. apply ins_sorted_map.
Qed.

Lemma lex_is_bytes_ltb : forall a b, lex_ltb a b = bytes_ltb a b.
Proof. intros a b. reflexivity. Qed.

Lemma bytes_ltb_app_same z : forall a b, length a = length b -> bytes_ltb (a ++ z) (b ++ z) = bytes_ltb a b.
Proof.
  induction a as [|x a IH]; destruct b as [|y b]; intros Hl; try discriminate Hl.
  - cbn [app]. rewrite bytes_ltb_irrefl. reflexivity.
  - cbn [length] in Hl. cbn [app bytes_ltb]. rewrite (IH b) by lia. reflexivity.
Qed.

Lemma pad_to_more (n m: nat) a : (length a <= n)%nat -> (n <= m)%nat -> pad_to m a = pad_to n a ++ repeat 0 (m - n).
Proof.
  intros H1 H2. unfold pad_to. rewrite <- app_assoc, <- repeat_app. f_equal. f_equal. lia.
Qed.

Lemma pad_to_length n a : (length a <= n)%nat -> length (pad_to n a) = n.
Proof. intros H. unfold pad_to. rewrite app_length, repeat_length. lia. Qed.

(* the reference pads pairwise, the library pads to the longest member: the same comparison *)
Lemma octets_ltb_padded (m: nat) a b : (length a <= m)%nat -> (length b <= m)%nat ->
  octets_ltb a b = bytes_ltb (pad_to m a) (pad_to m b).
Proof.
  intros Ha Hb. unfold octets_ltb. set (n := Nat.max (length a) (length b)).
  change (zero_pad n a) with (pad_to n a). change (zero_pad n b) with (pad_to n b).
  rewrite lex_is_bytes_ltb.
  rewrite (pad_to_more n m a), (pad_to_more n m b) by (subst n; lia).
  symmetry. apply bytes_ltb_app_same. rewrite !pad_to_length by (subst n; lia). reflexivity.
Qed.

Lemma in_max_len (a: bytes) l : In a l -> (length a <= ContainerCodecDefs.max_len l)%nat.
Proof.
  unfold ContainerCodecDefs.max_len. induction l as [|x l IH]; intros H; [contradiction|].
  cbn [fold_right]. destruct H as [->|H]; [lia|]. specialize (IH H). lia.
Qed.

Theorem sort_setof_is_reference es : pad_distinct es -> sort_setof es = sort_with octets_ltb es.
Proof.
  intros Hpd.
  assert (Hgen: sort_by bytes_ltb (pad_to (ContainerCodecDefs.max_len es)) es = sort_with octets_ltb es).
  { set (m := ContainerCodecDefs.max_len es).
    rewrite (sort_with_ext octets_ltb (fun a b => bytes_ltb (pad_to m a) (pad_to m b)) es).
    - symmetry. apply (sort_with_is_sort_by bytes_ltb (pad_to m) bytes_ltb_irrefl bytes_ltb_trans bytes_ltb_negtrans).
      intros x y Hx Hy H1 H2. unfold le_key in H1, H2. apply Hpd; [exact Hx|exact Hy|].
      apply bytes_ltb_tricho; assumption.
    - intros x y Hx Hy. apply octets_ltb_padded; apply in_max_len; assumption. }
  unfold sort_setof. destruct es as [|a [|b r]]; [reflexivity|reflexivity|]. exact Hgen.
Qed.

(* the reference's ordering key (class, number) of a one-tag sort key of the library *)
Definition ref_key (k: tagset) : N * N := match k with [t] => (class_no (tcls t), tnum t) | _ => (0, 0) end.
Definition single (k: tagset) : bool := match k with [_] => true | _ => false end.
Fixpoint pairwise_ord (ks: list tagset) : bool :=
  match ks with
  | [] => true
  | k :: r => forallb (fun k' => tagset_ltb k k' || tagset_ltb k' k) r && pairwise_ord r
  end.

Lemma cls_ltb_no c1 c2 : N.ltb (cls_bits c1) (cls_bits c2) = N.ltb (class_no c1) (class_no c2).
Proof. destruct c1, c2; reflexivity. Qed.
Lemma cls_eqb_no c1 c2 : N.eqb (cls_bits c1) (cls_bits c2) = N.eqb (class_no c1) (class_no c2).
Proof. destruct c1, c2; reflexivity. Qed.

Lemma key_ltb_single a b : single a = true -> single b = true -> key_ltb (ref_key a) (ref_key b) = tagset_ltb a b.
Proof.
  destruct a as [|ta [|? ?]]; try discriminate. destruct b as [|tb [|? ?]]; try discriminate. intros _ _.
  cbn [tagset_ltb]. rewrite Bool.andb_false_r, Bool.orb_false_r.
  unfold key_ltb, ref_key, tag_ltb. cbn [fst snd]. rewrite cls_ltb_no, cls_eqb_no. reflexivity.
Qed.

Lemma pairwise_ties (parts: list (tagset * bytes)) : pairwise_ord (map fst parts) = true ->
  ties_identical tagset_ltb fst parts.
Proof.
  induction parts as [|p r IH]; intros Hp x y Hx Hy H1 H2; [contradiction|].
  cbn [map pairwise_ord] in Hp. apply andb_true_iff in Hp. destruct Hp as [Hall Hr].
  rewrite forallb_forall in Hall. unfold le_key in H1, H2.
  destruct Hx as [<-|Hx]; destruct Hy as [<-|Hy].
  - reflexivity.
  - specialize (Hall (fst y) (in_map fst _ _ Hy)). rewrite H1, H2 in Hall. discriminate Hall.
  - specialize (Hall (fst x) (in_map fst _ _ Hx)). rewrite H1, H2 in Hall. discriminate Hall.
  - apply (IH Hr x y Hx Hy H1 H2).
Qed.

Theorem set_sort_is_reference (parts: list (tagset * bytes)) :
  forallb single (map fst parts) = true -> pairwise_ord (map fst parts) = true ->
  map snd (sort_with (fun a b => key_ltb (fst a) (fst b)) (map (fun p => (ref_key (fst p), snd p)) parts))
  = map snd (sort_by tagset_ltb fst parts).
Proof.
  intros Hs Hp. rewrite sort_with_map. rewrite map_map. cbn [fst snd].
  rewrite (sort_with_ext _ (fun a b : tagset * bytes => tagset_ltb (fst a) (fst b)) parts).
  - rewrite (sort_with_is_sort_by tagset_ltb fst tagset_ltb_irrefl tagset_ltb_trans tagset_ltb_negtrans parts (pairwise_ties parts Hp)).
    apply map_ext. reflexivity.
  - rewrite forallb_forall in Hs. intros x y Hx Hy.
    apply key_ltb_single; apply Hs; apply in_map; assumption.
Qed.

(* CHOICE and ANY as written (not under a tag) *)
Definition bare (T: ty) : bool := match T with TChoice _ | TAny => true | _ => false end.

(* no IMPLICIT tag directly on a CHOICE or an ANY: X.680 31.2.7 turns such a tag into an EXPLICIT one,
   and so does the library (TagSet.tagImplicitly on an empty tag set keeps the tag, the encoder wraps);
   the reference re-tags the chosen alternative instead - see the witnesses at the end *)
Fixpoint imp_ok (T: ty) : bool :=
  match T with
  | TImp _ x => negb (bare x) && imp_ok x
  | TExp _ x => imp_ok x
  | _ => true
  end.

Lemma nonbare_tagset x ts : bare x = false -> tagset_of x = Ok ts -> ts <> [].
Proof. intros Hb Hts ->. destruct (tagset_empty x Hts) as [->|[alts ->]]; discriminate Hb. Qed.

Lemma bare_tagset T : bare T = true -> tagset_of T = Ok [].
Proof. destruct T; try discriminate; reflexivity. Qed.

Lemma imp_ok_tagged : forall T, imp_ok T = true -> imp_tagged T.
Proof.
  induction T; intros H; try exact I; cbn [imp_ok imp_tagged] in *; [|exact (IHT H)].
  apply andb_true_iff in H. destruct H as [Hnb H]. apply Bool.negb_true_iff in Hnb.
  split; [|exact (IHT H)]. intros E. exact (nonbare_tagset T [] Hnb E eq_refl).
Qed.

Lemma tagset_all_cons2 : forall T tsb ts, imp_ok T = true -> tagset_of (base_of T) = Ok tsb ->
  Forall (fun t => tcon t = true) tsb -> tagset_of T = Ok ts -> Forall (fun t => tcon t = true) ts.
Proof. intros T tsb ts Hi. apply tagset_all_cons, imp_ok_tagged, Hi. Qed.

(* an encoding that begins with the identifier octets of the tag, in some form *)
Definition starts_with (t: tag) (b: bytes) : Prop := exists pc rest, b = ident (tcls t) pc (tnum t) ++ rest.

Lemma starts_with_key t b : starts_with t b -> tag_key b = ref_key [t].
Proof. intros (pc & rest & ->). unfold tag_key. rewrite split_ident_ident. reflexivity. Qed.

Lemma ref_frame_starts ts0 l c : starts_with l (ref_frame (ts0 ++ [l]) c).
Proof. rewrite ref_frame_snoc. unfold tlv_tag, tlv. eexists. eexists. reflexivity. Qed.

Lemma chosen_outer_tagged T v : bare T = false -> chosen_outer T v = last_tag (tagset_of' T).
Proof. destruct T; intros H; try discriminate H; reflexivity. Qed.

Lemma last_tag_snoc ts0 l : last_tag (ts0 ++ [l]) = [l].
Proof. unfold last_tag. rewrite rev_app_distr. reflexivity. Qed.

(* finding F24, stated with the reference: the component is present and its distinguished encoding has
   empty contents - an empty SEQUENCE / SET / SEQUENCE OF / SET OF (30 00, 31 00) or a CHOICE whose
   alternative encodes to nothing (an empty ANY) *)
Definition f24_case (T: ty) (v: val) : bool :=
  match base_of T with
  | TSeq _ | TSeqOf _ | TSet _ | TSetOf _ => match der (base_of T) v with Some [_; 0] => true | _ => false end
  | TChoice _ => match der (base_of T) v with Some [] => true | _ => false end
  | _ => false
  end.

(* the library's sort keys of the components of a SET that hold a value *)
Fixpoint present_keys (fs: list (presence * ty)) (vs: list (option val)) : list tagset :=
  match fs with
  | [] => []
  | (p, ft) :: fs' => match ohd vs with
                      | Some x => chosen_outer ft x :: present_keys fs' (otl vs)
                      | None => present_keys fs' (otl vs)
                      end
  end.

(* X.680 27.3: the components of a SET carry distinct tags (an ANY has none to order it by) *)
Definition set_keys_ok (fs: list (presence * ty)) (vs: list (option val)) : bool :=
  forallb single (present_keys fs vs) && pairwise_ord (present_keys fs vs).

(* The domain.  Every type; values of the right kind at every level; and
   - no IMPLICIT tag directly on CHOICE / ANY (imp_ok);
   - mandatory components assigned; OPTIONAL components outside F24; DEFAULT components of simple type;
   - SET: distinct tags among the components present;
   - SET OF: an ANY element (reached through untagged CHOICEs) holds one complete TLV (any_tlv);
   - REAL not in decimal form (der_ref_base). *)
Fixpoint der_all (T: ty) (v: val) {struct T} : bool :=
  match T with
  | TImp _ x => negb (bare x) && der_all x v
  | TExp _ x => der_all x v
  | TSeqOf t => match v with VList xs => forallb (der_all t) xs | _ => false end
  | TSetOf t => match v with VList xs => forallb (fun x => der_all t x && any_tlv t x) xs | _ => false end
  | TSeq fs =>
      match v with
      | VRec vs =>
          (fix go (fs: list (presence * ty)) (vs: list (option val)) : bool :=
             match fs with
             | [] => true
             | (p, ft) :: fs' =>
                 (match p, ohd vs with
                  | Req, None => false
                  | _, None => true
                  | Req, Some x => der_all ft x
                  | Opt, Some x => der_all ft x && negb (f24_case ft x)
                  | Def d, Some x => simple_base (base_of ft) && der_all ft x && der_all ft d
                  end) && go fs' (otl vs)
             end) fs vs
      | _ => false
      end
  | TSet fs =>
      match v with
      | VRec vs =>
          set_keys_ok fs vs &&
          (fix go (fs: list (presence * ty)) (vs: list (option val)) : bool :=
             match fs with
             | [] => true
             | (p, ft) :: fs' =>
                 (match p, ohd vs with
                  | Req, None => false
                  | _, None => true
                  | Req, Some x => der_all ft x
                  | Opt, Some x => der_all ft x && negb (f24_case ft x)
                  | Def d, Some x => simple_base (base_of ft) && der_all ft x && der_all ft d
                  end) && go fs' (otl vs)
             end) fs vs
      | _ => false
      end
  | TChoice alts =>
      match v with
      | VChoice i x =>
          (fix go (l: list ty) (k: nat) : bool :=
             match l, k with
             | a :: _, O => der_all a x
             | _ :: r, S k' => go r k'
             | [], _ => false
             end) alts i
      | _ => false
      end
  | TAny => match v with VAny _ => true | _ => false end
  | _ => der_ref_base T v
  end.

(* the loop inside der_all, under a name: a nested fix cannot be unfolded one component at a time
   (der_all_seq, all_fields_cons hold by reflexivity) *)
Definition all_fields : list (presence * ty) -> list (option val) -> bool :=
  fix go (fs: list (presence * ty)) (vs: list (option val)) : bool :=
    match fs with
    | [] => true
    | (p, ft) :: fs' =>
        (match p, ohd vs with
         | Req, None => false
         | _, None => true
         | Req, Some x => der_all ft x
         | Opt, Some x => der_all ft x && negb (f24_case ft x)
         | Def d, Some x => simple_base (base_of ft) && der_all ft x && der_all ft d
         end) && go fs' (otl vs)
    end.

Lemma der_all_seq fs vs : der_all (TSeq fs) (VRec vs) = all_fields fs vs.
Proof. reflexivity. Qed.
Lemma der_all_set fs vs : der_all (TSet fs) (VRec vs) = set_keys_ok fs vs && all_fields fs vs.
Proof. reflexivity. Qed.
Lemma all_fields_cons p ft fs' vs :
  all_fields ((p, ft) :: fs') vs =
  (match p, ohd vs with
   | Req, None => false
   | _, None => true
   | Req, Some x => der_all ft x
   | Opt, Some x => der_all ft x && negb (f24_case ft x)
   | Def d, Some x => simple_base (base_of ft) && der_all ft x && der_all ft d
   end) && all_fields fs' (otl vs).
Proof. reflexivity. Qed.

Lemma der_all_choice alts i x :
  der_all (TChoice alts) (VChoice i x) = match nth_error alts i with Some a => der_all a x | None => false end.
Proof. exact (nth_loop (fun a => der_all a x) false alts i). Qed.

Lemma canon_choice cer alts i x :
  canon cer (TChoice alts) (VChoice i x) = match nth_error alts i with Some a => canon cer a x | None => None end.
Proof. exact (nth_loop (fun a => canon cer a x) None alts i). Qed.

Lemma der_all_base : forall T v, der_all T v = imp_ok T && der_all (base_of T) v.
Proof.
  induction T as [| | | | | | | | n|fs IH|fs IH|t IH|t IH|alts IH| |tg x IH|tg x IH] using ty_ind'; intros v; try reflexivity.
  - cbn [der_all imp_ok base_of]. rewrite IH, Bool.andb_assoc. reflexivity.
  - cbn [der_all imp_ok base_of]. apply IH.
Qed.

Lemma der_all_simple T v : simple_base (base_of T) = true -> der_all (base_of T) v = der_ref_base (base_of T) v.
Proof. intros Hs. destruct (base_of T); try discriminate Hs; reflexivity. Qed.

(* DEFAULT (11.5): on values of a simple type Python == decides the reference's comparison *)
Lemma all_py_eq_is_default ft x d q : simple_base (base_of ft) = true ->
  der_all ft x = true -> der_all ft d = true -> val_py_eq x d = Some q -> is_default ft x d = q.
Proof.
  intros Hs Hx Hd. rewrite der_all_base in Hx, Hd. apply andb_true_iff in Hx, Hd.
  apply (py_eq_is_default ft x d q Hs); rewrite (deep_simple ft _ Hs); unfold der_ref_val;
    rewrite <- (der_all_simple ft _ Hs); tauto.
Qed.

Lemma f24_case_base T v : f24_case T v = f24_case (base_of T) v.
Proof. unfold f24_case. rewrite base_of_idem. reflexivity. Qed.

Lemma canon_setof cer t xs :
  canon cer (TSetOf t) (VList xs) =
  opt_bind (opt_all (map (canon cer t) xs)) (fun es => Some (ctlv cer Univ 17 (concat (sort_with octets_ltb es)))).
Proof.
  cbn [canon].
  match goal with |- opt_bind (opt_all ?a) _ = _ => assert (E: a = map (canon cer t) xs) end.
  { induction xs as [|x r IH]; [reflexivity|]. cbn [map]. rewrite <- IH. reflexivity. }
  rewrite E. reflexivity.
Qed.

(* the SET loop of the reference: (ordering key, encoding) of every component present *)
Definition canon_set_fields (cer: bool) : list (presence * ty) -> list (option val) -> option (list ((N * N) * bytes)) :=
  fix go (fs: list (presence * ty)) (vs: list (option val)) : option (list ((N * N) * bytes)) :=
    match fs with
    | [] => Some []
    | (p, ft) :: fs' =>
        let ov := match vs with x :: _ => x | [] => None end in
        let vs' := match vs with _ :: r => r | [] => [] end in
        let emit (x: val) :=
          opt_bind (canon cer ft x) (fun e =>
          opt_bind (go fs' vs') (fun r =>
            Some (((if cer then min_first_tag ft else tag_key e), e) :: r))) in
        match p, ov with
        | Req, None => None
        | Opt, None | Def _, None => go fs' vs'
        | Def d, Some x => if is_default ft x d then go fs' vs' else emit x
        | _, Some x => emit x
        end
    end.

Lemma canon_set cer fs vs :
  canon cer (TSet fs) (VRec vs) =
  opt_bind (canon_set_fields cer fs vs)
    (fun es => Some (ctlv cer Univ 17 (concat (map snd (sort_with (fun a b => key_ltb (fst a) (fst b)) es))))).
Proof. reflexivity. Qed.

Lemma canon_set_fields_cons cer p ft fs' vs :
  canon_set_fields cer ((p, ft) :: fs') vs =
  let emit (x: val) :=
    opt_bind (canon cer ft x) (fun e =>
    opt_bind (canon_set_fields cer fs' (otl vs)) (fun r =>
      Some (((if cer then min_first_tag ft else tag_key e), e) :: r))) in
  match p, ohd vs with
  | Req, None => None
  | Opt, None | Def _, None => canon_set_fields cer fs' (otl vs)
  | Def d, Some x => if is_default ft x d then canon_set_fields cer fs' (otl vs) else emit x
  | _, Some x => emit x
  end.
Proof. reflexivity. Qed.

(* under DER the SET loop is the SEQUENCE loop with the tag of each encoding read back *)
Lemma canon_set_fields_der : forall fs vs,
  canon_set_fields false fs vs = option_map (map (fun e => (tag_key e, e))) (canon_fields false fs vs).
Proof.
  induction fs as [|[p ft] fs' IH]; intros vs; [reflexivity|].
  rewrite canon_set_fields_cons, canon_fields_cons. cbv zeta.
  assert (Hemit: forall x,
    opt_bind (canon false ft x) (fun e => opt_bind (canon_set_fields false fs' (otl vs)) (fun r => Some ((tag_key e, e) :: r)))
    = option_map (map (fun e => (tag_key e, e)))
        (opt_bind (canon false ft x) (fun e => opt_bind (canon_fields false fs' (otl vs)) (fun r => Some (e :: r))))).
  { intros x. destruct (canon false ft x) as [e|]; [|reflexivity]. cbn [opt_bind]. rewrite IH.
    destruct (canon_fields false fs' (otl vs)); reflexivity. }
  destruct p as [| |d]; destruct (ohd vs) as [x|]; try apply IH; try apply Hemit; try reflexivity.
  destruct (is_default ft x d); [apply IH|apply Hemit].
Qed.

(* the encoding begins with the tag the library sorts a SET component by *)
Definition starts_key (T: ty) (v: val) (b: bytes) : Prop := forall t, chosen_outer T v = [t] -> starts_with t b.

(* P speaks of the item, under the tags of T and with the ifNotEmpty flag i the enclosing SEQUENCE / SET
   passes; Q of the contents octets of the base type, given the concrete encoder: the tag set of the base,
   constructed contents over constructed tags, empty constructed contents only in the case of F24, the
   reference's encoding of the base, and (for CHOICE and ANY, which add no tag) the leading identifier. *)
Definition Psound (T: ty) : Prop := forall i v b,
  der_all T v = true -> (i = false \/ f24_case T v = false) ->
  enc DER T (mkOpts true 0 i) v = Ok b -> der T v = Some b /\ starts_key T v b.

Definition Qsound (T: ty) : Prop := forall v cd fl content ic,
  der_all (base_of T) v = true -> concrete_encoder DER (base_of T) = Ok (cd, fl) ->
  enc_content DER (base_of T) cd fl def_opts v = Ok (content, ic) ->
  exists tsb, tagset_of (base_of T) = Ok tsb /\ (ic = true -> Forall (fun t => tcon t = true) tsb) /\
     (ic = true -> content = [] -> f24_case (base_of T) v = true) /\
     canon false (base_of T) v = Some (ref_frame tsb content) /\ (tsb = [] -> starts_key (base_of T) v content).

Lemma empty_tagset_bare T : tagset_of T = Ok [] -> bare T = true.
Proof.
  intros H. destruct (bare T) eqn:E; [reflexivity|]. exfalso. exact (nonbare_tagset T [] E H eq_refl).
Qed.

Lemma bare_base T : bare T = true -> base_of T = T.
Proof. destruct T; try discriminate; reflexivity. Qed.

Theorem P_of_Q T : Qsound T -> Psound T.
Proof.
  intros HQ i v b Hd Hi He. rewrite der_all_base in Hd. apply andb_true_iff in Hd. destruct Hd as [Himp Hdb].
  apply imp_ok_tagged in Himp.
  destruct (enc_der_inv T i v b He) as (cd & fl & ts & content & ic & Ece & Ets & Ec & Hfr).
  destruct (HQ v cd fl content ic Hdb Ece Ec) as (tsb & Htsb & Hcons & Hf24 & Hcan & Hkey).
  pose proof (canon_wrappers T v content tsb Himp Htsb Hcan ts Ets) as Hcanon.
  destruct (frame_item T ts tsb content ic i (ef_indef fl) Himp Ets Htsb Hcons) as [Ef Hforms].
  { intros -> ->. destruct Hi as [Hi|Hi]; [exact Hi|]. rewrite f24_case_base, (Hf24 eq_refl eq_refl) in Hi. discriminate Hi. }
  rewrite Ef in Hfr. apply (frame_is_ref ts content ic def_opts (ef_indef fl) b eq_refl eq_refl Hforms) in Hfr.
  subst b. split; [exact Hcanon|].
  intros t Hco. destruct ts as [|t1 r1].
  - pose proof (empty_tagset_bare T Ets) as Hbare. rewrite (bare_base T Hbare) in *.
    rewrite Ets in Htsb. injection Htsb as <-. apply (Hkey eq_refl t Hco).
  - destruct (@exists_last _ (t1 :: r1)) as (ts0 & l & E); [discriminate|]. rewrite E in *.
    assert (Hnb: bare T = false).
    { destruct (bare T) eqn:Eb; [|reflexivity]. rewrite (bare_tagset T Eb) in Ets. injection Ets as Ets.
      symmetry in Ets. apply app_eq_nil in Ets. destruct Ets as [_ Ets]. discriminate Ets. }
    rewrite (chosen_outer_tagged T v Hnb) in Hco. unfold tagset_of' in Hco. rewrite Ets, last_tag_snoc in Hco.
    injection Hco as <-. apply ref_frame_starts.
Qed.

(* On the domain the encoder's record loop and the reference's take the same step at a component: both
   leave it out, or both write the value it holds; the encoder alone stops where Python's == on the
   DEFAULT is not modelled *)
Lemma all_fields_step cd p ft fs' vs : all_fields ((p, ft) :: fs') vs = true ->
  all_fields fs' (otl vs) = true /\
  ((enc_rec_fields_g DER cd true def_opts ((p, ft) :: fs') vs = enc_rec_fields_g DER cd true def_opts fs' (otl vs) /\
    canon_fields false ((p, ft) :: fs') vs = canon_fields false fs' (otl vs) /\
    (present_keys ((p, ft) :: fs') vs = present_keys fs' (otl vs) \/
     exists k, present_keys ((p, ft) :: fs') vs = k :: present_keys fs' (otl vs))) \/
   (exists i x, ohd vs = Some x /\ der_all ft x = true /\ (i = false \/ f24_case ft x = false) /\
      enc_rec_fields_g DER cd true def_opts ((p, ft) :: fs') vs =
        (do b <- enc DER ft (mkOpts true 0 i) x; do rest <- enc_rec_fields_g DER cd true def_opts fs' (otl vs);
         Ok ((set_sort_key (match cd with EcSetDer => true | _ => false end) ft x, b) :: rest)) /\
      canon_fields false ((p, ft) :: fs') vs =
        opt_bind (canon false ft x) (fun e => opt_bind (canon_fields false fs' (otl vs)) (fun r => Some (e :: r))) /\
      present_keys ((p, ft) :: fs') vs = chosen_outer ft x :: present_keys fs' (otl vs)) \/
   (exists d x, p = Def d /\ ohd vs = Some x /\ val_py_eq x d = None /\
      enc_rec_fields_g DER cd true def_opts ((p, ft) :: fs') vs = Err EUnmodelled)).
Proof.
  rewrite all_fields_cons, enc_rec_fields_g_cons, canon_fields_cons. cbn [present_keys]. cbv zeta.
  intros H. apply andb_true_iff in H. destruct H as [H1 H2]. split; [exact H2|].
  destruct p as [| |d]; destruct (ohd vs) as [x|].
  - right; left. exists false, x. auto 8.
  - discriminate H1.
  - apply andb_true_iff in H1. destruct H1 as [Hx Hf]. apply Bool.negb_true_iff in Hf.
    right; left. exists true, x. auto 8.
  - left. auto.
  - apply andb_true_iff in H1. destruct H1 as [H1 Hdd]. apply andb_true_iff in H1. destruct H1 as [Hs Hx].
    destruct (val_py_eq x d) as [[|]|] eqn:Eq.
    + rewrite (all_py_eq_is_default ft x d true Hs Hx Hdd Eq). left. eauto.
    + rewrite (all_py_eq_is_default ft x d false Hs Hx Hdd Eq). right; left. exists false, x. auto 8.
    + right; right. exists d, x. auto.
  - left. auto.
Qed.

Lemma fields_sound cd : forall fs, Forall (fun f => Psound (snd f)) fs ->
  forall vs parts, all_fields fs vs = true -> enc_rec_fields_g DER cd true def_opts fs vs = Ok parts ->
  canon_fields false fs vs = Some (map snd parts) /\
  (cd = EcSetDer -> Forall (fun p => forall t, fst p = [t] -> starts_with t (snd p)) parts).
Proof.
  induction fs as [|[p ft] fs' IH]; intros Hall vs parts Hd Hp.
  - cbn in Hp. injection Hp as <-. split; [reflexivity|intros _; constructor].
  - inversion Hall as [|? ? Hft Hall']; subst. cbn [snd] in Hft. specialize (IH Hall').
    destruct (all_fields_step cd p ft fs' vs Hd) as [Hd2 [(E1 & E2 & _)|[(i & x & _ & Hx & Hi & E1 & E2 & _)|(d & x & _ & _ & _ & E1)]]];
      rewrite E1 in Hp; [rewrite E2; apply IH; assumption| |discriminate Hp].
    destruct (enc DER ft (mkOpts true 0 i) x) as [b0|] eqn:Eb; cbn [bind] in Hp; [|discriminate Hp].
    destruct (enc_rec_fields_g DER cd true def_opts fs' (otl vs)) as [rest|] eqn:Er; cbn [bind] in Hp; [|discriminate Hp].
    injection Hp as <-.
    destruct (Hft i x b0 Hx Hi Eb) as [Hc Hk]. unfold der in Hc.
    destruct (IH (otl vs) rest Hd2 Er) as [IH1 IH2].
    split; [rewrite E2, Hc, IH1; reflexivity|].
    intros ->. constructor; [|apply IH2; reflexivity]. cbn [fst snd set_sort_key]. exact Hk.
Qed.

(* the library's keys of the parts written are among the keys of the components present, in order *)
Lemma written_keys : forall fs vs parts, all_fields fs vs = true -> enc_rec_fields_g DER EcSetDer true def_opts fs vs = Ok parts ->
  (forall Q, forallb Q (present_keys fs vs) = true -> forallb Q (map fst parts) = true) /\
  (pairwise_ord (present_keys fs vs) = true -> pairwise_ord (map fst parts) = true).
Proof.
  induction fs as [|[p ft] fs' IH]; intros vs parts Hd Hp.
  - cbn in Hp. injection Hp as <-. split; [intros Q _; reflexivity|intros _; reflexivity].
  - destruct (all_fields_step EcSetDer p ft fs' vs Hd) as [Hd2 [(E1 & _ & Ek)|[(i & x & _ & _ & _ & E1 & _ & Ek)|(d & x & _ & _ & _ & E1)]]];
      rewrite E1 in Hp; [| |discriminate Hp].
    + destruct (IH (otl vs) parts Hd2 Hp) as [IH1 IH2]. destruct Ek as [->|[k ->]]; [split; assumption|]. split.
      * intros Q HQ. cbn [forallb] in HQ. apply andb_true_iff in HQ. apply IH1. tauto.
      * intros HP. cbn [pairwise_ord] in HP. apply andb_true_iff in HP. apply IH2. tauto.
    + destruct (enc DER ft (mkOpts true 0 i) x) as [b0|]; cbn [bind] in Hp; [|discriminate Hp].
      destruct (enc_rec_fields_g DER EcSetDer true def_opts fs' (otl vs)) as [rest|] eqn:Er; cbn [bind] in Hp; [|discriminate Hp].
      injection Hp as <-. destruct (IH (otl vs) rest Hd2 Er) as [IH1 IH2].
      rewrite Ek. cbn [map fst set_sort_key]. split.
      * intros Q HQ. cbn [forallb] in *. apply andb_true_iff in HQ. destruct HQ as [H1 H2]. rewrite H1, (IH1 Q H2). reflexivity.
      * intros HP. cbn [pairwise_ord] in *. apply andb_true_iff in HP. destruct HP as [H1 H2].
        rewrite (IH1 _ H1), (IH2 H2). reflexivity.
Qed.

(* the reference's loop over the elements of a SEQUENCE OF / SET OF is pointwise, like the encoder's
   (EncUnfold.enc_elems_g_Forall2) *)
Lemma opt_all_F2 {X A} (g: X -> option A) : forall xs es,
  opt_all (map g xs) = Some es <-> Forall2 (fun x e => g x = Some e) xs es.
Proof.
  induction xs as [|x xs IH]; intros es; cbn [map]; split; intros H.
  - injection H as <-. constructor.
  - inversion H. reflexivity.
  - destruct (g x) as [e|] eqn:E; cbn [opt_all] in H; [|discriminate H].
    destruct (opt_all (map g xs)) as [es'|] eqn:Er; cbn [opt_bind] in H; [|discriminate H].
    injection H as <-. constructor; [exact E|apply IH; reflexivity].
  - inversion H as [|? e ? es' He Hes]; subst. rewrite He. cbn [opt_all]. apply IH in Hes. rewrite Hes. reflexivity.
Qed.

Lemma elems_sound t : Psound t ->
  forall xs parts, forallb (der_all t) xs = true -> enc_elems_g DER t def_opts xs = Ok parts ->
  opt_all (map (canon false t) xs) = Some parts.
Proof.
  intros Ht xs parts Hd Hp. apply opt_all_F2. apply enc_elems_g_Forall2 in Hp. rewrite forallb_forall in Hd.
  induction Hp as [|x p xs ps Hx _ IH]; constructor.
  - exact (proj1 (Ht false x p (Hd x (or_introl eq_refl)) (or_introl eq_refl) Hx)).
  - apply IH. intros y Hy. apply Hd. right. exact Hy.
Qed.

Lemma elems_tlv t : forall xs parts, forallb (any_tlv t) xs = true -> enc_elems_g DER t def_opts xs = Ok parts ->
  Forall (fun p => tlvb p = true) parts.
Proof.
  intros xs parts Hd Hp. apply enc_elems_g_Forall2 in Hp. rewrite forallb_forall in Hd.
  induction Hp as [|x p xs ps Hx _ IH]; constructor.
  - exact (encw_tlv DER der_fix t def_opts x p eq_refl eq_refl (Hd x (or_introl eq_refl)) Hx).
  - apply IH. intros y Hy. apply Hd. right. exact Hy.
Qed.

Lemma forallb_and {X} (f g: X -> bool) l : forallb (fun x => f x && g x) l = true -> forallb f l = true /\ forallb g l = true.
Proof.
  induction l as [|x l IH]; [split; reflexivity|]. cbn [forallb]. intros H.
  apply andb_true_iff in H. destruct H as [H1 H2]. apply andb_true_iff in H1. destruct (IH H2) as [A B].
  destruct H1 as [F G]. rewrite F, G, A, B. split; reflexivity.
Qed.

Lemma empty_cons16 : ref_frame [utag true 16] [] = [48; 0]. Proof. reflexivity. Qed.
Lemma empty_cons17 : ref_frame [utag true 17] [] = [49; 0]. Proof. reflexivity. Qed.

Theorem Qsound_all : forall T, Qsound T.
Proof.
  induction T as [| | | | | | | | n|fs IH|fs IH|t IH|t IH|alts IH| |tg x IH|tg x IH] using ty_ind'.
  16: { (* IMPLICIT: Q is about base_of T *) exact IH. }
  16: { (* EXPLICIT *) exact IH. }
  all: intros v cd fl content ic Hd Hce He; cbn [base_of] in *.
  (* the simple types *)
  all: try (cbn [der_all] in Hd;
            match goal with |- exists tsb, tagset_of ?B = _ /\ _ =>
              destruct (der_contents_sound B v cd fl content ic Hd Hce He) as [-> Hrc];
              destruct (canon_simple B v eq_refl) as [Htb Hcb]; rewrite Hrc in Hcb;
              exists [base_tag B]; split; [exact Htb|split; [discriminate|split; [discriminate|split; [exact Hcb|discriminate]]]]
            end).
  - (* SEQUENCE *)
    destruct v as [bb|z|bs|bo|cs| |arcs|r|vs|xs|i x|ab]; try discriminate Hd.
    rewrite der_all_seq in Hd. encoder_is Hce. rewrite enc_content_seq_g in He. cbn [omit_empty ef_omit_empty record_finish] in He.
    destruct (enc_rec_fields_g DER EcSeq true def_opts fs vs) as [parts|] eqn:Ep; cbn [bind] in He; [|discriminate He].
    injection He as <- <-.
    pose proof (Forall_impl _ (fun f => P_of_Q (snd f)) IH) as HP.
    destruct (fields_sound EcSeq fs HP vs parts Hd Ep) as [Hc _].
    assert (Hcan: canon false (TSeq fs) (VRec vs) = Some (ref_frame [utag true 16] (concat (map snd parts)))).
    { rewrite canon_seq, Hc. reflexivity. }
    exists [utag true 16]. split; [reflexivity|split; [intros _; constructor; [reflexivity|constructor]|split; [|split; [exact Hcan|discriminate]]]].
    intros _ E. unfold f24_case, der. cbn [base_of]. rewrite Hcan, E. reflexivity.
  - (* SET *)
    destruct v as [bb|z|bs|bo|cs| |arcs|r|vs|xs|i x|ab]; try discriminate Hd.
    rewrite der_all_set in Hd. apply andb_true_iff in Hd. destruct Hd as [Hk Hd].
    unfold set_keys_ok in Hk. apply andb_true_iff in Hk. destruct Hk as [Hk1 Hk2].
    encoder_is Hce. rewrite enc_content_set_g in He. cbn [omit_empty record_finish] in He.
    destruct (enc_rec_fields_g DER EcSetDer true def_opts fs vs) as [parts|] eqn:Ep; cbn [bind] in He; [|discriminate He].
    injection He as <- <-.
    pose proof (Forall_impl _ (fun f => P_of_Q (snd f)) IH) as HP.
    destruct (fields_sound EcSetDer fs HP vs parts Hd Ep) as [Hc Hst]. specialize (Hst eq_refl).
    destruct (written_keys fs vs parts Hd Ep) as [Hq1 Hq2].
    pose proof (Hq1 single Hk1) as Hsing. pose proof (Hq2 Hk2) as Hord.
    assert (Hes: canon_set_fields false fs vs = Some (map (fun p => (ref_key (fst p), snd p)) parts)).
    { rewrite canon_set_fields_der, Hc. cbn [option_map]. rewrite map_map. f_equal.
      apply map_ext_in. intros p Hin. f_equal.
      rewrite Forall_forall in Hst. rewrite forallb_forall in Hsing.
      pose proof (Hsing (fst p) (in_map fst _ _ Hin)) as Hs1.
      destruct (fst p) as [|tp [|? ?]] eqn:Ef; try discriminate Hs1.
      apply starts_with_key. apply (Hst p Hin tp Ef). }
    assert (Hcan: canon false (TSet fs) (VRec vs)
                  = Some (ref_frame [utag true 17] (concat (map snd (sort_by tagset_ltb fst parts))))).
    { rewrite canon_set, Hes. cbn [opt_bind]. rewrite (set_sort_is_reference parts Hsing Hord). reflexivity. }
    exists [utag true 17]. split; [reflexivity|split; [intros _; constructor; [reflexivity|constructor]|split; [|split; [exact Hcan|discriminate]]]].
    intros _ E. unfold f24_case, der. cbn [base_of]. rewrite Hcan, E. reflexivity.
  - (* SEQUENCE OF *)
    destruct v as [bb|z|bs|bo|cs| |arcs|r|vs|xs|i x|ab]; try discriminate Hd. cbn [der_all] in Hd.
    encoder_is Hce. rewrite enc_content_seqof_g in He. cbn [listof_finish] in He.
    destruct (enc_elems_g DER t def_opts xs) as [parts|] eqn:Ep; cbn [bind] in He; [|discriminate He].
    injection He as <- <-.
    assert (Hcan: canon false (TSeqOf t) (VList xs) = Some (ref_frame [utag true 16] (concat parts))).
    { rewrite canon_seqof, (elems_sound t (P_of_Q t IH) xs parts Hd Ep). reflexivity. }
    exists [utag true 16]. split; [reflexivity|split; [intros _; constructor; [reflexivity|constructor]|split; [|split; [exact Hcan|discriminate]]]].
    intros _ E. unfold f24_case, der. cbn [base_of]. rewrite Hcan, E. reflexivity.
  - (* SET OF *)
    destruct v as [bb|z|bs|bo|cs| |arcs|r|vs|xs|i x|ab]; try discriminate Hd. cbn [der_all] in Hd.
    destruct (forallb_and _ _ _ Hd) as [Hd1 Hd2].
    encoder_is Hce. rewrite enc_content_setof_g in He. cbn [listof_finish] in He.
    destruct (enc_elems_g DER t def_opts xs) as [parts|] eqn:Ep; cbn [bind] in He; [|discriminate He].
    injection He as <- <-.
    assert (Hcan: canon false (TSetOf t) (VList xs) = Some (ref_frame [utag true 17] (concat (sort_setof parts)))).
    { rewrite canon_setof, (elems_sound t (P_of_Q t IH) xs parts Hd1 Ep). cbn [opt_bind].
      rewrite (sort_setof_is_reference parts (tlv_pad_distinct parts (elems_tlv t xs parts Hd2 Ep))). reflexivity. }
    exists [utag true 17]. split; [reflexivity|split; [intros _; constructor; [reflexivity|constructor]|split; [|split; [exact Hcan|discriminate]]]].
    intros _ E. unfold f24_case, der. cbn [base_of]. rewrite Hcan, E. reflexivity.
  - (* CHOICE *)
    destruct v as [bb|z|bs|bo|cs| |arcs|r|vs|xs|i x|ab]; try discriminate Hd.
    rewrite der_all_choice in Hd. encoder_is Hce. rewrite enc_content_choice_g in He.
    destruct (nth_error alts i) as [a|] eqn:Ea; [|discriminate Hd].
    destruct (enc DER a def_opts x) as [p|] eqn:Ep; cbn [bind] in He; [|discriminate He].
    injection He as <- <-.
    rewrite Forall_forall in IH. pose proof (P_of_Q a (IH a (nth_error_In _ _ Ea))) as Pa.
    destruct (Pa false x p Hd (or_introl eq_refl) Ep) as [Hc Hk]. unfold der in Hc.
    assert (Hcan: canon false (TChoice alts) (VChoice i x) = Some p) by (rewrite canon_choice, Ea; exact Hc).
    exists []. split; [reflexivity|split; [intros _; constructor|split; [|split; [exact Hcan|]]]].
    + intros _ E. unfold f24_case, der. cbn [base_of]. rewrite Hcan, E. reflexivity.
    + intros _ t0 Hco. rewrite chosen_outer_choice, Ea in Hco. apply (Hk t0 Hco).
  - (* ANY *)
    destruct v as [bb|z|bs|bo|cs| |arcs|r|vs|xs|i x|ab]; try discriminate Hd.
    encoder_is Hce. cbn [enc_content octets_of o_def def_opts negb] in He. injection He as <- <-.
    exists []. split; [reflexivity|split; [discriminate|split; [discriminate|split; [reflexivity|]]]].
    intros _ t0 Hco. discriminate Hco.
Qed.

Theorem der_is_reference_all : forall T v b,
  der_all T v = true -> encode DER true 0 T v = Ok b -> X690.der T v = Some b.
Proof.
  intros T v b Hd He.
  exact (proj1 (P_of_Q T (Qsound_all T) false v b Hd (or_introl eq_refl) He)).
Qed.

(* on top of der_all: the two refusals of the library at the leaves (a REAL exponent of more than 255
   octets; UTCTime / GeneralizedTime text it vets), and DEFAULT comparisons the model can make *)
Fixpoint all_extra (T: ty) (v: val) {struct T} : bool :=
  match T with
  | TImp _ x | TExp _ x => all_extra x v
  | TSeqOf t | TSetOf t => match v with VList xs => forallb (all_extra t) xs | _ => true end
  | TSeq fs | TSet fs =>
      match v with
      | VRec vs =>
          (fix go (fs: list (presence * ty)) (vs: list (option val)) : bool :=
             match fs with
             | [] => true
             | (p, ft) :: fs' =>
                 (match p, ohd vs with
                  | _, None => true
                  | Def d, Some x => all_extra ft x && match val_py_eq x d with Some _ => true | None => false end
                  | _, Some x => all_extra ft x
                  end) && go fs' (otl vs)
             end) fs vs
      | _ => true
      end
  | TChoice alts =>
      match v with
      | VChoice i x =>
          (fix go (l: list ty) (k: nat) : bool :=
             match l, k with
             | a :: _, O => all_extra a x
             | _ :: r, S k' => go r k'
             | [], _ => true
             end) alts i
      | _ => true
      end
  | TAny => true
  | _ => exact_extra T v
  end.

Definition xfields : list (presence * ty) -> list (option val) -> bool :=
  fix go (fs: list (presence * ty)) (vs: list (option val)) : bool :=
    match fs with
    | [] => true
    | (p, ft) :: fs' =>
        (match p, ohd vs with
         | _, None => true
         | Def d, Some x => all_extra ft x && match val_py_eq x d with Some _ => true | None => false end
         | _, Some x => all_extra ft x
         end) && go fs' (otl vs)
    end.

Lemma all_extra_seq fs vs : all_extra (TSeq fs) (VRec vs) = xfields fs vs. Proof. reflexivity. Qed.
Lemma all_extra_set fs vs : all_extra (TSet fs) (VRec vs) = xfields fs vs. Proof. reflexivity. Qed.
Lemma xfields_cons p ft fs' vs :
  xfields ((p, ft) :: fs') vs =
  (match p, ohd vs with
   | _, None => true
   | Def d, Some x => all_extra ft x && match val_py_eq x d with Some _ => true | None => false end
   | _, Some x => all_extra ft x
   end) && xfields fs' (otl vs).
Proof. reflexivity. Qed.

Lemma all_extra_choice alts i x :
  all_extra (TChoice alts) (VChoice i x) = match nth_error alts i with Some a => all_extra a x | None => true end.
Proof. exact (nth_loop (fun a => all_extra a x) true alts i). Qed.

Lemma all_extra_base : forall T v, all_extra T v = all_extra (base_of T) v.
Proof.
  induction T as [| | | | | | | | n|fs IH|fs IH|t IH|t IH|alts IH| |tg x IH|tg x IH] using ty_ind'; intros v; try reflexivity.
  - cbn [all_extra base_of]. apply IH.
  - cbn [all_extra base_of]. apply IH.
Qed.

Definition der_exact_all (T: ty) (v: val) : bool := der_all T v && all_extra T v.

(* the other direction, with the same two levels: from an encoding by the reference to the encoder's answer *)
Definition Pcomp (T: ty) : Prop := forall i v b,
  der_all T v = true -> all_extra T v = true -> (i = false \/ f24_case T v = false) ->
  der T v = Some b -> N.of_nat (length b) < max_len -> enc DER T (mkOpts true 0 i) v = Ok b.

Definition Qcomp (T: ty) : Prop := forall v e,
  der_all (base_of T) v = true -> all_extra (base_of T) v = true -> canon false (base_of T) v = Some e ->
  exists tsb c cd fl ic,
    tagset_of (base_of T) = Ok tsb /\ e = ref_frame tsb c /\ concrete_encoder DER (base_of T) = Ok (cd, fl) /\
    (N.of_nat (length c) < max_len -> enc_content DER (base_of T) cd fl def_opts v = Ok (c, ic)).

(* that constructed contents come over constructed tags, and are empty only in the case of F24, is known
   from the soundness half once the encoder has answered *)
Theorem Pcomp_of_Q T : Qsound T -> Qcomp T -> Pcomp T.
Proof.
  intros HS HQ i v b Hd Hx Hi Hr Hlen.
  rewrite der_all_base in Hd. apply andb_true_iff in Hd. destruct Hd as [Himp Hdb]. rewrite all_extra_base in Hx.
  destruct (canon false (base_of T) v) as [e|] eqn:Eb;
    [|unfold der in Hr; rewrite (canon_wrappers_none false T v Eb) in Hr; discriminate Hr].
  destruct (HQ v e Hdb Hx Eb) as (tsb & c & cd & fl & ic & Htsb & -> & Hce & Henc).
  apply (item_complete T i v b tsb c cd fl ic (imp_ok_tagged T Himp) Htsb Eb Hce); [|exact Hr|exact Hlen].
  intros Hc. specialize (Henc Hc). split; [exact Henc|].
  destruct (HS v cd fl c ic Hdb Hce Henc) as (tsb' & Htsb' & Hcons & Hf24 & _).
  rewrite Htsb in Htsb'. injection Htsb' as <-. split; [exact Hcons|].
  intros -> ->. destruct Hi as [Hi|Hi]; [exact Hi|]. rewrite f24_case_base, (Hf24 eq_refl eq_refl) in Hi. discriminate Hi.
Qed.

Lemma elems_complete t : Pcomp t ->
  forall xs es, forallb (der_all t) xs = true -> forallb (all_extra t) xs = true ->
  opt_all (map (canon false t) xs) = Some es -> N.of_nat (length (concat es)) < max_len ->
  enc_elems_g DER t def_opts xs = Ok es.
Proof.
  intros Ht xs es Hd Hx Hc. apply opt_all_F2 in Hc. rewrite forallb_forall in Hd, Hx.
  intros Hlen. apply enc_elems_g_Forall2. revert Hlen.
  induction Hc as [|x e xs es He _ IH]; intros Hlen; constructor; destruct (concat_length_head e es) as [L1 L2].
  - apply (Ht false x e (Hd x (or_introl eq_refl)) (Hx x (or_introl eq_refl)) (or_introl eq_refl) He). lia.
  - apply IH; [intros y Hy; apply Hd; right; exact Hy|intros y Hy; apply Hx; right; exact Hy|lia].
Qed.

Lemma fields_complete cd : forall fs, Forall (fun f => Pcomp (snd f)) fs ->
  forall vs es, all_fields fs vs = true -> xfields fs vs = true ->
  canon_fields false fs vs = Some es -> N.of_nat (length (concat es)) < max_len ->
  exists parts, enc_rec_fields_g DER cd true def_opts fs vs = Ok parts /\ map snd parts = es.
Proof.
  induction fs as [|[p ft] fs' IH]; intros Hall vs es Hd Hx Hc Hlen.
  - cbn in Hc. injection Hc as <-. exists []. split; reflexivity.
  - inversion Hall as [|? ? Hft Hall']; subst. cbn [snd] in Hft. specialize (IH Hall').
    rewrite xfields_cons in Hx. apply andb_true_iff in Hx. destruct Hx as [Hx1 Hx2].
    destruct (all_fields_step cd p ft fs' vs Hd) as [Hd2 [(E1 & E2 & _)|[(i & x & Ex & Hdx & Hi & E1 & E2 & _)|(d & x & -> & Ex & Eq & _)]]];
      rewrite ?E1; rewrite ?E2 in Hc; rewrite ?Ex in Hx1.
    + apply IH; assumption.
    + assert (Hxx: all_extra ft x = true) by (destruct p; try exact Hx1; apply andb_true_iff in Hx1; tauto).
      destruct (canon false ft x) as [e0|] eqn:E0; cbn [opt_bind] in Hc; [|discriminate Hc].
      destruct (canon_fields false fs' (otl vs)) as [es'|] eqn:Er; cbn [opt_bind] in Hc; [|discriminate Hc].
      injection Hc as <-. destruct (concat_length_head e0 es') as [L1 L2].
      rewrite (Hft i x e0 Hdx Hxx Hi E0) by lia. cbn [bind].
      destruct (IH (otl vs) es' Hd2 Hx2 Er) as (rest & Hrest & Hmap); [lia|].
      rewrite Hrest. cbn [bind]. eexists. split; [reflexivity|]. cbn [map snd]. rewrite Hmap. reflexivity.
    + rewrite Eq, Bool.andb_false_r in Hx1. discriminate Hx1.
Qed.

Lemma Psound_all T : Psound T. Proof. apply P_of_Q. apply Qsound_all. Qed.

Theorem Qcomp_all : forall T, Qcomp T.
Proof.
  induction T as [| | | | | | | | n|fs IH|fs IH|t IH|t IH|alts IH| |tg x IH|tg x IH] using ty_ind'.
  16: { (* IMPLICIT: Q is about base_of T *) exact IH. }
  16: { (* EXPLICIT *) exact IH. }
  all: intros v e Hd Hx Hc; cbn [base_of] in *.
  (* the simple types *)
  all: try (cbn [der_all all_extra] in Hd, Hx;
            match type of Hc with canon false ?B _ = _ =>
              assert (Hex: der_exact_base B v = true) by (unfold der_exact_base; rewrite Hd, Hx; reflexivity);
              destruct (der_contents_total B v Hex) as (cd & fl & Hce & Htot);
              destruct (canon_simple B v eq_refl) as [Htb Hcb]; rewrite Hc in Hcb;
              destruct Htot as [Hnone|[[content ic] Hcont]]; [rewrite Hnone in Hcb; discriminate Hcb|];
              destruct (der_contents_sound B v cd fl content ic Hd Hce Hcont) as [-> Hrc];
              rewrite Hrc in Hcb; injection Hcb as ->;
              exists [base_tag B], content, cd, fl, false;
              split; [exact Htb|split; [reflexivity|split; [exact Hce|intros _; exact Hcont]]]
            end).
  - (* SEQUENCE *)
    destruct v as [bb|z|bs|bo|cs| |arcs|r|vs|xs|i x|ab]; try discriminate Hd.
    rewrite der_all_seq in Hd. rewrite all_extra_seq in Hx. rewrite canon_seq in Hc.
    destruct (canon_fields false fs vs) as [es|] eqn:Ef; cbn [opt_bind] in Hc; [|discriminate Hc]. injection Hc as <-.
    pose proof (Forall_impl _ (fun f => Pcomp_of_Q (snd f) (Qsound_all (snd f))) IH) as HP.
    exists [utag true 16], (concat es), EcSeq, (mkEncFlags true false true None 0 0), true.
    split; [reflexivity|split; [reflexivity|split; [vm_compute; reflexivity|]]].
    intros Hlen. rewrite enc_content_seq_g. cbn [omit_empty ef_omit_empty record_finish].
    destruct (fields_complete EcSeq fs HP vs es Hd Hx Ef Hlen) as (parts & Hp & Hm). rewrite Hp. cbn [bind]. rewrite Hm. reflexivity.
  - (* SET *)
    destruct v as [bb|z|bs|bo|cs| |arcs|r|vs|xs|i x|ab]; try discriminate Hd.
    rewrite der_all_set in Hd. apply andb_true_iff in Hd. destruct Hd as [Hk Hd].
    unfold set_keys_ok in Hk. apply andb_true_iff in Hk. destruct Hk as [Hk1 Hk2].
    rewrite all_extra_set in Hx. rewrite canon_set, canon_set_fields_der in Hc.
    destruct (canon_fields false fs vs) as [es|] eqn:Ef; cbn [option_map opt_bind] in Hc; [|discriminate Hc]. injection Hc as <-.
    pose proof (Forall_impl _ (fun f => Pcomp_of_Q (snd f) (Qsound_all (snd f))) IH) as HP.
    assert (HS: Forall (fun f => Psound (snd f)) fs).
    { apply Forall_forall. intros f _. apply Psound_all. }
    set (kes := map (fun e => (tag_key e, e)) es) in *.
    set (c := concat (map snd (sort_with (fun a b : N * N * bytes => key_ltb (fst a) (fst b)) kes))).
    assert (Hcl: length c = length (concat es)).
    { assert (Hes: map snd kes = es) by (subst kes; rewrite map_map; cbn [snd]; apply map_id).
      subst c. transitivity (length (concat (map snd kes))); [|rewrite Hes; reflexivity].
      apply concat_perm_length. apply Permutation_map. apply Permutation_sym.
      apply (sort_with_perm key_ltb (fun a : N * N * bytes => fst a)). }
    exists [utag true 17], c, EcSetDer, (mkEncFlags true false false None 0 0), true.
    split; [reflexivity|split; [reflexivity|split; [vm_compute; reflexivity|]]].
    intros Hlen. rewrite enc_content_set_g. cbn [omit_empty record_finish].
    destruct (fields_complete EcSetDer fs HP vs es Hd Hx Ef) as (parts & Hp & Hm); [lia|]. rewrite Hp. cbn [bind].
    destruct (fields_sound EcSetDer fs HS vs parts Hd Hp) as [_ Hst]. specialize (Hst eq_refl).
    destruct (written_keys fs vs parts Hd Hp) as [Hq1 Hq2].
    pose proof (Hq1 single Hk1) as Hsing. pose proof (Hq2 Hk2) as Hord.
    assert (Hkes: kes = map (fun p => (ref_key (fst p), snd p)) parts).
    { subst kes. rewrite <- Hm, map_map. apply map_ext_in. intros p Hin. f_equal.
      rewrite Forall_forall in Hst. rewrite forallb_forall in Hsing.
      pose proof (Hsing (fst p) (in_map fst _ _ Hin)) as Hs1.
      destruct (fst p) as [|tp [|? ?]] eqn:Ef'; try discriminate Hs1.
      apply starts_with_key. apply (Hst p Hin tp Ef'). }
    subst c. rewrite Hkes, (set_sort_is_reference parts Hsing Hord). reflexivity.
  - (* SEQUENCE OF *)
    destruct v as [bb|z|bs|bo|cs| |arcs|r|vs|xs|i x|ab]; try discriminate Hd. cbn [der_all all_extra] in Hd, Hx.
    rewrite canon_seqof in Hc.
    destruct (opt_all (map (canon false t) xs)) as [es|] eqn:Ef; cbn [opt_bind] in Hc; [|discriminate Hc]. injection Hc as <-.
    exists [utag true 16], (concat es), EcSeqOfCer, (mkEncFlags true false false None 0 0), true.
    split; [reflexivity|split; [reflexivity|split; [vm_compute; reflexivity|]]].
    intros Hlen. rewrite enc_content_seqof_g. cbn [listof_finish]. rewrite (elems_complete t (Pcomp_of_Q t (Qsound_all t) IH) xs es Hd Hx Ef Hlen). reflexivity.
  - (* SET OF *)
    destruct v as [bb|z|bs|bo|cs| |arcs|r|vs|xs|i x|ab]; try discriminate Hd. cbn [der_all all_extra] in Hd, Hx.
    destruct (forallb_and _ _ _ Hd) as [Hd1 Hd2].
    rewrite canon_setof in Hc.
    destruct (opt_all (map (canon false t) xs)) as [es|] eqn:Ef; cbn [opt_bind] in Hc; [|discriminate Hc]. injection Hc as <-.
    assert (Hcl: length (concat (sort_with octets_ltb es)) = length (concat es)).
    { apply concat_perm_length. apply Permutation_sym. apply (sort_with_perm octets_ltb (fun a : bytes => a)). }
    exists [utag true 17], (concat (sort_with octets_ltb es)), EcSetOfCer, (mkEncFlags true false false None 0 0), true.
    split; [reflexivity|split; [reflexivity|split; [vm_compute; reflexivity|]]].
    intros Hlen. rewrite enc_content_setof_g. cbn [listof_finish].
    assert (Hp: enc_elems_g DER t def_opts xs = Ok es) by (apply (elems_complete t (Pcomp_of_Q t (Qsound_all t) IH) xs es Hd1 Hx Ef); lia).
    rewrite Hp. cbn [bind].
    rewrite (sort_setof_is_reference es (tlv_pad_distinct es (elems_tlv t xs es Hd2 Hp))). reflexivity.
  - (* CHOICE *)
    destruct v as [bb|z|bs|bo|cs| |arcs|r|vs|xs|i x|ab]; try discriminate Hd.
    rewrite der_all_choice in Hd. rewrite all_extra_choice in Hx. rewrite canon_choice in Hc.
    destruct (nth_error alts i) as [a|] eqn:Ea; [|discriminate Hd].
    rewrite Forall_forall in IH. pose proof (Pcomp_of_Q a (Qsound_all a) (IH a (nth_error_In _ _ Ea))) as Pa.
    exists [], e, EcChoice, (mkEncFlags true false false None 0 0), true.
    split; [reflexivity|split; [reflexivity|split; [vm_compute; reflexivity|]]].
    intros Hlen. rewrite enc_content_choice_g, Ea.
    assert (Ex: enc DER a def_opts x = Ok e) by (apply (Pa false x e Hd Hx (or_introl eq_refl) Hc Hlen)).
    rewrite Ex. reflexivity.
  - (* ANY *)
    destruct v as [bb|z|bs|bo|cs| |arcs|r|vs|xs|i x|ab]; try discriminate Hd.
    cbn [canon] in Hc. injection Hc as <-.
    exists [], ab, EcAny, (mkEncFlags true false false None 0 0), false.
    split; [reflexivity|split; [reflexivity|split; [vm_compute; reflexivity|]]].
    intros _. reflexivity.
Qed.

Theorem der_is_reference_all_complete : forall T v b,
  der_exact_all T v = true -> X690.der T v = Some b -> N.of_nat (length b) < max_len ->
  encode DER true 0 T v = Ok b.
Proof.
  intros T v b Hx Hr Hlen. unfold der_exact_all in Hx. apply andb_true_iff in Hx. destruct Hx as [Hd Hx].
  exact (Pcomp_of_Q T (Qsound_all T) (Qcomp_all T) false v b Hd Hx (or_introl eq_refl) Hr Hlen).
Qed.

Corollary der_encoder_is_reference_all : forall T v b,
  der_exact_all T v = true -> N.of_nat (length b) < max_len ->
  (encode DER true 0 T v = Ok b <-> X690.der T v = Some b).
Proof.
  intros T v b Hx Hlen. split.
  - apply der_is_reference_all. unfold der_exact_all in Hx. apply andb_true_iff in Hx. tauto.
  - intros Hr. apply der_is_reference_all_complete; assumption.
Qed.

Lemma simple_no_f24 T v : simple_base (base_of T) = true -> f24_case T v = false.
Proof. unfold f24_case. destruct (base_of T); try discriminate; reflexivity. Qed.

(* a value of the fragment lies in der_all, and in all_extra if it meets deep_extra *)
Definition in_all (T: ty) : Prop := forall v, der_ref_deep T v = true ->
  der_all T v = true /\ (deep_extra T v = true -> all_extra T v = true).

Lemma deep_fields_in_all : forall fs, Forall (fun f => in_all (snd f)) fs ->
  forall vs, deep_fields fs vs = true ->
  all_fields fs vs = true /\ (extra_fields fs vs = true -> xfields fs vs = true).
Proof.
  induction fs as [|[p ft] fs' IH]; intros Hall vs Hd; [split; reflexivity|].
  inversion Hall as [|? ? Hft Hall']; subst. cbn [snd] in Hft.
  rewrite deep_fields_cons in Hd. apply andb_true_iff in Hd. destruct Hd as [Hd1 Hd2].
  destruct (IH Hall' (otl vs) Hd2) as [IHa IHx].
  rewrite all_fields_cons, extra_fields_cons, xfields_cons, IHa.
  destruct p as [| |d]; destruct (ohd vs) as [x|]; try discriminate Hd1; try (split; [reflexivity|exact IHx]).
  - destruct (Hft x Hd1) as [Ha Hx]. rewrite Ha. split; [reflexivity|].
    intros H. apply andb_true_iff in H. destruct H as [H1 H2]. rewrite (Hx H1), (IHx H2). reflexivity.
  - apply andb_true_iff in Hd1. destruct Hd1 as [Hs Hd1]. destruct (Hft x Hd1) as [Ha Hx].
    rewrite Ha, (simple_no_f24 ft x Hs). split; [reflexivity|].
    intros H. apply andb_true_iff in H. destruct H as [H1 H2]. rewrite (Hx H1), (IHx H2). reflexivity.
  - apply andb_true_iff in Hd1. destruct Hd1 as [Hd1 Hdd]. apply andb_true_iff in Hd1. destruct Hd1 as [Hs Hd1].
    destruct (Hft x Hd1) as [Ha Hx]. destruct (Hft d Hdd) as [Hda _]. rewrite Hs, Ha, Hda. split; [reflexivity|].
    intros H. apply andb_true_iff in H. destruct H as [H1 H2]. apply andb_true_iff in H1. destruct H1 as [H1 H3].
    rewrite (Hx H1), H3, (IHx H2). reflexivity.
Qed.

Lemma deep_in_all : forall T, in_all T.
Proof.
  induction T as [| | | | | | | | n|fs IH|fs IH|t IH|t IH|alts IH| |tg x IH|tg x IH] using ty_ind'; intros v Hd;
    try (split; [exact Hd|intros Hx; exact Hx]); try (destruct v; discriminate Hd).
  - destruct v as [| | | | | | | |vs| | |]; try discriminate Hd.
    rewrite deep_seq in Hd. rewrite der_all_seq, extra_seq, all_extra_seq. apply deep_fields_in_all; assumption.
  - destruct v as [| | | | | | | | |xs| |]; try discriminate Hd. cbn [der_ref_deep der_all deep_extra all_extra] in *.
    rewrite forallb_forall in Hd. rewrite !forallb_forall. split.
    + intros y Hy. apply IH, Hd, Hy.
    + intros Hx y Hy. apply (IH y (Hd y Hy)), Hx, Hy.
  - cbn [der_ref_deep der_all deep_extra all_extra] in *. destruct (IH v Hd) as [Ha Hx]. rewrite Ha.
    split; [|exact Hx]. destruct x; try reflexivity; destruct v; discriminate Hd.
  - exact (IH v Hd).
Qed.

(* Soundness on the fragment: SEQUENCE and SEQUENCE OF, nested to any depth, of simple types, every one
   of them under any stack of IMPLICIT/EXPLICIT tags *)
Theorem der_is_reference_deep : forall T v b,
  der_ref_deep T v = true -> encode DER true 0 T v = Ok b -> X690.der T v = Some b.
Proof. intros T v b Hd. apply der_is_reference_all. exact (proj1 (deep_in_all T v Hd)). Qed.

Theorem der_is_reference_deep_complete : forall T v b,
  der_exact_deep T v = true -> X690.der T v = Some b -> N.of_nat (length b) < max_len ->
  encode DER true 0 T v = Ok b.
Proof.
  intros T v b Hx. unfold der_exact_deep in Hx. apply andb_true_iff in Hx. destruct Hx as [Hd Hx].
  destruct (deep_in_all T v Hd) as [Ha Hxa]. apply der_is_reference_all_complete.
  unfold der_exact_all. rewrite Ha, (Hxa Hx). reflexivity.
Qed.

(* the two directions together: on the fragment, for encodings of expressible length, the DER encoder
   and the reference are the same partial function *)
Corollary der_encoder_is_reference_deep : forall T v b,
  der_exact_deep T v = true -> N.of_nat (length b) < max_len ->
  (encode DER true 0 T v = Ok b <-> X690.der T v = Some b).
Proof.
  intros T v b Hx Hlen. split.
  - apply der_is_reference_deep. unfold der_exact_deep in Hx. apply andb_true_iff in Hx. tauto.
  - intros Hr. apply der_is_reference_deep_complete; assumption.
Qed.

(* [APPLICATION 1] EXPLICIT SET { [1] IMPLICIT INTEGER, CHOICE { OCTET STRING, [0] IMPLICIT BOOLEAN,
     [5] EXPLICIT CHOICE { NULL, ANY } }, SET OF CHOICE { INTEGER, UTF8String, ANY } OPTIONAL,
     INTEGER DEFAULT 7, [PRIVATE 2] EXPLICIT ANY OPTIONAL, SEQUENCE { SEQUENCE OF BOOLEAN OPTIONAL, SET OF NULL } }:
   the SET is written in the order of the tags (UNIVERSAL 2, 16, 17, [5], [PRIVATE 2] - not the order
   of declaration), the SET OF in the order of the zero-padded encodings *)
Example der_is_reference_all_witness :
  let T := TExp (mkTag Appl false 1) (TSet [
     (Req, TImp (mkTag Ctx false 1) TInt);
     (Req, TChoice [TOcts; TImp (mkTag Ctx false 0) TBool; TExp (mkTag Ctx false 5) (TChoice [TNull; TAny])]);
     (Opt, TSetOf (TChoice [TInt; TStr 12; TAny]));
     (Def (VInt 7), TInt);
     (Opt, TExp (mkTag Priv false 2) TAny);
     (Req, TSeq [(Opt, TSeqOf TBool); (Req, TSetOf TNull)])]) in
  let v := VRec [Some (VInt 1);
     Some (VChoice 2 (VChoice 1 (VAny [4;1;9])));
     Some (VList [VChoice 1 (VOcts [104;105]); VChoice 0 (VInt 300); VChoice 2 (VAny [1;1;0]); VChoice 0 (VInt 3)]);
     Some (VInt 8); Some (VAny [5;0]);
     Some (VRec [Some (VList [VBool true]); Some (VList [])])] in
  let b := [97; 42; 49; 40; 2; 1; 8; 48; 7; 48; 3; 1; 1; 255; 49; 0; 49; 14;
            1; 1; 0; 2; 1; 3; 2; 2; 1; 44; 12; 2; 104; 105; 129; 1; 1; 165; 3;
            4; 1; 9; 226; 2; 5; 0] in
  der_all T v = true /\ der_exact_all T v = true /\ encode DER true 0 T v = Ok b /\ der T v = Some b.
Proof. vm_compute. repeat split. Qed.

(* SET OF with members of different lengths: both sides compare the encodings padded with zero octets *)
Example der_setof_order_witness :
  let T := TSetOf TOcts in let v := VList [VOcts [1;2]; VOcts [1]; VOcts []; VOcts [0;0;0]] in
  der_exact_all T v = true /\
  encode DER true 0 T v = Ok [49; 14; 4; 0; 4; 1; 1; 4; 2; 1; 2; 4; 3; 0; 0; 0] /\
  der T v = Some [49; 14; 4; 0; 4; 1; 1; 4; 2; 1; 2; 4; 3; 0; 0; 0].
Proof. vm_compute. repeat split. Qed.

(* an OPTIONAL component of constructed type that is present and not empty *)
Example der_optional_constructed_witness :
  let T := TSeq [(Opt, TSeqOf TInt); (Opt, TExp (mkTag Ctx false 0) (TChoice [TAny; TNull]))] in
  let v := VRec [Some (VList [VInt 1]); Some (VChoice 1 VNull)] in
  der_exact_all T v = true /\ encode DER true 0 T v = Ok [48; 9; 48; 3; 2; 1; 1; 160; 2; 5; 0]
  /\ der T v = Some [48; 9; 48; 3; 2; 1; 1; 160; 2; 5; 0].
Proof. vm_compute. repeat split. Qed.

(* where the model of the library and the reference disagree (each outside der_all) *)

(* IMPLICIT tag on a CHOICE / on an ANY: the library wraps (as X.680 31.2.7 prescribes: the tag becomes
   EXPLICIT; for ANY the wrapper is even primitive), the reference re-tags the inner encoding *)
Example disagree_implicit_on_choice :
  let T := TImp (mkTag Ctx false 1) (TChoice [TInt; TBool]) in let v := VChoice 0 (VInt 5) in
  encode DER true 0 T v = Ok [161; 3; 2; 1; 5] /\ der T v = Some [129; 1; 5] /\ der_all T v = false.
Proof. vm_compute. repeat split. Qed.
Example disagree_implicit_on_any :
  let T := TImp (mkTag Ctx false 1) TAny in let v := VAny [2; 1; 5] in
  encode DER true 0 T v = Ok [129; 3; 2; 1; 5] /\ der T v = Some [129; 1; 5] /\ der_all T v = false.
Proof. vm_compute. repeat split. Qed.

(* SET OF ANY whose members are not TLVs and agree up to trailing zero octets: the library's sort is
   stable, the reference's insertion puts a member after its equals - each keeps a different order *)
Example disagree_setof_ties :
  let T := TSetOf TAny in
  encode DER true 0 T (VList [VAny [5]; VAny [5; 0]]) = Ok [49; 3; 5; 5; 0] /\
  der T (VList [VAny [5]; VAny [5; 0]]) = Some [49; 3; 5; 0; 5] /\
  der_all T (VList [VAny [5]; VAny [5; 0]]) = false.
Proof. vm_compute. repeat split. Qed.

(* SET with an untagged ANY component: the library sorts it by an empty tag set (first), the reference by
   the tag found in the octets *)
Example disagree_set_any_component :
  let T := TSet [(Req, TAny); (Req, TInt)] in let v := VRec [Some (VAny [4; 1; 9]); Some (VInt 1)] in
  encode DER true 0 T v = Ok [49; 6; 4; 1; 9; 2; 1; 1] /\ der T v = Some [49; 6; 2; 1; 1; 4; 1; 9] /\ der_all T v = false.
Proof. vm_compute. repeat split. Qed.

(* SET with two components of the same tag (not ASN.1): stable vs. after-its-equals again *)
Example disagree_set_same_tags :
  let T := TSet [(Req, TInt); (Req, TInt)] in let v := VRec [Some (VInt 1); Some (VInt 2)] in
  encode DER true 0 T v = Ok [49; 6; 2; 1; 1; 2; 1; 2] /\ der T v = Some [49; 6; 2; 1; 2; 2; 1; 1] /\ der_all T v = false.
Proof. vm_compute. repeat split. Qed.

(* a SET component that is an untagged CHOICE is placed by the tag of the chosen alternative on both
   sides under DER (X.690 10.3) *)
Example agree_set_choice_component :
  let T := TSet [(Req, TChoice [TOcts; TBool]); (Req, TInt)] in let v := VRec [Some (VChoice 0 (VOcts [9])); Some (VInt 1)] in
  der_exact_all T v = true /\ encode DER true 0 T v = Ok [49; 6; 2; 1; 1; 4; 1; 9] /\ der T v = Some [49; 6; 2; 1; 1; 4; 1; 9].
Proof. vm_compute. repeat split. Qed.

(* F24 for further kinds of component: an [0] EXPLICIT CHOICE whose alternative is an empty ANY,
   an empty SET; and a DEFAULT of constructed type, which the model does not compare *)
Example disagree_f24_choice_and_set :
  (let T := TSeq [(Opt, TExp (mkTag Ctx false 0) (TChoice [TAny]))] in let v := VRec [Some (VChoice 0 (VAny []))] in
   encode DER true 0 T v = Ok [48; 0] /\ der T v = Some [48; 2; 160; 0] /\ der_all T v = false) /\
  (let T := TSeq [(Opt, TSet [])] in let v := VRec [Some (VRec [])] in
   encode DER true 0 T v = Ok [48; 0] /\ der T v = Some [48; 2; 49; 0] /\ der_all T v = false) /\
  (let T := TSeq [(Def (VList []), TSeqOf TInt)] in let v := VRec [Some (VList [])] in
   encode DER true 0 T v = Err EUnmodelled /\ der T v = Some [48; 0] /\ der_all T v = false).
Proof. vm_compute. repeat split. Qed.

(* ANY given as an OCTET STRING value: the library takes the octets, the reference wants VAny *)
Example disagree_any_as_octets :
  encode DER true 0 TAny (VOcts [1; 2]) = Ok [1; 2] /\ der TAny (VOcts [1; 2]) = None /\ der_all TAny (VOcts [1; 2]) = false.
Proof. vm_compute. repeat split. Qed.

Print Assumptions sort_setof_is_reference.
Print Assumptions set_sort_is_reference.
Print Assumptions der_is_reference_all.
Print Assumptions der_is_reference_all_complete.
Print Assumptions der_encoder_is_reference_all.
Print Assumptions der_is_reference_deep.
Print Assumptions der_is_reference_deep_complete.
Print Assumptions der_encoder_is_reference_deep.
