(* C15, global form: what acceptance by the DER / CER decoders says about the WHOLE input.

   Phase A: every successful run of [dec_call c] on an element consumed exactly one TLV, and the run is
   described by a derivation [E c] (which value decoder was chosen for which element, at every depth, with
   definite or indefinite length).  Proved once ([dec_call_derivation]), for any codec and any family of
   component specs that the decoder keeps within ([adm_ok]); then for DER (any guiding type without ANY,
   whose content is opaque, or none), where the derivation is a [D]: no indefinite length is ever accepted,
   strings are primitive, BOOLEAN contents are 00/FF; and for CER (guiding types without strings, ANY,
   CHOICE).
   Phase B: the derivation read against the independent TLV parser of Spec/X690.v ([derivation_parse]) and
   against predicates on the parse tree ([derivation_tok] under a guiding type; [gshape] and [cok] follow
   from it): [der_accepts_definite] (any guiding type without ANY: no indefinite length anywhere),
   [der_accepts_der_shape] (no guiding type, [der_shape]), [der_accepts_gshape] (guiding type without
   ANY/CHOICE, [gshape T]), [cer_accepts_boolean_strict] (indefinite lengths included, [cok]).
   [boolean_strict_everywhere]: CER and DER, at the dispatcher, any depth, any tagging.
   Observations: [constructed_boolean_accepted], [reserved_length_accepted], [any_is_opaque]. *)
From Coq Require Import Lia.
From PV Require Import Base.Bytes Model.Tag Model.Types Model.TableTypes Model.Proc Model.Enc Model.Dec
     Gen.Tables Spec.X690 Proofs.ProcBind Proofs.RunLemmas Proofs.Bits Proofs.DecSound Proofs.AcceptedWellFormed.
Local Open Scope N_scope.

(* between s and s' exactly the octets u were consumed *)
Definition took (s s': stream) (u: bytes) : Prop :=
  avail s = u ++ avail s' /\ pos s' = (pos s + length u)%nat.

Lemma took_refl s : took s s [].
Proof. split; [reflexivity|cbn; lia]. Qed.

Lemma took_trans s s1 s2 u v : took s s1 u -> took s1 s2 v -> took s s2 (u ++ v).
Proof.
  intros [H1 P1] [H2 P2]. split.
  - rewrite H1, H2, app_assoc. reflexivity.
  - rewrite app_length. lia.
Qed.

Lemma took_len s s' u : took s s' u -> (pos s' - pos s)%nat = length u.
Proof. intros [_ H]. lia. Qed.

(* [binv]: a sequenced run that ended with a value, split into its first part and the rest;
   [dead]: a run that raises cannot have ended with a value *)
Ltac binv H x s1 H1 := apply resume_pbind_inv in H; destruct H as (x & s1 & H1 & H).
Ltac dead H := solve [cbn [resume negb] in H; discriminate].

Lemma readN_inv n s b s' : resume (readN n) s = inr (Ok b, s') ->
  took s s' b /\ length b = n /\ arrived s' = arrived s.
Proof.
  unfold readN, attempt. cbn [resume]. unfold attempt. destruct (Nat.eqb_spec n 0) as [->|Hn].
  - intros H. inversion H; subst. split; [apply took_refl|auto].
  - destruct (Nat.ltb_spec (length (avail s)) n) as [Hl|Hl]; [destruct (closed s); discriminate|].
    cbn [resume]. intros H. inversion H; subst; clear H.
    assert (Hf: length (firstn n (avail s)) = n) by (rewrite firstn_length; lia).
    split; [split|auto].
    + unfold avail at 3. cbn [pos arrived setpos]. rewrite skipn_add. symmetry. apply firstn_skipn.
    + cbn [pos setpos]. lia.
Qed.

Lemma read1_inv s o s' : resume read1 s = inr (Ok o, s') -> took s s' [o].
Proof.
  unfold read1. intros H. binv H b s1 Hb. apply readN_inv in Hb. destruct Hb as (Ht & Hl & _).
  cbn [resume] in H. inversion H; subst. destruct b as [|x [|y r]]; try discriminate. exact Ht.
Qed.

Lemma read_len_inv lf n s b s' : resume (read_len lf n) s = inr (Ok b, s') -> took s s' b.
Proof.
  unfold read_len. destruct (N.ltb index_max n); [intros H; dead H|]. intros H. exact (proj1 (readN_inv _ _ _ _ H)).
Qed.

(* a part of a decoder that only computes: if it succeeds, the stream is where it was *)
Definition still {A} (p: proc A) : Prop := forall s a s', resume p s = inr (Ok a, s') -> s' = s.

Lemma still_ret {A} (a: A) : still (Ret a).
Proof. intros s b s' H. cbn [resume] in H. inversion H. reflexivity. Qed.
Lemma still_raise {A} e : still (@Raise A e).
Proof. intros s b s' H. dead H. Qed.
Lemma still_lift {A} (r: res A) : still (lift r).
Proof. destruct r; [apply still_ret|apply still_raise]. Qed.
Lemma still_bind {A B} (p: proc A) (f: A -> proc B) : still p -> (forall a, still (f a)) -> still (pbind p f).
Proof. intros Hp Hf s b s' H. binv H a s1 Ha. apply Hp in Ha. apply Hf in H. congruence. Qed.
Lemma still_create sp proto ts v : still (create sp proto ts v).
Proof.
  unfold create.
  destruct (base_of match sp with Some T => T | None => schemaless_ty proto ts end); destruct v;
    try apply still_ret.
  destruct (str_octets_ok n b) as [[|]|]; [apply still_ret|apply still_raise|apply still_raise].
Qed.

(* the two matches on octets read that the decoders make: the contents of a strict BOOLEAN, and the
   end-of-contents octets *)
Lemma bool_match {A} (b: bytes) (x y z: A) :
  let m := match b with [255] => x | [0] => y | _ => z end in
  (b = [255] /\ m = x) \/ (b = [0] /\ m = y) \/ m = z.
Proof.
  cbv zeta. destruct b as [|o [|o2 r]]; auto; destruct o as [|p]; auto; repeat (destruct p as [p|p|]; auto).
Qed.

Lemma long_tag_inv : forall k cl f acc s t s',
  resume (long_tag cl f k acc) s = inr (Ok t, s') ->
  exists hb, took s s' hb /\ tcls t = cl /\ tcon t = f /\
             forall x, dec_b128 acc (hb ++ x) = Some (tnum t, x).
Proof.
  induction k as [|k IH]; intros cl f acc s t s' H; [dead H|].
  cbn [long_tag] in H. binv H o s1 Ho. apply read1_inv in Ho.
  destruct (N.eqb (N.land o 128) 0) eqn:E.
  - cbn [resume] in H. inversion H; subst; clear H. exists [o].
    split; [exact Ho|]. split; [reflexivity|]. split; [reflexivity|].
    intros x. cbn [app dec_b128 tnum]. rewrite E. reflexivity.
  - apply IH in H. destruct H as (hb & Ht & Hc & Hf & Hd).
    exists ([o] ++ hb). split; [exact (took_trans _ _ _ _ _ Ho Ht)|]. split; [exact Hc|]. split; [exact Hf|].
    intros x. cbn [app dec_b128]. rewrite E. apply Hd.
Qed.

Lemma read_tag_inv lf s t s' : resume (read_tag lf) s = inr (Ok t, s') ->
  exists ib, took s s' ib /\ forall x, dec_ident (ib ++ x) = Some (t, x).
Proof.
  unfold read_tag. intros H. binv H o s1 Ho. apply read1_inv in Ho. cbv zeta in H.
  destruct (N.eqb (N.land o 31) 31) eqn:E.
  - apply long_tag_inv in H. destruct H as (hb & Ht & Hc & Hf & Hd).
    exists ([o] ++ hb). split; [exact (took_trans _ _ _ _ _ Ho Ht)|].
    intros x. cbn [app dec_ident]. cbv zeta. rewrite E, Hd.
    destruct t as [cl f n]. cbn in *. subst. reflexivity.
  - cbn [resume] in H. inversion H; subst; clear H. exists [o]. split; [exact Ho|].
    intros x. cbn [app dec_ident]. cbv zeta. rewrite E. reflexivity.
Qed.

Lemma read_length_inv c s ol s' : resume (read_length c) s = inr (Ok ol, s') ->
  exists lb, took s s' lb /\
    match ol with
    | Some l => forall x, dec_len (lb ++ x) = Some (Some l, x)
    | None => lb = [128] /\ support_indef c = true
    end.
Proof.
  unfold read_length. intros H. binv H o s1 Ho. apply read1_inv in Ho.
  destruct (N.ltb o 128) eqn:E1.
  - cbn [resume] in H. inversion H; subst; clear H. exists [o]. split; [exact Ho|].
    intros x. cbn [app dec_len]. rewrite E1. reflexivity.
  - destruct (N.eqb_spec o 128) as [->|E2].
    + destruct (support_indef c); [|dead H]. cbn [resume] in H. inversion H; subst; clear H.
      exists [128]. auto.
    + binv H b s2 Hb. apply readN_inv in Hb. destruct Hb as (Ht & Hlen & _).
      cbn [resume] in H. inversion H; subst; clear H.
      exists ([o] ++ b). split; [exact (took_trans _ _ _ _ _ Ho Ht)|].
      intros x. cbn [app dec_len]. rewrite E1. apply N.eqb_neq in E2. rewrite E2. cbv zeta.
      destruct (Nat.ltb_spec (length (b ++ x)) (N.to_nat (N.land o 127))) as [Hl|Hl]; [rewrite app_length in Hl; lia|].
      rewrite <- Hlen, firstn_app_exact, skipn_app_exact. reflexivity.
Qed.

(* What a strict table entry means at the place where the decoder consults it: the length octet 80 is
   refused when indefinite lengths are unsupported, and a string decoder that forbids the constructed
   form refuses a constructed encoding. *)
Lemma attempt_one s : length (avail s) <> 0%nat ->
  attempt s 1 = (Got [hd 0 (avail s)], setpos s (pos s + 1)).
Proof.
  intros H. unfold attempt. cbn [Nat.eqb].
  destruct (Nat.ltb_spec (length (avail s)) 1) as [Hl|Hl]; [lia|].
  destruct (avail s) as [|x r]; [cbn in H; congruence|]. reflexivity.
Qed.

Lemma indefinite_refused : forall c s,
  support_indef c = false -> length (avail s) <> 0%nat -> hd 0 (avail s) = 128 ->
  exists s', resume (read_length c) s = inr (Err EMalformed, s').
Proof.
  intros c s Hsup Hne Hhd. unfold read_length, read1, readN.
  cbn [pbind resume]. rewrite (attempt_one s Hne). cbn [resume pbind hd].
  rewrite Hhd. cbn [N.ltb N.compare Pos.compare Pos.compare_cont N.eqb Pos.eqb]. rewrite Hsup.
  cbn [resume]. eexists. reflexivity.
Qed.

Lemma constructed_octets_refused : forall rec fuel proto fl sp ts len sfun,
  df_constructed fl = false -> tag0_simple ts = false ->
  dec_octets rec fuel proto fl sp ts len sfun = Raise EMalformed.
Proof. intros rec fuel proto fl sp ts len sfun Hc Ht. unfold dec_octets. rewrite Ht, Hc. reflexivity. Qed.

Lemma constructed_bits_refused : forall rec fuel fl sp ts len,
  df_constructed fl = false -> tag0_simple ts = false -> len <> 0 ->
  dec_bits rec fuel fl sp ts len false = Raise EMalformed.
Proof.
  intros rec fuel fl sp ts len Hc Ht Hl. unfold dec_bits.
  destruct (N.eqb_spec len 0); [congruence|]. rewrite Ht, Hc. reflexivity.
Qed.

(* The selection inside dispatch, as a function.  Ok (Some (cd, fl, T)): decode the value with cd (guided
   by T); Ok None: no decoder, the tag may still be an EXPLICIT wrapper; Err: the dispatcher raises.
   [dispatch_sel] states dispatch as an equation over it, where DecShape.dispatch_cases gives the same case
   analysis for a predicate on programs: the derivations D and E speak of [sel] and [explicit_tag]. *)
Definition sel (c: codec) (sp: spec) (ts: tagset) : res (option (dec_codec * dec_flags * option ty)) :=
  match sp with
  | SNone => match by_tag c ts with
             | Some (cd, fl) => Ok (Some (cd, fl, None))
             | None => match by_tag c (firstn 1 ts) with
                       | Some (cd, fl) => Ok (Some (cd, fl, None))
                       | None => Ok None
                       end
             end
  | STy T => if tagset_eqb ts (tagset_of' T) || tm_contains (tagmap_of T) ts then
               (if tm_postponed (tagmap_of T) then Err EMalformed else
                match by_type c T with Some (cd, fl) => Ok (Some (cd, fl, Some T)) | None => Ok None end)
             else Ok None
  | SMap m => match tm_get m ts with
              | Err e => Err e
              | Ok (Some T) => match by_type c T with Some (cd, fl) => Ok (Some (cd, fl, Some T)) | None => Ok None end
              | Ok None => Ok None
              end
  end.

Definition explicit_tag (ts: tagset) : bool :=
  match ts with t :: _ => tcon t && negb (cls_eqb (tcls t) Univ) | [] => false end.

Lemma dispatch_sel c rec lf sp ts len sfun :
  dispatch c rec lf sp ts len sfun =
  match sel c sp ts with
  | Err e => Raise e
  | Ok (Some (cd, fl, spT)) => run_value len (dec_value rec lf cd fl spT ts len sfun)
  | Ok None => if explicit_tag ts then run_value len (dec_raw rec lf sp ts len sfun) else Raise EMalformed
  end.
Proof.
  unfold dispatch, sel. cbv zeta.
  set (fail := match match ts with [] => None | t :: _ => _ end with Some k => _ | None => Raise EMalformed end).
  assert (Hf: fail = if explicit_tag ts then run_value len (dec_raw rec lf sp ts len sfun) else Raise EMalformed).
  { unfold fail, explicit_tag. destruct ts as [|t r]; [reflexivity|]. destruct (tcon t && negb (cls_eqb (tcls t) Univ))%bool; reflexivity. }
  rewrite <- Hf. clearbody fail. destruct sp as [|T|m].
  - destruct (by_tag c ts) as [[cd fl]|]; [reflexivity|]. destruct (by_tag c (firstn 1 ts)) as [[cd fl]|]; reflexivity.
  - destruct (tagset_eqb ts (tagset_of' T) || tm_contains (tagmap_of T) ts)%bool; [|reflexivity].
    destruct (tm_postponed (tagmap_of T)); [reflexivity|]. destruct (by_type c T) as [[cd fl]|]; reflexivity.
  - destruct (tm_get m ts) as [[T|]|e]; cbn [lift pbind]; [|reflexivity|reflexivity].
    destruct (by_type c T) as [[cd fl]|]; reflexivity.
Qed.

(* a definite-length value: the dispatcher checks that exactly the announced length was consumed *)
Lemma run_value_inv (k: proc dval) len s v s' :
  resume (run_value len k) s = inr (Ok v, s') ->
  resume k s = inr (Ok v, s') /\ forall l, len = Some l -> N.of_nat (pos s' - pos s) = l.
Proof.
  destruct len as [l|]; intros H; [|split; [exact H|discriminate]].
  destruct (run_value_exact _ _ _ _ _ H) as (s1 & Hk & Hl & ->). split; [exact Hk|]. intros l0 E. inversion E; subst. reflexivity.
Qed.

Lemma sel_inv c sp ts cd fl spT : sel c sp ts = Ok (Some (cd, fl, spT)) ->
  match sp with
  | SNone => spT = None /\ (by_tag c ts = Some (cd, fl) \/ by_tag c (firstn 1 ts) = Some (cd, fl))
  | STy T => spT = Some T /\ by_type c T = Some (cd, fl)
             /\ (tagset_eqb ts (tagset_of' T) || tm_contains (tagmap_of T) ts)%bool = true
  | SMap m => exists T, spT = Some T /\ by_type c T = Some (cd, fl) /\ tm_get m ts = Ok (Some T)
  end.
Proof.
  destruct sp as [|T|m]; cbn [sel]; intros H.
  - destruct (by_tag c ts) as [[cd0 fl0]|]; [inversion H; auto|].
    destruct (by_tag c (firstn 1 ts)) as [[cd0 fl0]|]; [inversion H; auto|discriminate].
  - destruct (tagset_eqb ts (tagset_of' T) || tm_contains (tagmap_of T) ts)%bool; [|discriminate].
    destruct (tm_postponed (tagmap_of T)); [discriminate|].
    destruct (by_type c T) as [[cd0 fl0]|]; [inversion H; auto|discriminate].
  - destruct (tm_get m ts) as [[T|]|e]; try discriminate.
    destruct (by_type c T) as [[cd0 fl0]|] eqn:E; [|discriminate]. inversion H; subst. eauto.
Qed.

(* a tag map without a catch-all entry whose types all satisfy P; [map_ok] is [all_in no_any] *)
Definition all_in (P: ty -> bool) (m: tmap) : Prop :=
  tm_default m = None /\ Forall (fun kt => P (snd kt) = true) (tm_present m).

Lemma tm_get_key m ts T : tm_default m = None -> tm_get m ts = Ok (Some T) ->
  exists k, In (k, T) (tm_present m) /\ tagset_eqb ts k = true.
Proof.
  intros Hd H. unfold tm_get, tm_find in H. destruct (tm_postponed m); [discriminate|].
  destruct (assoc tagset_eqb ts (tm_present m)) as [T0|] eqn:E; [|rewrite Hd in H; discriminate].
  inversion H; subst. exact (Basics.assoc_In _ _ _ _ E).
Qed.

Lemma tm_get_all P m ts T : all_in P m -> tm_get m ts = Ok (Some T) -> P T = true.
Proof.
  intros [Hd Hp] H. destruct (tm_get_key _ _ _ Hd H) as (k & Hi & _).
  rewrite Forall_forall in Hp. exact (Hp _ Hi).
Qed.

Lemma combine_maps_present u (P: tagset * ty -> Prop) : forall l acc,
  (forall m T kt, In (m, T) l -> In kt (tm_present m) -> P (fst kt, T)) ->
  Forall P (tm_present acc) -> Forall P (tm_present (combine_maps u l acc)).
Proof.
  induction l as [|[m T] r IH]; intros acc Hl Ha; [exact Ha|].
  cbn [combine_maps]. apply IH; [intros m' T' kt Hi; apply Hl; right; exact Hi|]. cbn [tm_present].
  assert (Hm: forall kt, In kt (tm_present m) -> P (fst kt, T)) by (intros kt Hk; apply (Hl m T kt); [left; reflexivity|exact Hk]).
  revert Hm. generalize (tm_present acc) Ha. induction (tm_present m) as [|kt q IHq]; intros p Hp Hm; [exact Hp|].
  cbn [fold_left]. apply IHq; [|intros kt' Hk; apply Hm; right; exact Hk].
  apply Forall_app. split.
  - rewrite Forall_forall in *. intros x Hx. apply filter_In in Hx. apply Hp. exact (proj1 Hx).
  - constructor; [apply Hm; left; reflexivity|constructor].
Qed.

Lemma combine_maps_default u : forall l acc,
  (forall m T, In (m, T) l -> tm_default m = None) -> tm_default acc = None ->
  tm_default (combine_maps u l acc) = None.
Proof.
  induction l as [|[m T] r IH]; intros acc Hl Ha; [exact Ha|].
  cbn [combine_maps]. apply IH; [intros m' T' Hi; apply (Hl m' T'); right; exact Hi|].
  cbn [tm_default]. rewrite Ha. apply (Hl m T). left. reflexivity.
Qed.

Lemma fields_tagmap_present u (P: tagset * ty -> Prop) fs :
  (forall T kt, In T fs -> In kt (tm_present (tagmap_of T)) -> P (fst kt, T)) ->
  Forall P (tm_present (fields_tagmap u fs)).
Proof.
  intros H. apply combine_maps_present; [|constructor].
  intros m T kt Hi. apply in_map_iff in Hi. destruct Hi as (t & Ht & Hi). inversion Ht; subst. exact (H _ _ Hi).
Qed.

Lemma fields_tagmap_default u fs : (forall T, In T fs -> tm_default (tagmap_of T) = None) ->
  tm_default (fields_tagmap u fs) = None.
Proof.
  intros H. apply combine_maps_default; [|reflexivity].
  intros m T Hi. apply in_map_iff in Hi. destruct Hi as (t & Ht & Hi). inversion Ht; subst. exact (H _ Hi).
Qed.

Lemma fields_tagmap_all (P: ty -> bool) u fs : (forall T, P T = true -> tm_default (tagmap_of T) = None) ->
  forallb P fs = true -> all_in P (fields_tagmap u fs).
Proof.
  intros Hd H. rewrite forallb_forall in H. split.
  - apply fields_tagmap_default. intros T Hi. exact (Hd _ (H _ Hi)).
  - apply fields_tagmap_present. intros T kt Hi _. exact (H _ Hi).
Qed.

Lemma forallb_incl {X} (f: X -> bool) a b : incl a b -> forallb f b = true -> forallb f a = true.
Proof. intros Hi Hb. rewrite forallb_forall in *. intros x Hx. apply Hb, Hi, Hx. Qed.

Fixpoint no_any (T: ty) : bool :=
  match T with
  | TAny => false
  | TImp _ x | TExp _ x => no_any x
  | TSeqOf t | TSetOf t => no_any t
  | TSeq fs | TSet fs => (fix go (l: list (presence * ty)) : bool := match l with [] => true | f :: r => no_any (snd f) && go r end) fs
  | TChoice alts => (fix go (l: list ty) : bool := match l with [] => true | a :: r => no_any a && go r end) alts
  | _ => true
  end.

Lemma no_any_fields fs : (fix go (l: list (presence * ty)) : bool := match l with [] => true | f :: r => no_any (snd f) && go r end) fs = forallb no_any (map snd fs).
Proof. induction fs as [|f r IH]; [reflexivity|]. cbn [map forallb]. rewrite IH. reflexivity. Qed.
Lemma no_any_alts l : (fix go (l: list ty) : bool := match l with [] => true | a :: r => no_any a && go r end) l = forallb no_any l.
Proof. induction l as [|f r IH]; [reflexivity|]. cbn [forallb]. rewrite IH. reflexivity. Qed.

Lemma no_any_base T : no_any T = true -> no_any (base_of T) = true.
Proof. induction T; cbn [no_any base_of]; auto. Qed.

Definition map_ok (m: tmap) : Prop :=
  tm_default m = None /\ Forall (fun kt => no_any (snd kt) = true) (tm_present m).
Definition spec_ok (sp: spec) : Prop :=
  match sp with SNone => True | STy T => no_any T = true | SMap m => map_ok m end.

Lemma tagmap_default : forall T, no_any T = true -> tm_default (tagmap_of T) = None.
Proof.
  induction T as [| | | | | | | | n|fs IH|fs IH|t IH|t IH|alts IH| |tg x IH|tg x IH] using ty_ind'; intros Hn;
    try reflexivity; [|discriminate].
  rewrite tagmap_choice. cbn [no_any] in Hn. rewrite no_any_alts, forallb_forall in Hn. rewrite Forall_forall in IH.
  apply fields_tagmap_default. intros a Ha. exact (IH a Ha (Hn a Ha)).
Qed.

Lemma fields_tagmap_ok u fs : forallb no_any fs = true -> map_ok (fields_tagmap u fs).
Proof. exact (fields_tagmap_all no_any u fs tagmap_default). Qed.

(* the value decoders by what their run looks like: read the contents and compute; the same for a string,
   unless it is constructed; one call of the decoder per member *)
Definition simple_cd (cd: dec_codec) : bool := match cd with DcInt | DcBoolBer | DcNull | DcOid | DcReal => true | _ => false end.
Definition string_cd (cd: dec_codec) : bool := match cd with DcOcts | DcStr | DcBits => true | _ => false end.
Definition container_cd (cd: dec_codec) : bool :=
  match cd with DcSeq | DcSet | DcSeqOf | DcSetOf | DcSeqOrSeqOf | DcSetOrSetOf => true | _ => false end.
Definition is_any_cd (cd: dec_codec) : bool := match cd with DcAny => true | _ => false end.

Lemma cd_class cd : is_any_cd cd = false ->
  cd = DcBoolCer \/ (simple_cd cd || string_cd cd)%bool = true \/ container_cd cd = true \/ cd = DcChoice.
Proof. destruct cd; auto; discriminate. Qed.

Definition entry := (tkey * dec_codec * dec_flags)%type.

Lemma by_type_in c T cd fl : by_type c T = Some (cd, fl) ->
  In (key_of T, cd, fl) (dec_type_map c) \/ In (tag_fallback_key T, cd, fl) (dec_tag_map c).
Proof.
  unfold by_type. destruct (lookup3 (key_of T) (dec_type_map c)) as [[cd0 fl0]|] eqn:E.
  - intros H. inversion H; subst. left. exact (lookup3_in _ _ _ _ E).
  - intros H. right. exact (lookup3_in _ _ _ _ H).
Qed.

Lemma by_tag_in c ts cd fl : by_tag c ts = Some (cd, fl) ->
  exists k, In (k, cd, fl) (dec_tag_map c) /\ forall t r, ts = t :: r -> r = [] /\ key_of_univ_tag t = Some k.
Proof.
  unfold by_tag. destruct ts as [|t [|t2 r]]; try discriminate.
  - intros H. exists KChoice. split; [exact (lookup3_in _ _ _ _ H)|discriminate].
  - destruct (key_of_univ_tag t) as [k|] eqn:Ek; [|discriminate].
    intros H. exists k. split; [exact (lookup3_in _ _ _ _ H)|]. intros t' r' E. inversion E; subst. auto.
Qed.

(* every entry of both DER maps: a string decoder forbids the constructed form; ANY is reached by
   type id only; by tag, only SEQUENCE and SET get a constructed decoder *)
Definition der_entry_ok (by_type_id: bool) (e: entry) : bool :=
  let '(k, cd, fl) := e in
  implb (string_cd cd) (negb (df_constructed fl))
  && implb (is_any_cd cd) (by_type_id && tkey_eqb k KAny)
  && (by_type_id || implb (container_cd cd) (match k with KSeq | KSet => true | _ => false end)).

Lemma der_entry (by_type_id: bool) k cd fl :
  In (k, cd, fl) (if by_type_id then dec_type_map DER else dec_tag_map DER) ->
  (string_cd cd = true -> df_constructed fl = false)
  /\ (is_any_cd cd = true -> by_type_id = true /\ k = KAny)
  /\ (by_type_id = false -> container_cd cd = true -> k = KSeq \/ k = KSet).
Proof.
  intros Hi.
  assert (H: der_entry_ok by_type_id (k, cd, fl) = true).
  { revert Hi. apply forallb_forall. destruct by_type_id; vm_compute; reflexivity. }
  cbn [der_entry_ok] in H. apply andb_prop in H. destruct H as [H H3]. apply andb_prop in H. destruct H as [H1 H2].
  split; [|split].
  - intros Hs. rewrite Hs in H1. destruct (df_constructed fl); [discriminate|reflexivity].
  - intros Ha. rewrite Ha in H2. destruct by_type_id; [|discriminate]. split; [reflexivity|].
    destruct k; try discriminate. reflexivity.
  - intros -> Hc. rewrite Hc in H3. destruct k; try discriminate; auto.
Qed.

(* the strict tables (CER, DER) by kind of type, by type id and by tag alike: BOOLEAN gets the strict
   decoder, strings a string decoder, the constructed types a constructed decoder, the other simple
   types a simple one *)
Definition kind_ok (k: tkey) (cd: dec_codec) : bool :=
  match k with
  | KBool => match cd with DcBoolCer => true | _ => false end
  | KBits | KOcts | KStr _ => string_cd cd
  | KSeq | KSet | KSeqOf | KSetOf => container_cd cd
  | KInt | KEnum | KNull | KOid | KReal => simple_cd cd && match cd with DcBoolBer => false | _ => true end
  | _ => true
  end.

Lemma strict_kind c k cd fl : c <> BER -> In (k, cd, fl) (dec_type_map c ++ dec_tag_map c) -> kind_ok k cd = true.
Proof.
  intros Hc Hi.
  assert (H: forallb (fun e: entry => kind_ok (fst (fst e)) (snd (fst e))) (dec_type_map c ++ dec_tag_map c) = true)
    by (destruct c; [congruence|vm_compute; reflexivity|vm_compute; reflexivity]).
  rewrite forallb_forall in H. exact (H _ Hi).
Qed.

Lemma by_type_kind c T cd fl : c <> BER -> by_type c T = Some (cd, fl) -> kind_ok (key_of T) cd = true.
Proof.
  intros Hc H. apply by_type_in in H. destruct H as [H|H].
  - apply (strict_kind c _ _ fl Hc). apply in_or_app. left. exact H.
  - assert (Hk: kind_ok (tag_fallback_key T) cd = true) by (apply (strict_kind c _ _ fl Hc); apply in_or_app; right; exact H).
    unfold tag_fallback_key in Hk. destruct (key_of T); exact Hk.
Qed.

Lemma key_any_base T : key_of T = KAny -> base_of T = TAny.
Proof.
  unfold key_of. pose proof (base_of_not_wrapped T) as Hw.
  destruct (base_of T); intros H; try discriminate; try reflexivity; discriminate Hw.
Qed.

Lemma by_type_facts T cd fl : no_any T = true -> by_type DER T = Some (cd, fl) ->
  (string_cd cd = true -> df_constructed fl = false) /\ is_any_cd cd = false.
Proof.
  intros Hn H. apply by_type_in in H. destruct H as [H|H].
  - apply (der_entry true) in H. destruct H as (H1 & H2 & _). split; [exact H1|].
    destruct (is_any_cd cd); [|reflexivity]. destruct (H2 eq_refl) as [_ Hk].
    apply key_any_base in Hk. apply no_any_base in Hn. rewrite Hk in Hn. discriminate.
  - apply (der_entry false) in H. destruct H as (H1 & H2 & _). split; [exact H1|].
    destruct (is_any_cd cd); [destruct (H2 eq_refl); discriminate|reflexivity].
Qed.

Lemma by_tag_facts ts cd fl : by_tag DER ts = Some (cd, fl) ->
  (string_cd cd = true -> df_constructed fl = false) /\ is_any_cd cd = false.
Proof.
  intros H. apply by_tag_in in H. destruct H as (k & Hi & _). apply (der_entry false) in Hi. destruct Hi as (H1 & H2 & _).
  split; [exact H1|]. destruct (is_any_cd cd); [destruct (H2 eq_refl); discriminate|reflexivity].
Qed.

Lemma sel_facts sp ts cd fl spT : spec_ok sp -> sel DER sp ts = Ok (Some (cd, fl, spT)) ->
  (string_cd cd = true -> df_constructed fl = false) /\ is_any_cd cd = false
  /\ match spT with Some T => no_any T = true | None => True end.
Proof.
  intros Hok H. apply sel_inv in H. destruct sp as [|T|m]; cbn [spec_ok] in Hok.
  - destruct H as (-> & [H|H]); destruct (by_tag_facts _ _ _ H); auto.
  - destruct H as (-> & H & _). destruct (by_type_facts _ _ _ Hok H). auto.
  - destruct H as (T & -> & H & Hg). pose proof (tm_get_all no_any _ _ _ Hok Hg) as Hn.
    destruct (by_type_facts _ _ _ Hn H). auto.
Qed.

Inductive content := CPrim | CKids (kids: list node).
Definition mk_node (c: tclass) (num: N) (body: bytes) (ct: content) (raw: bytes) : node :=
  match ct with CPrim => Prim c num body raw | CKids kids => Cons c num false kids raw end.

(* the component specs the decoder of a constructed value hands to its members *)
Definition child_spec (spT: option ty) (sp': spec) : Prop :=
  match spT with
  | None => sp' = SNone
  | Some T => match base_of T with
              | TSeqOf t | TSetOf t => sp' = STy t
              | TSeq fs | TSet fs =>
                  (fs = [] /\ sp' = SNone)
                  \/ (exists f, In f (map snd fs) /\ sp' = STy f)
                  \/ (exists u fs', incl fs' (map snd fs) /\ sp' = SMap (fields_tagmap u fs'))
              | _ => False
              end
  end.

(* D sp acc used n q: under component spec sp, with the tags acc already met, the decoder read the
   octets [used] as ONE element: identifier, DEFINITE length, that many contents octets; n is the
   element as a TLV tree.  q flags the two places where the decoder accepts what the reference
   parser of Spec/X690.v refuses: a first length octet FF, and a BOOLEAN in constructed form.
   V sp ts body ct q: the contents octets [body] of an element whose tags (innermost first) are ts. *)
Inductive D : spec -> tagset -> bytes -> node -> bool -> Prop :=
| D_tlv : forall sp acc ib lb body t l ct qv,
    (forall x, dec_ident (ib ++ x) = Some (t, x)) ->
    (forall x, dec_len (lb ++ x) = Some (Some l, x)) ->
    N.of_nat (length body) = l ->
    V sp (t :: acc) body ct qv ->
    D sp acc (ib ++ lb ++ body) (mk_node (tcls t) (tnum t) body ct (ib ++ lb ++ body)) (N.eqb (hd 0 lb) 255 || qv)
with V : spec -> tagset -> bytes -> content -> bool -> Prop :=
| V_bool : forall sp ts fl spT body,
    sel DER sp ts = Ok (Some (DcBoolCer, fl, spT)) -> body = [0] \/ body = [255] ->
    V sp ts body CPrim (tag0_cons ts)
| V_simple : forall sp ts cd fl spT body,
    sel DER sp ts = Ok (Some (cd, fl, spT)) -> simple_cd cd = true -> tag0_simple ts = true ->
    V sp ts body CPrim false
| V_string : forall sp ts cd fl spT body,
    sel DER sp ts = Ok (Some (cd, fl, spT)) -> string_cd cd = true -> tag0_simple ts = true ->
    V sp ts body CPrim false
| V_container : forall sp ts cd fl spT body kids q,
    sel DER sp ts = Ok (Some (cd, fl, spT)) -> container_cd cd = true -> tag0_cons ts = true ->
    F (child_spec spT) body kids q ->
    V sp ts body (CKids kids) q
| V_explicit : forall sp ts body n q,
    sel DER sp ts = Ok None -> explicit_tag ts = true ->
    D sp ts body n q ->
    V sp ts body (CKids [n]) q
| V_choice_tagged : forall sp ts fl T alts body n q,
    sel DER sp ts = Ok (Some (DcChoice, fl, Some T)) -> base_of T = TChoice alts ->
    tagset_eqb (tagset_of' T) ts = true ->
    D (SMap (fields_tagmap true alts)) [] body n q ->
    V sp ts body (if tag0_cons ts then CKids [n] else CPrim) (tag0_cons ts && q)
| V_choice_untagged : forall sp ts fl T alts body ct q,
    sel DER sp ts = Ok (Some (DcChoice, fl, Some T)) -> base_of T = TChoice alts ->
    tagset_eqb (tagset_of' T) ts = false ->
    V (SMap (fields_tagmap true alts)) ts body ct q ->
    V sp ts body ct q
with F : (spec -> Prop) -> bytes -> list node -> bool -> Prop :=
| F_nil : forall A, F A [] [] false
| F_cons : forall (A: spec -> Prop) sp u n q rest ns qs,
    A sp -> spec_ok sp -> D sp [] u n q -> F A rest ns qs -> F A (u ++ rest) (n :: ns) (q || qs).

Scheme D_ind2 := Minimality for D Sort Prop
  with V_ind2 := Minimality for V Sort Prop
  with F_ind2 := Minimality for F Sort Prop.
Combined Scheme DVF_ind from D_ind2, V_ind2, F_ind2.

(* The same for any codec, with elements of indefinite length (i: the length of the element is
   indefinite; its contents [body] are then followed by the end-of-contents octets).  The member lists
   also serve the elements under an indefinite-length EXPLICIT tag, which are read under the tags acc
   met so far: the decoder takes elements until the end-of-contents octets and keeps the last. *)
Definition node_of (c: tclass) (num: N) (i: bool) (body: bytes) (ct: content) (raw: bytes) : node :=
  match ct with CPrim => Prim c num body raw | CKids kids => Cons c num i kids raw end.

Inductive E (c: codec) : spec -> tagset -> bytes -> node -> bool -> Prop :=
| E_def : forall sp acc ib lb body t l ct qv,
    (forall x, dec_ident (ib ++ x) = Some (t, x)) ->
    (forall x, dec_len (lb ++ x) = Some (Some l, x)) ->
    N.of_nat (length body) = l ->
    W c sp (t :: acc) false body ct qv ->
    E c sp acc (ib ++ lb ++ body) (mk_node (tcls t) (tnum t) body ct (ib ++ lb ++ body)) (N.eqb (hd 0 lb) 255 || qv)
| E_indef : forall sp acc ib body t ct qv,
    support_indef c = true ->
    (forall x, dec_ident (ib ++ x) = Some (t, x)) ->
    W c sp (t :: acc) true body ct qv ->
    E c sp acc (ib ++ [128] ++ body ++ [0; 0])
      (node_of (tcls t) (tnum t) true body ct (ib ++ [128] ++ body ++ [0; 0])) qv
with W (c: codec) : spec -> tagset -> bool -> bytes -> content -> bool -> Prop :=
| W_bool : forall sp ts fl spT body,
    sel c sp ts = Ok (Some (DcBoolCer, fl, spT)) -> body = [0] \/ body = [255] ->
    W c sp ts false body CPrim (tag0_cons ts)
| W_prim : forall sp ts cd fl spT body,
    sel c sp ts = Ok (Some (cd, fl, spT)) -> (simple_cd cd || string_cd cd)%bool = true -> tag0_simple ts = true ->
    W c sp ts false body CPrim false
| W_container : forall sp ts i cd fl spT body kids q,
    sel c sp ts = Ok (Some (cd, fl, spT)) -> container_cd cd = true -> tag0_cons ts = true ->
    FE c (child_spec spT) [] i body kids q ->
    W c sp ts i body (CKids kids) q
| W_explicit : forall sp ts body n q,
    sel c sp ts = Ok None -> explicit_tag ts = true ->
    E c sp ts body n q ->
    W c sp ts false body (CKids [n]) q
| W_explicit_indef : forall sp ts body kids q,
    sel c sp ts = Ok None -> explicit_tag ts = true -> kids <> [] ->
    FE c (fun sp' => sp' = sp) ts true body kids q ->
    W c sp ts true body (CKids kids) q
| W_choice_tagged : forall sp ts fl T alts body n q,
    sel c sp ts = Ok (Some (DcChoice, fl, Some T)) -> base_of T = TChoice alts ->
    tagset_eqb (tagset_of' T) ts = true ->
    E c (SMap (fields_tagmap true alts)) [] body n q ->
    W c sp ts false body (if tag0_cons ts then CKids [n] else CPrim) (tag0_cons ts && q)
| W_choice_untagged : forall sp ts fl T alts body ct q,
    sel c sp ts = Ok (Some (DcChoice, fl, Some T)) -> base_of T = TChoice alts ->
    tagset_eqb (tagset_of' T) ts = false ->
    W c (SMap (fields_tagmap true alts)) ts false body ct q ->
    W c sp ts false body ct q
with FE (c: codec) : (spec -> Prop) -> tagset -> bool -> bytes -> list node -> bool -> Prop :=
| FE_nil : forall A acc i, FE c A acc i [] [] false
| FE_cons : forall (A: spec -> Prop) acc i sp u n q rest ns qs,
    A sp -> E c sp acc u n q -> (i = true -> firstn 2 u <> [0; 0]) ->
    FE c A acc i rest ns qs -> FE c A acc i (u ++ rest) (n :: ns) (q || qs).

Scheme E_ind2 := Minimality for E Sort Prop
  with W_ind2 := Minimality for W Sort Prop
  with FE_ind2 := Minimality for FE Sort Prop.
Combined Scheme EWF_ind from E_ind2, W_ind2, FE_ind2.

Lemma header_len ib lb t (ol: option N) :
  (forall x, dec_ident (ib ++ x) = Some (t, x)) -> (forall x, dec_len (lb ++ x) = Some (ol, x)) ->
  (2 <= length (ib ++ lb))%nat.
Proof.
  intros Hi Hl. specialize (Hi []). specialize (Hl []).
  destruct ib; [discriminate|]. destruct lb; [discriminate|]. rewrite app_length. cbn [length]. lia.
Qed.

Lemma E_len2 c sp acc u n q : E c sp acc u n q -> (2 <= length u)%nat.
Proof.
  intros H. destruct H as [sp acc ib lb body t l ct qv Hi Hl _ _|sp acc ib body t ct qv _ Hi _].
  - pose proof (header_len _ _ _ _ Hi Hl). rewrite app_assoc, app_length. lia.
  - pose proof (header_len ib [128] _ None Hi (fun x => eq_refl)). rewrite app_assoc, app_length. lia.
Qed.

Definition rec_t := spec -> tagset -> option (option N) -> bool -> bool -> proc dval.

Definition dec_container (rec: rec_t) (lf: nat) (is_set: bool) (spT: option ty) (ts: tagset) (len: option N) : proc dval :=
  match spT with
  | None => dec_schemaless rec lf is_set ts len
  | Some T => match base_of T with
              | TSeq fs => dec_record rec lf T fs false len
              | TSet fs => dec_record rec lf T fs true len
              | TSeqOf t | TSetOf t => dec_listof rec lf T t len
              | _ => Raise EUnmodelled
              end
  end.

Lemma dec_value_container rec lf cd fl spT ts len sfun : container_cd cd = true ->
  dec_value rec lf cd fl spT ts len sfun =
  if negb (tag0_cons ts) then Raise EMalformed else
  if sfun then collector lf len else
  dec_container rec lf (match cd with DcSet | DcSetOf | DcSetOrSetOf => true | _ => false end) spT ts len.
Proof. destruct cd; try discriminate; reflexivity. Qed.

Definition not_eoo (d: dval) : Prop := d <> DEoo.

Lemma create_not_eoo sp proto ts v : post not_eoo (create sp proto ts v).
Proof.
  unfold create.
  destruct (base_of match sp with Some T => T | None => schemaless_ty proto ts end); destruct v;
    try (apply post_ret; discriminate).
  destruct (str_octets_ok n b) as [[|]|]; [apply post_ret; discriminate|apply post_raise|apply post_raise].
Qed.

Section NoEoo.
  Variable rec : rec_t.
  Variable lf : nat.
  (* the recursive entry point answers end-of-contents only when allowed to *)
  Hypothesis Hrec : forall sp acc r sfun, post not_eoo (rec sp acc r false sfun).

  Lemma listof_not_eoo T t len start : forall n acc, post not_eoo (listof_loop rec T t len start n acc).
  Proof.
    induction n as [|n IH]; intros acc; [apply post_raise|]. cbn [listof_loop]. apply post_bind_any. intros p.
    destruct (negb _); [apply post_ret; discriminate|]. apply post_bind_any.
    intros [Tc vc| |b| |]; try apply post_raise; [apply IH|apply post_ret; discriminate|].
    destruct (is_any t); [apply IH|apply post_raise].
  Qed.
  Lemma schemaless_not_eoo is_set ts len start : forall n acc, post not_eoo (schemaless_loop rec is_set ts len start n acc).
  Proof.
    induction n as [|n IH]; intros acc; [destruct acc as [|[T0 v0] r]; apply post_raise|].
    cbn [schemaless_loop]. cbv zeta. apply post_bind_any. intros p.
    destruct (negb _); [destruct acc as [|[T0 v0] r]; apply post_ret; discriminate|].
    apply post_bind_any. intros [Tc vc| |b| |]; try apply post_raise; [apply IH|].
    destruct acc as [|[T0 v0] r]; apply post_ret; discriminate.
  Qed.
  Lemma choice_place_not_eoo T alts d0 : post not_eoo (choice_place lf T alts d0).
  Proof. unfold choice_place. destruct d0; try apply post_raise. apply post_bind_any. intros i. apply post_ret. discriminate. Qed.
  Lemma choice_loop_not_eoo T alts ts tagged : forall n cur, (forall x, cur = Some x -> x <> DEoo) ->
    post not_eoo (choice_loop rec lf T alts ts tagged n cur).
  Proof.
    induction n as [|n IH]; intros cur Hcur; [apply post_raise|]. cbn [choice_loop]. cbv zeta. apply post_bind_any. intros d0.
    assert (Hgo: post not_eoo (pbind (choice_place lf T alts d0) (fun x => if tagged then choice_loop rec lf T alts ts tagged n (Some x) else Ret x))).
    { apply (post_bind not_eoo); [apply choice_place_not_eoo|]. intros x Hx.
      destruct tagged; [|exact (post_ret _ _ Hx)]. apply IH. intros y Hy. inversion Hy; subst. exact Hx. }
    destruct d0; try exact Hgo.
    destruct cur as [x|]; [apply post_ret, Hcur; reflexivity|apply post_raise].
  Qed.
  Lemma raw_loop_not_eoo sp ts : forall n last, last <> DEoo -> post not_eoo (raw_loop rec sp ts n last).
  Proof.
    induction n as [|n IH]; intros last Hl; [apply post_raise|]. cbn [raw_loop]. apply post_bind_any. intros d0.
    destruct d0; try (apply IH; discriminate). destruct last; try apply post_raise; apply post_ret; exact Hl.
  Qed.

  Lemma container_not_eoo b spT ts len : post not_eoo (dec_container rec lf b spT ts len).
  Proof.
    (* a SEQUENCE or SET decoder returns a record, whatever its members were *)
    assert (Hrec': forall T fs is_set, post not_eoo (dec_record rec lf T fs is_set len)).
    { intros T fs is_set. apply (post_mono (complete_record T fs)); [|apply dec_record_complete].
      intros d (vs & -> & _). discriminate. }
    unfold dec_container. destruct spT as [T|].
    - destruct (base_of T); try apply post_raise; try apply Hrec';
        unfold dec_listof; apply post_bind_any; intros p; apply listof_not_eoo.
    - unfold dec_schemaless. apply post_bind_any. intros p. apply schemaless_not_eoo.
  Qed.

  Lemma dec_value_not_eoo cd fl spT ts len sfun : post not_eoo (dec_value rec lf cd fl spT ts len sfun).
  Proof.
    destruct (constructed cd) eqn:Ec.
    2: { apply scalar_value_post; [exact Ec|intros _ b; discriminate|intros proto v _; apply create_not_eoo]. }
    destruct (container_cd cd) eqn:Hc.
    - rewrite (dec_value_container _ _ _ _ _ _ _ _ Hc). destruct (negb _); [apply post_raise|].
      destruct sfun; [apply collector_post; discriminate|apply container_not_eoo].
    - destruct cd; try discriminate. unfold dec_value. cbv zeta.
      destruct spT as [T|]; [|apply post_raise]. destruct (base_of T); try apply post_raise.
      destruct sfun; [apply collector_post; discriminate|]. unfold dec_choice. cbv zeta. destruct len as [l|].
      + apply post_bind_any. intros d0. apply choice_place_not_eoo.
      + apply choice_loop_not_eoo. discriminate.
  Qed.

  Lemma main_not_eoo c sp acc r sfun :
    post not_eoo (match r with
                  | Some len => dispatch c rec lf sp acc len sfun
                  | None => Mark (let! t := read_tag lf in let! len := read_length c in dispatch c rec lf sp (t :: acc) len sfun)
                  end).
  Proof.
    assert (Hd: forall ts len, post not_eoo (dispatch c rec lf sp ts len sfun)).
    { intros ts len. apply dispatch_cases; [apply post_raise| |intros cd fl osp _; apply run_value_post, dec_value_not_eoo].
      apply run_value_post. unfold dec_raw. destruct sfun; [apply collector_post; discriminate|].
      destruct len; [apply Hrec|apply raw_loop_not_eoo; discriminate]. }
    destruct r as [len|]; [apply Hd|]. apply post_mark, post_bind_any. intros t. apply post_bind_any. intros len. apply Hd.
  Qed.
End NoEoo.

Definition eoo_ok (rec: rec_t) : Prop := forall sp acc r allow sfun s s',
  resume (rec sp acc r allow sfun) s = inr (Ok DEoo, s') -> allow = true /\ took s s' [0; 0].

Lemma eoo_ok_ne rec : eoo_ok rec -> forall sp acc r sfun, post not_eoo (rec sp acc r false sfun).
Proof. intros He sp acc r sfun s d s' H ->. destruct (He _ _ _ _ _ _ _ H). discriminate. Qed.

(* end-of-contents is answered only by the look-ahead of an indefinite-length loop, and costs 00 00 *)
Theorem eoo_only : forall c fuel, eoo_ok (dec_call c fuel).
Proof.
  intros c. induction fuel as [|f IH]; intros sp acc r allow sfun s s' H; [dead H|].
  pose proof (main_not_eoo _ f (eoo_ok_ne _ IH) c sp acc r sfun) as Hm.
  cbn [dec_call] in H. unfold dec_body in H. match type of Hm with post _ ?m => set (main := m) in * end.
  destruct (allow && support_indef c)%bool eqn:Ea; [|destruct (Hm _ _ _ H eq_refl)].
  apply andb_prop in Ea. destruct Ea as [-> _]. split; [reflexivity|].
  binv H b s1 Hb. apply readN_inv in Hb.
  cbv beta in H. revert H. apply match_eoo; intros Eb H.
  - apply still_ret in H. subst. exact (proj1 Hb).
  - cbn [resume] in H. destruct (Hm _ _ _ H eq_refl).
Qed.

Definition is_none {X} (o: option X) : bool := match o with None => true | Some _ => false end.
(* what follows the contents of a constructed value read with the length len *)
Definition eoo_tail (len: option N) : bytes := if is_none len then [0; 0] else [].

(* adm: the component specs under which runs are followed.  An element that is not the end-of-contents
   octets is described by a derivation; where those octets were looked for, it does not begin with them. *)
Definition call_ok (c: codec) (adm: spec -> Prop) (rec: rec_t) : Prop :=
  forall sp acc allow s d s', adm sp -> d <> DEoo ->
    resume (rec sp acc None allow false) s = inr (Ok d, s') ->
    exists u n q, took s s' u /\ E c sp acc u n q /\ ((allow && support_indef c)%bool = true -> firstn 2 u <> [0; 0]).
Definition resume_ok (c: codec) (adm: spec -> Prop) (rec: rec_t) : Prop :=
  forall sp ts l s d s', adm sp ->
    resume (rec sp ts (Some (Some l)) false false) s = inr (Ok d, s') ->
    exists u ct q, took s s' u /\ W c sp ts false u ct q.

(* What Phase A needs of adm.  Whatever value decoder a spec in adm selects, its run is one the derivation
   describes: not the ANY decoder; a string decoder only if it forbids the constructed form, and a string
   or CHOICE decoder only under a codec without indefinite lengths.  The specs handed on to the members,
   or to the alternatives of a CHOICE, are in adm again. *)
Definition adm_ok (c: codec) (adm: spec -> Prop) : Prop :=
  forall sp ts cd fl spT, adm sp -> sel c sp ts = Ok (Some (cd, fl, spT)) ->
    is_any_cd cd = false
    /\ (string_cd cd = true -> df_constructed fl = false /\ support_indef c = false)
    /\ (cd = DcChoice -> support_indef c = false /\
          forall T alts, spT = Some T -> base_of T = TChoice alts -> adm (SMap (fields_tagmap true alts)))
    /\ (forall sp', child_spec spT sp' -> adm sp').

Lemma ambiguous_run_incl : forall fs, incl (ambiguous_run fs) (map snd fs).
Proof.
  induction fs as [|[p t] r IH]; [intros x Hx; exact Hx|].
  cbn [ambiguous_run map snd]. destruct p.
  - intros x [Hx|[]]. left. exact Hx.
  - intros x [Hx|Hx]; [left; exact Hx|right; exact (IH x Hx)].
  - intros x [Hx|Hx]; [left; exact Hx|right; exact (IH x Hx)].
Qed.

(* the SEQUENCE / SET case of [child_spec] *)
Definition rec_child (fs: list (presence * ty)) (sp': spec) : Prop :=
  (fs = [] /\ sp' = SNone)
  \/ (exists f, In f (map snd fs) /\ sp' = STy f)
  \/ (exists u fs', incl fs' (map snd fs) /\ sp' = SMap (fields_tagmap u fs')).

Lemma component_spec_child (fs: list (presence * ty)) (is_set det: bool) idx sp' :
  (if is_set then Some (SMap (fields_tagmap true (map snd fs))) else seq_component_spec fs det idx) = Some sp' ->
  rec_child fs sp'.
Proof.
  intros Hc. right. destruct is_set.
  - inversion Hc; subst. right. exists true, (map snd fs). split; [apply incl_refl|reflexivity].
  - unfold seq_component_spec in Hc. destruct (nth_error fs idx) as [[p t]|] eqn:En; [|discriminate].
    destruct (det || is_req p)%bool; inversion Hc; subst.
    + left. exists t. split; [|reflexivity]. apply nth_error_In in En. apply (in_map snd) in En. exact En.
    + right. exists false, (ambiguous_run (skipn idx fs)). split; [|reflexivity].
      intros x Hx. apply ambiguous_run_incl in Hx. apply in_map_iff in Hx. destruct Hx as (y & Hy & Hx).
      apply in_map_iff. exists y. split; [exact Hy|]. rewrite <- (firstn_skipn idx fs). apply in_or_app. right. exact Hx.
Qed.

Lemma dec_bool_cer_inv lf sp ts l s d s' : resume (dec_bool_cer lf sp ts l) s = inr (Ok d, s') ->
  l = 1 /\ exists u, took s s' u /\ (u = [0] \/ u = [255]).
Proof.
  unfold dec_bool_cer. destruct (N.eqb_spec l 1) as [->|]; intros H; [|dead H]. split; [reflexivity|].
  binv H b s1 Hb. apply read_len_inv in Hb. exists b. cbv beta in H.
  destruct (bool_match b (create sp TBool ts (VInt 1)) (create sp TBool ts (VInt 0)) (Raise EMalformed)) as [[Eb E]|[[Eb E]|E]];
    rewrite E in H; [| |dead H]; apply still_create in H; subst; auto.
Qed.

Lemma boolean_strict : forall fuel sp ts (o: N) s s' d,
  avail s = [o] ++ avail s' ->
  resume (dec_bool_cer fuel sp ts 1) s = inr (Ok d, s') -> o = 0 \/ o = 255.
Proof.
  intros fuel sp ts o s s' d Hav H. apply dec_bool_cer_inv in H. destruct H as (_ & u & [Hu _] & Hb).
  rewrite Hav in Hu. apply app_inv_tail in Hu. destruct Hb as [-> | ->]; inversion Hu; auto.
Qed.

Section PhaseA.
  Variable c : codec.
  Variable adm : spec -> Prop.
  Variable rec : rec_t.
  Variable lf : nat.
  Hypothesis Hadm : adm_ok c adm.
  Hypothesis Hcall : call_ok c adm rec.
  Hypothesis Hres : resume_ok c adm rec.
  Hypothesis Heoo : eoo_ok rec.

  Lemma read_then_still l (k: bytes -> proc dval) s d s' : (forall b, still (k b)) ->
    resume (let! b := read_len lf l in k b) s = inr (Ok d, s') -> exists u, took s s' u.
  Proof. intros Hk H. binv H b s1 Hb. apply read_len_inv in Hb. apply Hk in H. subst s'. exists b. exact Hb. Qed.

  (* the decoders that read the announced number of contents octets and then only compute: those of the
     simple types other than the strict BOOLEAN, and those of the strings on a primitive encoding *)
  Lemma prim_value_inv cd fl spT ts l s d s' :
    (simple_cd cd || string_cd cd)%bool = true -> (string_cd cd = true -> df_constructed fl = false) ->
    resume (dec_value rec lf cd fl spT ts (Some l) false) s = inr (Ok d, s') ->
    tag0_simple ts = true /\ exists u, took s s' u.
  Proof.
    intros Hcd Hfl H. unfold dec_value in H. cbv zeta in H.
    assert (Hg: forall k: bytes -> proc dval, (forall b, still (k b)) ->
              resume (if negb (tag0_simple ts) then Raise EMalformed else let! b := read_len lf l in k b) s = inr (Ok d, s') ->
              tag0_simple ts = true /\ exists u, took s s' u).
    { intros k Hk H0. destruct (tag0_simple ts); [|dead H0]. split; [reflexivity|]. exact (read_then_still _ _ _ _ _ Hk H0). }
    assert (Ho: forall proto, resume (dec_octets rec lf proto fl spT ts l false) s = inr (Ok d, s') ->
              string_cd cd = true -> tag0_simple ts = true /\ exists u, took s s' u).
    { intros proto H0 Hs. unfold dec_octets in H0. rewrite (Hfl Hs) in H0. destruct (tag0_simple ts); [|dead H0].
      split; [reflexivity|]. apply read_then_still in H0; [exact H0|]. intros b. apply still_create. }
    destruct cd; try discriminate; cbv beta iota in H.
    - apply Hg in H; [exact H|]. intros b. apply still_create.
    - apply Hg in H; [exact H|]. intros b. apply still_create.
    - (* BIT STRING: the octet that counts the unused bits comes first *)
      unfold dec_bits in H. rewrite (Hfl eq_refl) in H. destruct (tag0_simple ts); [|dead H]. split; [reflexivity|].
      destruct (N.eqb l 0); [dead H|]. binv H tb s1 Htb. apply read1_inv in Htb. destruct (N.ltb 7 tb); [dead H|].
      apply read_then_still in H; [|intros b; apply still_bind; [apply still_lift|intros bs; apply still_create]].
      destruct H as [u Hu]. exists ([tb] ++ u). exact (took_trans _ _ _ _ _ Htb Hu).
    - exact (Ho _ H eq_refl).
    - apply Hg in H; [exact H|]. intros b. destruct b; [apply still_create|apply still_raise].
    - apply Hg in H; [exact H|]. intros b. apply still_bind; [apply still_lift|intros a; apply still_create].
    - apply Hg in H; [exact H|]. intros b. apply still_bind; [apply still_lift|intros a; apply still_create].
    - exact (Ho _ H eq_refl).
  Qed.

  (* One round of a member loop, A being the specs it may hand to a member.  Either the announced length is
     used up; or the next element is asked for - the end-of-contents octets being allowed exactly when the
     length is indefinite - and is those octets, or else a member, after which the loop goes on. *)
  Definition round (A: spec -> Prop) (acc0: tagset) (len: option N) (next: stream -> Prop) (s s': stream) : Prop :=
    (is_none len = false /\ s' = s)
    \/ exists sp' d0 s1, resume (rec sp' acc0 None (is_none len) false) s = inr (Ok d0, s1) /\
         ((d0 = DEoo /\ s' = s1) \/ (d0 <> DEoo /\ A sp' /\ adm sp' /\ next s1)).

  Lemma members_inv {X} (A: spec -> Prop) acc0 len (loop: nat -> X -> proc dval) d s' :
    (forall x s, resume (loop O x) s <> inr (Ok d, s')) ->
    (forall n x s, resume (loop (S n) x) s = inr (Ok d, s') ->
       round A acc0 len (fun s1 => exists x', resume (loop n x') s1 = inr (Ok d, s')) s s') ->
    forall n x s, resume (loop n x) s = inr (Ok d, s') ->
    exists u kids q, took s s' (u ++ eoo_tail len) /\ FE c A acc0 (is_none len && support_indef c) u kids q.
  Proof.
    intros H0 Hstep. unfold eoo_tail. induction n as [|n IH]; intros x s HR; [destruct (H0 _ _ HR)|].
    destruct (Hstep _ _ _ HR) as [[Hl ->]|(sp' & d0 & s1 & Hd0 & [[-> ->]|(Hne & HA & Hok & x' & Hn)])].
    - exists [], [], false. rewrite Hl. split; [apply took_refl|constructor].
    - destruct (Heoo _ _ _ _ _ _ _ Hd0) as [Hal Ht]. exists [], [], false. rewrite Hal. split; [exact Ht|constructor].
    - destruct (Hcall _ _ _ _ _ _ Hok Hne Hd0) as (u1 & n1 & q1 & Ht1 & HE1 & Hnz).
      destruct (IH _ _ Hn) as (u2 & kids & q2 & Ht2 & HF2).
      exists (u1 ++ u2), (n1 :: kids), (q1 || q2)%bool.
      split; [rewrite <- app_assoc; exact (took_trans _ _ _ _ _ Ht1 Ht2)|].
      apply FE_cons with (sp := sp'); assumption.
  Qed.

  Lemma listof_inv T t len start : adm (STy t) -> forall n acc s d s',
    resume (listof_loop rec T t len start n acc) s = inr (Ok d, s') ->
    exists u kids q, took s s' (u ++ eoo_tail len) /\ FE c (fun sp' => sp' = STy t) [] (is_none len && support_indef c) u kids q.
  Proof.
    intros Hok n acc s d s'. apply (members_inv (fun sp' => sp' = STy t) [] len (listof_loop rec T t len start)); clear - Hok;
      [intros a s0 H0; dead H0|].
    intros n acc s H. cbn [listof_loop] in H. cbn [pbind tell resume] in H.
    destruct (negb match len with Some l => N.ltb (N.of_nat (pos s - start)) l | None => true end) eqn:Econt.
    - left. apply still_ret in H. split; [destruct len; [reflexivity|discriminate]|exact H].
    - right. binv H d0 s1 Hd0. exists (STy t), d0, s1. split; [exact Hd0|].
      destruct d0 as [Tc vc| |b| |]; try dead H.
      + right. split; [discriminate|]. eauto.
      + left. apply still_ret in H. auto.
      + destruct (is_any t); [|dead H]. right. split; [discriminate|]. eauto.
  Qed.

  Lemma schemaless_inv is_set ts len start : adm SNone -> forall n acc s d s',
    resume (schemaless_loop rec is_set ts len start n acc) s = inr (Ok d, s') ->
    exists u kids q, took s s' (u ++ eoo_tail len) /\ FE c (fun sp' => sp' = SNone) [] (is_none len && support_indef c) u kids q.
  Proof.
    intros Hok n acc s d s'. apply (members_inv (fun sp' => sp' = SNone) [] len (schemaless_loop rec is_set ts len start)); clear - Hok;
      [intros a s0 H0; destruct a as [|[T0 v0] r]; dead H0|].
    intros n acc s H. cbn [schemaless_loop] in H. cbv zeta in H. cbn [pbind tell resume] in H.
    destruct (negb match len with Some l => N.ltb (N.of_nat (pos s)) (N.of_nat start + l) | None => true end) eqn:Econt.
    - left. split; [destruct len; [reflexivity|discriminate]|]. destruct acc as [|[T0 v0] r]; exact (still_ret _ _ _ _ H).
    - right. binv H d0 s1 Hd0. exists SNone, d0, s1. split; [exact Hd0|].
      destruct d0 as [Tc vc| |b| |]; try dead H.
      + right. split; [discriminate|]. eauto.
      + left. split; [reflexivity|]. destruct acc as [|[T0 v0] r]; exact (still_ret _ _ _ _ H).
  Qed.

  Lemma record_inv T fs is_set len start extra : (forall sp', rec_child fs sp' -> adm sp') -> forall n idx vs s d s',
    resume (record_loop rec lf T fs is_set len start n idx vs extra) s = inr (Ok d, s') ->
    exists u kids q, took s s' (u ++ eoo_tail len) /\ FE c (rec_child fs) [] (is_none len && support_indef c) u kids q.
  Proof.
    intros Hch n idx vs s d s'.
    refine (members_inv (rec_child fs) [] len (fun n x => record_loop rec lf T fs is_set len start n (fst x) (snd x) extra) d s' _ _ n (idx, vs) s);
      clear - Hch; [intros x s0 H0; dead H0|].
    intros n [idx vs] s H. cbn [fst snd record_loop] in H. cbv zeta in H. cbn [pbind tell resume] in H.
    assert (Hfin: still (record_end T fs vs)).
    { unfold record_end. destruct fs; [apply still_ret|]. destruct (required_seen _ vs); [apply still_ret|apply still_raise]. }
    destruct (negb match len with Some l => N.ltb (N.of_nat (pos s - start)) l | None => true end) eqn:Econt.
    - left. apply Hfin in H. split; [destruct len; [reflexivity|discriminate]|exact H].
    - right. match type of H with resume (match ?sp with _ => _ end) _ = _ => destruct sp as [sp'|] eqn:Esp end; [|dead H].
      binv H d0 s1 Hd0. exists sp', d0, s1. split; [exact Hd0|].
      (* a member is only accepted at a position that has one: sp' is then one of the specs of the members *)
      assert (Hgo: forall idx' vs', fs <> [] -> (negb is_set && Nat.leb (length fs) idx)%bool = false -> d0 <> DEoo ->
                resume (record_loop rec lf T fs is_set len start n idx' vs' extra) s1 = inr (Ok d, s') ->
                (d0 = DEoo /\ s' = s1) \/ (d0 <> DEoo /\ rec_child fs sp' /\ adm sp' /\
                   exists x, resume (record_loop rec lf T fs is_set len start n (fst x) (snd x) extra) s1 = inr (Ok d, s'))).
      { intros idx' vs' Hne Hpast Hd H'. assert (Hc: rec_child fs sp').
        { eapply component_spec_child. destruct fs; [congruence|]. destruct len; [|rewrite Hpast in Esp]; exact Esp. }
        right. split; [exact Hd|]. split; [exact Hc|]. split; [exact (Hch _ Hc)|]. exists (idx', vs'). exact H'. }
      destruct d0 as [Tc vc| |b| |]; try dead H.
      + destruct fs as [|f fs'] eqn:Efs; [dead H|]. rewrite <- Efs in *.
        destruct (negb is_set && Nat.leb (length fs) idx)%bool eqn:Epast; [dead H|].
        binv H i s3 Hi. apply still_lift in Hi. subst s3. destruct (Nat.leb (length fs) i); [dead H|].
        apply Hgo in H; [exact H|rewrite Efs; discriminate|reflexivity|discriminate].
      + left. split; [reflexivity|exact (Hfin _ _ _ H)].
      + destruct fs as [|f fs'] eqn:Efs; [dead H|]. rewrite <- Efs in *.
        match type of H with resume (if ?g then _ else _) _ = _ => destruct g end; [|dead H].
        destruct (nth_error fs idx) as [[p0 ft]|] eqn:En; [|dead H]. destruct (is_any ft); [|dead H].
        apply Hgo in H; [exact H|rewrite Efs; discriminate| |discriminate].
        assert (idx < length fs)%nat by (apply nth_error_Some; congruence).
        destruct (Nat.leb_spec (length fs) idx); [lia|apply Bool.andb_false_r].
  Qed.

  Lemma raw_inv sp ts : adm sp -> forall n last s d s',
    resume (raw_loop rec sp ts n last) s = inr (Ok d, s') ->
    exists u kids q, took s s' (u ++ [0; 0]) /\ FE c (fun sp' => sp' = sp) ts (support_indef c) u kids q.
  Proof.
    intros Hok n last s d s'. apply (members_inv (fun sp' => sp' = sp) ts None (raw_loop rec sp ts)); clear - Hok;
      [intros a s0 H0; dead H0|].
    intros n last s H. cbn [raw_loop] in H. binv H d0 s1 Hd0. right. exists sp, d0, s1. split; [exact Hd0|].
    destruct d0 as [Tc vc| |b| |]; try (right; split; [discriminate|]; eauto).
    left. split; [reflexivity|]. destruct last; try exact (still_ret _ _ _ _ H). dead H.
  Qed.

  Lemma container_inv (b: bool) spT ts len s d s' : (forall sp', child_spec spT sp' -> adm sp') ->
    resume (dec_container rec lf b spT ts len) s = inr (Ok d, s') ->
    exists u kids q, took s s' (u ++ eoo_tail len) /\ FE c (child_spec spT) [] (is_none len && support_indef c) u kids q.
  Proof.
    intros Hch H. unfold dec_container in H. destruct spT as [T|]; unfold child_spec in *.
    - destruct (base_of T); try dead H.
      + unfold dec_record in H. cbv zeta in H. cbn [pbind tell resume] in H. exact (record_inv _ _ _ _ _ _ Hch _ _ _ _ _ _ H).
      + unfold dec_record in H. cbv zeta in H. cbn [pbind tell resume] in H. exact (record_inv _ _ _ _ _ _ Hch _ _ _ _ _ _ H).
      + unfold dec_listof in H. cbn [pbind tell resume] in H. exact (listof_inv _ _ _ _ (Hch _ eq_refl) _ _ _ _ _ H).
      + unfold dec_listof in H. cbn [pbind tell resume] in H. exact (listof_inv _ _ _ _ (Hch _ eq_refl) _ _ _ _ _ H).
    - unfold dec_schemaless in H. cbn [pbind tell resume] in H. exact (schemaless_inv _ _ _ _ (Hch _ eq_refl) _ _ _ _ _ H).
  Qed.

  Lemma choice_place_inv T alts d0 s d s' : resume (choice_place lf T alts d0) s = inr (Ok d, s') -> s' = s /\ d0 <> DEoo.
  Proof.
    unfold choice_place. destruct d0; intros H; try dead H. split; [|discriminate].
    revert H. apply still_bind; [apply still_lift|intros i; apply still_ret].
  Qed.

  Lemma dec_value_inv sp ts cd fl spT len s d s' :
    adm sp -> sel c sp ts = Ok (Some (cd, fl, spT)) -> (len = None -> support_indef c = true) ->
    resume (dec_value rec lf cd fl spT ts len false) s = inr (Ok d, s') ->
    exists u ct q, took s s' (u ++ eoo_tail len) /\ W c sp ts (is_none len) u ct q.
  Proof.
    intros Hok Hsel Hlen H. destruct (Hadm _ _ _ _ _ Hok Hsel) as (Hany & Hstr & Hcho & Hkids).
    destruct (cd_class cd Hany) as [-> |[Hp|[Hc| ->]]].
    - destruct len as [l|]; [|dead H]. apply dec_bool_cer_inv in H. destruct H as (_ & u & Hu & Hb).
      exists u, CPrim, (tag0_cons ts). cbn [eoo_tail is_none]. rewrite app_nil_r.
      split; [exact Hu|exact (W_bool c _ _ _ _ _ Hsel Hb)].
    - destruct len as [l|].
      + apply prim_value_inv in H; [|exact Hp|intros Hs; exact (proj1 (Hstr Hs))]. destruct H as (Hts & u & Hu).
        exists u, CPrim, false. cbn [eoo_tail is_none]. rewrite app_nil_r.
        split; [exact Hu|exact (W_prim c _ _ _ _ _ _ Hsel Hp Hts)].
      + destruct (string_cd cd) eqn:Es; [destruct (Hstr eq_refl) as [_ Hx]; rewrite (Hlen eq_refl) in Hx; discriminate|].
        rewrite Bool.orb_false_r in Hp. unfold dec_value in H. destruct cd; try discriminate; dead H.
    - rewrite (dec_value_container _ _ _ _ _ _ _ _ Hc) in H. destruct (tag0_cons ts) eqn:Hts; [|dead H].
      apply container_inv in H; [|exact Hkids]. destruct H as (u & kids & q & Hu & HF).
      replace (is_none len && support_indef c)%bool with (is_none len) in HF
        by (destruct len; [reflexivity|rewrite (Hlen eq_refl); reflexivity]).
      exists u, (CKids kids), q. split; [exact Hu|exact (W_container c _ _ _ _ _ _ _ _ _ Hsel Hc Hts HF)].
    - destruct (Hcho eq_refl) as [Hdefinite Halts].
      destruct len as [l|]; [|rewrite (Hlen eq_refl) in Hdefinite; discriminate].
      unfold dec_value in H. cbv beta iota zeta in H. destruct spT as [T|]; [|dead H].
      destruct (base_of T) eqn:Eb; try dead H. pose proof (Halts _ _ eq_refl Eb) as Hm.
      unfold dec_choice in H. cbv zeta in H. binv H d0 s1 Hd0. apply choice_place_inv in H. destruct H as [-> Hne].
      cbn [eoo_tail is_none]. destruct (tagset_eqb (tagset_of' T) ts) eqn:Etg.
      + destruct (Hcall _ _ _ _ _ _ Hm Hne Hd0) as (u & n & q & Hu & HE & _).
        exists u, (if tag0_cons ts then CKids [n] else CPrim), (tag0_cons ts && q)%bool. rewrite app_nil_r.
        split; [exact Hu|exact (W_choice_tagged c _ _ _ _ _ _ _ _ Hsel Eb Etg HE)].
      + destruct (Hres _ _ _ _ _ _ Hm Hd0) as (u & ct & q & Hu & HW).
        exists u, ct, q. rewrite app_nil_r. split; [exact Hu|exact (W_choice_untagged c _ _ _ _ _ _ _ _ Hsel Eb Etg HW)].
  Qed.

  Lemma dispatch_inv sp ts len s d s' : adm sp -> (len = None -> support_indef c = true) ->
    resume (dispatch c rec lf sp ts len false) s = inr (Ok d, s') ->
    exists u ct q, took s s' (u ++ eoo_tail len) /\ W c sp ts (is_none len) u ct q
                   /\ forall l, len = Some l -> N.of_nat (length u) = l.
  Proof.
    intros Hok Hlen H. rewrite dispatch_sel in H.
    assert (Hl: forall u, took s s' (u ++ eoo_tail len) -> (forall l, len = Some l -> N.of_nat (pos s' - pos s) = l) ->
                forall l, len = Some l -> N.of_nat (length u) = l).
    { intros u Hu Hp l E. rewrite <- (Hp l E). subst len. cbn [eoo_tail is_none] in Hu. rewrite app_nil_r in Hu.
      rewrite (took_len _ _ _ Hu). reflexivity. }
    destruct (sel c sp ts) as [[[[cd fl] spT]|]|e] eqn:Esel; [| |dead H].
    - apply run_value_inv in H. destruct H as [H Hp].
      destruct (dec_value_inv _ _ _ _ _ _ _ _ _ Hok Esel Hlen H) as (u & ct & q & Hu & HW). eauto 7.
    - destruct (explicit_tag ts) eqn:Ex; [|dead H]. apply run_value_inv in H. destruct H as [H Hp].
      unfold dec_raw in H. destruct len as [l|].
      + destruct (Hcall _ _ _ _ _ _ Hok (eoo_ok_ne _ Heoo _ _ _ _ _ _ _ H) H) as (u & n & q & Hu & HE & _).
        assert (Hu': took s s' (u ++ eoo_tail (Some l))) by (cbn [eoo_tail is_none]; rewrite app_nil_r; exact Hu).
        exists u, (CKids [n]), q. split; [exact Hu'|]. split; [exact (W_explicit c _ _ _ _ _ Esel Ex HE)|exact (Hl _ Hu' Hp)].
      + (* the first thing under the tag is an element, the rest a member loop *)
        destruct lf as [|n]; [dead H|]. cbn [raw_loop] in H. binv H d0 s1 Hd0.
        assert (Hne: d0 <> DEoo) by (intros ->; dead H).
        destruct (Hcall _ _ _ _ _ _ Hok Hne Hd0) as (u1 & n1 & q1 & Ht1 & HE1 & Hnz).
        assert (H': resume (raw_loop rec sp ts n d0) s1 = inr (Ok d, s')) by (destruct d0; try exact H; congruence).
        destruct (raw_inv _ _ Hok _ _ _ _ _ H') as (u2 & kids & q2 & Ht2 & HF2). rewrite (Hlen eq_refl) in HF2, Hnz.
        exists (u1 ++ u2), (CKids (n1 :: kids)), (q1 || q2)%bool. cbn [eoo_tail is_none].
        split; [rewrite <- app_assoc; exact (took_trans _ _ _ _ _ Ht1 Ht2)|]. split; [|discriminate].
        apply (W_explicit_indef c _ _ _ _ _ Esel Ex); [discriminate|].
        apply FE_cons with (sp := sp); [reflexivity|exact HE1|exact Hnz|exact HF2].
  Qed.

  Lemma main_inv sp acc s d s' : adm sp ->
    resume (Mark (let! t := read_tag lf in let! len := read_length c in dispatch c rec lf sp (t :: acc) len false)) s = inr (Ok d, s') ->
    exists u n q, took s s' u /\ E c sp acc u n q.
  Proof.
    intros Hok H. cbn [resume] in H.
    binv H t s1 Ht. apply read_tag_inv in Ht. destruct Ht as (ib & Hib & Hid).
    binv H ol s2 Hl. apply read_length_inv in Hl. destruct Hl as (lb & Hlb & Hol).
    apply dispatch_inv in H; [|exact Hok|intros ->; exact (proj2 Hol)]. destruct H as (u & ct & q & Hu & HW & Hlen).
    destruct ol as [l|]; cbn [eoo_tail is_none] in Hu, HW.
    - rewrite app_nil_r in Hu.
      exists (ib ++ lb ++ u), (mk_node (tcls t) (tnum t) u ct (ib ++ lb ++ u)), (N.eqb (hd 0 lb) 255 || q)%bool.
      split; [exact (took_trans _ _ _ _ _ Hib (took_trans _ _ _ _ _ Hlb Hu))|].
      exact (E_def c _ _ _ _ _ _ _ _ _ Hid Hol (Hlen _ eq_refl) HW).
    - destruct Hol as [-> Hind].
      exists (ib ++ [128] ++ u ++ [0; 0]), (node_of (tcls t) (tnum t) true u ct (ib ++ [128] ++ u ++ [0; 0])), q.
      split; [exact (took_trans _ _ _ _ _ Hib (took_trans _ _ _ _ _ Hlb Hu))|].
      exact (E_indef c _ _ _ _ _ _ _ Hind Hid HW).
  Qed.

  Lemma dec_body_call : call_ok c adm (dec_body c rec lf).
  Proof.
    intros sp acc allow s d s' Hok Hd H. unfold dec_body in H. set (main := Mark _) in H.
    destruct (allow && support_indef c)%bool eqn:Ea.
    - (* the look-ahead for the end-of-contents octets: two octets read, and put back if they are others *)
      binv H b s1 Hb. apply readN_inv in Hb. destruct Hb as (Hb & Hbl & Hba). cbv beta in H.
      revert H. apply match_eoo; intros Eb H.
      + cbn [resume] in H. congruence.
      + cbn [resume] in H. apply main_inv in H; [|exact Hok]. destruct H as (u & n & q & Hu & HE).
        assert (Hs: avail (setpos s1 (pos s1 - 2)) = avail s /\ pos (setpos s1 (pos s1 - 2)) = pos s).
        { destruct Hb as [_ Hp]. unfold avail. cbn [pos arrived setpos]. rewrite Hba.
          replace (pos s1 - 2)%nat with (pos s) by lia. auto. }
        assert (Hu': took s s' u) by (destruct Hs as [Hav Hpos], Hu as [A B]; split; [rewrite <- Hav; exact A|rewrite <- Hpos; exact B]).
        exists u, n, q. split; [exact Hu'|]. split; [exact HE|]. intros _ Hf. apply Eb.
        (* the first two octets of the element are the two that were looked at *)
        pose proof (E_len2 _ _ _ _ _ _ HE) as Hl2. destruct Hb as [Hb1 _], Hu' as [Hu1 _].
        rewrite Hb1 in Hu1. apply (f_equal (firstn 2)) in Hu1.
        rewrite <- Hbl in Hu1 at 1. rewrite firstn_app_exact, firstn_app in Hu1.
        replace (2 - length u)%nat with 0%nat in Hu1 by lia. cbn [firstn] in Hu1. rewrite app_nil_r in Hu1.
        rewrite Hu1. exact Hf.
    - apply main_inv in H; [|exact Hok]. destruct H as (u & n & q & Hu & HE). exists u, n, q.
      split; [exact Hu|]. split; [exact HE|discriminate].
  Qed.

  Lemma dec_body_resume : resume_ok c adm (dec_body c rec lf).
  Proof.
    intros sp ts l s d s' Hok H. unfold dec_body in H. cbn [andb] in H.
    apply dispatch_inv in H; [|exact Hok|discriminate]. destruct H as (u & ct & q & Hu & HW & _).
    cbn [eoo_tail is_none] in Hu. rewrite app_nil_r in Hu. eauto.
  Qed.
End PhaseA.

Theorem dec_call_derivation c adm : adm_ok c adm ->
  forall fuel, call_ok c adm (dec_call c fuel) /\ resume_ok c adm (dec_call c fuel).
Proof.
  intros Hadm. induction fuel as [|f [IH1 IH2]].
  - split; intros sp; intros; cbn [dec_call resume] in *; discriminate.
  - split; [exact (dec_body_call c adm _ f Hadm IH1 IH2 (eoo_only c f))|exact (dec_body_resume c adm _ f Hadm IH1 IH2 (eoo_only c f))].
Qed.

Definition guide (sp: option ty) : spec := match sp with Some T => STy T | None => SNone end.
Definition guide_ok (sp: option ty) : Prop := match sp with Some T => no_any T = true | None => True end.

Theorem decode_derivation c adm sp b d tl : adm_ok c adm -> adm (guide sp) ->
  decode c sp b = Ok (d, tl) ->
  exists used n q, b = used ++ tl /\ E c (guide sp) [] used n q.
Proof.
  intros Hadm Hok H. unfold decode, run_complete in H.
  destruct (resume (dec_item c (dec_fuel sp b) sp) (mkStream b 0 true 0)) as [[p0 s0]|[[d0|e] s']] eqn:Ex; try discriminate.
  inversion H; subst; clear H. unfold dec_item in Ex.
  assert (Hd: d <> DEoo) by (intros ->; destruct (eoo_only _ _ _ _ _ _ _ _ _ Ex); discriminate).
  destruct (proj1 (dec_call_derivation c adm Hadm _) (guide sp) [] false _ _ _ Hok Hd Ex) as (u & n & q & [Hu _] & HE & _).
  eauto.
Qed.

Lemma rec_child_all (P: ty -> bool) fs sp' : (forall T, P T = true -> tm_default (tagmap_of T) = None) ->
  forallb P (map snd fs) = true -> rec_child fs sp' ->
  match sp' with SNone => fs = [] | STy T => P T = true | SMap m => all_in P m end.
Proof.
  intros Hd Hfs [[E ->]|[(f & Hf & ->)|(u & fs' & Hi & ->)]].
  - exact E.
  - rewrite forallb_forall in Hfs. exact (Hfs _ Hf).
  - exact (fields_tagmap_all P _ _ Hd (forallb_incl _ _ _ Hi Hfs)).
Qed.

Lemma child_spec_ok T sp' : no_any T = true -> child_spec (Some T) sp' -> spec_ok sp'.
Proof.
  intros Hn Hc. apply no_any_base in Hn. cbn [child_spec] in Hc.
  assert (Hfs: forall fs, no_any (TSeq fs) = true -> rec_child fs sp' -> spec_ok sp').
  { intros fs Hfs Hr. cbn [no_any] in Hfs. rewrite no_any_fields in Hfs.
    pose proof (rec_child_all no_any _ _ tagmap_default Hfs Hr) as Hx. destruct sp'; [exact I|exact Hx|exact Hx]. }
  destruct (base_of T); try contradiction; [exact (Hfs _ Hn Hc)|exact (Hfs _ Hn Hc)|subst; exact Hn|subst; exact Hn].
Qed.

Lemma der_adm : adm_ok DER spec_ok.
Proof.
  intros sp ts cd fl spT Hok Hsel. destruct (sel_facts _ _ _ _ _ Hok Hsel) as (Hstr & Hany & HspT).
  split; [exact Hany|]. split; [intros Hs; split; [exact (Hstr Hs)|reflexivity]|]. split.
  - intros _. split; [reflexivity|]. intros T alts -> Hb. apply no_any_base in HspT. rewrite Hb in HspT.
    cbn [no_any] in HspT. rewrite no_any_alts in HspT. exact (fields_tagmap_ok _ _ HspT).
  - intros sp' Hc. destruct spT as [T|]; [exact (child_spec_ok _ _ HspT Hc)|]. cbn [child_spec] in Hc. subst. exact I.
Qed.

(* the DER decoder has no indefinite lengths, so its derivations are derivations D *)
Lemma der_derivation :
  (forall sp acc u n q, E DER sp acc u n q -> spec_ok sp -> D sp acc u n q)
  /\ (forall sp ts i body ct q, W DER sp ts i body ct q -> spec_ok sp -> i = false -> V sp ts body ct q)
  /\ (forall A acc i body kids q, FE DER A acc i body kids q ->
        (forall sp, A sp -> spec_ok sp) -> acc = [] -> i = false -> F A body kids q).
Proof.
  apply EWF_ind.
  - intros sp acc ib lb body t l ct qv Hid Hdl Hlen _ IH Hok. exact (D_tlv _ _ _ _ _ _ _ _ _ Hid Hdl Hlen (IH Hok eq_refl)).
  - intros sp acc ib body t ct qv Hind. discriminate Hind.
  - intros sp ts fl spT body Hsel Hb _ _. exact (V_bool _ _ _ _ _ Hsel Hb).
  - intros sp ts cd fl spT body Hsel Hcd Hts _ _.
    destruct (simple_cd cd) eqn:Es; [exact (V_simple _ _ _ _ _ _ Hsel Es Hts)|exact (V_string _ _ _ _ _ _ Hsel Hcd Hts)].
  - intros sp ts i cd fl spT body kids q Hsel Hcd Hts _ IH Hok ->. apply (V_container _ _ _ _ _ _ _ _ Hsel Hcd Hts).
    apply IH; [|reflexivity|reflexivity]. exact (proj2 (proj2 (proj2 (der_adm _ _ _ _ _ Hok Hsel)))).
  - intros sp ts body n q Hsel Hex _ IH Hok _. exact (V_explicit _ _ _ _ _ Hsel Hex (IH Hok)).
  - intros sp ts body kids q _ _ _ _ _ _ Hi. discriminate Hi.
  - intros sp ts fl T alts body n q Hsel Hb Htg _ IH Hok _. apply (V_choice_tagged _ _ _ _ _ _ _ _ Hsel Hb Htg).
    apply IH. exact (proj2 (proj1 (proj2 (proj2 (der_adm _ _ _ _ _ Hok Hsel))) eq_refl) _ _ eq_refl Hb).
  - intros sp ts fl T alts body ct q Hsel Hb Htg _ IH Hok _. apply (V_choice_untagged _ _ _ _ _ _ _ _ Hsel Hb Htg).
    apply IH; [|reflexivity]. exact (proj2 (proj1 (proj2 (proj2 (der_adm _ _ _ _ _ Hok Hsel))) eq_refl) _ _ eq_refl Hb).
  - intros A acc i _ _ _. constructor.
  - intros A acc i sp u n q rest ns qs HA _ IHE _ _ IHF HAok -> ->.
    exact (F_cons _ _ _ _ _ _ _ _ HA (HAok _ HA) (IHE (HAok _ HA)) (IHF HAok eq_refl eq_refl)).
Qed.

Theorem decode_der_derivation : forall sp b d tl, guide_ok sp ->
  decode DER sp b = Ok (d, tl) ->
  exists used n q, b = used ++ tl /\ E DER (guide sp) [] used n q /\ D (guide sp) [] used n q.
Proof.
  intros sp b d tl Hok H. assert (Hok': spec_ok (guide sp)) by (destruct sp; exact Hok).
  destruct (decode_derivation DER spec_ok sp b d tl der_adm Hok' H) as (used & n & q & Hb & HE).
  exists used, n, q. split; [exact Hb|]. split; [exact HE|exact (proj1 der_derivation _ _ _ _ _ HE Hok')].
Qed.

(* facts about one octet, decided by going through all 256 *)
Definition octet_ok (o: N) : bool :=
  cls_eqb (class_of_no (o / 64)) (cls_of_bits o)
  && Bool.eqb (N.eqb ((o / 32) mod 2) 1) (negb (N.eqb (N.land o 32) 0))
  && N.eqb (o mod 32) (N.land o 31)
  && Bool.eqb (N.eqb (N.land o 128) 0) (N.ltb o 128)
  && N.eqb (N.land o 127) (if N.ltb o 128 then o else o - 128).

Lemma octet_facts o : wf_byte o = true ->
  class_of_no (o / 64) = cls_of_bits o /\ N.eqb ((o / 32) mod 2) 1 = negb (N.eqb (N.land o 32) 0) /\ o mod 32 = N.land o 31
  /\ N.eqb (N.land o 128) 0 = N.ltb o 128 /\ N.land o 127 = (if N.ltb o 128 then o else o - 128).
Proof.
  intros Ho. assert (H: octet_ok o = true).
  { assert (Ha: forallb octet_ok (map N.of_nat (seq 0 256)) = true) by (vm_compute; reflexivity).
    rewrite forallb_forall in Ha. apply Ha, in_map_iff. exists (N.to_nat o). split; [apply N2Nat.id|].
    apply in_seq. apply N.ltb_lt in Ho. lia. }
  unfold octet_ok in H. apply andb_prop in H. destruct H as [H H5]. apply andb_prop in H. destruct H as [H H4].
  apply andb_prop in H. destruct H as [H H3]. apply andb_prop in H. destruct H as [H1 H2].
  split; [destruct (class_of_no (o / 64)), (cls_of_bits o); try discriminate; reflexivity|].
  split; [exact (Bool.eqb_prop _ _ H2)|]. split; [apply N.eqb_eq; exact H3|].
  split; [exact (Bool.eqb_prop _ _ H4)|apply N.eqb_eq; exact H5].
Qed.

Lemma b128_long : forall hb acc n, forallb wf_byte hb = true -> dec_b128 acc hb = Some (n, []) ->
  forall x fuel, (length hb <= fuel)%nat -> long_number fuel acc (hb ++ x) = Some (n, x).
Proof.
  induction hb as [|o r IH]; intros acc n Hwf Hd x fuel Hf; [discriminate|].
  cbn [forallb] in Hwf. apply andb_prop in Hwf. destruct Hwf as [Ho Hr].
  destruct fuel as [|f]; [cbn [length] in Hf; lia|]. cbn [app long_number dec_b128] in *.
  destruct (octet_facts o Ho) as (_ & _ & _ & E1 & E2). rewrite E1 in Hd.
  destruct (N.ltb_spec o 128) as [Hlt|Hge].
  - inversion Hd; subst. cbn [app]. f_equal. f_equal. rewrite E2, (lor_shl7 acc o Hlt). reflexivity.
  - rewrite E2 in Hd. rewrite lor_shl7 in Hd by (unfold wf_byte in Ho; apply N.ltb_lt in Ho; lia).
    apply IH; [exact Hr|exact Hd|cbn [length] in Hf; lia].
Qed.

Lemma ident_bridge ib t : forallb wf_byte ib = true -> dec_ident ib = Some (t, []) ->
  forall x, split_ident (ib ++ x) = Some (tcls t, tcon t, tnum t, x).
Proof.
  intros Hwf Hd x. destruct ib as [|o r]; [discriminate|].
  cbn [forallb] in Hwf. apply andb_prop in Hwf. destruct Hwf as [Ho Hr].
  cbn [app split_ident dec_ident] in *. cbv zeta in *.
  destruct (octet_facts o Ho) as (E1 & E2 & E3 & _). rewrite E1, E2, E3.
  destruct (N.eqb (N.land o 31) 31).
  - destruct (dec_b128 0 r) as [[num r']|] eqn:Eb; [|discriminate]. inversion Hd; subst; clear Hd.
    rewrite (b128_long r 0 num Hr Eb x (length (r ++ x))) by (rewrite app_length; lia). reflexivity.
  - inversion Hd; subst. reflexivity.
Qed.

Lemma be_num_octets_value : forall r acc, forallb wf_byte r = true -> be_num acc r = octets_value acc r.
Proof.
  induction r as [|o r IH]; intros acc Hwf; [reflexivity|].
  cbn [forallb] in Hwf. apply andb_prop in Hwf. destruct Hwf as [Ho Hr].
  cbn [be_num octets_value]. rewrite lor_shl8 by (apply N.ltb_lt; exact Ho). apply IH. exact Hr.
Qed.

Lemma len_bridge lb l : forallb wf_byte lb = true -> dec_len lb = Some (Some l, []) -> hd 0 lb <> 255 ->
  forall x, split_length (lb ++ x) = Some (Some l, x).
Proof.
  intros Hwf Hd Hff x. destruct lb as [|o r]; [discriminate|].
  cbn [forallb] in Hwf. apply andb_prop in Hwf. destruct Hwf as [Ho Hr]. cbn [hd] in Hff.
  cbn [app split_length]. rewrite TagOctets.dec_len_cons in Hd.
  destruct (N.ltb o 128) eqn:E1.
  - inversion Hd; subst. reflexivity.
  - destruct (N.eqb o 128) eqn:E2; [discriminate|]. cbv zeta in Hd.
    destruct (N.eqb_spec o 255) as [E3|E3]; [congruence|].
    destruct (octet_facts o Ho) as (_ & _ & _ & _ & E4). rewrite E1 in E4. rewrite E4 in Hd.
    destruct (Nat.ltb_spec (length r) (N.to_nat (o - 128))) as [Hs|Hs]; [discriminate|].
    inversion Hd as [[Hv Hk]]; clear Hd.
    assert (Hlen: length r = N.to_nat (o - 128)).
    { apply (f_equal (@length N)) in Hk. rewrite skipn_length in Hk. cbn [length] in Hk. lia. }
    destruct (Nat.ltb_spec (length (r ++ x)) (N.to_nat (o - 128))) as [Hs2|Hs2]; [rewrite app_length in Hs2; lia|].
    rewrite <- Hlen. rewrite firstn_app_exact, skipn_app_exact.
    rewrite <- (be_num_octets_value r 0 Hr). rewrite firstn_all. reflexivity.
Qed.

Lemma len_reserved lb x : hd 0 lb = 255 -> lb <> [] -> split_length (lb ++ x) = None.
Proof. intros H Hne. destruct lb as [|o r]; [congruence|]. cbn [hd] in H. subst o. reflexivity. Qed.

(* the two member loops that X690.parse_one holds as local fixpoints: definite length, indefinite length *)
Definition many_def (f: nat) : nat -> bytes -> option (list node) :=
  fix many (k: nat) (cs: bytes) : option (list node) :=
    match k with
    | O => None
    | S k' => match cs with
              | [] => Some []
              | _ => match parse_one f cs with
                     | Some (nd, cs') => match many k' cs' with Some l => Some (nd :: l) | None => None end
                     | None => None
                     end
              end
    end.

Definition many_indef (f: nat) : nat -> bytes -> option (list node * bytes) :=
  fix many (k: nat) (cs: bytes) : option (list node * bytes) :=
    match k with
    | O => None
    | S k' => match cs with
              | 0 :: 0 :: cs' => Some ([], cs')
              | _ => match parse_one f cs with
                     | Some (nd, cs') => match many k' cs' with Some (l, r) => Some (nd :: l, r) | None => None end
                     | None => None
                     end
              end
    end.

Lemma many_indef_eoo f k tl : many_indef f (S k) (0 :: 0 :: tl) = Some ([], tl).
Proof. reflexivity. Qed.

Lemma many_indef_step f k (x y: N) r : [x; y] <> [0; 0] ->
  many_indef f (S k) (x :: y :: r) =
  match parse_one f (x :: y :: r) with
  | Some (nd, cs') => match many_indef f k cs' with Some (l, r') => Some (nd :: l, r') | None => None end
  | None => None
  end.
Proof. intros H. destruct x; [destruct y; [congruence|reflexivity]|reflexivity]. Qed.

Lemma wf_app a b : forallb wf_byte (a ++ b) = true -> forallb wf_byte a = true /\ forallb wf_byte b = true.
Proof. rewrite forallb_app. intros H. apply andb_prop in H. exact H. Qed.

Lemma parse_definite f ib lb body tl t l :
  forallb wf_byte (ib ++ lb) = true ->
  (forall x, dec_ident (ib ++ x) = Some (t, x)) -> (forall x, dec_len (lb ++ x) = Some (Some l, x)) ->
  N.of_nat (length body) = l ->
  parse_one (S f) ((ib ++ lb ++ body) ++ tl) =
  if N.eqb (hd 0 lb) 255 then None
  else if tcon t then match many_def f (S (length body)) body with
                      | Some kids => Some (Cons (tcls t) (tnum t) false kids (ib ++ lb ++ body), tl)
                      | None => None
                      end
  else Some (Prim (tcls t) (tnum t) body (ib ++ lb ++ body), tl).
Proof.
  intros Hwf Hid Hdl Hlen. apply wf_app in Hwf. destruct Hwf as [Hwi Hwl].
  pose proof (Hid []) as Hid0. rewrite app_nil_r in Hid0.
  pose proof (Hdl []) as Hdl0. rewrite app_nil_r in Hdl0.
  assert (Hb: (ib ++ lb ++ body) ++ tl = ib ++ (lb ++ (body ++ tl))) by (rewrite <- !app_assoc; reflexivity).
  pose proof (ident_bridge ib t Hwi Hid0 (lb ++ (body ++ tl))) as Hsi. rewrite <- Hb in Hsi.
  cbn [parse_one]. rewrite Hsi. destruct (N.eqb_spec (hd 0 lb) 255) as [Eff|Eff].
  - rewrite len_reserved; [reflexivity|exact Eff|intros ->; discriminate].
  - rewrite (len_bridge lb l Hwl Hdl0 Eff (body ++ tl)). replace (N.to_nat l) with (length body) by lia.
    rewrite firstn_app_exact, skipn_app_exact.
    destruct (Nat.ltb_spec (length (body ++ tl)) (length body)) as [Hx|_]; [rewrite app_length in Hx; lia|].
    replace (length ((ib ++ lb ++ body) ++ tl) - length tl)%nat with (length (ib ++ lb ++ body)) by (rewrite (app_length _ tl); lia).
    rewrite firstn_app_exact. destruct (tcon t); reflexivity.
Qed.

Lemma parse_indefinite f ib r t : forallb wf_byte ib = true -> (forall x, dec_ident (ib ++ x) = Some (t, x)) -> tcon t = true ->
  parse_one (S f) (ib ++ 128 :: r) =
  match many_indef f (S (length r)) r with
  | Some (kids, rest) => Some (Cons (tcls t) (tnum t) true kids (firstn (length (ib ++ 128 :: r) - length rest) (ib ++ 128 :: r)), rest)
  | None => None
  end.
Proof.
  intros Hwi Hid Hc. pose proof (Hid []) as Hid0. rewrite app_nil_r in Hid0.
  cbn [parse_one]. rewrite (ident_bridge ib t Hwi Hid0 (128 :: r)), Hc. reflexivity.
Qed.

Lemma parse_one_single f o : parse_one f [o] = None.
Proof.
  destruct f as [|f]; [reflexivity|]. cbn [parse_one].
  destruct (split_ident [o]) as [[[[c pc] num] r1]|] eqn:E; [|reflexivity].
  assert (r1 = []).
  { cbn [split_ident] in E. cbv zeta in E. destruct (N.eqb (o mod 32) 31); [cbn in E; discriminate|]. inversion E; reflexivity. }
  subst r1. reflexivity.
Qed.

(* what [derivation_parse] shows of an element, of the contents of a value (members_ok: the member loop of the
   reference parser, in the definite or the indefinite form, returns the members) and of a member list *)
Definition PE (sp: spec) (acc: tagset) (used: bytes) (n: node) (q: bool) : Prop :=
  forallb wf_byte used = true -> forall f tl, (length used <= f)%nat ->
  parse_one (S f) (used ++ tl) = if q then None else Some (n, tl).
Definition members_ok (i: bool) (body: bytes) (kids: list node) (q: bool) : Prop :=
  if i
  then forall f k tl, (length body < f)%nat -> (length body < k)%nat ->
       many_indef f k (body ++ [0; 0] ++ tl) = if q then None else Some (kids, tl)
  else forall f k, (length body < f)%nat -> (length body < k)%nat ->
       many_def f k body = if q then None else Some kids.
Definition PW (sp: spec) (ts: tagset) (i: bool) (body: bytes) (ct: content) (q: bool) : Prop :=
  forallb wf_byte body = true ->
  match ct with
  | CPrim => i = false /\ (if q then tag0_cons ts = true /\ (body = [0] \/ body = [255]) else tag0_cons ts = false)
  | CKids kids => tag0_cons ts = true /\ members_ok i body kids q
  end.
Definition PFE (A: spec -> Prop) (acc: tagset) (i: bool) (body: bytes) (kids: list node) (q: bool) : Prop :=
  forallb wf_byte body = true -> members_ok i body kids q.

Lemma simple_not_cons ts : tag0_simple ts = true -> tag0_cons ts = false.
Proof. destruct ts as [|t r]; cbn; [reflexivity|]. destruct (tcon t); [discriminate|reflexivity]. Qed.

Lemma explicit_cons ts : explicit_tag ts = true -> tag0_cons ts = true.
Proof. destruct ts as [|t r]; [discriminate|]. cbn. intros H. apply andb_prop in H. exact (proj1 H). Qed.

Lemma single_kid c sp acc u n q : E c sp acc u n q -> PE sp acc u n q -> forallb wf_byte u = true ->
  members_ok false u [n] q.
Proof.
  intros HE HP Hwf f k Hf Hk. pose proof (E_len2 _ _ _ _ _ _ HE) as Hl2.
  destruct k as [|k]; [lia|]. destruct f as [|f]; [lia|].
  cbn [many_def]. destruct u as [|o r] eqn:Eu; [cbn [length] in Hl2; lia|]. rewrite <- Eu in *.
  rewrite <- (app_nil_r u) at 1. rewrite (HP Hwf f []) by lia. destruct q; [reflexivity|].
  destruct k as [|k]; [lia|]. reflexivity.
Qed.

(* The reference parser reads the octets of a derivation as the derivation's tree - unless the decoder
   accepted one of the two forms that parser refuses (q). *)
Theorem derivation_parse c :
  (forall sp acc used n q, E c sp acc used n q -> PE sp acc used n q)
  /\ (forall sp ts i body ct q, W c sp ts i body ct q -> PW sp ts i body ct q)
  /\ (forall A acc i body kids q, FE c A acc i body kids q -> PFE A acc i body kids q).
Proof.
  apply EWF_ind.
  - intros sp acc ib lb body t l ct qv Hid Hdl Hlen HW IHW Hwf f tl Hf.
    pose proof (header_len _ _ _ _ Hid Hdl) as Hl2.
    rewrite app_assoc in Hwf. apply wf_app in Hwf. destruct Hwf as [Hwh Hwb]. specialize (IHW Hwb).
    rewrite (app_assoc ib lb body), app_length in Hf.
    rewrite (parse_definite f _ _ _ tl _ _ Hwh Hid Hdl Hlen).
    destruct (N.eqb (hd 0 lb) 255); [reflexivity|]. cbn [orb tag0_cons] in *.
    destruct ct as [|kids]; cbn [mk_node].
    + destruct IHW as [_ IHW]. destruct qv.
      * destruct IHW as [-> [-> | ->]]; cbn [length many_def]; rewrite parse_one_single; reflexivity.
      * rewrite IHW. reflexivity.
    + destruct IHW as [-> IHW]. rewrite (IHW f (S (length body))) by lia. destruct qv; reflexivity.
  - intros sp acc ib body t ct qv Hind Hid HW IHW Hwf f tl Hf.
    apply wf_app in Hwf. destruct Hwf as [Hwi Hwf]. apply wf_app in Hwf. destruct Hwf as [_ Hwf].
    apply wf_app in Hwf. destruct Hwf as [Hwb _].
    destruct ct as [|kids]; destruct (IHW Hwb) as [Hcons IHm]; [discriminate|]. cbn [tag0_cons node_of] in *.
    assert (Hb: (ib ++ [128] ++ body ++ [0; 0]) ++ tl = ib ++ 128 :: (body ++ [0; 0] ++ tl)) by (rewrite <- !app_assoc; reflexivity).
    rewrite Hb, (parse_indefinite f _ _ _ Hwi Hid Hcons), <- Hb.
    rewrite (IHm f _ tl) by (rewrite !app_length in *; cbn [length] in *; lia).
    destruct qv; [reflexivity|]. rewrite (app_length _ tl), Nat.add_sub, firstn_app_exact. reflexivity.
  - intros sp ts fl spT body Hsel Hb Hwf. split; [reflexivity|]. destruct (tag0_cons ts); auto.
  - intros sp ts cd fl spT body Hsel Hcd Hs Hwf. split; [reflexivity|exact (simple_not_cons _ Hs)].
  - intros sp ts i cd fl spT body kids q Hsel Hcd Hc HF IHF Hwf. split; [exact Hc|exact (IHF Hwf)].
  - intros sp ts body n q Hsel Hex HE IHE Hwf. split; [exact (explicit_cons _ Hex)|exact (single_kid _ _ _ _ _ _ HE IHE Hwf)].
  - intros sp ts body kids q Hsel Hex Hkne HF IHF Hwf. split; [exact (explicit_cons _ Hex)|exact (IHF Hwf)].
  - intros sp ts fl T alts body n q Hsel Hb Htg HE IHE Hwf. destruct (tag0_cons ts); cbn [andb].
    + split; [reflexivity|exact (single_kid _ _ _ _ _ _ HE IHE Hwf)].
    + split; reflexivity.
  - intros sp ts fl T alts body ct q Hsel Hb Htg HW IHW Hwf. exact (IHW Hwf).
  - intros A acc i Hwf. unfold members_ok. destruct i.
    + intros f k tl Hf Hk. destruct k as [|k]; [cbn [length] in Hk; lia|]. reflexivity.
    + intros f k Hf Hk. destruct k as [|k]; [cbn [length] in Hk; lia|]. reflexivity.
  - intros A acc i sp u n q rest ns qs HA HE IHE Hnz HF IHF Hwf.
    apply wf_app in Hwf. destruct Hwf as [Hwu Hwr]. specialize (IHF Hwr).
    pose proof (E_len2 _ _ _ _ _ _ HE) as Hl2. unfold members_ok in *. destruct i.
    + intros f k tl Hf Hk. rewrite app_length in Hf, Hk.
      destruct k as [|k]; [lia|]. destruct f as [|f]; [lia|].
      destruct u as [|x [|y r]] eqn:Eu; try (cbn [length] in Hl2; lia). rewrite <- Eu in *.
      assert (Hxy: [x; y] <> [0; 0]) by (specialize (Hnz eq_refl); rewrite Eu in Hnz; exact Hnz).
      assert (Hcs: (u ++ rest) ++ [0; 0] ++ tl = x :: y :: (r ++ rest ++ [0; 0] ++ tl)) by (rewrite Eu, <- !app_assoc; reflexivity).
      rewrite Hcs, (many_indef_step _ _ _ _ _ Hxy), <- Hcs, <- app_assoc.
      rewrite (IHE Hwu f (rest ++ [0; 0] ++ tl)) by lia.
      destruct q; cbn [orb]; [reflexivity|].
      rewrite (IHF (S f) k tl) by lia. destruct qs; reflexivity.
    + intros f k Hf Hk. rewrite app_length in Hf, Hk.
      destruct k as [|k]; [lia|]. destruct f as [|f]; [lia|].
      cbn [many_def]. destruct (u ++ rest) as [|o r] eqn:Eur; [destruct u; [cbn [length] in Hl2; lia|discriminate]|]. rewrite <- Eur.
      rewrite (IHE Hwu f rest) by lia.
      destruct q; cbn [orb]; [reflexivity|].
      fold (many_def (S f)). rewrite (IHF (S f) k) by lia. destruct qs; reflexivity.
Qed.

Lemma accepted_parse c sp used n q tl : E c sp [] used n q -> wf_bytes (used ++ tl) = true ->
  X690.parse (used ++ tl) = if q then None else Some (n, tl).
Proof.
  intros HE Hwf. apply wf_app in Hwf. unfold X690.parse.
  apply (proj1 (derivation_parse c) _ _ _ _ _ HE (proj1 Hwf)). rewrite app_length. lia.
Qed.

(* no TLV of the tree has an indefinite length *)
Fixpoint definite (n: node) : bool :=
  match n with Prim _ _ _ _ => true | Cons _ _ indef kids _ => negb indef && forallb definite kids end.

Theorem derivation_definite :
  (forall sp acc used n q, D sp acc used n q -> definite n = true)
  /\ (forall sp ts body ct q, V sp ts body ct q -> forall c num raw, definite (mk_node c num body ct raw) = true)
  /\ (forall A body kids q, F A body kids q -> forallb definite kids = true).
Proof.
  apply DVF_ind.
  - intros sp acc ib lb body t l ct qv Hid Hdl Hlen HV IHV. apply IHV.
  - intros; reflexivity.
  - intros; reflexivity.
  - intros; reflexivity.
  - intros sp ts cd fl spT body kids q Hsel Hcd Hc HF IHF c num raw. exact IHF.
  - intros sp ts body n q Hsel Hex HD IHD c num raw. cbn [mk_node definite forallb negb andb]. rewrite IHD. reflexivity.
  - intros sp ts fl T alts body n q Hsel Hb Htg HD IHD c num raw.
    destruct (tag0_cons ts); cbn [mk_node definite forallb negb andb]; [rewrite IHD|]; reflexivity.
  - intros sp ts fl T alts body ct q Hsel Hb Htg HV IHV c num raw. apply IHV.
  - intros; reflexivity.
  - intros A sp u n q rest ns qs HA Hok HD IHD HF IHF. cbn [forallb]. rewrite IHD, IHF. reflexivity.
Qed.

(* Whatever the DER decoder accepts, under EVERY guiding type without ANY (CHOICE, SET, OPTIONAL included)
   or none: the octets it consumed are ONE TLV, read as the derivation says, without an indefinite length
   anywhere.  Its tree n IS the tree of the reference parser of Spec/X690.v (q = false), except when the
   input uses one of the two forms that parser refuses and the decoder accepts (q = true): a first length
   octet FF (X.690 8.1.3.5 c) or a BOOLEAN in constructed form. *)
Theorem der_accepts_definite : forall sp b d tl, wf_bytes b = true -> guide_ok sp ->
  decode DER sp b = Ok (d, tl) ->
  exists used n q, b = used ++ tl /\ D (guide sp) [] used n q /\ definite n = true
                   /\ X690.parse b = (if q then None else Some (n, tl)).
Proof.
  intros sp b d tl Hwf Hok H.
  destruct (decode_der_derivation sp b d tl Hok H) as (used & n & q & -> & HE & HD).
  exists used, n, q. split; [reflexivity|]. split; [exact HD|].
  split; [exact (proj1 derivation_definite _ _ _ _ _ HD)|exact (accepted_parse _ _ _ _ _ _ HE Hwf)].
Qed.

(* universal tag numbers of the string types: BIT STRING, OCTET STRING, ObjectDescriptor, UTF8String,
   NumericString .. IA5String, UTCTime, GeneralizedTime, GraphicString .. UniversalString, BMPString *)
Definition string_nums : list N := [3; 4; 7; 12; 18; 19; 20; 21; 22; 23; 24; 25; 26; 27; 28; 30].
Definition is_string_num (n: N) : bool := existsb (N.eqb n) string_nums.
Definition is_univ (c: tclass) : bool := match c with Univ => true | _ => false end.

(* every TLV has a definite length; a UNIVERSAL 1 (BOOLEAN) is primitive with contents 00 or FF;
   no string type is constructed *)
Fixpoint der_shape (n: node) : bool :=
  match n with
  | Prim c num contents _ =>
      implb (is_univ c && N.eqb num 1) (bytes_eqb contents [0] || bytes_eqb contents [255])
  | Cons c num indef kids _ =>
      negb indef && negb (is_univ c && (N.eqb num 1 || is_string_num num)) && forallb der_shape kids
  end.

Lemma sel_none t acc cd fl spT : sel DER SNone (t :: acc) = Ok (Some (cd, fl, spT)) ->
  spT = None /\ exists k, key_of_univ_tag t = Some k /\ In (k, cd, fl) (dec_tag_map DER).
Proof.
  intros H. apply sel_inv in H. destruct H as (-> & H). split; [reflexivity|].
  assert (Hb: exists r, by_tag DER (t :: r) = Some (cd, fl)) by (destruct H as [H|H]; eauto).
  destruct Hb as (r & Hb). apply by_tag_in in Hb. destruct Hb as (k & Hi & Hk).
  destruct (Hk _ _ eq_refl) as [_ Hk']. eauto.
Qed.

Lemma sel_none_bool t acc cd fl spT : sel DER SNone (t :: acc) = Ok (Some (cd, fl, spT)) ->
  (is_univ (tcls t) && N.eqb (tnum t) 1)%bool = true -> cd = DcBoolCer.
Proof.
  intros H Hb. apply sel_none in H. destruct H as (_ & k & Hk & Hi).
  apply andb_prop in Hb. destruct Hb as [Hu Hn]. apply N.eqb_eq in Hn.
  unfold key_of_univ_tag in Hk. destruct (tcls t); try discriminate. rewrite Hn in Hk. inversion Hk; subst k.
  assert (Hkind: kind_ok KBool cd = true) by (apply (strict_kind DER _ _ fl); [discriminate|apply in_or_app; right; exact Hi]).
  destruct cd; try discriminate. reflexivity.
Qed.

Lemma sel_none_container t acc cd fl spT : sel DER SNone (t :: acc) = Ok (Some (cd, fl, spT)) ->
  container_cd cd = true -> spT = None /\ tcls t = Univ /\ (tnum t = 16 \/ tnum t = 17).
Proof.
  intros H Hc. apply sel_none in H. destruct H as (-> & k & Hk & Hi). split; [reflexivity|].
  destruct (der_entry false _ _ _ Hi) as (_ & _ & Hs). specialize (Hs eq_refl Hc).
  unfold key_of_univ_tag in Hk. destruct (tcls t); try discriminate. split; [reflexivity|].
  (* the cascade of tests on the tag number in key_of_univ_tag *)
  repeat match type of Hk with context [N.eqb ?a ?b] => destruct (N.eqb_spec a b) end;
    inversion Hk; subst k; auto; destruct Hs; discriminate.
Qed.

(* what [derivation_der_shape] shows of an element, of a value under its tags, and of a member list *)
Definition QD (sp: spec) (acc: tagset) (used: bytes) (n: node) (q: bool) : Prop :=
  sp = SNone -> der_shape n = true.
Definition QV (sp: spec) (ts: tagset) (body: bytes) (ct: content) (q: bool) : Prop :=
  sp = SNone -> forall t acc raw, ts = t :: acc -> der_shape (mk_node (tcls t) (tnum t) body ct raw) = true.
Definition QF (A: spec -> Prop) (body: bytes) (kids: list node) (q: bool) : Prop :=
  (forall sp', A sp' -> sp' = SNone) -> forallb der_shape kids = true.

Theorem derivation_der_shape :
  (forall sp acc used n q, D sp acc used n q -> QD sp acc used n q)
  /\ (forall sp ts body ct q, V sp ts body ct q -> QV sp ts body ct q)
  /\ (forall A body kids q, F A body kids q -> QF A body kids q).
Proof.
  (* a primitive element under a decoder other than the strict BOOLEAN one is not a UNIVERSAL 1 *)
  assert (Hprim: forall t acc cd fl spT body raw, sel DER SNone (t :: acc) = Ok (Some (cd, fl, spT)) ->
            cd <> DcBoolCer -> der_shape (Prim (tcls t) (tnum t) body raw) = true).
  { intros t acc cd fl spT body raw Hsel Hcd. cbn [der_shape].
    destruct (is_univ (tcls t) && N.eqb (tnum t) 1)%bool eqn:E; [|reflexivity].
    destruct (Hcd (sel_none_bool _ _ _ _ _ Hsel E)). }
  apply DVF_ind.
  - intros sp acc ib lb body t l ct qv Hid Hdl Hlen HV IHV Hsp. exact (IHV Hsp t acc _ eq_refl).
  - intros sp ts fl spT body Hsel Hb -> t acc raw ->. cbn [mk_node der_shape].
    destruct Hb as [-> | ->]; cbn; destruct (is_univ (tcls t) && (tnum t =? 1))%bool; reflexivity.
  - intros sp ts cd fl spT body Hsel Hcd Hs -> t acc raw ->.
    apply (Hprim _ _ _ _ _ _ _ Hsel). intros ->. discriminate.
  - intros sp ts cd fl spT body Hsel Hcd Hs -> t acc raw ->.
    apply (Hprim _ _ _ _ _ _ _ Hsel). intros ->. discriminate.
  - intros sp ts cd fl spT body kids q Hsel Hcd Hc HF IHF -> t acc raw ->.
    destruct (sel_none_container _ _ _ _ _ Hsel Hcd) as (-> & -> & Hn). cbn [mk_node der_shape negb andb is_univ].
    rewrite (IHF (fun sp' H => H)). destruct Hn as [-> | ->]; reflexivity.
  - (* EXPLICIT: not UNIVERSAL *) intros sp ts body n q Hsel Hex HD IHD -> t acc raw ->.
    cbn [mk_node der_shape negb andb forallb]. rewrite (IHD eq_refl). cbn [explicit_tag] in Hex.
    apply andb_prop in Hex. destruct Hex as [_ Hex]. destruct (tcls t); [discriminate| | |]; reflexivity.
  - (* CHOICE: not without a guiding type *)
    intros sp ts fl T alts body n q Hsel Hb Htg HD IHD -> t acc raw ->. apply sel_none in Hsel. destruct Hsel as [Hx _]. discriminate.
  - intros sp ts fl T alts body ct q Hsel Hb Htg HV IHV -> t acc raw ->. apply sel_none in Hsel. destruct Hsel as [Hx _]. discriminate.
  - intros A _. reflexivity.
  - intros A sp u n q rest ns qs HA Hok HD IHD HF IHF HAll. cbn [forallb].
    rewrite (IHD (HAll _ HA)), (IHF HAll). reflexivity.
Qed.

(* Without a guiding type, beyond [der_accepts_definite]: the tree has the DER shape at every depth (no
   constructed string, BOOLEAN primitive with contents 00/FF). *)
Theorem der_accepts_der_shape : forall b d tl, wf_bytes b = true ->
  decode DER None b = Ok (d, tl) ->
  exists used n q, b = used ++ tl /\ D SNone [] used n q /\ der_shape n = true
                   /\ X690.parse b = (if q then None else Some (n, tl)).
Proof.
  intros b d tl Hwf H. destruct (der_accepts_definite None b d tl Hwf I H) as (used & n & q & Hb & HD & _ & Hp).
  exists used, n, q. split; [exact Hb|]. split; [exact HD|].
  split; [exact (proj1 derivation_der_shape _ _ _ _ _ HD eq_refl)|exact Hp].
Qed.

Corollary der_accepts_parsed_der_shape : forall b d tl n rest, wf_bytes b = true ->
  decode DER None b = Ok (d, tl) -> X690.parse b = Some (n, rest) ->
  rest = tl /\ der_shape n = true.
Proof.
  intros b d tl n rest Hwf H Hp.
  destruct (der_accepts_der_shape b d tl Hwf H) as (used & n0 & q & Hb & _ & Hs & Hq).
  rewrite Hp in Hq. destruct q; [discriminate|]. inversion Hq; subst. auto.
Qed.

(* the hypotheses are satisfiable: SEQUENCE { [0] EXPLICIT BOOLEAN TRUE, OCTET STRING 'A', SEQUENCE { NULL } } *)
Example der_accepts_der_shape_ex :
  let b := [48; 12; 160; 3; 1; 1; 255; 4; 1; 65; 48; 2; 5; 0; 7] in
  wf_bytes b = true
  /\ (exists d, decode DER None b = Ok (d, [7]))
  /\ (exists n, X690.parse b = Some (n, [7]) /\ der_shape n = true).
Proof. vm_compute. split; [reflexivity|]. split; eexists; [reflexivity|split; reflexivity]. Qed.

(* the same element with an inner indefinite length, a constructed OCTET STRING, or BOOLEAN 01 is refused *)
Example der_refuses_deep_ex :
  decode DER None [48; 9; 160; 128; 1; 1; 255; 0; 0; 5; 0] = Err EMalformed
  /\ decode DER None [48; 9; 160; 7; 36; 5; 4; 3; 65; 66; 67] = Err EMalformed
  /\ decode DER None [48; 7; 160; 5; 48; 3; 1; 1; 1] = Err EMalformed.
Proof. vm_compute. repeat split. Qed.

(* Observation, outside the three restrictions C15 names (the behaviour is that of /repo): the strict
   BOOLEAN decoder of CER/DER does not check the tag format, so DER and CER accept a BOOLEAN in
   CONSTRUCTED form (21 01 FF), which BER refuses and which is not even a TLV tree for the reference
   parser; at any depth (30 03 21 01 00) and under IMPLICIT tags *)
Example constructed_boolean_accepted :
  decode DER None [33; 1; 255] = Ok (DV TBool (VBool true), [])
  /\ decode CER None [33; 1; 255] = Ok (DV TBool (VBool true), [])
  /\ decode BER None [33; 1; 255] = Err EMalformed
  /\ X690.parse [33; 1; 255] = None
  /\ (exists d, decode DER None [48; 3; 33; 1; 0] = Ok (d, []))
  /\ decode DER (Some (TImp (mkTag Ctx false 0) TBool)) [160; 1; 255] = Ok (DV (TImp (mkTag Ctx false 0) TBool) (VBool true), []).
Proof. vm_compute. repeat split. eexists. reflexivity. Qed.

(* not C15: a reserved first length octet FF followed by 127 length octets is accepted by the decoders *)
Example reserved_length_accepted :
  (exists d, decode DER None ([4; 255] ++ repeat 0 126 ++ [1; 65]) = Ok (d, []))
  /\ X690.parse ([4; 255] ++ repeat 0 126 ++ [1; 65]) = None.
Proof. vm_compute. split; [eexists|]; reflexivity. Qed.

Print Assumptions decode_der_derivation.
Print Assumptions derivation_parse.
Print Assumptions der_accepts_der_shape.
Print Assumptions der_accepts_parsed_der_shape.

(* guiding types built without ANY and CHOICE *)
Fixpoint plain (T: ty) : bool :=
  match T with
  | TAny | TChoice _ => false
  | TImp _ x | TExp _ x => plain x
  | TSeqOf t | TSetOf t => plain t
  | TSeq fs | TSet fs => (fix go (l: list (presence * ty)) : bool := match l with [] => true | f :: r => plain (snd f) && go r end) fs
  | _ => true
  end.
Lemma plain_fields fs : (fix go (l: list (presence * ty)) : bool := match l with [] => true | f :: r => plain (snd f) && go r end) fs = forallb plain (map snd fs).
Proof. induction fs as [|f r IH]; [reflexivity|]. cbn [map forallb]. rewrite IH. reflexivity. Qed.
Lemma plain_base T : plain T = true -> plain (base_of T) = true.
Proof. induction T; cbn [plain base_of]; auto. Qed.

Definition strict_contents (c: bytes) : bool := bytes_eqb c [0] || bytes_eqb c [255].

(* what a guiding type says about the tree of an accepted element: under every EXPLICIT tag exactly one
   member; BOOLEAN primitive with contents 00/FF and string types primitive WHATEVER tag they carry
   (IMPLICIT tagging); members of SEQUENCE OF / SET OF, and each member of a SEQUENCE / SET as one of
   its components - a component whose outermost tag is the member's (X690.may_start) - recursively *)
Fixpoint gshape (T: ty) (n: node) {struct T} : bool :=
  match T with
  | TImp _ x => gshape x n
  | TExp _ x => match n with Cons _ _ false [k] _ => gshape x k | _ => false end
  | TBool => match n with Prim _ _ c _ => strict_contents c | _ => false end
  | TBits | TOcts | TStr _ => match n with Prim _ _ _ _ => true | _ => false end
  | TSeqOf t | TSetOf t => match n with Cons _ _ false kids _ => forallb (gshape t) kids | _ => false end
  | TSeq fs | TSet fs =>
      match n with
      | Cons _ _ false kids _ =>
          match fs with
          | [] => true
          | _ => forallb (fun k => (fix ex (l: list (presence * ty)) : bool :=
                                      match l with [] => false | (_, ft) :: r => (may_start ft (node_tag k) && gshape ft k) || ex r end) fs) kids
          end
      | _ => false
      end
  | TChoice alts => (fix ex (l: list ty) : bool := match l with [] => false | a :: r => (may_start a (node_tag n) && gshape a n) || ex r end) alts
  | _ => true
  end.

Lemma gshape_fields_ex fs k :
  (fix ex (l: list (presence * ty)) : bool := match l with [] => false | (_, ft) :: r => (may_start ft (node_tag k) && gshape ft k) || ex r end) fs
  = existsb (fun ft => may_start ft (node_tag k) && gshape ft k) (map snd fs).
Proof. induction fs as [|[p ft] r IH]; [reflexivity|]. cbn [map snd existsb]. rewrite IH. reflexivity. Qed.

Lemma gshape_record fs c num kids raw :
  (fs <> [] -> forall k, In k kids -> exists ft, In ft (map snd fs) /\ may_start ft (node_tag k) = true /\ gshape ft k = true) ->
  gshape (TSeq fs) (Cons c num false kids raw) = true.
Proof.
  intros H. destruct fs as [|f0 fr]; [reflexivity|]. cbn [gshape]. apply forallb_forall. intros k Hk.
  refine (eq_trans (gshape_fields_ex (f0 :: fr) k) _). apply existsb_exists.
  destruct (H ltac:(discriminate) k Hk) as (ft & Hft & H1 & H2). exists ft. rewrite H1, H2. auto.
Qed.

Lemma strict_contents_ok body : body = [0] \/ body = [255] -> strict_contents body = true.
Proof. intros [-> | ->]; reflexivity. Qed.

(* the EXPLICIT tags of a type: so many wrappers lead from the element to the one its base type describes *)
Fixpoint n_expl (T: ty) : nat := match T with TExp _ x => S (n_expl x) | TImp _ x => n_expl x | _ => O end.

Fixpoint chain (j: nat) (n n0: node) : Prop :=
  match j with
  | O => n = n0
  | S j' => match n with Cons _ _ false [k] _ => chain j' k n0 | _ => False end
  end.

Lemma gshape_chain : forall T n n0, chain (n_expl T) n n0 -> gshape (base_of T) n0 = true -> gshape T n = true.
Proof.
  induction T; intros nd nd0 Hc Hg; cbn [n_expl chain base_of] in *; try (subst nd0; exact Hg).
  - cbn [gshape]. exact (IHT _ _ Hc Hg).
  - destruct nd as [|c num [|] [|k [|k2 r]] raw]; try destruct Hc. cbn [gshape]. exact (IHT _ _ Hc Hg).
Qed.

Lemma tagset_len : forall T ts, plain T = true -> tagset_of T = Ok ts -> length ts = S (n_expl T).
Proof.
  induction T; intros ts Hp H; cbn [tagset_of n_expl plain] in *; try (inversion H; subst; reflexivity); try discriminate.
  - destruct (tagset_of T) as [ts'|] eqn:E; cbn [bind] in H; [|discriminate]. inversion H; subst; clear H.
    specialize (IHT ts' Hp eq_refl). unfold tag_implicitly.
    destruct (rev ts') as [|last r] eqn:Er.
    + apply (f_equal (@length tag)) in Er. rewrite rev_length in Er. cbn in Er. lia.
    + apply (f_equal (@length tag)) in Er. rewrite rev_length in Er. cbn [length] in Er.
      rewrite app_length, rev_length. cbn [length]. lia.
  - destruct (tagset_of T) as [ts'|] eqn:E; cbn [bind] in H; [|discriminate].
    specialize (IHT ts' Hp eq_refl). unfold tag_explicitly in H. destruct (tcls t); [discriminate| | |];
      inversion H; subst; rewrite app_length; cbn [length]; lia.
Qed.

(* CV T ts n: n is the element at which the tags ts (innermost first) of T's tag set have been met; the
   remaining EXPLICIT wrappers lead to the base element n0; the outermost tag met is T's outermost *)
Definition dtag : tag := mkTag Univ false 0.
Lemma tag_eqb_pair t c f n : tag_eqb t (mkTag c f n) = true -> tag_pair_eqb (tcls t, tnum t) (c, n) = true.
Proof.
  unfold tag_eqb, tag_pair_eqb. cbn [tcls tnum fst snd]. intros H. apply andb_prop in H. destruct H as [H1 H2].
  rewrite H2. destruct (tcls t), c; try discriminate; reflexivity.
Qed.

Lemma last_may_start T t : plain T = true -> tagset_of' T <> [] ->
  tag_eqb t (last (tagset_of' T) dtag) = true -> may_start T (tcls t, tnum t) = true.
Proof.
  intros Hp Hne H. unfold may_start.
  destruct T; try discriminate;
    try (cbn in H; cbn [first_tags existsb]; rewrite (tag_eqb_pair _ _ _ _ H); reflexivity).
  - cbn [first_tags existsb]. unfold tagset_of' in *. cbn [tagset_of] in *.
    destruct (tagset_of T) as [ts'|]; cbn [bind] in *; [|congruence].
    unfold tag_implicitly in H. destruct (rev ts') as [|l0 r].
    + cbn in H. destruct t0 as [c0 f0 n0]. cbn [tcls tnum]. rewrite (tag_eqb_pair _ _ _ _ H). reflexivity.
    + rewrite last_last in H. rewrite (tag_eqb_pair _ _ _ _ H). reflexivity.
  - cbn [first_tags existsb]. unfold tagset_of' in *. cbn [tagset_of] in *.
    destruct (tagset_of T) as [ts'|]; cbn [bind] in *; [|congruence].
    unfold tag_explicitly in *. destruct (tcls t0) eqn:Ec; [congruence| | |];
      rewrite last_last in H; rewrite (tag_eqb_pair _ _ _ _ H); reflexivity.
Qed.

(* the specs the decoder works under, for plain types: every key of a tag map is the tag set of its type *)
Definition plainmap (m: tmap) : Prop :=
  tm_default m = None /\ Forall (fun kt => plain (snd kt) = true /\ fst kt = tagset_of' (snd kt)) (tm_present m).
Definition sp_plain (sp: spec) : Prop :=
  match sp with STy T => plain T = true | SMap m => plainmap m | SNone => True end.
(* the types a spec may select *)
Definition cands (sp: spec) : list ty :=
  match sp with STy T => [T] | SMap m => map snd (tm_present m) | SNone => [] end.
Lemma tagmap_plain T : plain T = true -> tagmap_of T = mkTmap [(tagset_of' T, T)] [] None false.
Proof. destruct T; try reflexivity; discriminate. Qed.

Lemma fields_tagmap_plain u fs : forallb plain fs = true ->
  plainmap (fields_tagmap u fs) /\ Forall (fun kt => In (snd kt) fs) (tm_present (fields_tagmap u fs)).
Proof.
  intros Hp. rewrite forallb_forall in Hp.
  assert (H: Forall (fun kt => (plain (snd kt) = true /\ fst kt = tagset_of' (snd kt)) /\ In (snd kt) fs) (tm_present (fields_tagmap u fs))).
  { apply fields_tagmap_present. intros T kt Hi Hk. rewrite (tagmap_plain _ (Hp _ Hi)) in Hk.
    destruct Hk as [<-|[]]. cbn [fst snd]. auto. }
  rewrite Forall_forall in H. split; [split|].
  - apply fields_tagmap_default. intros T Hi. rewrite (tagmap_plain _ (Hp _ Hi)). reflexivity.
  - apply Forall_forall. intros x Hx. exact (proj1 (H x Hx)).
  - apply Forall_forall. intros x Hx. exact (proj2 (H x Hx)).
Qed.

Lemma tagset_eqb_last : forall a b, tagset_eqb a b = true -> tag_eqb (last a dtag) (last b dtag) = true.
Proof.
  unfold tagset_eqb. induction a as [|x a IH]; destruct b as [|y b]; cbn [list_eqb]; intros H; try discriminate; [reflexivity|].
  apply andb_prop in H. destruct H as [Hxy H]. specialize (IH _ H).
  destruct a as [|x2 a]; destruct b as [|y2 b]; cbn [list_eqb] in H; try discriminate; [exact Hxy|exact IH].
Qed.

Lemma sel_guided c sp ts cd fl spT : sel c sp ts = Ok (Some (cd, fl, spT)) -> sp_plain sp -> sp <> SNone ->
  exists T', spT = Some T' /\ plain T' = true /\ by_type c T' = Some (cd, fl)
             /\ tagset_eqb ts (tagset_of' T') = true /\ In T' (cands sp).
Proof.
  intros H Hp Hne. apply sel_inv in H. destruct sp as [|T|m]; [congruence| |]; cbn [sp_plain cands] in *.
  - destruct H as (-> & Hby & Em). exists T. split; [reflexivity|]. split; [exact Hp|]. split; [exact Hby|]. split; [|left; reflexivity].
    destruct (tagset_eqb ts (tagset_of' T)) eqn:Et; [reflexivity|].
    cbn [orb] in Em. rewrite (tagmap_plain _ Hp) in Em. unfold tm_contains, tm_find in Em.
    cbn [tm_present tm_default assoc] in Em. rewrite Et in Em. discriminate.
  - destruct H as (T & -> & Hby & Hg). destruct Hp as [Hd Hpr].
    destruct (tm_get_key _ _ _ Hd Hg) as (k & Hi & Hk). rewrite Forall_forall in Hpr.
    destruct (Hpr _ Hi) as [HpT Hkk]. cbn [fst snd] in *. subst k.
    exists T. split; [reflexivity|]. split; [exact HpT|]. split; [exact Hby|]. split; [exact Hk|].
    apply in_map_iff. exists (tagset_of' T, T). auto.
Qed.

(* the spec handed to a member of a SEQUENCE or SET of plain types selects plain types again, all among the
   component types *)
Lemma rec_child_plain fs sp' : forallb plain (map snd fs) = true -> fs <> [] -> rec_child fs sp' ->
  sp' <> SNone /\ sp_plain sp' /\ incl (cands sp') (map snd fs).
Proof.
  intros Hp Hne [[E _]|[(f & Hf & ->)|(u & fs' & Hinc & ->)]]; [congruence| |]; (split; [discriminate|]).
  - rewrite forallb_forall in Hp. split; [exact (Hp _ Hf)|]. intros x [<-|[]]. exact Hf.
  - destruct (fields_tagmap_plain u fs' (forallb_incl _ _ _ Hinc Hp)) as [Hpm Hrange]. split; [exact Hpm|].
    intros x Hx. cbn [cands] in Hx. apply in_map_iff in Hx. destruct Hx as (kt & <- & Hkt).
    rewrite Forall_forall in Hrange. exact (Hinc _ (Hrange _ Hkt)).
Qed.

Section node_ind_strong.
  Variable P : node -> Prop.
  Hypothesis HP : forall c num ct raw, P (Prim c num ct raw).
  Hypothesis HC : forall c num i kids raw, Forall P kids -> P (Cons c num i kids raw).
  Fixpoint node_ind' (n: node) : P n :=
    match n with
    | Prim c num ct raw => HP c num ct raw
    | Cons c num i kids raw =>
        HC c num i kids raw ((fix go (l: list node) : Forall P l :=
                               match l with [] => Forall_nil _ | x :: r => Forall_cons x (node_ind' x) (go r) end) kids)
    end.
End node_ind_strong.

Definition is_nil {X} (l: list X) : bool := match l with [] => true | _ => false end.

Lemma existsb_incl {X} (f: X -> bool) a b : incl a b -> existsb f a = true -> existsb f b = true.
Proof. intros Hi H. apply existsb_exists in H. destruct H as (x & Hx & Hf). apply existsb_exists. exists x. split; [exact (Hi _ Hx)|exact Hf]. Qed.

Definition rtag (ts: tagset) : tclass * N := (tcls (last ts dtag), tnum (last ts dtag)).

Lemma rtag_cons t ts : ts <> [] -> rtag (t :: ts) = rtag ts.
Proof. intros H. unfold rtag. destruct ts as [|t0 r]; [congruence|reflexivity]. Qed.

(* What a derivation under plain types says about its tree, for either strict codec.  tok n cs k rt: n is the
   k-th tag level of an element whose outermost tag is rt and whose type is one of the candidates cs.
   Either a candidate T' that starts with rt and has exactly k tags makes n its base element (tbase) - a
   BOOLEAN primitive with contents 00/FF, a string primitive, the members of a constructed type elements of
   the component types - or n is the wrapper of an EXPLICIT tag: its members are at level k+1, and there is
   exactly one unless the length is indefinite.  Both [gshape] (on a tree without indefinite lengths) and
   [cok] follow from it. *)
Definition tbase_with (members: list ty -> node -> bool) (T': ty) (n: node) : bool :=
  match base_of T' with
  | TBool => match n with Prim _ _ c _ => strict_contents c | _ => false end
  | TBits | TOcts | TStr _ => match n with Prim _ _ _ _ => true | _ => false end
  | TSeqOf t | TSetOf t => match n with Cons _ _ _ kids _ => forallb (members [t]) kids | _ => false end
  | TSeq fs | TSet fs =>
      match n with Cons _ _ _ kids _ => is_nil fs || forallb (members (map snd fs)) kids | _ => false end
  | _ => true
  end.

Fixpoint tok (n: node) (cs: list ty) (k: nat) (rt: tclass * N) {struct n} : bool :=
  existsb (fun T' => may_start T' rt && Nat.eqb k (length (tagset_of' T'))
                     && tbase_with (fun cs' kid => tok kid cs' 1 (node_tag kid)) T' n) cs
  || match n with
     | Cons _ _ i kids _ => (i || Nat.eqb (length kids) 1) && negb (is_nil kids) && forallb (fun kid => tok kid cs (S k) rt) kids
     | Prim _ _ _ _ => false
     end.

Definition tbase : ty -> node -> bool := tbase_with (fun cs' kid => tok kid cs' 1 (node_tag kid)).

Lemma tok_eq n cs k rt : tok n cs k rt =
  existsb (fun T' => may_start T' rt && Nat.eqb k (length (tagset_of' T')) && tbase T' n) cs
  || match n with
     | Cons _ _ i kids _ => (i || Nat.eqb (length kids) 1) && negb (is_nil kids) && forallb (fun kid => tok kid cs (S k) rt) kids
     | Prim _ _ _ _ => false
     end.
Proof. destruct n; reflexivity. Qed.

Lemma tok_mono : forall n cs cs' k rt, incl cs cs' -> tok n cs k rt = true -> tok n cs' k rt = true.
Proof.
  induction n as [c num ct raw|c num i kids raw IH] using node_ind'; intros cs cs' k rt Hi H; rewrite tok_eq in *;
    apply Bool.orb_true_iff in H; apply Bool.orb_true_iff; destruct H as [H|H]; try (left; exact (existsb_incl _ _ _ Hi H)); [discriminate|].
  right. apply andb_prop in H. destruct H as [H1 H2]. rewrite H1. cbn [andb].
  apply forallb_forall. intros kid Hk. rewrite forallb_forall in H2. rewrite Forall_forall in IH.
  exact (IH kid Hk cs cs' (S k) rt Hi (H2 kid Hk)).
Qed.

Section Tok.
  Variable c : codec.
  Hypothesis Hc : c <> BER.

  (* what [derivation_tok] shows of an element under the tags acc, of a value at the tags ts, and of each
     member of a list: tok at the level the tags met so far give *)
  Definition TE (sp: spec) (acc: tagset) (used: bytes) (n: node) (q: bool) : Prop :=
    sp <> SNone -> sp_plain sp ->
    exists t, node_tag n = (tcls t, tnum t) /\ tok n (cands sp) (S (length acc)) (rtag (t :: acc)) = true.
  Definition TW (sp: spec) (ts: tagset) (i: bool) (body: bytes) (ct: content) (q: bool) : Prop :=
    sp <> SNone -> sp_plain sp -> ts <> [] ->
    forall cl num raw, tok (node_of cl num i body ct raw) (cands sp) (length ts) (rtag ts) = true.
  Definition TFE (A: spec -> Prop) (acc: tagset) (i: bool) (body: bytes) (kids: list node) (q: bool) : Prop :=
    Forall (fun k => exists sp' t, A sp' /\ node_tag k = (tcls t, tnum t) /\
                      (sp' <> SNone -> sp_plain sp' -> tok k (cands sp') (S (length acc)) (rtag (t :: acc)) = true)) kids.

  Lemma kids_tok fs kids : forallb plain (map snd fs) = true -> fs <> [] -> TFE (rec_child fs) [] false [] kids false ->
    forallb (fun kid => tok kid (map snd fs) 1 (node_tag kid)) kids = true.
  Proof.
    intros Hfs Hne IHF. apply forallb_forall. intros kid Hkid. unfold TFE in IHF. rewrite Forall_forall in IHF.
    destruct (IHF _ Hkid) as (sp' & tk & Hch & Htag & Hcl). rewrite Htag.
    destruct (rec_child_plain _ _ Hfs Hne Hch) as (Hn & Hsp & Hincl).
    exact (tok_mono kid _ _ _ _ Hincl (Hcl Hn Hsp)).
  Qed.

  Lemma kids_tok_of t kids : plain t = true -> TFE (fun sp' => sp' = STy t) [] false [] kids false ->
    forallb (fun kid => tok kid [t] 1 (node_tag kid)) kids = true.
  Proof.
    intros Hp H. apply forallb_forall. intros kid Hkid. unfold TFE in H. rewrite Forall_forall in H.
    destruct (H _ Hkid) as (sp' & tk & -> & Htag & Hcl). rewrite Htag. exact (Hcl ltac:(discriminate) Hp).
  Qed.

  (* the tree of an element decoded for the plain type T by a decoder of the kind the strict tables give it *)
  Lemma tbase_node T cd cl num i body ct raw : plain T = true -> kind_ok (key_of T) cd = true ->
    match ct with
    | CPrim => container_cd cd = false /\ (cd = DcBoolCer -> body = [0] \/ body = [255])
    | CKids kids => container_cd cd = true /\ TFE (child_spec (Some T)) [] false [] kids false
    end ->
    tbase T (node_of cl num i body ct raw) = true.
  Proof.
    intros Hp Hk H. pose proof (plain_base _ Hp) as Hpb. pose proof (base_of_not_wrapped T) as Hw.
    unfold key_of in Hk. unfold child_spec in H. unfold tbase, tbase_with.
    destruct ct as [|kids]; destruct H as [Hcd H]; cbn [node_of].
    - destruct (base_of T); cbn [kind_ok] in Hk; try reflexivity; try discriminate Hpb; try discriminate Hw; try congruence.
      apply strict_contents_ok, H. destruct cd; try discriminate. reflexivity.
    - assert (Hrec: forall fs, plain (TSeq fs) = true -> TFE (rec_child fs) [] false [] kids false ->
                is_nil fs || forallb (fun kid => tok kid (map snd fs) 1 (node_tag kid)) kids = true).
      { intros fs Hfs Hk'. cbn [plain] in Hfs. rewrite plain_fields in Hfs. destruct fs as [|f0 fr] eqn:Efs; [reflexivity|]. rewrite <- Efs in *.
        rewrite (kids_tok _ _ Hfs ltac:(rewrite Efs; discriminate) Hk'). apply Bool.orb_true_r. }
      destruct (base_of T) as [| | | | | | | | n|fs|fs|t|t|alts| |tg x|tg x]; cbn [kind_ok] in Hk;
        try reflexivity; try discriminate Hpb; try discriminate Hw; try (destruct cd; discriminate).
      + exact (Hrec fs Hpb H).
      + exact (Hrec fs Hpb H).
      + exact (kids_tok_of t _ Hpb H).
      + exact (kids_tok_of t _ Hpb H).
  Qed.

  (* an element whose value decoder was selected is the base element of a candidate *)
  Lemma tok_value sp ts cd fl spT cl num i body ct raw : sp <> SNone -> sp_plain sp -> ts <> [] ->
    sel c sp ts = Ok (Some (cd, fl, spT)) ->
    match ct with
    | CPrim => container_cd cd = false /\ (cd = DcBoolCer -> body = [0] \/ body = [255])
    | CKids kids => container_cd cd = true /\ TFE (child_spec spT) [] false [] kids false
    end ->
    tok (node_of cl num i body ct raw) (cands sp) (length ts) (rtag ts) = true.
  Proof.
    intros Hn Hpl Hne Hsel H.
    destruct (sel_guided _ _ _ _ _ _ Hsel Hpl Hn) as (T' & -> & HpT & Hby & Heq & Hin).
    rewrite tok_eq. apply Bool.orb_true_iff. left. apply existsb_exists. exists T'. split; [exact Hin|].
    rewrite (tbase_node T' cd _ _ _ _ _ _ HpT (by_type_kind c _ _ _ Hc Hby) H), (tagset_eqb_length _ _ Heq), Nat.eqb_refl, !Bool.andb_true_r.
    unfold rtag. apply last_may_start; [exact HpT| |exact (tagset_eqb_last _ _ Heq)].
    intros E1. apply tagset_eqb_length in Heq. rewrite E1 in Heq. destruct ts; [congruence|discriminate].
  Qed.

  Theorem derivation_tok :
    (forall sp acc used n q, E c sp acc used n q -> TE sp acc used n q)
    /\ (forall sp ts i body ct q, W c sp ts i body ct q -> TW sp ts i body ct q)
    /\ (forall A acc i body kids q, FE c A acc i body kids q -> TFE A acc i body kids q).
  Proof.
    (* a CHOICE is not selected under a spec of plain types *)
    assert (Hcho: forall sp ts fl T alts, sp <> SNone -> sp_plain sp ->
              sel c sp ts = Ok (Some (DcChoice, fl, Some T)) -> base_of T = TChoice alts -> False).
    { intros sp ts fl T alts Hn Hpl Hsel Hb.
      destruct (sel_guided _ _ _ _ _ _ Hsel Hpl Hn) as (T' & E0 & HpT & _). inversion E0; subst T'.
      apply plain_base in HpT. rewrite Hb in HpT. discriminate. }
    apply EWF_ind.
    - intros sp acc ib lb body t l ct qv Hid Hdl Hlen HWv IHW Hn Hpl. exists t. split; [destruct ct; reflexivity|].
      exact (IHW Hn Hpl ltac:(discriminate) (tcls t) (tnum t) _).
    - intros sp acc ib body t ct qv Hind Hid HWv IHW Hn Hpl. exists t. split; [destruct ct; reflexivity|].
      exact (IHW Hn Hpl ltac:(discriminate) (tcls t) (tnum t) _).
    - intros sp ts fl spT body Hsel Hb Hn Hpl Hne cl num raw.
      apply (tok_value _ _ _ _ _ _ _ _ _ CPrim _ Hn Hpl Hne Hsel). split; [reflexivity|intros _; exact Hb].
    - intros sp ts cd fl spT body Hsel Hcd Hs Hn Hpl Hne cl num raw.
      apply (tok_value _ _ _ _ _ _ _ _ _ CPrim _ Hn Hpl Hne Hsel). split; [destruct cd; try discriminate; reflexivity|intros ->; discriminate].
    - intros sp ts i cd fl spT body kids q Hsel Hcd Hcons HFk IHF Hn Hpl Hne cl num raw.
      apply (tok_value _ _ _ _ _ _ _ _ _ (CKids kids) _ Hn Hpl Hne Hsel). split; [exact Hcd|exact IHF].
    - (* EXPLICIT: the one member is at the next level *)
      intros sp ts body n q Hsel Hex HEn IHE Hn Hpl Hne cl num raw. cbn [node_of]. rewrite tok_eq.
      apply Bool.orb_true_iff. right. destruct (IHE Hn Hpl) as (t1 & Htag & Ht). rewrite (rtag_cons _ _ Hne) in Ht.
      cbn [length is_nil negb andb orb forallb Nat.eqb] in *. rewrite Ht. reflexivity.
    - intros sp ts body kids q Hsel Hex Hkne HFk IHF Hn Hpl Hne cl num raw. cbn [node_of]. rewrite tok_eq.
      apply Bool.orb_true_iff. right. cbn [orb andb].
      assert (Hnil: negb (is_nil kids) = true) by (destruct kids; [congruence|reflexivity]). rewrite Hnil. cbn [andb].
      apply forallb_forall. intros kid Hkid. unfold TFE in IHF. rewrite Forall_forall in IHF.
      destruct (IHF _ Hkid) as (sp' & tk & -> & Htag & Hcl). specialize (Hcl Hn Hpl).
      rewrite (rtag_cons _ _ Hne) in Hcl. exact Hcl.
    - intros sp ts fl T alts body n q Hsel Hb Htg HEn IHE Hn Hpl. destruct (Hcho _ _ _ _ _ Hn Hpl Hsel Hb).
    - intros sp ts fl T alts body ct q Hsel Hb Htg HWv IHW Hn Hpl. destruct (Hcho _ _ _ _ _ Hn Hpl Hsel Hb).
    - intros A acc i. constructor.
    - intros A acc i sp u n q rest ns qs HA HEn IHE Hnz HFr IHF. constructor; [|exact IHF].
      exists sp, (mkTag (fst (node_tag n)) false (snd (node_tag n))). split; [exact HA|]. split; [destruct (node_tag n); reflexivity|].
      intros Hn Hpl. destruct (IHE Hn Hpl) as (t' & Htag & Ht).
      replace (rtag (mkTag (fst (node_tag n)) false (snd (node_tag n)) :: acc)) with (rtag (t' :: acc)); [exact Ht|].
      unfold rtag. destruct acc as [|a r]; [cbn [last tcls tnum]; rewrite Htag|]; reflexivity.
  Qed.

  Lemma accepted_tok T used n q : plain T = true -> E c (STy T) [] used n q -> tok n [T] 1 (node_tag n) = true.
  Proof.
    intros Hp HE0. destruct (proj1 derivation_tok _ _ _ _ _ HE0 ltac:(discriminate) Hp) as (t & Htag & Ht).
    rewrite Htag. exact Ht.
  Qed.
End Tok.

(* --- from tok to gshape, on a tree without indefinite lengths --- *)

Lemma gshape_top T n n0 : plain T = true -> (1 <= length (tagset_of' T))%nat ->
  chain (length (tagset_of' T) - 1) n n0 -> gshape (base_of T) n0 = true -> gshape T n = true.
Proof.
  intros Hp Hl Hch Hg. unfold tagset_of' in *. destruct (tagset_of T) as [ts|] eqn:E; [|cbn in Hl; lia].
  rewrite (tagset_len _ _ Hp E) in Hch. replace (S (n_expl T) - 1)%nat with (n_expl T) in Hch by lia.
  exact (gshape_chain T n n0 Hch Hg).
Qed.

(* n, at tag level k, belongs to a candidate T': the EXPLICIT wrappers T' still has below level k lead
   from n to the element n0 that the base type of T' describes *)
Definition at_level (cs: list ty) (k: nat) (rt: tclass * N) (n: node) : Prop :=
  exists T' n0, In T' cs /\ may_start T' rt = true /\ (k <= length (tagset_of' T'))%nat
                /\ chain (length (tagset_of' T') - k) n n0 /\ gshape (base_of T') n0 = true.

Lemma tok_chain : forall n cs k rt, tok n cs k rt = true -> definite n = true -> (forall T, In T cs -> plain T = true) ->
  at_level cs k rt n.
Proof.
  (* a candidate matched here: no wrapper is left, and its base type describes n *)
  assert (Hhere: forall n cs k rt, (forall T', plain T' = true -> tbase T' n = true -> gshape (base_of T') n = true) ->
            (forall T, In T cs -> plain T = true) ->
            existsb (fun T' => may_start T' rt && Nat.eqb k (length (tagset_of' T')) && tbase T' n) cs = true -> at_level cs k rt n).
  { intros n cs k rt Hb Hcs H. apply existsb_exists in H. destruct H as (T' & Hin & H).
    apply andb_prop in H. destruct H as [H H3]. apply andb_prop in H. destruct H as [H1 H2]. apply Nat.eqb_eq in H2.
    exists T', n. rewrite <- H2, Nat.sub_diag. split; [exact Hin|]. split; [exact H1|]. split; [lia|].
    split; [reflexivity|exact (Hb _ (Hcs _ Hin) H3)]. }
  induction n as [c num ct raw|c num i kids raw IH] using node_ind'; intros cs k rt H Hd Hcs; rewrite tok_eq in H;
    apply Bool.orb_true_iff in H; destruct H as [H|H]; try discriminate H.
  - refine (Hhere _ _ _ _ _ Hcs H). intros T' Hp Hb. unfold tbase, tbase_with in Hb.
    pose proof (plain_base _ Hp) as Hpb. pose proof (base_of_not_wrapped T') as Hw.
    destruct (base_of T'); try reflexivity; try discriminate; try discriminate Hw; exact Hb.
  - cbn [definite] in Hd. apply andb_prop in Hd. destruct Hd as [Hi Hdk]. destruct i; [discriminate|].
    rewrite forallb_forall in Hdk. rewrite Forall_forall in IH.
    (* the members, as elements of the types cs', each at its outermost tag *)
    assert (Hkids: forall cs', (forall T, In T cs' -> plain T = true) ->
              forallb (fun kid => tok kid cs' 1 (node_tag kid)) kids = true ->
              forall kid, In kid kids -> exists ft, In ft cs' /\ may_start ft (node_tag kid) = true /\ gshape ft kid = true).
    { intros cs' Hcs' Ht kid Hin. rewrite forallb_forall in Ht.
      destruct (IH _ Hin _ _ _ (Ht _ Hin) (Hdk _ Hin) Hcs') as (T' & n0 & HT & Hm & Hl & Hch & Hg).
      exists T'. split; [exact HT|]. split; [exact Hm|exact (gshape_top _ _ _ (Hcs' _ HT) Hl Hch Hg)]. }
    assert (Hrec: forall fs, plain (TSeq fs) = true -> tbase (TSeq fs) (Cons c num false kids raw) = true ->
              gshape (TSeq fs) (Cons c num false kids raw) = true).
    { intros fs Hp Hb. cbn [plain] in Hp. rewrite plain_fields, forallb_forall in Hp. apply gshape_record. intros Hne.
      destruct fs; [congruence|]. exact (Hkids _ Hp Hb). }
    assert (Hof: forall t, plain t = true -> forallb (fun kid => tok kid [t] 1 (node_tag kid)) kids = true ->
              forallb (gshape t) kids = true).
    { intros t Hp Hb. apply forallb_forall. intros kid Hin.
      destruct (Hkids [t] ltac:(intros x [<-|[]]; exact Hp) Hb kid Hin) as (ft & [<-|[]] & _ & Hg). exact Hg. }
    refine (Hhere _ _ _ _ _ Hcs H). intros T' Hp Hb. unfold tbase, tbase_with in Hb.
    pose proof (plain_base _ Hp) as Hpb. pose proof (base_of_not_wrapped T') as Hw.
    destruct (base_of T') as [| | | | | | | | n|fs|fs|t|t|alts| |tg x|tg x]; try reflexivity; try discriminate; try discriminate Hw;
      [exact (Hrec fs Hpb Hb)|exact (Hrec fs Hpb Hb)|exact (Hof t Hpb Hb)|exact (Hof t Hpb Hb)].
  - (* the wrapper of an EXPLICIT tag, with its one member *)
    cbn [definite] in Hd. apply andb_prop in Hd. destruct Hd as [Hi Hdk]. destruct i; [discriminate|].
    apply andb_prop in H. destruct H as [H H3]. apply andb_prop in H. destruct H as [H1 _]. cbn [orb] in H1.
    destruct kids as [|kid [|k2 r]]; try discriminate H1. cbn [forallb] in H3, Hdk.
    apply andb_prop in H3. apply andb_prop in Hdk.
    destruct (Forall_inv IH _ _ _ (proj1 H3) (proj1 Hdk) Hcs) as (T' & n0 & HT & Hm & Hl & Hch & Hg).
    exists T', n0. split; [exact HT|]. split; [exact Hm|]. split; [lia|]. split; [|exact Hg].
    replace (length (tagset_of' T') - k)%nat with (S (length (tagset_of' T') - S k)) by lia. exact Hch.
Qed.

Lemma tok_gshape T n : plain T = true -> tok n [T] 1 (node_tag n) = true -> definite n = true -> gshape T n = true.
Proof.
  intros Hp H Hd. destruct (tok_chain _ _ _ _ H Hd ltac:(intros x [<-|[]]; exact Hp)) as (T' & n0 & [<-|[]] & _ & Hl & Hch & Hg).
  exact (gshape_top _ _ _ Hp Hl Hch Hg).
Qed.

Lemma plain_no_any : forall T, plain T = true -> no_any T = true.
Proof.
  induction T as [| | | | | | | | n|fs IH|fs IH|t IH|t IH|alts IH| |tg x IH|tg x IH] using ty_ind'; cbn [plain no_any]; auto.
  - intros H. induction IH as [|f r Hf Hr IHr]; [reflexivity|]. apply andb_prop in H. destruct H as [H1 H2].
    rewrite (Hf H1), (IHr H2). reflexivity.
  - intros H. induction IH as [|f r Hf Hr IHr]; [reflexivity|]. apply andb_prop in H. destruct H as [H1 H2].
    rewrite (Hf H1), (IHr H2). reflexivity.
  - discriminate.
Qed.

(* Under a guiding type T without ANY and CHOICE, beyond [der_accepts_definite]: the tree has the shape T
   demands at every depth and under any tagging: every BOOLEAN component primitive with contents 00/FF,
   every string component primitive, every EXPLICIT tag around exactly one member. *)
Theorem der_accepts_gshape : forall T b d tl, wf_bytes b = true -> plain T = true ->
  decode DER (Some T) b = Ok (d, tl) ->
  exists used n q, b = used ++ tl /\ D (STy T) [] used n q /\ gshape T n = true /\ definite n = true
                   /\ X690.parse b = (if q then None else Some (n, tl)).
Proof.
  intros T b d tl Hwf Hp H.
  destruct (decode_der_derivation (Some T) b d tl (plain_no_any _ Hp) H) as (used & n & q & -> & HE & HD).
  pose proof (proj1 derivation_definite _ _ _ _ _ HD) as Hdef.
  exists used, n, q. split; [reflexivity|]. split; [exact HD|]. split; [|split; [exact Hdef|exact (accepted_parse _ _ _ _ _ _ HE Hwf)]].
  exact (tok_gshape _ _ Hp (accepted_tok DER ltac:(discriminate) _ _ _ _ Hp HE) Hdef).
Qed.

Corollary der_accepts_parsed_gshape : forall T b d tl n rest, wf_bytes b = true -> plain T = true ->
  decode DER (Some T) b = Ok (d, tl) -> X690.parse b = Some (n, rest) ->
  rest = tl /\ gshape T n = true /\ definite n = true.
Proof.
  intros T b d tl n rest Hwf Hp H Hpa.
  destruct (der_accepts_gshape T b d tl Hwf Hp H) as (used & n0 & q & Hb & _ & Hg & Hd & Hq).
  rewrite Hpa in Hq. destruct q; [discriminate|]. inversion Hq; subst. auto.
Qed.

(* SEQUENCE { [0] IMPLICIT BOOLEAN, [1] EXPLICIT OCTET STRING OPTIONAL, SET OF [2] IMPLICIT UTF8String } *)
Definition ex_ty : ty :=
  TSeq [(Req, TImp (mkTag Ctx false 0) TBool); (Opt, TExp (mkTag Ctx false 1) TOcts);
        (Req, TSetOf (TImp (mkTag Ctx false 2) (TStr 12)))].
Example der_accepts_gshape_ex :
  let b := [48; 15; 128; 1; 255; 161; 3; 4; 1; 65; 49; 5; 130; 1; 66; 130; 0] in
  wf_bytes b = true /\ plain ex_ty = true
  /\ (exists d, decode DER (Some ex_ty) b = Ok (d, []))
  /\ (exists n, X690.parse b = Some (n, []) /\ gshape ex_ty n = true /\ definite n = true).
Proof. vm_compute. split; [reflexivity|]. split; [reflexivity|]. split; eexists; [reflexivity|repeat split]. Qed.

(* the implicitly tagged BOOLEAN with contents 01, the implicitly tagged string in constructed form and
   an indefinite length inside the SET OF are refused *)
Example der_refuses_guided_ex :
  decode DER (Some ex_ty) [48; 5; 128; 1; 1; 49; 0] = Err EMalformed
  /\ decode DER (Some ex_ty) [48; 12; 128; 1; 255; 49; 7; 162; 5; 12; 3; 65; 66; 67] = Err EMalformed
  /\ decode DER (Some ex_ty) [48; 9; 128; 1; 255; 49; 128; 130; 0; 0; 0] = Err EMalformed.
Proof. vm_compute. repeat split. Qed.

(* the content of an ANY is opaque: under [0] EXPLICIT ANY an inner indefinite length passes *)
Example any_is_opaque :
  exists d, decode DER (Some (TExp (mkTag Ctx false 0) TAny)) [160; 4; 36; 128; 0; 0] = Ok (d, []).
Proof. vm_compute. eexists. reflexivity. Qed.

(* with a CHOICE in the guiding type (not covered by gshape) the definite-length statement still applies *)
Example der_accepts_definite_ex :
  let T := TSeqOf (TChoice [TBool; TImp (mkTag Ctx false 1) TOcts]) in
  guide_ok (Some T) /\ (exists d, decode DER (Some T) [48; 6; 1; 1; 255; 129; 1; 65] = Ok (d, []))
  /\ decode DER (Some T) [48; 128; 1; 1; 255; 0; 0] = Err EMalformed
  /\ decode DER (Some T) [48; 5; 161; 3; 4; 1; 65] = Err EMalformed
  /\ decode DER (Some T) [48; 3; 1; 1; 7] = Err EMalformed.
Proof. vm_compute. split; [reflexivity|]. split; [eexists; reflexivity|]. repeat split. Qed.

Print Assumptions der_accepts_gshape.
Print Assumptions der_accepts_parsed_gshape.
Print Assumptions der_accepts_definite.

(* the element the dispatcher is looking at is a BOOLEAN: by its guiding type (under whatever tags), or,
   without a guiding type, by its UNIVERSAL 1 tag *)
Definition boolean_element (c: codec) (sp: spec) (ts: tagset) : Prop :=
  (exists cd fl T, sel c sp ts = Ok (Some (cd, fl, Some T)) /\ base_of T = TBool)
  \/ (sp = SNone /\ exists t acc, ts = t :: acc /\ tcls t = Univ /\ tnum t = 1).

Lemma sel_kind c sp ts cd fl T : c <> BER -> sel c sp ts = Ok (Some (cd, fl, Some T)) -> kind_ok (key_of T) cd = true.
Proof.
  intros Hc H. apply sel_inv in H. destruct sp as [|T0|m].
  - destruct H as [H _]. discriminate.
  - destruct H as (E & H & _). inversion E; subst. exact (by_type_kind c _ _ _ Hc H).
  - destruct H as (T1 & E & H & _). inversion E; subst. exact (by_type_kind c _ _ _ Hc H).
Qed.

Lemma sel_boolean c sp ts : c = CER \/ c = DER -> boolean_element c sp ts ->
  exists fl spT, sel c sp ts = Ok (Some (DcBoolCer, fl, spT)).
Proof.
  intros Hc [(cd & fl & T & Hsel & Hb)|(-> & t & acc & -> & Hu & Hn)].
  - assert (Hk: kind_ok (key_of T) cd = true) by (apply (sel_kind c _ _ _ _ _ ltac:(destruct Hc; subst; discriminate) Hsel)).
    unfold key_of in Hk. rewrite Hb in Hk. destruct cd; try discriminate. eauto.
  - assert (Hk: key_of_univ_tag t = Some KBool) by (unfold key_of_univ_tag; rewrite Hu, Hn; reflexivity).
    assert (Hb1: exists fl, by_tag c [t] = Some (DcBoolCer, fl)).
    { cbn [by_tag]. rewrite Hk. destruct Hc as [-> | ->]; eexists; vm_compute; reflexivity. }
    destruct Hb1 as (fl & Hb1). cbn [sel firstn].
    destruct acc as [|t2 r]; [rewrite Hb1; eauto|].
    replace (by_tag c (t :: t2 :: r)) with (@None (dec_codec * dec_flags)) by reflexivity. rewrite Hb1. eauto.
Qed.

(* The CER and DER decoders: wherever the dispatcher meets a BOOLEAN - at top level or inside any
   constructed value ([rec] and the fuel are arbitrary, so this is every depth), under any tag stack,
   with or without a guiding type - a successful run read a definite length 1 and one contents octet,
   00 or FF.  In particular an indefinite-length BOOLEAN is refused. *)
Theorem boolean_strict_everywhere : forall c rec lf sp ts len sfun s d s',
  c = CER \/ c = DER -> boolean_element c sp ts ->
  resume (dispatch c rec lf sp ts len sfun) s = inr (Ok d, s') ->
  len = Some 1 /\ exists o, took s s' [o] /\ (o = 0 \/ o = 255).
Proof.
  intros c rec lf sp ts len sfun s d s' Hc Hb H.
  destruct (sel_boolean c sp ts Hc Hb) as (fl & spT & Hsel).
  rewrite dispatch_sel, Hsel in H. apply run_value_inv in H. destruct H as [H _].
  destruct len as [l|]; [|unfold dec_value in H; dead H].
  apply dec_bool_cer_inv in H. destruct H as (-> & u & Hu & [-> | ->]); eauto.
Qed.

(* at the entry point of the decoder: any fuel, any spec, any accumulated tags; e.g. DER and CER on the
   members of a SEQUENCE, where BER accepts 01 *)
Example boolean_strict_everywhere_ex :
  let T := TSeq [(Req, TExp (mkTag Ctx false 0) (TImp (mkTag Appl false 3) TBool)); (Req, TInt)] in
  (exists d, decode CER (Some T) [48; 128; 160; 128; 67; 1; 255; 0; 0; 2; 1; 5; 0; 0] = Ok (d, []))
  /\ decode CER (Some T) [48; 128; 160; 128; 67; 1; 1; 0; 0; 2; 1; 5; 0; 0] = Err EMalformed
  /\ (exists d, decode BER (Some T) [48; 128; 160; 128; 67; 1; 1; 0; 0; 2; 1; 5; 0; 0] = Ok (d, []))
  /\ decode CER None [48; 128; 160; 128; 1; 1; 1; 0; 0; 0; 0] = Err EMalformed
  /\ (exists d, decode CER None [48; 128; 160; 128; 1; 1; 255; 0; 0; 0; 0] = Ok (d, [])).
Proof. vm_compute. repeat split; try (eexists; reflexivity). Qed.

Print Assumptions boolean_strict_everywhere.

(* Guiding types built from BOOLEAN, INTEGER, ENUMERATED, NULL, OID, REAL, SEQUENCE / SET (with members,
   any presence), SEQUENCE OF / SET OF and any tagging.  String types are left out: inside a constructed
   string the CER decoder hands unknown fragments to a raw collector and inspects nothing; so are ANY
   (opaque) and CHOICE. *)
Fixpoint cplain (T: ty) : bool :=
  match T with
  | TAny | TChoice _ | TBits | TOcts | TStr _ => false
  | TImp _ x | TExp _ x => cplain x
  | TSeqOf t | TSetOf t => cplain t
  | TSeq fs | TSet fs =>
      match fs with
      | [] => false
      | _ => (fix go (l: list (presence * ty)) : bool := match l with [] => true | f :: r => cplain (snd f) && go r end) fs
      end
  | _ => true
  end.
Lemma cplain_fields fs : cplain (TSeq fs) = true -> fs <> [] /\ forallb cplain (map snd fs) = true.
Proof.
  assert (Hgo: forall l: list (presence * ty),
            (fix go (l: list (presence * ty)) : bool := match l with [] => true | f :: r => cplain (snd f) && go r end) l
            = forallb cplain (map snd l))
    by (induction l as [|f r IH]; [reflexivity|]; cbn [map forallb]; rewrite IH; reflexivity).
  cbn [cplain]. destruct fs as [|f0 fr]; [discriminate|]. intros H. split; [discriminate|]. rewrite <- Hgo. exact H.
Qed.
Lemma cplain_base T : cplain T = true -> cplain (base_of T) = true.
Proof. induction T; cbn [cplain base_of]; auto. Qed.

Lemma cplain_plain : forall T, cplain T = true -> plain T = true.
Proof.
  assert (Hfs: forall fs: list (presence * ty), Forall (fun f => cplain (snd f) = true -> plain (snd f) = true) fs ->
            cplain (TSeq fs) = true -> plain (TSeq fs) = true).
  { intros fs IH H. apply cplain_fields in H. destruct H as [_ H]. cbn [plain]. rewrite plain_fields.
    induction IH as [|f r Hf Hr IHr]; [reflexivity|]. cbn [map forallb] in *.
    apply andb_prop in H. destruct H as [H1 H2]. rewrite (Hf H1), (IHr H2). reflexivity. }
  induction T as [| | | | | | | | n|fs IH|fs IH|t IH|t IH|alts IH| |tg x IH|tg x IH] using ty_ind'; cbn [plain cplain]; auto.
  - exact (Hfs fs IH).
  - exact (Hfs fs IH).
Qed.

Definition cspec_ok (sp: spec) : Prop :=
  match sp with SNone => False | STy T => cplain T = true | SMap m => all_in cplain m end.

Lemma cplain_default T : cplain T = true -> tm_default (tagmap_of T) = None.
Proof. intros H. rewrite (tagmap_plain _ (cplain_plain _ H)). reflexivity. Qed.

Lemma child_spec_cok T sp' : cplain T = true -> child_spec (Some T) sp' -> cspec_ok sp'.
Proof.
  intros Hn Hc. apply cplain_base in Hn. cbn [child_spec] in Hc.
  assert (Hfs: forall fs, cplain (TSeq fs) = true -> rec_child fs sp' -> cspec_ok sp').
  { intros fs Hfs Hr. apply cplain_fields in Hfs. destruct Hfs as [Hne Hfs].
    pose proof (rec_child_all cplain _ _ cplain_default Hfs Hr) as Hx. destruct sp'; [congruence|exact Hx|exact Hx]. }
  destruct (base_of T); try contradiction; [exact (Hfs _ Hn Hc)|exact (Hfs _ Hn Hc)|subst; exact Hn|subst; exact Hn].
Qed.

Lemma cplain_kind T cd : cplain T = true -> kind_ok (key_of T) cd = true ->
  is_any_cd cd = false /\ string_cd cd = false /\ cd <> DcChoice.
Proof.
  intros Hp Hk. apply cplain_base in Hp. pose proof (base_of_not_wrapped T) as Hw. unfold key_of in Hk.
  assert (Hx: cd = DcBoolCer \/ simple_cd cd = true \/ container_cd cd = true).
  { destruct (base_of T); try discriminate Hp; try discriminate Hw; cbn [kind_ok] in Hk; auto;
      try (apply andb_prop in Hk; tauto). destruct cd; try discriminate. auto. }
  destruct Hx as [Hx|[Hx|Hx]]; destruct cd; try discriminate Hx; repeat split; discriminate.
Qed.

Lemma sel_cer sp ts cd fl spT : cspec_ok sp -> sel CER sp ts = Ok (Some (cd, fl, spT)) ->
  exists T', spT = Some T' /\ cplain T' = true /\ kind_ok (key_of T') cd = true.
Proof.
  intros Hok H. pose proof H as Hi. apply sel_inv in Hi. destruct sp as [|T|m]; [destruct Hok| |]; cbn [cspec_ok] in Hok.
  - destruct Hi as (-> & _). exists T. split; [reflexivity|]. split; [exact Hok|]. exact (sel_kind CER _ _ _ _ _ ltac:(discriminate) H).
  - destruct Hi as (T & -> & _ & Hg). exists T. split; [reflexivity|]. split; [exact (tm_get_all cplain _ _ _ Hok Hg)|].
    exact (sel_kind CER _ _ _ _ _ ltac:(discriminate) H).
Qed.

Lemma cer_adm : adm_ok CER cspec_ok.
Proof.
  intros sp ts cd fl spT Hok Hsel. destruct (sel_cer _ _ _ _ _ Hok Hsel) as (T & -> & Hp & Hk).
  destruct (cplain_kind _ _ Hp Hk) as (Hany & Hstr & Hcho).
  split; [exact Hany|]. split; [intros Hs; congruence|]. split; [intros Hc; congruence|].
  intros sp' Hc. exact (child_spec_cok _ _ Hp Hc).
Qed.

Theorem decode_cer_derivation : forall T b d tl, cplain T = true ->
  decode CER (Some T) b = Ok (d, tl) ->
  exists used n q, b = used ++ tl /\ E CER (STy T) [] used n q.
Proof. intros T b d tl Hok H. exact (decode_derivation CER cspec_ok (Some T) b d tl cer_adm Hok H). Qed.

(* cok n cs k rt: n is the k-th tag level of an element whose outermost tag is rt and whose type is one of
   the candidates cs.  Either a candidate T' that starts with rt and has exactly k tags makes n its base
   element - then a BOOLEAN is primitive with contents 00/FF, and the members of a constructed type are
   elements of the component types, recursively, in definite or indefinite form - or n is a constructed
   wrapper (an EXPLICIT tag) all of whose members are at level k+1 *)
Fixpoint cok (n: node) (cs: list ty) (k: nat) (rt: tclass * N) {struct n} : bool :=
  existsb (fun T' =>
     may_start T' rt && Nat.eqb k (length (tagset_of' T')) &&
     match base_of T' with
     | TBool => match n with Prim _ _ c _ => strict_contents c | _ => false end
     | TSeqOf t | TSetOf t =>
         match n with Cons _ _ _ kids _ => forallb (fun kid => cok kid [t] 1 (node_tag kid)) kids | _ => false end
     | TSeq fs | TSet fs =>
         match n with Cons _ _ _ kids _ => forallb (fun kid => cok kid (map snd fs) 1 (node_tag kid)) kids | _ => false end
     | _ => true
     end) cs
  || match n with
     | Cons _ _ _ kids _ => negb (is_nil kids) && forallb (fun kid => cok kid cs (S k) rt) kids
     | Prim _ _ _ _ => false
     end.

Lemma tok_cok : forall n cs k rt, tok n cs k rt = true -> (forall T, In T cs -> cplain T = true) -> cok n cs k rt = true.
Proof.
  induction n as [c num ct raw|c num i kids raw IH] using node_ind'; intros cs k rt H Hcs; rewrite tok_eq in H; cbn [cok];
    apply Bool.orb_true_iff in H; apply Bool.orb_true_iff; destruct H as [H|H]; try discriminate H.
  - left. apply existsb_exists in H. destruct H as (T' & Hin & H). apply existsb_exists. exists T'. split; [exact Hin|].
    apply andb_prop in H. destruct H as [H Hb]. rewrite H. pose proof (cplain_base _ (Hcs _ Hin)) as Hpb.
    unfold tbase, tbase_with in Hb. destruct (base_of T'); try exact Hb; try discriminate Hpb; reflexivity.
  - left. apply existsb_exists in H. destruct H as (T' & Hin & H). apply existsb_exists. exists T'. split; [exact Hin|].
    apply andb_prop in H. destruct H as [H Hb]. rewrite H. pose proof (cplain_base _ (Hcs _ Hin)) as Hpb.
    rewrite Forall_forall in IH. unfold tbase, tbase_with in Hb.
    (* the members, as elements of the component types cs' *)
    assert (Hkids: forall cs', (forall T, In T cs' -> cplain T = true) ->
              forallb (fun kid => tok kid cs' 1 (node_tag kid)) kids = true -> forallb (fun kid => cok kid cs' 1 (node_tag kid)) kids = true).
    { intros cs' Hcs' Hk. apply forallb_forall. intros kid Hkid. rewrite forallb_forall in Hk. exact (IH _ Hkid _ _ _ (Hk _ Hkid) Hcs'). }
    destruct (base_of T') as [| | | | | | | | n|fs|fs|t|t|alts| |tg x|tg x]; try exact Hb; try discriminate Hpb; try reflexivity.
    + apply cplain_fields in Hpb. destruct Hpb as [Hne Hfs]. rewrite forallb_forall in Hfs.
      destruct fs; [congruence|]. exact (Hkids _ Hfs Hb).
    + apply (cplain_fields fs) in Hpb. destruct Hpb as [Hne Hfs]. rewrite forallb_forall in Hfs.
      destruct fs; [congruence|]. exact (Hkids _ Hfs Hb).
    + exact (Hkids [t] ltac:(intros x [<-|[]]; exact Hpb) Hb).
    + exact (Hkids [t] ltac:(intros x [<-|[]]; exact Hpb) Hb).
  - right. apply andb_prop in H. destruct H as [H H3]. apply andb_prop in H. destruct H as [_ H2]. rewrite H2. cbn [andb].
    apply forallb_forall. intros kid Hkid. rewrite forallb_forall in H3. rewrite Forall_forall in IH.
    exact (IH _ Hkid _ _ _ (H3 _ Hkid) Hcs).
Qed.

(* Whatever the CER decoder accepts under a guiding type T (no strings, ANY, CHOICE): the octets consumed
   are one TLV tree n - definite or indefinite lengths at any level - in which every element that T makes a
   BOOLEAN, at every depth and under any tagging, is primitive with contents 00 or FF ([cok]); n is the tree
   of the reference parser unless the input uses a first length octet FF or a constructed BOOLEAN (q). *)
Theorem cer_accepts_boolean_strict : forall T b d tl, wf_bytes b = true -> cplain T = true ->
  decode CER (Some T) b = Ok (d, tl) ->
  exists used n q, b = used ++ tl /\ E CER (STy T) [] used n q /\ cok n [T] 1 (node_tag n) = true
                   /\ X690.parse b = (if q then None else Some (n, tl)).
Proof.
  intros T b d tl Hwf Hp H.
  destruct (decode_cer_derivation T b d tl Hp H) as (used & n & q & -> & HE0).
  exists used, n, q. split; [reflexivity|]. split; [exact HE0|]. split; [|exact (accepted_parse _ _ _ _ _ _ HE0 Hwf)].
  apply tok_cok; [|intros x [<-|[]]; exact Hp].
  exact (accepted_tok CER ltac:(discriminate) _ _ _ _ (cplain_plain _ Hp) HE0).
Qed.

Corollary cer_accepts_parsed_boolean_strict : forall T b d tl n rest, wf_bytes b = true -> cplain T = true ->
  decode CER (Some T) b = Ok (d, tl) -> X690.parse b = Some (n, rest) ->
  rest = tl /\ cok n [T] 1 (node_tag n) = true.
Proof.
  intros T b d tl n rest Hwf Hp H Hpa.
  destruct (cer_accepts_boolean_strict T b d tl Hwf Hp H) as (used & n0 & q & Hb & _ & Hc & Hq).
  rewrite Hpa in Hq. destruct q; [discriminate|]. inversion Hq; subst. auto.
Qed.

(* SEQUENCE { [0] EXPLICIT [APPLICATION 3] IMPLICIT BOOLEAN, INTEGER OPTIONAL, SET OF BOOLEAN }, indefinite lengths *)
Definition ex_cty : ty :=
  TSeq [(Req, TExp (mkTag Ctx false 0) (TImp (mkTag Appl false 3) TBool)); (Opt, TInt); (Req, TSetOf TBool)].
Example cer_accepts_boolean_strict_ex :
  let b := [48; 128; 160; 128; 67; 1; 255; 0; 0; 2; 1; 5; 49; 128; 1; 1; 0; 1; 1; 255; 0; 0; 0; 0] in
  wf_bytes b = true /\ cplain ex_cty = true
  /\ (exists d, decode CER (Some ex_cty) b = Ok (d, []))
  /\ (exists n, X690.parse b = Some (n, []) /\ cok n [ex_cty] 1 (node_tag n) = true).
Proof. vm_compute. split; [reflexivity|]. split; [reflexivity|]. split; eexists; [reflexivity|split; reflexivity]. Qed.

(* the predicate tells a lax BOOLEAN apart: same octets with 01 in the SET OF *)
Example cok_discriminates :
  let b := [48; 128; 160; 128; 67; 1; 255; 0; 0; 2; 1; 5; 49; 128; 1; 1; 1; 0; 0; 0; 0] in
  (exists n, X690.parse b = Some (n, []) /\ cok n [ex_cty] 1 (node_tag n) = false)
  /\ decode CER (Some ex_cty) b = Err EMalformed
  /\ (exists d, decode BER (Some ex_cty) b = Ok (d, [])).
Proof. vm_compute. split; [eexists; split; reflexivity|]. split; [reflexivity|eexists; reflexivity]. Qed.

(* likewise gshape for DER: SEQUENCE { BOOLEAN, INTEGER } with BOOLEAN 05 *)
Example gshape_discriminates :
  let T := TSeq [(Req, TBool); (Req, TInt)] in
  (exists n, X690.parse [48; 6; 1; 1; 5; 2; 1; 5] = Some (n, []) /\ gshape T n = false)
  /\ (exists n, X690.parse [48; 6; 1; 1; 255; 2; 1; 5] = Some (n, []) /\ gshape T n = true)
  /\ decode DER (Some T) [48; 6; 1; 1; 5; 2; 1; 5] = Err EMalformed.
Proof. vm_compute. split; [eexists; split; reflexivity|]. split; [eexists; split; reflexivity|reflexivity]. Qed.

Print Assumptions eoo_only.
Print Assumptions decode_cer_derivation.
Print Assumptions cer_accepts_boolean_strict.
Print Assumptions cer_accepts_parsed_boolean_strict.
