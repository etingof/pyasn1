(* C13, rejection half, for the whole universe of types.

   The decoder guided by T' reads identifier octets from the outside inwards along the FIRST-ELEMENT
   SPINE of the input, accumulating the tags (innermost first) and looking the accumulated tags up
   among the keys of T' (its own tag set; for an untagged CHOICE the tag sets of the alternatives).
   While there is no such key and the tag just read is constructed and not UNIVERSAL it goes one
   level in - whether that tag is an EXPLICIT wrapper or the (implicitly retagged) tag of a SEQUENCE,
   SET, SEQUENCE OF, SET OF or of a tagged CHOICE/ANY.  With ts = t0 :: r the tag set of the encoded
   type (t0 innermost) the accumulated tag sets are therefore
     - the non-empty suffixes of ts, and
     - when the innermost tag t0 is constructed on the wire and not UNIVERSAL: p ++ ts for tags p
       met further in (the first member of the container, its first member, ...; past an empty
       container: whatever octets follow).
   [key_differs]: a key k of T' is none of these.  Then the input is refused with a library error
   whatever the value, whatever follows ([tag_mismatch_rejected_universe]); in particular when
   every key has as many tags as ts and differs from it ([same_length_differs]), or more tags
   whose outer |ts| tags differ from ts ([longer_differs]), or more tags in any way when the encoded
   type is simple or its innermost tag is UNIVERSAL ([longer_no_descent]).

   When a key k of T' is p ++ ts (ts itself is the outer part of k) and t0 is a constructed
   non-universal tag the decoder steps INTO the container and may accept: witnesses at the end. *)
From Coq Require Import Lia.
From PV Require Import Base.Bytes Model.Tag Model.TableTypes Model.Types Model.Proc Model.Enc Model.Dec Gen.Tables
     Proofs.ProcBind Proofs.RunLemmas Proofs.TagOctets Proofs.TagAlgebra Proofs.DecHeader Proofs.DecFrame Proofs.DecPrim
     Proofs.TagsetShape Proofs.Schemaless Proofs.RoundTrip1 Proofs.RoundTrip2 Proofs.TagReject Proofs.DecShape Proofs.RoundTrip3 Proofs.RoundTrip3a Proofs.RoundTrip3b Proofs.RoundTrip3c.
Local Open Scope N_scope.

Definition rem (s: stream) : nat := length (avail s).

Lemma rem_adv s n : rem (adv s n) = (rem s - n)%nat.
Proof. unfold rem. rewrite avail_adv, skipn_length. reflexivity. Qed.

Lemma readN_run k s : closed s = true ->
  resume (readN k) s = inr (Err EEndOfStream, s)
  \/ exists b, resume (readN k) s = inr (Ok b, adv s k) /\ length b = k /\ (k <= rem s)%nat.
Proof.
  intros Hc. unfold readN. cbn [resume]. unfold attempt.
  destruct (Nat.eqb_spec k 0) as [->|Hk].
  - right. exists []. rewrite adv_0. repeat split. lia.
  - destruct (Nat.ltb_spec (length (avail s)) k) as [Hl|Hl].
    + left. rewrite Hc. reflexivity.
    + right. exists (firstn k (avail s)). split; [reflexivity|]. split; [apply firstn_length_le; exact Hl|exact Hl].
Qed.

Lemma read1_run s : closed s = true ->
  resume read1 s = inr (Err EEndOfStream, s)
  \/ exists o, resume read1 s = inr (Ok o, adv s 1) /\ (1 <= rem s)%nat.
Proof.
  intros Hc. unfold read1. destruct (readN_run 1 s Hc) as [H|(b & H & Hl & Hr)].
  - left. rewrite (resume_pbind_err _ _ _ _ _ H). reflexivity.
  - right. exists (hd 0 b). rewrite (resume_pbind_done _ _ _ _ _ H). split; [reflexivity|exact Hr].
Qed.

(* a step that either fails with a library error or succeeds on a closed stream having used
   at least one octet *)
Definition step_lib {A} (p: proc A) (s: stream) (Q: A -> Prop) : Prop :=
  (exists e s', resume p s = inr (Err e, s') /\ is_library e = true)
  \/ (exists a s', resume p s = inr (Ok a, s') /\ closed s' = true /\ (rem s' < rem s)%nat /\ Q a).

Lemma long_tag_run : forall k cl fm acc s, closed s = true -> (rem s < k)%nat ->
  step_lib (long_tag cl fm k acc) s (fun _ => True).
Proof.
  induction k as [|k IH]; intros cl fm acc s Hc Hk; [lia|].
  cbn [long_tag]. unfold step_lib. destruct (read1_run s Hc) as [H|(o & H & Hr)].
  - left. exists EEndOfStream, s. split; [apply (resume_pbind_err _ _ _ _ _ H)|reflexivity].
  - rewrite (resume_pbind_done _ _ _ _ _ H).
    destruct (N.eqb (N.land o 128) 0).
    + right. eexists; exists (adv s 1). cbn [resume]. split; [reflexivity|]. split; [exact Hc|]. split; [rewrite rem_adv; lia|exact I].
    + destruct (IH cl fm (N.lor (N.shiftl acc 7) (N.land o 127)) (adv s 1) Hc) as [(e & s' & He & Hl)|(t & s' & Ht & Hc' & Hr' & _)].
      * rewrite rem_adv. lia.
      * left. exists e, s'. split; assumption.
      * right. exists t, s'. split; [exact Ht|]. split; [exact Hc'|]. split; [rewrite rem_adv in Hr'; lia|exact I].
Qed.

Lemma read_tag_run f s : closed s = true -> (rem s <= f)%nat -> step_lib (read_tag f) s (fun _ => True).
Proof.
  intros Hc Hf. unfold read_tag, step_lib. destruct (read1_run s Hc) as [H|(o & H & Hr)].
  - left. exists EEndOfStream, s. split; [apply (resume_pbind_err _ _ _ _ _ H)|reflexivity].
  - rewrite (resume_pbind_done _ _ _ _ _ H). cbv zeta.
    destruct (N.eqb (N.land o 31) 31).
    + destruct (long_tag_run f (cls_of_bits o) (negb (N.eqb (N.land o 32) 0)) 0 (adv s 1) Hc) as [(e & s' & He & Hl)|(t & s' & Ht & Hc' & Hr' & _)].
      * rewrite rem_adv. lia.
      * left. exists e, s'. split; assumption.
      * right. exists t, s'. split; [exact Ht|]. split; [exact Hc'|]. split; [rewrite rem_adv in Hr'; lia|exact I].
    + right. eexists; exists (adv s 1). cbn [resume]. split; [reflexivity|]. split; [exact Hc|]. split; [rewrite rem_adv; lia|exact I].
Qed.

Lemma read_length_run c s : closed s = true ->
  step_lib (read_length c) s (fun ol => ol = None -> support_indef c = true).
Proof.
  intros Hc. unfold read_length, step_lib. destruct (read1_run s Hc) as [H|(o & H & Hr)].
  - left. exists EEndOfStream, s. split; [apply (resume_pbind_err _ _ _ _ _ H)|reflexivity].
  - rewrite (resume_pbind_done _ _ _ _ _ H).
    destruct (N.ltb o 128).
    + right. eexists; exists (adv s 1). cbn [resume]. split; [reflexivity|]. split; [exact Hc|]. split; [rewrite rem_adv; lia|discriminate].
    + destruct (N.eqb o 128).
      * destruct (support_indef c) eqn:Esi.
        -- right. eexists; exists (adv s 1). cbn [resume]. split; [reflexivity|]. split; [exact Hc|]. split; [rewrite rem_adv; lia|reflexivity].
        -- left. exists EMalformed, (adv s 1). cbn [resume]. split; reflexivity.
      * destruct (readN_run (N.to_nat (N.land o 127)) (adv s 1) Hc) as [H2|(b & H2 & Hl & Hr2)].
        -- left. exists EEndOfStream, (adv s 1). split; [apply (resume_pbind_err _ _ _ _ _ H2)|reflexivity].
        -- right. rewrite (resume_pbind_done _ _ _ _ _ H2). eexists; eexists. cbn [resume]. split; [reflexivity|].
           split; [exact Hc|]. split; [rewrite !rem_adv; lia|discriminate].
Qed.

Lemma seekback_adv s n : setpos (adv s n) (pos (adv s n) - n) = s.
Proof. unfold adv, setpos. cbn [pos arrived closed mark]. rewrite Nat.add_sub. destruct s; reflexivity. Qed.

Lemma miss_of_keys T' acc : keys_ok (ckeys T') = true -> acc <> [] ->
  tm_mem acc (ckeys T') = false -> sp_miss (STy T') acc.
Proof.
  intros HK Hne Hmem. destruct (tagmap_good T' HK) as (_ & Hdef & Hm). cbn [sp_miss]. split.
  - destruct T'; try (cbn [ckeys tm_mem existsb] in Hmem; rewrite Bool.orb_false_r in Hmem; exact Hmem).
    destruct acc; [contradiction|reflexivity].
  - unfold tm_contains. rewrite Hdef. specialize (Hm acc). rewrite Hmem in Hm.
    unfold mkeys in Hm. rewrite <- find_mem in Hm. unfold tm_find.
    destruct (assoc tagset_eqb acc (tm_present (tagmap_of T'))); [discriminate Hm|reflexivity].
Qed.

(* every strict extension of the accumulated tags misses *)
Definition nm (T': ty) (acc: tagset) : Prop := forall p, p <> [] -> sp_miss (STy T') (p ++ acc).

Lemma nm_cons T' t acc : nm T' acc -> nm T' (t :: acc).
Proof.
  intros H p Hp. replace (p ++ t :: acc) with ((p ++ [t]) ++ acc) by (rewrite <- app_assoc; reflexivity).
  apply H. destruct p; discriminate.
Qed.

Definition lib_or_eoo (allow: bool) (r: res dval) : Prop :=
  match r with Err e => is_library e = true | Ok DEoo => allow = true | Ok _ => False end.

(* The decoder on ANY octets, once no extension of the accumulated tags can be a key of the guiding
   type: it walks down the first-element spine and ends in a library error (or, where an
   end-of-octets marker is allowed, may report the marker).  The fuel only has to exceed the number
   of octets left. *)
Lemma never_match c T' : forall fuel acc allow s,
  nm T' acc -> closed s = true -> (rem s < fuel)%nat ->
  exists r s', resume (dec_call c fuel (STy T') acc None allow false) s = inr (r, s') /\ lib_or_eoo allow r.
Proof.
  induction fuel as [|f IH]; intros acc allow s Hnm Hc Hf; [lia|].
  cbn [dec_call]. unfold dec_body.
  assert (Hmain: forall s0, closed s0 = true -> (rem s0 <= f)%nat ->
            exists e s', resume (Mark (let! t := read_tag f in let! len := read_length c in
                                       dispatch c (dec_call c f) f (STy T') (t :: acc) len false)) s0 = inr (Err e, s')
                         /\ is_library e = true).
  { intros s0 Hc0 Hf0. cbn [resume].
    assert (Hc1: closed (setmark s0 (pos s0)) = true) by exact Hc0.
    assert (Hr1: (rem (setmark s0 (pos s0)) <= f)%nat) by exact Hf0.
    generalize dependent (setmark s0 (pos s0)). intros s1 Hc1 Hr1.
    destruct (read_tag_run f s1 Hc1 Hr1) as [(e & s' & He & Hl)|(t & s2 & Ht & Hc2 & Hr2 & _)].
    { exists e, s'. split; [apply (resume_pbind_err _ _ _ _ _ He)|exact Hl]. }
    rewrite (resume_pbind_done _ _ _ _ _ Ht).
    destruct (read_length_run c s2 Hc2) as [(e & s' & He & Hl)|(ol & s3 & Hl3 & Hc3 & Hr3 & _)].
    { exists e, s'. split; [apply (resume_pbind_err _ _ _ _ _ He)|exact Hl]. }
    rewrite (resume_pbind_done _ _ _ _ _ Hl3).
    rewrite dispatch_miss by (apply (Hnm [t]); discriminate).
    destruct (tcon t && negb (cls_eqb (tcls t) Univ)); [|exists EMalformed; eexists; cbn [resume]; split; reflexivity].
    pose proof (nm_cons T' t acc Hnm) as Hnm'.
    destruct ol as [l|].
    - cbn [run_value]. rewrite resume_tell.
      destruct (IH (t :: acc) false s3 Hnm' Hc3 ltac:(lia)) as (r & s4 & Hr & Hlib).
      destruct r as [d|e]; [destruct d; cbn [lib_or_eoo] in Hlib; try contradiction; discriminate|].
      exists e, s4. split; [apply (resume_pbind_err _ _ _ _ _ Hr)|exact Hlib].
    - unfold dec_raw. destruct f as [|f']; [lia|]. cbn [raw_loop].
      destruct (IH (t :: acc) true s3 Hnm' Hc3 ltac:(lia)) as (r & s4 & Hr & Hlib).
      destruct r as [d|e].
      + destruct d; cbn [lib_or_eoo] in Hlib; try contradiction.
        rewrite (resume_pbind_done _ _ _ _ _ Hr). cbn [resume]. exists EMalformed; eexists. split; reflexivity.
      + exists e, s4. split; [apply (resume_pbind_err _ _ _ _ _ Hr)|exact Hlib]. }
  destruct (allow && support_indef c) eqn:Ea.
  - apply Bool.andb_true_iff in Ea. destruct Ea as [Hallow _].
    destruct (readN_run 2 s Hc) as [H|(b & H & Hl & Hr)].
    + exists (Err EEndOfStream), s. split; [apply (resume_pbind_err _ _ _ _ _ H)|reflexivity].
    + rewrite (resume_pbind_done _ _ _ _ _ H).
      assert (Hsb: exists e s', resume (SeekBack 2 (Mark (let! t := read_tag f in let! len := read_length c in
                                       dispatch c (dec_call c f) f (STy T') (t :: acc) len false))) (adv s 2) = inr (Err e, s')
                                /\ is_library e = true).
      { cbn [resume]. rewrite seekback_adv. apply (Hmain s Hc). lia. }
      destruct Hsb as (e & s' & Hsb & Hlib).
      destruct b as [|x [|y [|z b']]]; try (exists (Err e), s'; split; [exact Hsb|exact Hlib]);
        destruct x; try (exists (Err e), s'; split; [exact Hsb|exact Hlib]);
        destruct y; try (exists (Err e), s'; split; [exact Hsb|exact Hlib]).
      exists (Ok DEoo). eexists. cbn [resume]. split; [reflexivity|exact Hallow].
  - destruct (Hmain s Hc ltac:(lia)) as (e & s' & He & Hlib). exists (Err e), s'. split; assumption.
Qed.

Definition lib (e: err) : Prop := is_library e = true.

(* the innermost header of the encoded type: past it nothing is known of the octets *)
Lemma inner_level : forall c T' F f0 t0 cns si content s0 r,
  frame_one t0 cns true si content = Ok s0 ->
  sp_miss (STy T') (wire t0 cns :: r) ->
  (tcon (wire t0 cns) && negb (cls_eqb (tcls (wire t0 cns)) Univ) = true -> nm T' (wire t0 cns :: r)) ->
  (length (enc_tag t0 cns) <= S f0)%nat ->
  (length content + F < f0)%nat ->
  rejects_k lib F (dec_call c (S f0) (STy T') r None false false) s0.
Proof.
  intros c T' F f0 t0 cns si content s0 r Hfr Hmiss Hnm Hlen Hfuel s tl Hc Hav HF.
  apply (level_descend lib c f0 T' r t0 cns si content s0 s tl eq_refl Hfr Hav Hlen Hmiss).
  intros Hd s1 Hav1 Hc1.
  destruct (never_match c T' f0 (wire t0 cns :: r) false s1 (Hnm Hd)) as (res & s2 & Hr & Hlib).
  - congruence.
  - unfold rem. rewrite Hav1, app_length. lia.
  - destruct res as [d|e]; [destruct d; cbn [lib_or_eoo] in Hlib; try contradiction; discriminate|].
    exists e, s2. split; assumption.
Qed.

Lemma mem_suffix_false ts : forall K, Forall (fun k => suffix_free ts k = true) K ->
  forall p q, ts = p ++ q -> q <> [] -> tm_mem q K = false.
Proof.
  induction K as [|k K IH]; intros HF p q Hpq Hq; [reflexivity|].
  inversion HF as [|? ? Hk HK]; subst. cbn [tm_mem existsb].
  rewrite (suffix_free_spec (p ++ q) k Hk p q eq_refl Hq). cbn [orb]. exact (IH HK p q eq_refl Hq).
Qed.

Lemma tagset_eqb_app_inv : forall p a k, tagset_eqb (p ++ a) k = true ->
  exists p' a', k = p' ++ a' /\ tagset_eqb a a' = true.
Proof.
  induction p as [|x p IH]; intros a k H.
  - exists [], k. split; [reflexivity|exact H].
  - destruct k as [|y k]; [discriminate H|]. cbn [app] in H. rewrite tagset_eqb_cons in H.
    apply Bool.andb_true_iff in H. destruct H as [_ H]. destruct (IH a k H) as (p' & a' & -> & Ha).
    exists (y :: p'), a'. split; [reflexivity|exact Ha].
Qed.

Lemma mem_ext_false ts : ts <> [] -> forall K, Forall (fun k => suffix_free k ts = true) K ->
  forall p, tm_mem (p ++ ts) K = false.
Proof.
  intros Hne. induction K as [|k K IH]; intros HF p; [reflexivity|].
  inversion HF as [|? ? Hk HK]; subst.
  change (tm_mem (p ++ ts) (k :: K)) with (tagset_eqb (p ++ ts) k || tm_mem (p ++ ts) K)%bool.
  rewrite (IH HK p), Bool.orb_false_r.
  destruct (tagset_eqb (p ++ ts) k) eqn:E; [|reflexivity].
  destruct (tagset_eqb_app_inv p ts k E) as (p' & a' & -> & Ha).
  assert (Ha': a' <> []) by (intros ->; destruct ts; [contradiction|discriminate Ha]).
  pose proof (suffix_free_spec _ _ Hk p' a' eq_refl Ha') as Hs.
  rewrite tagset_eqb_sym in Hs. congruence.
Qed.

Lemma tag_eqb_wire t c : tag_eqb (wire t c) t = true.
Proof. unfold tag_eqb, wire. cbn [tcls tnum]. rewrite N.eqb_refl. destruct (tcls t); reflexivity. Qed.

Lemma tagset_eqb_wire : forall p t c r, tagset_eqb (p ++ wire t c :: r) (p ++ t :: r) = true.
Proof.
  induction p as [|x p IH]; intros t c r; cbn [app]; rewrite tagset_eqb_cons.
  - rewrite tag_eqb_wire. apply tagset_eqb_refl.
  - rewrite IH, Bool.andb_true_r. unfold tag_eqb. rewrite N.eqb_refl. destruct (tcls x); reflexivity.
Qed.

(* [b] = what the framing writes for contents [content] (constructed iff [cns]) under the tags
   t0 :: r.  The innermost header is constructed on the wire iff tcon t0 || cns. *)
Theorem framed_never_match : forall cd T' t0 r content cns si b tl,
  frame (t0 :: r) content cns def_opts si = Ok b ->
  Forall explicit_like r ->
  keys_ok (ckeys T') = true ->
  Forall (fun k => suffix_free (t0 :: r) k = true) (ckeys T') ->
  ((tcon t0 || cns) && negb (cls_eqb (tcls t0) Univ) = true ->
   Forall (fun k => suffix_free k (t0 :: r) = true) (ckeys T')) ->
  exists e, decode cd (Some T') (b ++ tl) = Err e /\ is_library e = true.
Proof.
  intros cd T' t0 r content cns si b tl He Hex HK Hsuf Hdesc.
  pose proof (frame_len_r _ _ _ _ _ _ He) as Hlr.
  destruct (frame_def_inv _ _ _ _ _ _ He) as (s0 & E0 & He'). clear He. rename He' into He.
  rewrite (frame_outer_con r cns true si s0 Hex) in He.
  pose proof (frame_outer_length _ _ _ _ _ He) as Hlen0.
  destruct (frame_one_length _ _ _ _ _ E0) as (l0 & Hs0 & Hl0).
  unfold decode. set (fuel := dec_fuel (Some T') (b ++ tl)).
  set (f0 := (fuel - 1 - length r)%nat).
  assert (Hfuel: fuel = (S f0 + length r)%nat).
  { subst f0 fuel. unfold dec_fuel. rewrite app_length. lia. }
  assert (Hbig: (length b <= S f0)%nat).
  { subst f0 fuel. unfold dec_fuel. rewrite app_length. lia. }
  pose proof (frame_outer_taglens _ _ _ _ _ (S (S f0)) He ltac:(lia)) as Htl.
  assert (Hm_suffix: forall p q, r = p ++ q -> q <> [] -> sp_miss (STy T') (q ++ [])).
  { intros p q Hpq Hq. rewrite app_nil_r. apply (miss_of_keys T' q HK Hq).
    apply (mem_suffix_false (t0 :: r) _ Hsuf (t0 :: p) q); [rewrite Hpq; reflexivity|exact Hq]. }
  assert (Hm_full: sp_miss (STy T') (wire t0 cns :: r)).
  { apply (miss_of_keys T' _ HK); [discriminate|].
    rewrite (tm_mem_eqb _ (t0 :: r) _ (tagset_eqb_wire [] t0 cns r)).
    apply (mem_suffix_false (t0 :: r) _ Hsuf [] (t0 :: r) eq_refl). discriminate. }
  assert (Hm_ext: tcon (wire t0 cns) && negb (cls_eqb (tcls (wire t0 cns)) Univ) = true -> nm T' (wire t0 cns :: r)).
  { intros Hd p Hp. apply (miss_of_keys T' _ HK); [destruct p; discriminate|].
    rewrite (tm_mem_eqb _ (p ++ t0 :: r) _ (tagset_eqb_wire p t0 cns r)).
    apply (mem_ext_false (t0 :: r)); [discriminate|]. apply Hdesc. exact Hd. }
  assert (Hrej: rejects_k lib (length tl) (dec_call cd (S f0 + length r) (STy T') [] None false false) b).
  { apply (peel_all_rej lib eq_refl cd T' (length tl) (S f0) si r [] s0 b He Hex); [|exact Htl|intros p q Hpq Hq; left; exact (Hm_suffix p q Hpq Hq)|].
    { pose proof (enc_tag_nonempty t0 cns). rewrite Hs0, !app_length. lia. }
    rewrite app_nil_r.
    apply (inner_level cd T' (length tl) f0 t0 cns si content s0 r E0 Hm_full Hm_ext).
    - rewrite Hs0, !app_length in Hlen0. lia.
    - subst f0 fuel. unfold dec_fuel. rewrite app_length. lia. }
  unfold dec_item, run_complete. rewrite Hfuel.
  destruct (Hrej (mkStream (b ++ tl) 0 true 0) tl eq_refl eq_refl (le_n _)) as (e & s' & Hr & Hlib).
  rewrite Hr. exists e. split; [reflexivity|exact Hlib].
Qed.

Lemma tagset_shape_all : forall T, wf_tags T = true ->
  exists ts, tagset_of T = Ok ts /\
    ((ts = [] /\ plain_top T = false) \/ exists t0 r, ts = t0 :: r /\ Forall explicit_like r).
Proof.
  induction T as [| | | | | | | | n|fs IH|fs IH|t IH|t IH|alts IH| |tg x IH|tg x IH] using ty_ind'; intros Hw;
    try (eexists; split; [reflexivity|right; eexists; exists []; split; [reflexivity|constructor]]);
    try (exists []; split; [reflexivity|left; split; reflexivity]).
  - (* IMPLICIT *)
    cbn [wf_tags] in Hw. apply Bool.andb_true_iff in Hw. destruct Hw as [Hcl Hw].
    assert (Hnu: tcls tg <> Univ) by (destruct (tcls tg); try discriminate; cbn in Hcl; congruence).
    destruct (IH Hw) as (ts & Hts & Hsh). cbn [tagset_of]. rewrite Hts. cbn [bind].
    eexists. split; [reflexivity|]. right.
    destruct Hsh as [[-> _]|(t0 & r & -> & Hex)].
    + exists tg, []. split; [reflexivity|constructor].
    + destruct r as [|r1 r'].
      * eexists; exists []. split; [reflexivity|constructor].
      * destruct (tag_implicitly_cons t0 (r1 :: r') tg) as (r2 & E & _ & Hf); [discriminate|].
        exists t0, r2. split; [exact E|]. apply Hf; assumption.
  - (* EXPLICIT *)
    cbn [wf_tags] in Hw. apply Bool.andb_true_iff in Hw. destruct Hw as [Hcl Hw].
    assert (Hnu: tcls tg <> Univ) by (destruct (tcls tg); try discriminate; cbn in Hcl; congruence).
    destruct (IH Hw) as (ts & Hts & Hsh). cbn [tagset_of]. rewrite Hts. cbn [bind].
    exists (ts ++ [mkTag (tcls tg) true (tnum tg)]).
    split; [unfold tag_explicitly; destruct (tcls tg); try reflexivity; congruence|]. right.
    destruct Hsh as [[-> _]|(t0 & r & -> & Hex)].
    + eexists; exists []. split; [reflexivity|constructor].
    + exists t0, (r ++ [mkTag (tcls tg) true (tnum tg)]). split; [reflexivity|].
      apply Forall_app. split; [exact Hex|]. constructor; [|constructor]. split; [reflexivity|exact Hnu].
Qed.

(* the innermost header of an encoding of T may be a constructed non-universal one, into which the
   decoder steps: T is not a simple type and its innermost tag is not UNIVERSAL *)
Definition may_descend (T: ty) : bool :=
  negb (prim_base T) &&
  match tagset_of' T with t0 :: _ => negb (cls_eqb (tcls t0) Univ) | [] => false end.

(* the key k of the guiding type can never be met on the spine of an encoding of T *)
Definition key_differs (T: ty) (k: tagset) : bool :=
  suffix_free (tagset_of' T) k && (negb (may_descend T) || suffix_free k (tagset_of' T)).

Definition tags_differ_u (T T': ty) : bool := forallb (key_differs T) (ckeys T').

(* The rejection half of C13 for the whole universe.  T: any type whose tags are well-formed and
   that has a tag set of its own (anything but an untagged CHOICE/ANY); v: ANY value the BER or DER
   encoder accepts in definite mode; T': any type whose keys are good (its own non-empty tag set; for
   an untagged CHOICE the alternatives' keys, none a suffix of another) - anything at all inside. *)
Theorem tag_mismatch_rejected_universe : forall ce cd T T' v b tl,
  enc_ok ce -> wf_tags T = true -> plain_top T = true ->
  encode ce true 0 T v = Ok b ->
  keys_ok (ckeys T') = true ->
  tags_differ_u T T' = true ->
  exists e, decode cd (Some T') (b ++ tl) = Err e /\ is_library e = true.
Proof.
  intros ce cd T T' v b tl Hce Hw Hpt He HK Hd.
  destruct (enc_with_inv_g ce Hce T v b He) as (ec & fl & ts & content & cns & Hcc & Hts & Hcont & Hfr).
  destruct (tagset_shape_all T Hw) as (ts' & Hts' & Hsh). rewrite Hts in Hts'. inversion Hts'; subst ts'; clear Hts'.
  destruct Hsh as [[_ Hpf]|(t0 & r & -> & Hex)]; [congruence|].
  pose proof (tagset_of'_ok T _ Hts) as Hts0.
  unfold tags_differ_u in Hd. rewrite forallb_forall in Hd.
  apply (framed_never_match cd T' t0 r content cns (ef_indef fl) b tl Hfr Hex HK).
  - apply Forall_forall. intros k Hk. specialize (Hd k Hk). unfold key_differs in Hd. rewrite Hts0 in Hd.
    apply Bool.andb_true_iff in Hd. exact (proj1 Hd).
  - intros Hdesc.
    assert (Hmd: may_descend T = true).
    { unfold may_descend. rewrite Hts0. apply Bool.andb_true_iff in Hdesc. destruct Hdesc as [Hc Hnu]. rewrite Hnu, Bool.andb_true_r.
      destruct (prim_base T) eqn:Hp; [|reflexivity].
      destruct (tagset_prim_shape T Hp Hw) as (t0' & r' & Hts1 & Hc0 & _). rewrite Hts in Hts1. inversion Hts1; subst t0' r'.
      rewrite (prim_content_primitive ce T ec fl v content cns Hce Hp Hcc Hcont), Hc0 in Hc. discriminate Hc. }
    apply Forall_forall. intros k Hk. specialize (Hd k Hk). unfold key_differs in Hd. rewrite Hts0, Hmd in Hd.
    apply Bool.andb_true_iff in Hd. exact (proj2 Hd).
Qed.

(* [tags_differ_same_length] and [tags_differ_longer] on [suffix_free], the form the rewrites below meet *)
Lemma sf_same_length ts ts' : length ts = length ts' -> tagset_eqb ts ts' = false -> suffix_free ts ts' = true.
Proof. exact (tags_differ_same_length ts ts'). Qed.
Lemma sf_longer ts ts' : (length ts < length ts')%nat -> suffix_free ts ts' = true.
Proof. exact (tags_differ_longer ts ts'). Qed.

Lemma suffix_free_app_len : forall p q ts, length q = length ts -> tagset_eqb q ts = false ->
  suffix_free (p ++ q) ts = true.
Proof.
  induction p as [|x p IH]; intros q ts Hl Hne.
  - apply sf_same_length; assumption.
  - cbn [app suffix_free]. rewrite tagset_eqb_len_false by (cbn [length]; rewrite app_length; lia).
    cbn [negb andb]. apply IH; assumption.
Qed.

(* as many tags, different somewhere in class or number *)
Lemma same_length_differs T k : length k = length (tagset_of' T) ->
  tagset_eqb (tagset_of' T) k = false -> key_differs T k = true.
Proof.
  intros Hl Hne. unfold key_differs. rewrite (sf_same_length _ _ (eq_sym Hl) Hne). cbn [andb].
  rewrite tagset_eqb_sym in Hne. rewrite (sf_same_length _ _ Hl Hne). apply Bool.orb_true_r.
Qed.

(* more tags, the outer ones (as many as T has) different from T's somewhere in class or number *)
Lemma longer_differs T p q : p <> [] -> length q = length (tagset_of' T) ->
  tagset_eqb q (tagset_of' T) = false -> key_differs T (p ++ q) = true.
Proof.
  intros Hp Hl Hne. unfold key_differs.
  rewrite (sf_longer (tagset_of' T) (p ++ q)) by (rewrite app_length; destruct p; [contradiction|cbn [length]; lia]).
  cbn [andb]. rewrite (suffix_free_app_len p q _ Hl Hne). apply Bool.orb_true_r.
Qed.

(* more tags in any way, when the encoded type is simple or its innermost tag is UNIVERSAL *)
Lemma longer_no_descent T k : may_descend T = false -> (length (tagset_of' T) < length k)%nat -> key_differs T k = true.
Proof.
  intros Hmd Hl. unfold key_differs. rewrite (sf_longer _ _ Hl), Hmd. reflexivity.
Qed.

(* In the vocabulary of stage 3: T and T' stage-3 types, T not an untagged CHOICE/ANY, T' not the
   untagged ANY; every key of T' (its tag set; the alternatives' tag sets for an untagged CHOICE) has
   as many tags as T's tag set and differs from it in class or number at some level. *)
Theorem tag_mismatch_rejected_stage3 : forall srt srt' ce ce' cd T T' v b tl,
  enc_ok ce -> stage3_ty srt ce T = true -> plain_top T = true ->
  encode ce true 0 T v = Ok b ->
  stage3_ty srt' ce' T' = true -> T' <> TAny ->
  Forall (fun k => length k = length (tagset_of' T) /\ tagset_eqb (tagset_of' T) k = false) (ckeys T') ->
  exists e, decode cd (Some T') (b ++ tl) = Err e /\ is_library e = true.
Proof.
  intros srt srt' ce ce' cd T T' v b tl Hce Hty Hpt He Hty' Hna HF.
  apply (tag_mismatch_rejected_universe ce cd T T' v b tl Hce (proj1 (stage3_ty_base srt ce T Hty)) Hpt He (top_keys ce' srt' T' Hty' Hna)).
  unfold tags_differ_u. apply forallb_forall. intros k Hk. rewrite Forall_forall in HF. destruct (HF k Hk) as [Hl Hne].
  apply same_length_differs; assumption.
Qed.

Definition cx (n: N) : tag := mkTag Ctx false n.

(* [5] IMPLICIT SEQUENCE { INTEGER, SEQUENCE OF BOOLEAN OPTIONAL } *)
Definition u_T : ty := TImp (cx 5) (TSeq [(Req, TInt); (Opt, TSeqOf TBool)]).
Definition u_v : val := VRec [Some (VInt 7); Some (VList [VBool true])].
Definition u_b : bytes := [165; 8; 2; 1; 7; 48; 3; 1; 1; 255].

Definition u_T1 : ty := TImp (cx 6) (TSeq [(Req, TInt); (Opt, TSeqOf TBool)]).       (* number differs *)
Definition u_T2 : ty := TChoice [TImp (cx 0) TInt; TImp (cx 1) (TSetOf TInt)].        (* untagged CHOICE, no alternative fits *)
Definition u_T3 : ty := TExp (cx 7) (TImp (cx 6) TInt).                               (* more tags, the outer one differs *)
Definition u_T4 : ty := TSeq [(Req, TInt); (Opt, TSeqOf TBool)].                      (* class differs *)

Example universe_hypotheses_satisfiable :
  enc_ok DER /\ wf_tags u_T = true /\ plain_top u_T = true /\ stage3_ty false DER u_T = true
  /\ stage3_val DER DER u_T u_v = true /\ encode DER true 0 u_T u_v = Ok u_b
  /\ Forall (fun T' => keys_ok (ckeys T') = true /\ tags_differ_u u_T T' = true) [u_T1; u_T2; u_T3; u_T4].
Proof.
  split; [right; reflexivity|]. repeat (split; [vm_compute; reflexivity|]).
  repeat (constructor; [vm_compute; split; reflexivity|]). constructor.
Qed.

Example universe_rejected_example :
  Forall (fun T' => forall cd tl, exists e, decode cd (Some T') (u_b ++ tl) = Err e /\ is_library e = true)
         [u_T1; u_T2; u_T3; u_T4].
Proof.
  destruct universe_hypotheses_satisfiable as (Hce & Hw & Hpt & _ & _ & He & Hall).
  eapply Forall_impl; [|exact Hall]. cbv beta. intros T' (HK & Hd) cd tl.
  exact (tag_mismatch_rejected_universe DER cd u_T T' u_v u_b tl Hce Hw Hpt He HK Hd).
Qed.

Example universe_rejected_computed :
  decode BER (Some u_T1) (u_b ++ [9]) = Err EMalformed
  /\ decode CER (Some u_T2) (u_b ++ [9]) = Err EMalformed
  /\ decode DER (Some u_T3) (u_b ++ [9]) = Err EMalformed
  /\ exists v', decode DER (Some u_T) (u_b ++ [9]) = Ok (DV u_T v', [9]).
Proof. vm_compute. repeat split. eexists. reflexivity. Qed.

(* SEQUENCE { [5] IMPLICIT INTEGER } = 30 03 85 01 07 read as [5] IMPLICIT
   INTEGER: refused - the decoder does not step into a container whose tag is UNIVERSAL; nor is it
   accepted under more tags ([1] EXPLICIT [5] IMPLICIT INTEGER) *)
Example universal_container_not_entered :
  encode BER true 0 (TSeq [(Req, TImp (cx 5) TInt)]) (VRec [Some (VInt 7)]) = Ok [48; 3; 133; 1; 7]
  /\ forall cd tl, (exists e, decode cd (Some (TImp (cx 5) TInt)) ([48; 3; 133; 1; 7] ++ tl) = Err e /\ is_library e = true)
               /\ (exists e, decode cd (Some (TExp (cx 1) (TImp (cx 5) TInt))) ([48; 3; 133; 1; 7] ++ tl) = Err e /\ is_library e = true).
Proof.
  split; [vm_compute; reflexivity|]. intros cd tl.
  split; apply (tag_mismatch_rejected_universe BER cd (TSeq [(Req, TImp (cx 5) TInt)]) _ (VRec [Some (VInt 7)]));
    try (vm_compute; reflexivity); left; reflexivity.
Qed.

(* the error need not be the generic one: past an empty container the decoder reads on *)
Example rejected_with_end_of_stream :
  encode BER true 0 (TImp (cx 5) (TSeq [])) (VRec []) = Ok [165; 0]
  /\ tags_differ_u (TImp (cx 5) (TSeq [])) (TImp (cx 6) TInt) = true
  /\ decode BER (Some (TImp (cx 6) TInt)) [165; 0] = Err EEndOfStream
  /\ decode BER (Some (TImp (cx 6) TInt)) ([165; 0] ++ [2; 1; 7]) = Err EMalformed.
Proof. vm_compute. repeat split. Qed.

(* [5] IMPLICIT SEQUENCE { INTEGER } written, [5] EXPLICIT INTEGER expected: tag sets [CONTEXT 5]
   against [UNIVERSAL 2; CONTEXT 5] - one tag against two - and A5 03 02 01 07 is an encoding of
   both.  Accepted by all three decoders (a SEQUENCE with a second member would fail the length
   check of the wrapper). *)
Definition into_T  : ty := TImp (cx 5) (TSeq [(Req, TInt)]).
Definition into_T' : ty := TExp (cx 5) TInt.

Example container_entered_accepted :
  wf_tags into_T = true /\ plain_top into_T = true /\ stage3_ty false BER into_T = true
  /\ stage3_val BER BER into_T (VRec [Some (VInt 7)]) = true
  /\ encode BER true 0 into_T (VRec [Some (VInt 7)]) = Ok [165; 3; 2; 1; 7]
  /\ keys_ok (ckeys into_T') = true /\ stage3_ty false BER into_T' = true
  /\ tagset_of' into_T = [mkTag Ctx true 5] /\ tagset_of' into_T' = [mkTag Univ false 2; mkTag Ctx true 5]
  /\ tags_differ (tagset_of' into_T) (tagset_of' into_T') = true      (* the condition for simple types holds *)
  /\ tags_differ_u into_T into_T' = false                              (* the condition for the universe does not *)
  /\ decode BER (Some into_T') [165; 3; 2; 1; 7] = Ok (DV into_T' (VInt 7), [])
  /\ decode CER (Some into_T') [165; 3; 2; 1; 7] = Ok (DV into_T' (VInt 7), [])
  /\ decode DER (Some into_T') [165; 3; 2; 1; 7] = Ok (DV into_T' (VInt 7), [])
  /\ decode BER (Some into_T') [165; 6; 2; 1; 7; 2; 1; 8] = Err EMalformed.
Proof. vm_compute. repeat split. Qed.

(* the same one level further in, and for SEQUENCE OF *)
Example container_entered_accepted_nested :
  encode DER true 0 (TImp (cx 1) (TSeq [(Req, TImp (cx 5) TInt)])) (VRec [Some (VInt 7)]) = Ok [161; 3; 133; 1; 7]
  /\ tags_differ_u (TImp (cx 1) (TSeq [(Req, TImp (cx 5) TInt)])) (TExp (cx 1) (TImp (cx 5) TInt)) = false
  /\ decode BER (Some (TExp (cx 1) (TImp (cx 5) TInt))) [161; 3; 133; 1; 7] = Ok (DV (TExp (cx 1) (TImp (cx 5) TInt)) (VInt 7), [])
  /\ encode BER true 0 (TImp (cx 5) (TSeqOf TInt)) (VList [VInt 7]) = Ok [165; 3; 2; 1; 7]
  /\ decode DER (Some into_T') [165; 3; 2; 1; 7] = Ok (DV into_T' (VInt 7), []).
Proof. vm_compute. repeat split. Qed.

(* a tagged CHOICE: the type's own tag set is the wrapper alone, the wire carries the alternative's
   tags as well; [3] EXPLICIT [0] IMPLICIT INTEGER has them all *)
Definition ch_T : ty := TExp (cx 3) (TChoice [TImp (cx 0) TInt; TImp (cx 1) TOcts]).

Example tagged_choice_entered_accepted :
  encode BER true 0 ch_T (VChoice 0 (VInt 5)) = Ok [163; 3; 128; 1; 5]
  /\ tagset_of' ch_T = [mkTag Ctx true 3]
  /\ tags_differ_u ch_T (TExp (cx 3) (TImp (cx 0) TInt)) = false
  /\ decode BER (Some (TExp (cx 3) (TImp (cx 0) TInt))) [163; 3; 128; 1; 5] = Ok (DV (TExp (cx 3) (TImp (cx 0) TInt)) (VInt 5), [])
  /\ decode BER (Some (TExp (cx 3) (TImp (cx 1) TInt))) [163; 3; 128; 1; 5] = Err EMalformed.
Proof. vm_compute. repeat split. Qed.

(* an untagged CHOICE as guiding type accepts as soon as ONE alternative's tag set is met *)
Example choice_alternative_accepts :
  encode BER true 0 (TImp (cx 1) TOcts) (VOcts [9]) = Ok [129; 1; 9]
  /\ tags_differ_u (TImp (cx 1) TOcts) (TChoice [TImp (cx 0) TInt; TImp (cx 1) TOcts]) = false
  /\ decode BER (Some (TChoice [TImp (cx 0) TInt; TImp (cx 1) TOcts])) [129; 1; 9]
     = Ok (DV (TChoice [TImp (cx 0) TInt; TImp (cx 1) TOcts]) (VChoice 1 (VOcts [9])), [])
  /\ tags_differ_u (TImp (cx 1) TOcts) (TChoice [TImp (cx 0) TInt; TImp (cx 2) TOcts]) = true
  /\ decode BER (Some (TChoice [TImp (cx 0) TInt; TImp (cx 2) TOcts])) [129; 1; 9] = Err EMalformed.
Proof. vm_compute. repeat split. Qed.

Print Assumptions never_match.
Print Assumptions framed_never_match.
Print Assumptions tag_mismatch_rejected_universe.
Print Assumptions tag_mismatch_rejected_stage3.
Print Assumptions universe_rejected_example.
Print Assumptions universal_container_not_entered.
Print Assumptions container_entered_accepted.
Print Assumptions tagged_choice_entered_accepted.
Print Assumptions choice_alternative_accepts.
