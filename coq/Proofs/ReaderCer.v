(* C03: the CER encoder's output is byte-identical to the canonical encoding computed by the
   independent reference ([X690.cer] = [canon true]), and meets the clause 9 shape rules
   ([cer_canonical]): simple types under any stack of tags, strings of any length (1000-octet
   segments; BIT STRING 999 octets of bits per segment), TRUE = FF.  Outside finding F01. *)
From Coq Require Import Lia.
From PV Require Proofs.TagsetShape.
From PV Require Import Base.Bytes Model.Tag Model.TableTypes Model.Types Model.Enc Gen.Tables Spec.X690
     Proofs.Bits Proofs.SpecOctets Proofs.LeafInt Proofs.LeafOidBits Proofs.LeafReal Proofs.TagAlgebra
     Proofs.EncUnfold Proofs.DerReference Proofs.ReaderParse Proofs.ReaderInterp Proofs.ReaderLeafOidBits
     Proofs.ReaderLeafReal Proofs.ReaderSound Proofs.ReaderFrame Proofs.ReaderCerSegments Proofs.ReaderModel.
Local Open Scope N_scope.

(* CER's fixed options: indefinite lengths, 1000-octet segments *)
Definition cer_opts : eopts := mkOpts false 1000 false.

(* defMode and maxChunkSize are overridden *)
Lemma encode_cer_fixed d k T v : encode CER d k T v = enc CER T cer_opts v.
Proof. unfold encode. rewrite !enc_unfold. reflexivity. Qed.

Lemma enc_cer_unfold T d k i v :
  enc CER T (mkOpts d k i) v =
  (do ce <- concrete_encoder CER T;
   do ts <- tagset_of T;
   do cc <- enc_content CER T (fst ce) (snd ce) cer_opts v;
   frame ts (fst cc) (snd cc) (mkOpts false 1000 i) (ef_indef (snd ce))).
Proof. rewrite enc_unfold. reflexivity. Qed.

Lemma base_enc_if B (ic: bool) content :
  (if ic then ctlv true Univ (tnum (base_tag B)) content else tlv Univ false (tnum (base_tag B)) content)
  = base_enc B ic true content.
Proof. destruct ic; reflexivity. Qed.

(* the contents encoders of the string types under CER, without the dispatch tables *)
Lemma cer_string_content B v cd fl content ic :
  der_ref_base B v = true -> concrete_encoder CER B = Ok (cd, fl) -> indef_base B = true ->
  enc_content CER B cd fl cer_opts v = Ok (content, ic) ->
  match v with
  | VBits bs => enc_bits (mkOpts false 999 false) bs = Ok (content, ic)
  | _ => enc_octets_like cer_opts v = Ok (content, ic)
  end.
Proof.
  intros Hd Hce Hi He.
  destruct B; try discriminate Hi; destruct v as [bb|z|bs|bo|cs| |arcs|r|vfs|xs|i x|ab]; try discriminate Hd.
  1-2: encoder_is Hce; exact He.
  all: destruct (string_encoder CER n cd fl Hce) as [[->|[->| ->]] _]; cbn [enc_content octets_of] in He; try exact He;
    match type of He with bind ?g _ = _ => destruct g as [[]|]; [exact He|discriminate He] end.
Qed.

Theorem cer_contents B v cd fl content ic :
  der_ref_base B v = true -> concrete_encoder CER B = Ok (cd, fl) ->
  enc_content CER B cd fl cer_opts v = Ok (content, ic) ->
  canon true B v = Some (base_enc B ic true content).
Proof.
  intros Hd Hce He.
  destruct B; try discriminate Hd; destruct v as [bb|z|bs|bo|cs| |arcs|r|vfs|xs|i x|ab]; try discriminate Hd.
  - (* BOOLEAN: FF for TRUE *) encoder_is Hce. cbn [enc_content] in He. injection He as <- <-. reflexivity.
  - (* INTEGER *) encoder_is Hce. cbn [enc_content ef_compact_zero] in He. injection He as <- <-.
    cbn [canon]. rewrite int_contents_is_enc_integer. reflexivity.
  - (* ENUMERATED *) encoder_is Hce. cbn [enc_content ef_compact_zero] in He. injection He as <- <-.
    cbn [canon]. rewrite int_contents_is_enc_integer. reflexivity.
  - (* BIT STRING: 999 octets of bits after the initial octet of each segment *)
    pose proof (cer_string_content _ _ cd fl content ic Hd Hce eq_refl He) as Hs. cbn [canon].
    rewrite (cer_bits_is_reference false false bs content ic Hs), <- (base_enc_if TBits). reflexivity.
  - (* OCTET STRING *)
    pose proof (cer_string_content _ _ cd fl content ic Hd Hce eq_refl He) as Hs. cbn [canon].
    rewrite (cer_string_is_reference (VOcts bo) bo 4 false false content ic eq_refl Hs), <- (base_enc_if TOcts). reflexivity.
  - (* NULL *) encoder_is Hce. cbn [enc_content] in He. injection He as <- <-. reflexivity.
  - (* OBJECT IDENTIFIER *)
    encoder_is Hce. cbn [enc_content] in He. cbn [canon]. rewrite oid_contents_is_enc_oid.
    destruct (enc_oid arcs) as [c|]; cbn [bind] in He; [|discriminate He]. injection He as <- <-. reflexivity.
  - (* REAL *)
    encoder_is Hce. cbn [enc_content] in He. cbn [canon].
    destruct (enc_real r) as [c|] eqn:Er; cbn [bind] in He; [|discriminate He]. injection He as <- <-.
    rewrite (real_contents_of_enc r c Hd Er). reflexivity.
  - (* strings as octets *)
    pose proof (cer_string_content _ _ cd fl content ic Hd Hce eq_refl He) as Hs. cbn [canon string_octets opt_bind].
    rewrite (cer_string_is_reference (VOcts bo) bo n false false content ic eq_refl Hs), <- (base_enc_if (TStr n)). reflexivity.
  - (* strings as characters *)
    pose proof (cer_string_content _ _ cd fl content ic Hd Hce eq_refl He) as Hs. cbn [canon string_octets opt_bind].
    rewrite (cer_string_is_reference (VChars cs) (concat cs) n false false content ic eq_refl Hs), <- (base_enc_if (TStr n)). reflexivity.
Qed.

Lemma digits256_bound : forall f n, (N.size_nat n <= f)%nat -> n < 256 ^ N.of_nat (length (digits f 256 n)).
Proof.
  induction f as [|f IH]; intros n Hf.
  - assert (n = 0) as -> by (apply size_nat_0; lia). cbn. lia.
  - cbn [digits]. destruct (N.ltb_spec n 256) as [Hs|Hl]; [cbn [length]; change (256 ^ N.of_nat 1) with 256; exact Hs|].
    assert (Hn: n <> 0) by lia.
    pose proof (size_nat_div n 8 Hn eq_refl) as Hd. change (2 ^ 8) with 256 in Hd.
    specialize (IH (n / 256) ltac:(lia)).
    rewrite app_length. cbn [length]. rewrite Nat.add_1_r, pow256_succ.
    pose proof (N.div_mod n 256 ltac:(lia)). pose proof (N.mod_lt n 256 ltac:(lia)). lia.
Qed.

(* definite length octets exist only below 256^126 *)
Lemma enc_len_ok_bound n l : enc_len n false = Ok l -> n < max_len.
Proof.
  unfold enc_len. destruct (N.ltb_spec n 128) as [Hs|Hl].
  - intros _. assert (128 < max_len) by (vm_compute; reflexivity). lia.
  - destruct (Nat.ltb_spec 126 (length (b256 n))) as [Hbig|Hok]; [discriminate|]. intros _.
    rewrite <- digits_of_256_is_b256 in Hok by lia. unfold digits_of in Hok.
    pose proof (digits256_bound (N.size_nat n) n (Nat.le_refl _)) as Hb.
    assert (256 ^ N.of_nat (length (digits (N.size_nat n) 256 n)) <= 256 ^ 126) by (apply N.pow_le_mono_r; lia).
    unfold max_len. lia.
Qed.

Lemma frame_prim_bound t0 r content o si b : frame (t0 :: r) content false o si = Ok b ->
  N.of_nat (length content) < max_len.
Proof.
  cbn [frame]. rewrite Bool.andb_false_r. cbn [andb].
  destruct (frame_one t0 false true si content) as [s0|] eqn:E0; cbn [bind]; [|discriminate]. intros _.
  unfold frame_one in E0. cbn [negb andb] in E0.
  destruct (enc_len (N.of_nat (length content)) false) as [l|] eqn:El; cbn [bind] in E0; [|discriminate E0].
  apply (enc_len_ok_bound _ l El).
Qed.

Lemma cer_output_shape T v d k b : der_ref_val T v = true -> no_f01 T = true -> encode CER d k T v = Ok b ->
  exists cd fl content ic t0 r,
    concrete_encoder CER (base_of T) = Ok (cd, fl) /\
    enc_content CER (base_of T) cd fl cer_opts v = Ok (content, ic) /\
    tagset_of T = Ok (t0 :: r) /\ tcon t0 = false /\
    (ic = false -> N.of_nat (length content) < max_len) /\
    b = gframe_ts true (t0 :: r) ic (if ic then [128] ++ content ++ [0; 0]
                                      else length_octets (N.of_nat (length content)) ++ content).
Proof.
  intros Hd Hf He. unfold der_ref_val in Hd.
  destruct (enc_inv CER T _ v b He) as (cd & fl & ts & content & ic & Ece & Ets & Ec & He').
  clear He. rename He' into He.
  pose proof (der_ref_simple _ _ Hd) as Hs.
  destruct (canon_simple (base_of T) v Hs) as [Htb _].
  destruct (tagset_shape T _ Htb ts Ets) as (t0 & r & -> & Hc0 & Hall & _).
  destruct (leaf_reads CER (base_of T) v cd fl cer_opts content ic Hd Ece Ec) as (Hfl & Hic & _).
  exists cd, fl, content, ic, t0, r. split; [exact Ece|split; [exact Ec|split; [exact Ets|]]].
  assert (Hc0': tcon t0 = false) by (rewrite Hc0; destruct (base_of T); try discriminate Hs; reflexivity).
  split; [exact Hc0'|]. split; [intros ->; apply (frame_prim_bound t0 r content cer_opts (ef_indef fl) b He)|].
  apply (frame_gframe t0 r content ic cer_opts (ef_indef fl) b eq_refl Hall) in He.
  - rewrite Hc0' in He. cbn [orb o_def cer_opts negb] in He. rewrite Bool.andb_true_r in He. exact He.
  - intros _ Hne. rewrite Hfl. exact (no_f01_indef T _ t0 r Hf Htb Ets Hne).
  - intros _ Hi. rewrite Hfl. apply Hic. exact Hi.
Qed.

(* soundness: whatever the CER encoder outputs - in whatever mode it is called: defMode and
   maxChunkSize are overridden - is the canonical encoding of the reference *)
Theorem cer_is_reference_simple : forall T v d k b,
  der_ref_val T v = true -> no_f01 T = true -> encode CER d k T v = Ok b -> X690.cer T v = Some b.
Proof.
  intros T v d k b Hd Hf He.
  destruct (cer_output_shape T v d k b Hd Hf He) as (cd & fl & content & ic & t0 & r & Hce & Hc & Hts & Hc0 & _ & ->).
  unfold der_ref_val in Hd. pose proof (der_ref_simple _ _ Hd) as Hs.
  destruct (canon_simple (base_of T) v Hs) as [Htb _].
  unfold cer. apply (canon_wrappers_g T v true ic _ (base_tag (base_of T)) (simple_tagged T Hs) Htb); [|exact Hts].
  rewrite (cer_contents (base_of T) v cd fl content ic Hd Hce Hc). unfold base_enc.
  rewrite base_tag_univ, Bool.andb_true_r. reflexivity.
Qed.

Lemma small_lt_max n : (n <= 1000)%nat -> N.of_nat n < max_len.
Proof.
  intros H. assert (1000 < max_len) by (vm_compute; reflexivity). lia.
Qed.

(* 9.2 of the pieces a chunked encoder writes: full ones of 1000 contents octets, a last non-empty one *)
Lemma seg_ok_chunks {A} (g: list A -> bytes) (k: nat) : (0 < k)%nat ->
  (forall p, length p = k -> length (g p) = 1000%nat) ->
  (forall p, p <> [] -> (length p <= k)%nat -> (1 <= length (g p) <= 1000)%nat) ->
  forall f l, l <> [] -> (length l < f)%nat -> seg_ok (map g (chunks f k l)) = true.
Proof.
  intros Hk Hfull Hlast. induction f as [|f IH]; intros l Hne Hf; [lia|].
  rewrite (chunks_cons f k l Hne). cbn [map].
  destruct (skipn k l) as [|y rest] eqn:Es.
  - rewrite chunks_nil. cbn [map seg_ok].
    assert (Hall: firstn k l = l).
    { rewrite <- (firstn_skipn k l) at 2. rewrite Es, app_nil_r. reflexivity. }
    rewrite Hall.
    assert (Hle: (length l <= k)%nat).
    { destruct (Nat.le_gt_cases (length l) k) as [H|H]; [exact H|].
      assert (length (skipn k l) = length l - k)%nat by apply skipn_length. rewrite Es in H0. cbn [length] in H0. lia. }
    destruct (Hlast l Hne Hle) as [H1 H2].
    apply andb_true_iff. split; apply Nat.leb_le; assumption.
  - assert (Hlen: (k < length l)%nat).
    { destruct (Nat.lt_ge_cases k (length l)) as [H|H]; [exact H|].
      rewrite skipn_all2 in Es by exact H. discriminate Es. }
    assert (Hfl: length (firstn k l) = k) by (rewrite firstn_length; lia).
    assert (Hrec: seg_ok (map g (chunks f k (y :: rest))) = true).
    { apply IH; [discriminate|]. rewrite <- Es, skipn_length. lia. }
    destruct f as [|f']; [cbn [length] in Hf; lia|].
    rewrite (chunks_cons f' k (y :: rest)) in * by discriminate. cbn [map] in *.
    change (seg_ok (g (firstn k l) :: g (firstn k (y :: rest)) :: map g (chunks f' k (skipn k (y :: rest)))))
      with (Nat.eqb (length (g (firstn k l))) 1000 && seg_ok (g (firstn k (y :: rest)) :: map g (chunks f' k (skipn k (y :: rest)))))%bool.
    rewrite Hrec, (Hfull _ Hfl), Nat.eqb_refl. reflexivity.
Qed.

(* The CER encoder's string contents: at most 1000 octets in one piece, else full 1000-octet pieces
   and a last, non-empty one (for BIT STRING the initial octet of each piece is counted); n is the tag
   number of the pieces, 3 or 4.  The sizes stay behind [N.to_nat]: no arithmetic is done on the numerals. *)
Definition cer_pieces (n: N) (content: bytes) (ic: bool) : Prop :=
  (ic = false -> (length content <= 1000)%nat) /\
  (ic = true -> exists ps, content = concat (map (tlv Univ false n) ps) /\
                           Forall (fun p => (length p <= 1000)%nat) ps /\ seg_ok ps = true).

Lemma cer_octets_pieces v b content ic : octets_of v = Some b ->
  enc_octets_like cer_opts v = Ok (content, ic) -> cer_pieces 4 content ic.
Proof.
  intros Ho Hx.
  destruct (enc_octets_like_shape cer_opts v b content ic Ho Hx) as [(-> & -> & Hk)|(-> & _ & -> & Hgt)];
    cbn [cer_opts o_chunk] in *.
  - split; [|discriminate]. intros _. destruct Hk as [Hk|Hk]; [discriminate Hk|exact Hk].
  - split; [discriminate|]. intros _. eexists. split; [reflexivity|split].
    + apply Forall_forall. intros p Hp. exact (proj1 (segs_in_len _ _ _ _ Hp)).
    + rewrite <- chunks_is_segs, <- (map_id (chunks _ _ _)).
      apply (seg_ok_chunks (fun x : bytes => x) (N.to_nat 1000) (Nat.lt_0_succ 999)).
      * intros p Hp. exact Hp.
      * intros p Hne Hle. split; [destruct p; [congruence|apply le_n_S, Nat.le_0_l]|exact Hle].
      * intros ->. exact (Nat.nlt_0_r _ Hgt).
      * apply Nat.lt_succ_diag_r.
Qed.

Lemma cer_bits_pieces bs content ic : enc_bits (mkOpts false 999 false) bs = Ok (content, ic) -> cer_pieces 3 content ic.
Proof.
  intros Hs. destruct (enc_bits_shape _ bs content ic Hs) as [(-> & -> & Hk)|(-> & _ & -> & Hgt)]; cbn [o_chunk] in *.
  - split; [|discriminate]. intros _. destruct Hk as [Hk|Hk]; [discriminate Hk|].
    apply (enc_bits_prim_le 999), (Nat.le_trans _ _ _ (Nat.le_add_r _ _) Hk).
  - split; [discriminate|]. intros _. eexists. split; [reflexivity|split].
    + apply Forall_forall. intros q Hq. apply in_map_iff in Hq. destruct Hq as (p & <- & Hp).
      exact (enc_bits_prim_le 999 p (proj1 (chunks_in_len _ _ _ _ Hp))).
    + apply (seg_ok_chunks enc_bits_prim (N.to_nat 999 * 8) (Nat.lt_0_succ _)).
      * exact (enc_bits_prim_full 999).
      * intros p _ Hle. split; [apply le_n_S, Nat.le_0_l|exact (enc_bits_prim_le 999 p Hle)].
      * intros ->. exact (Nat.nlt_0_r _ Hgt).
      * apply Nat.lt_succ_diag_r.
Qed.

Lemma cer_contents_small B v cd fl content ic :
  der_ref_base B v = true -> concrete_encoder CER B = Ok (cd, fl) ->
  enc_content CER B cd fl cer_opts v = Ok (content, ic) ->
  (ic = true -> indef_base B = true) /\
  (indef_base B = true -> exists n, (n = 3 \/ n = 4) /\ cer_pieces n content ic).
Proof.
  intros Hd Hce He.
  destruct (leaf_reads CER B v cd fl cer_opts content ic Hd Hce He) as (_ & Hic & _).
  split; [exact Hic|]. intros Hi.
  pose proof (cer_string_content B v cd fl content ic Hd Hce Hi He) as Hs.
  destruct B; try discriminate Hi; destruct v as [bb|z|bs|bo|cs| |arcs|r|vfs|xs|i x|ab]; try discriminate Hd.
  1: exists 3; split; [left; reflexivity|exact (cer_bits_pieces bs content ic Hs)].
  all: exists 4; split; [right; reflexivity|]; eapply cer_octets_pieces; [|exact Hs]; reflexivity.
Qed.

(* The shape check does not know the type: it recognises a string by a UNIVERSAL string tag number.
   A tag written [UNIVERSAL 4] IMPLICIT over, say, an INTEGER would make it apply the string rules
   to something that is not a string; [cer_tags_ok] excludes such tags (any type whose written tags
   are APPLICATION / CONTEXT / PRIVATE satisfies it: [wf_cer_tags_ok]). *)
Definition ustr_tag (t: tag) : bool := ustr (tcls t) (tnum t).
Definition cer_tags_ok (T: ty) : bool :=
  match tagset_of T with
  | Ok (t0 :: r) => (indef_base (base_of T) || negb (ustr_tag t0)) && forallb (fun t => negb (ustr_tag t)) r
  | _ => true
  end.

(* the output parses to a node of canonical shape; it begins with a non-zero octet unless its one
   tag is UNIVERSAL 0 (what a container asks of its members) *)
Theorem cer_output_cer_ok : forall T v d k b,
  der_ref_val T v = true -> no_f01 T = true -> eoc_safe T = true -> cer_tags_ok T = true ->
  encode CER d k T v = Ok b ->
  cer_ok b /\ ((forall t0, tagset_of T = Ok [t0] -> tcls t0 <> Univ \/ tnum t0 <> 0) -> nz_head b).
Proof.
  intros T v d k b Hd Hf Hsafe Htags He.
  destruct (cer_output_shape T v d k b Hd Hf He) as (cd & fl & content & ic & t0 & r & Hce & Hc & Hts & Hc0 & Hbd & Hb).
  unfold der_ref_val in Hd.
  destruct (cer_contents_small (base_of T) v cd fl content ic Hd Hce Hc) as [Hic Hsm].
  pose proof (eoc_safe_free T _ ic Hsafe Hts) as Hfree.
  unfold cer_tags_ok in Htags. rewrite Hts in Htags. apply andb_true_iff in Htags. destruct Htags as [Ht0 Hr].
  split.
  - subst b. cbn [gframe_ts]. apply cer_ok_wrap.
    + apply Forall_forall. intros t Ht. rewrite forallb_forall in Hr. apply Bool.negb_true_iff, Hr, Ht.
    + destruct ic.
      * destruct (Hsm (Hic eq_refl)) as (n & Hn & _ & Hs2). destruct (Hs2 eq_refl) as (ps & -> & Hps & Hseg).
        apply (cer_ok_itlv_pieces (tcls t0) (tnum t0) n ps); [destruct Hn as [-> | ->]; discriminate| |auto|auto].
        apply Forall_forall. intros p Hp. rewrite Forall_forall in Hps. apply small_lt_max, Hps, Hp.
      * apply (cer_ok_prim (tcls t0) (tnum t0) content); [apply Hbd; reflexivity|].
        intros Hu. apply Bool.orb_true_iff in Ht0. destruct Ht0 as [Hi|Hn].
        -- destruct (Hsm Hi) as (n & _ & Hs1 & _). exact (Hs1 eq_refl).
        -- unfold ustr_tag in Hn. rewrite Hu in Hn. discriminate Hn.
    + intros Hne. apply ident_nz_head. destruct r; [congruence|]. cbn [eoc_free] in Hfree. tauto.
  - intros Hnz. subst b. apply gframe_nz_head; [discriminate|exact Hfree|].
    destruct r; [|discriminate]. intros _. specialize (Hnz t0 Hts). cbn [hd]. tauto.
Qed.

(* canonical form: indefinite length exactly for the constructed encodings; a string of at most
   1000 contents octets primitive; a longer one a run of primitive segments of exactly 1000 contents
   octets and a last, non-empty one ([cer_segments], when the string carries its universal tag). *)
Theorem cer_output_canonical : forall T v d k b,
  der_ref_val T v = true -> no_f01 T = true -> eoc_safe T = true -> cer_tags_ok T = true ->
  encode CER d k T v = Ok b -> cer_canonical b = true.
Proof.
  intros T v d k b Hd Hf Hsafe Htags He. apply cer_ok_canonical, (cer_output_cer_ok T v d k b Hd Hf Hsafe Htags He).
Qed.

Lemma ustr_non_univ c num : c <> Univ -> ustr c num = false.
Proof. intros H. unfold ustr. destruct c; [congruence|reflexivity|reflexivity|reflexivity]. Qed.

(* types whose written tags are all APPLICATION, CONTEXT or PRIVATE *)
Lemma wf_cer_tags_ok T : simple_base (base_of T) = true -> TagsetShape.wf_tags T = true -> cer_tags_ok T = true.
Proof.
  intros Hs Hw. unfold cer_tags_ok. destruct (tagset_of T) as [ts|] eqn:Ets; [|reflexivity].
  destruct (canon_simple (base_of T) VNull Hs) as [Htb _].
  destruct (tagset_shape T _ Htb ts Ets) as (t0 & r & -> & _ & _ & _ & Hwf). destruct (Hwf Hw) as [H0 Hall].
  apply andb_true_iff. split.
  - destruct H0 as [-> |Hn].
    + destruct (base_of T); try discriminate Hs; reflexivity.
    + unfold ustr_tag. rewrite (ustr_non_univ _ _ Hn). apply Bool.orb_true_r.
  - apply forallb_forall. intros t Ht. rewrite Forall_forall in Hall. unfold ustr_tag.
    rewrite (ustr_non_univ _ _ (Hall t Ht)). reflexivity.
Qed.

Corollary cer_output_canonical_wf : forall T v d k b,
  der_ref_val T v = true -> TagsetShape.wf_tags T = true -> no_f01 T = true -> eoc_safe T = true ->
  encode CER d k T v = Ok b -> cer_canonical b = true.
Proof.
  intros T v d k b Hd Hw Hf Hsafe He.
  apply (cer_output_canonical T v d k b Hd Hf Hsafe); [|exact He].
  apply wf_cer_tags_ok; [apply (der_ref_simple _ _ Hd)|exact Hw].
Qed.

(* Witnesses with contents of a thousand octets: the encoder's side is evaluated once, with the octets
   computed by shifts ([enc_bits_shift], [twos_bytes_shift]), after [encode_cer_eval] has exposed the
   contents encoder; that the reference gives the same octets is the theorem. *)
Lemma encode_cer_eval d k T v cd fl : concrete_encoder CER T = Ok (cd, fl) ->
  encode CER d k T v =
  (do ts <- tagset_of T; do cc <- enc_content CER T cd fl cer_opts v;
   frame ts (fst cc) (snd cc) cer_opts (ef_indef fl)).
Proof. intros H. unfold encode. rewrite enc_cer_unfold, H. reflexivity. Qed.

Lemma cer_witness T v d k (P: bytes -> Prop) :
  der_ref_val T v = true -> no_f01 T = true ->
  (exists b, encode CER d k T v = Ok b /\ P b) ->
  exists b, encode CER d k T v = Ok b /\ cer T v = Some b /\ P b.
Proof.
  intros Hd Hf (b & He & HP). exists b. split; [exact He|]. split; [|exact HP].
  exact (cer_is_reference_simple _ _ _ _ _ Hd Hf He).
Qed.

(* [0] EXPLICIT [PRIVATE 5] IMPLICIT OCTET STRING of 2500 octets: three segments inside an
   indefinite constructed string inside an indefinite wrapper *)
Example cer_is_reference_witness_octets :
  let T := TExp (mkTag Ctx false 0) (TImp (mkTag Priv false 5) TOcts) in
  let v := VOcts (repeat 65 (25 * 100)%nat) in
  der_ref_val T v = true /\ no_f01 T = true /\ eoc_safe T = true /\
  exists b, encode CER true 7 T v = Ok b /\ cer T v = Some b /\ cer_canonical b = true /\
            length b = (2 + 2 + (4 + 1000) + (4 + 1000) + (4 + 500) + 2 + 2)%nat.
Proof.
  cbv zeta. set (T := TExp _ _). set (v := VOcts _).
  assert (Hd: der_ref_val T v = true) by reflexivity.
  assert (Hf: no_f01 T = true) by reflexivity. assert (Hs: eoc_safe T = true) by reflexivity.
  split; [exact Hd|split; [exact Hf|split; [exact Hs|]]].
  (* the encoder is run once; the reference's side and the shape follow from the theorems *)
  assert (He: exists b, encode CER true 7 T v = Ok b /\ length b = (2 + 2 + (4 + 1000) + (4 + 1000) + (4 + 500) + 2 + 2)%nat)
    by (vm_compute; eexists; split; reflexivity).
  destruct He as (b & He & Hl). apply cer_witness; [exact Hd|exact Hf|]. exists b.
  split; [exact He|split; [exact (cer_output_canonical T v true 7 b Hd Hf Hs eq_refl He)|exact Hl]].
Qed.

(* BOOLEAN TRUE is FF; a character string given as characters; a 8003-bit BIT STRING *)
Example cer_is_reference_witness_misc :
  (encode CER true 0 (TImp (mkTag Appl false 3) TBool) (VBool true) = Ok [67; 1; 255]
   /\ cer (TImp (mkTag Appl false 3) TBool) (VBool true) = Some [67; 1; 255] /\ cer_canonical [67; 1; 255] = true) /\
  (let T := TExp (mkTag Ctx false 1) (TStr 12) in let v := VChars [[195;169];[65]] in
   no_f01 T = true /\ encode CER true 0 T v = Ok [161; 128; 12; 3; 195; 169; 65; 0; 0]
   /\ cer T v = Some [161; 128; 12; 3; 195; 169; 65; 0; 0]) /\
  (let T := TBits in let v := VBits (repeat true (8 * 1000 + 3)%nat) in
   exists b, encode CER true 0 T v = Ok b /\ cer T v = Some b /\ cer_canonical b = true
             /\ length b = (2 + (4 + 1000) + (2 + 3) + 2)%nat).
Proof.
  split; [vm_compute; repeat split|]. split; [vm_compute; repeat split|].
  cbv zeta. apply cer_witness; [reflexivity..|].
  eexists. split.
  - erewrite encode_cer_eval by (vm_compute; reflexivity). cbn [enc_content]. rewrite enc_bits_shift.
    vm_compute. reflexivity.
  - vm_compute. repeat split.
Qed.

(* [1] EXPLICIT INTEGER under CER: the library writes a definite length and still appends 00 00;
   the reference's canonical encoding has the indefinite form; the reader leaves 00 00 unread *)
Example cer_is_reference_refuted_F01 :
  let T := TExp (mkTag Ctx false 1) TInt in let v := VInt 5 in
  der_ref_val T v = true /\ no_f01 T = false /\
  encode CER true 0 T v = Ok [161; 3; 2; 1; 5; 0; 0] /\
  cer T v = Some [161; 128; 2; 1; 5; 0; 0] /\
  read T [161; 3; 2; 1; 5; 0; 0] = Some (AInt 5, [0; 0]) /\
  cer_canonical [161; 3; 2; 1; 5; 0; 0] = false.
Proof. vm_compute. repeat split. Qed.

(* only strings are segmented (X.690 9.2): a primitive INTEGER of more than 1000 contents octets is
   canonical CER *)
Example cer_canonical_large_integer :
  let v := VInt (2 ^ (8 * 1001))%Z in
  cer_tags_ok TInt = true /\
  exists b, encode CER true 0 TInt v = Ok b /\ cer TInt v = Some b /\ length b = 1006%nat /\ cer_canonical b = true.
Proof.
  cbv zeta. split; [reflexivity|]. apply (cer_witness TInt); [reflexivity..|].
  eexists. split.
  - erewrite encode_cer_eval by (vm_compute; reflexivity). cbn [enc_content]. unfold enc_integer.
    rewrite twos_bytes_shift. vm_compute. reflexivity.
  - vm_compute. repeat split.
Qed.

(* why [cer_tags_ok]: [UNIVERSAL 4] IMPLICIT INTEGER - the untyped check takes it for an OCTET STRING *)
Example cer_canonical_needs_tags_ok :
  let T := TImp (mkTag Univ false 4) TInt in let v := VInt (2 ^ (8 * 1001))%Z in
  der_ref_val T v = true /\ no_f01 T = true /\ eoc_safe T = true /\ cer_tags_ok T = false /\
  exists b, encode CER true 0 T v = Ok b /\ cer T v = Some b /\ cer_canonical b = false.
Proof.
  cbv zeta. repeat (split; [vm_compute; reflexivity|]). apply cer_witness; [reflexivity..|].
  eexists. split.
  - erewrite encode_cer_eval by (vm_compute; reflexivity). cbn [enc_content]. unfold enc_integer.
    rewrite twos_bytes_shift. vm_compute. reflexivity.
  - vm_compute. repeat split.
Qed.

Print Assumptions cer_contents.
Print Assumptions cer_is_reference_simple.
Print Assumptions cer_output_canonical.
Print Assumptions cer_output_canonical_wf.
