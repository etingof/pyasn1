(* Identifier and length octets: the decoder's reading inverts the encoder's writing,
   for every class, form, tag number and length (no bound), and the octets emitted
   have the X.690 8.1.2 / 8.1.3 shape. *)
From Coq Require Import Lia.
From PV Require Import Base.Bytes Model.Tag Proofs.Bits.
From PV Require Export Proofs.Basics.
Local Open Scope N_scope.

(* one octet of the long form of a tag number, as the decoder takes it: a continuation octet
   0x80 + m, and the final octet m *)
Lemma dec_b128_more acc m r : m < 128 -> dec_b128 acc ((128 + m) :: r) = dec_b128 (acc * 128 + m) r.
Proof.
  intros Hm. cbn [dec_b128]. rewrite (land128_hi _ Hm), (land127_hi _ Hm), lor_shl7 by exact Hm.
  reflexivity.
Qed.
Lemma dec_b128_last acc m r : m < 128 -> dec_b128 acc (m :: r) = Some (acc * 128 + m, r).
Proof.
  intros Hm. cbn [dec_b128]. rewrite (land128_lo _ Hm), land127, (N.mod_small _ _ Hm), lor_shl7 by exact Hm.
  reflexivity.
Qed.

Lemma dec_b128_hi : forall fuel n acc r,
  (N.size_nat n <= fuel)%nat ->
  dec_b128 0 (b128_hi fuel n acc ++ r) = dec_b128 n (acc ++ r).
Proof.
  induction fuel as [|f IH]; intros n acc r Hf; [rewrite (size_nat_0 n Hf); reflexivity|].
  cbn [b128_hi]. destruct (N.eqb_spec n 0) as [->|Hn]; [reflexivity|].
  assert (Hm: N.land n 127 < 128) by (rewrite land127; apply N.mod_lt; lia).
  rewrite IH by (pose proof (size_nat_shiftr n 7 Hn); lia).
  cbn [app]. rewrite (lor128 _ Hm), (dec_b128_more _ _ _ Hm), shiftr7, land127, div_mod_back by lia.
  reflexivity.
Qed.

Lemma dec_b128_b128 n r : dec_b128 0 (b128 n ++ r) = Some (n, r).
Proof.
  unfold b128. destruct (N.eqb_spec n 0) as [->|Hn]; [reflexivity|].
  assert (Hm: N.land n 127 < 128) by (rewrite land127; apply N.mod_lt; lia).
  rewrite dec_b128_hi by (pose proof (size_nat_shiftr n 7 Hn); lia).
  cbn [app]. rewrite (dec_b128_last _ _ _ Hm), shiftr7, land127, div_mod_back by lia. reflexivity.
Qed.

(* the three fields of a first identifier octet; a finite table: 4 classes, 2 forms, 32 numbers *)
Lemma first_octet_fields c (f: bool) n : n < 32 ->
  let o := N.lor (N.lor (cls_bits c) (if f then 32 else 0)) n in
  cls_of_bits o = c /\ negb (N.eqb (N.land o 32) 0) = f /\ N.land o 31 = n.
Proof.
  intros Hn. cbv zeta. destruct n as [|p]; [|do 5 (try destruct p as [p|p|])]; try lia;
    destruct c, f; repeat split.
Qed.

(* C13: for every class, form and number the decoder reads back exactly
   the tag that was written, and leaves what follows untouched *)
Theorem dec_enc_tag (t: tag) (c: bool) (r: bytes) :
  dec_ident (enc_tag t c ++ r) = Some (mkTag (tcls t) (tcon t || c) (tnum t), r).
Proof.
  unfold enc_tag. destruct (N.ltb_spec (tnum t) 31) as [Hs|Hl].
  - cbn [app dec_ident].
    destruct (first_octet_fields (tcls t) (tcon t || c) (tnum t)) as (H1 & H2 & H3); [lia|].
    cbn zeta in H1, H2, H3. rewrite H1, H2, H3.
    destruct (N.eqb_spec (tnum t) 31); [lia|reflexivity].
  - cbn [app dec_ident].
    destruct (first_octet_fields (tcls t) (tcon t || c) 31) as (H1 & H2 & H3); [lia|].
    cbn zeta in H1, H2, H3. rewrite H1, H2, H3. cbn [N.eqb Pos.eqb].
    rewrite dec_b128_b128. reflexivity.
Qed.

(* shape (X.690 8.1.2): short form iff number < 31; in the long form every octet but the
   last has bit 8 set, the last has it clear, and the first subsequent octet is not 0x80 *)
Fixpoint cont_then_last (b: bytes) : bool :=
  match b with
  | [] => false
  | [o] => N.ltb o 128
  | o :: r => N.leb 128 o && N.ltb o 256 && cont_then_last r
  end.

Lemma b128_hi_shape : forall fuel n acc, cont_then_last acc = true ->
  cont_then_last (b128_hi fuel n acc) = true.
Proof.
  induction fuel as [|f IH]; intros n acc Ha; [exact Ha|].
  cbn [b128_hi]. destruct (N.eqb n 0); [exact Ha|]. apply IH.
  assert (Hm: N.land n 127 < 128) by (rewrite land127; apply N.mod_lt; lia).
  rewrite (lor128 _ Hm). destruct acc as [|a acc']; [discriminate|].
  change (cont_then_last ((128 + N.land n 127) :: a :: acc'))
    with (N.leb 128 (128 + N.land n 127) && N.ltb (128 + N.land n 127) 256 && cont_then_last (a :: acc')).
  rewrite Ha. destruct (N.leb_spec 128 (128 + N.land n 127)); [|lia].
  destruct (N.ltb_spec (128 + N.land n 127) 256); [reflexivity|lia].
Qed.

Theorem b128_shape n : cont_then_last (b128 n) = true.
Proof.
  unfold b128. apply b128_hi_shape. cbn [cont_then_last].
  apply N.ltb_lt. rewrite land127. apply N.mod_lt. lia.
Qed.

Lemma b128_hi_head : forall fuel n acc, (N.size_nat n <= fuel)%nat -> n <> 0 ->
  exists d rest, b128_hi fuel n acc = d :: rest /\ d <> 128.
Proof.
  induction fuel as [|f IH]; intros n acc Hf Hn.
  - elim Hn. exact (size_nat_0 n Hf).
  - cbn [b128_hi]. destruct (N.eqb_spec n 0); [congruence|].
    destruct (N.eq_dec (N.shiftr n 7) 0) as [Hz|Hnz].
    + rewrite Hz. destruct f; cbn [b128_hi N.eqb].
      all: eexists; eexists; split; [reflexivity|].
      all: assert (Hm: N.land n 127 < 128) by (rewrite land127; apply N.mod_lt; lia).
      all: rewrite (lor128 _ Hm); rewrite shiftr7 in Hz; rewrite land127.
      all: assert (n mod 128 <> 0); [|lia].
      all: intros Hc; apply Hn; rewrite (N.div_mod n 128) by lia; rewrite Hz, Hc; reflexivity.
    + apply IH; [|assumption]. pose proof (size_nat_shiftr n 7 n0). lia.
Qed.

(* no leading 0x80 in the long form of a number >= 128 (a smaller one is its own single octet) *)
Theorem b128_minimal n : 128 <= n -> exists d rest, b128 n = d :: rest /\ d <> 128.
Proof.
  intros Hn. unfold b128. apply b128_hi_head.
  - assert (n <> 0) by lia. pose proof (size_nat_shiftr n 7 H). lia.
  - rewrite shiftr7. intros Hc. apply N.div_small_iff in Hc; lia.
Qed.

Lemma be_num_app : forall a b acc, be_num acc (a ++ b) = be_num (be_num acc a) b.
Proof. induction a as [|x a IH]; intros; [reflexivity|]. cbn [app be_num]. apply IH. Qed.

Lemma be_num_b256_hi : forall fuel n acc, (N.size_nat n <= fuel)%nat ->
  be_num 0 (b256_hi fuel n acc) = be_num n acc.
Proof.
  induction fuel as [|f IH]; intros n acc Hf; [rewrite (size_nat_0 n Hf); reflexivity|].
  cbn [b256_hi]. destruct (N.eqb_spec n 0) as [->|Hn]; [reflexivity|].
  assert (Hm: N.land n 255 < 256) by (rewrite land255; apply N.mod_lt; lia).
  rewrite IH by (pose proof (size_nat_shiftr n 8 Hn); lia).
  cbn [be_num]. rewrite lor_shl8, shiftr8, land255, div_mod_back by (exact Hm || lia). reflexivity.
Qed.

Lemma be_num_b256 n : be_num 0 (b256 n) = n.
Proof. unfold b256. rewrite be_num_b256_hi by lia. reflexivity. Qed.

Lemma dec_len_cons o r : dec_len (o :: r) =
  if N.ltb o 128 then Some (Some o, r)
  else if N.eqb o 128 then Some (None, r)
  else let k := N.to_nat (N.land o 127) in
       if Nat.ltb (length r) k then None
       else Some (Some (be_num 0 (firstn k r)), skipn k r).
Proof. reflexivity. Qed.

Lemma b256_hi_length : forall fuel m acc, (length acc <= length (b256_hi fuel m acc))%nat.
Proof.
  induction fuel as [|f IH]; intros m acc; cbn [b256_hi]; [lia|].
  destruct (N.eqb m 0); [lia|]. specialize (IH (N.shiftr m 8) (N.land m 255 :: acc)).
  cbn [length] in IH. lia.
Qed.

Lemma b256_nonempty n : n <> 0 -> b256 n <> [].
Proof.
  intros Hn E. unfold b256 in E. destruct (N.size_nat n) eqn:Es; [apply Hn, size_nat_0; lia|].
  cbn [b256_hi] in E. destruct (N.eqb_spec n 0); [contradiction|].
  pose proof (b256_hi_length n0 (N.shiftr n 8) [N.land n 255]) as H. rewrite E in H. cbn in H. lia.
Qed.

(* definite lengths of any size read back exactly; the tail is untouched *)
Theorem dec_enc_len (n: N) (l r: bytes) :
  enc_len n false = Ok l -> dec_len (l ++ r) = Some (Some n, r).
Proof.
  unfold enc_len. destruct (N.ltb_spec n 128) as [Hs|Hl].
  - intros [= <-]. cbn [app dec_len]. destruct (N.ltb_spec n 128); [reflexivity|lia].
  - destruct (Nat.ltb_spec 126 (length (b256 n))) as [Hbig|Hok]; [discriminate|].
    (* not by injection, which would evaluate the [N.lor] *)
    intros H. apply (f_equal (fun x => match x with Ok a => a | Err _ => [] end)) in H. subst l.
    rewrite <- app_comm_cons, dec_len_cons. cbv zeta.
    set (k := N.of_nat (length (b256 n))).
    assert (Hk: k < 128) by (subst k; lia).
    assert (Hk0: k <> 0).
    { subst k. pose proof (b256_nonempty n ltac:(lia)). destruct (b256 n); [congruence|discriminate]. }
    rewrite (lor128 _ Hk), (land127_hi _ Hk).
    destruct (N.ltb_spec (128 + k) 128); [lia|].
    destruct (N.eqb_spec (128 + k) 128); [lia|].
    subst k. rewrite Nat2N.id.
    destruct (Nat.ltb_spec (length (b256 n ++ r)) (length (b256 n))) as [Hc|_].
    { rewrite app_length in Hc. lia. }
    rewrite firstn_app_exact, skipn_app_exact, be_num_b256. reflexivity.
Qed.

Theorem dec_enc_len_indef (n: N) (r: bytes) :
  enc_len n true = Ok [128] /\ dec_len ([128] ++ r) = Some (None, r).
Proof. split; reflexivity. Qed.

(* X.690 8.1.3: a length below 128 is written in the short form *)
Theorem enc_len_short n : n < 128 -> enc_len n false = Ok [n].
Proof. intros H. unfold enc_len. destruct (N.ltb_spec n 128); [reflexivity|lia]. Qed.

(* reading an identifier or a length does not look past it *)
Lemma dec_b128_app : forall b acc n r tl, dec_b128 acc b = Some (n, r) -> dec_b128 acc (b ++ tl) = Some (n, r ++ tl).
Proof.
  induction b as [|o b IH]; intros acc n r tl H; [discriminate H|].
  cbn [dec_b128 app] in *. destruct (N.eqb (N.land o 128) 0).
  - inversion H; subst. reflexivity.
  - apply IH. exact H.
Qed.

Lemma dec_ident_app b t r tl : dec_ident b = Some (t, r) -> dec_ident (b ++ tl) = Some (t, r ++ tl).
Proof.
  destruct b as [|o b]; [discriminate|]. cbn [dec_ident app]. cbv zeta.
  destruct (N.eqb (N.land o 31) 31).
  - destruct (dec_b128 0 b) as [[num r']|] eqn:E; [|discriminate]. intros H. inversion H; subst.
    rewrite (dec_b128_app b 0 num r tl E). reflexivity.
  - intros H. inversion H; subst. reflexivity.
Qed.

Lemma dec_len_app b ol r tl : dec_len b = Some (ol, r) -> dec_len (b ++ tl) = Some (ol, r ++ tl).
Proof.
  destruct b as [|o b]; [discriminate|]. change ((o :: b) ++ tl) with (o :: (b ++ tl)). rewrite !dec_len_cons.
  destruct (N.ltb o 128); [intros H; inversion H; subst; reflexivity|].
  destruct (N.eqb o 128); [intros H; inversion H; subst; reflexivity|]. cbv zeta.
  destruct (Nat.ltb_spec (length b) (N.to_nat (N.land o 127))) as [Hs|Hs]; [discriminate|].
  intros H. inversion H; subst; clear H.
  destruct (Nat.ltb_spec (length (b ++ tl)) (N.to_nat (N.land o 127))) as [Hs2|_]; [rewrite app_length in Hs2; lia|].
  rewrite firstn_app, skipn_app.
  replace (N.to_nat (N.land o 127) - length b)%nat with 0%nat by lia. cbn [firstn skipn]. rewrite app_nil_r. reflexivity.
Qed.

