(* C04: the canonical orderings of the CER/DER encoder model (Model/Enc.v) do not depend on the
   order in which the members were supplied.  Generic fact about its stable insertion sort, then
   the two instances: SET OF (zero-padded octet comparison) and SET (tag comparison). *)
From Coq Require Import Lia Sorting.Permutation Sorting.Sorted.
From PV Require Import Model.Enc Proofs.ContainerCodecDefs.
Local Open Scope nat_scope.

Section SortPerm.
  Context {A K: Type} (ltb: K -> K -> bool) (key: A -> K).
  Hypothesis ltb_irrefl: forall k, ltb k k = false.
  Hypothesis ltb_trans: forall a b c, ltb a b = true -> ltb b c = true -> ltb a c = true.
  (* keys that are not ordered either way behave alike (a strict weak order) *)
  Hypothesis ltb_negtrans: forall a b c, ltb a c = true -> ltb a b = true \/ ltb b c = true.

  Definition le_key (x y: A) : Prop := ltb (key y) (key x) = false.
  (* members with incomparable keys are the same member *)
  Definition ties_identical (l: list A) : Prop :=
    forall x y, In x l -> In y l -> le_key x y -> le_key y x -> x = y.

  Lemma ltb_asym a b : ltb a b = true -> ltb b a = false.
  Proof.
    intros H. destruct (ltb b a) eqn:E; [|reflexivity].
    pose proof (ltb_trans _ _ _ H E) as C. rewrite ltb_irrefl in C. discriminate.
  Qed.

  Lemma insert_by_in x y l : In y (Enc.insert_by ltb key x l) <-> y = x \/ In y l.
  Proof.
    induction l as [|z l IH]; cbn [Enc.insert_by].
    - cbn. intuition.
    - destruct (ltb (key z) (key x)); cbn [In]; [rewrite IH|]; intuition.
  Qed.

  Lemma insert_by_perm x l : Permutation (x :: l) (Enc.insert_by ltb key x l).
  Proof.
    induction l as [|z l IH]; cbn [Enc.insert_by]; [apply Permutation_refl|].
    destruct (ltb (key z) (key x)); [|apply Permutation_refl].
    eapply perm_trans; [apply perm_swap|]. apply perm_skip. exact IH.
  Qed.

  Lemma sort_by_perm_self l : Permutation l (Enc.sort_by ltb key l).
  Proof.
    induction l as [|x l IH]; [apply perm_nil|].
    change (Enc.sort_by ltb key (x :: l)) with (Enc.insert_by ltb key x (Enc.sort_by ltb key l)).
    eapply perm_trans; [apply perm_skip; exact IH|]. apply insert_by_perm.
  Qed.

  Lemma insert_by_sorted x l : StronglySorted le_key l -> StronglySorted le_key (Enc.insert_by ltb key x l).
  Proof.
    induction 1 as [|z l Hs IH Hz]; cbn [Enc.insert_by].
    - constructor; constructor.
    - destruct (ltb (key z) (key x)) eqn:E.
      + constructor; [exact IH|]. rewrite Forall_forall in *. intros w Hw.
        apply insert_by_in in Hw as [->|Hw]; [unfold le_key; apply ltb_asym; exact E|apply Hz; exact Hw].
      + constructor; [constructor; assumption|]. constructor; [exact E|].
        rewrite Forall_forall in *. intros w Hw. specialize (Hz w Hw). unfold le_key in *.
        destruct (ltb (key w) (key x)) eqn:E2; [|reflexivity].
        destruct (ltb_negtrans _ (key z) _ E2) as [C|C]; congruence.
  Qed.

  Lemma sort_by_sorted l : StronglySorted le_key (Enc.sort_by ltb key l).
  Proof.
    induction l as [|x l IH]; [constructor|].
    change (Enc.sort_by ltb key (x :: l)) with (Enc.insert_by ltb key x (Enc.sort_by ltb key l)).
    apply insert_by_sorted. exact IH.
  Qed.

  Lemma sorted_perm_unique : forall l1 l2, StronglySorted le_key l1 -> StronglySorted le_key l2 ->
    Permutation l1 l2 -> ties_identical l1 -> l1 = l2.
  Proof.
    induction l1 as [|a l1 IH]; intros l2 H1 H2 Hp Ht.
    - apply Permutation_nil in Hp. auto.
    - destruct l2 as [|b l2]; [apply Permutation_sym, Permutation_nil in Hp; discriminate|].
      inversion H1 as [|? ? Hs1 Hf1]; subst. inversion H2 as [|? ? Hs2 Hf2]; subst.
      assert (Hab: a = b).
      { assert (Ina: In a (b :: l2)) by (eapply Permutation_in; [exact Hp|left; reflexivity]).
        assert (Inb: In b (a :: l1)) by (eapply Permutation_in; [apply Permutation_sym; exact Hp|left; reflexivity]).
        destruct Ina as [E|Ina]; [auto|]. destruct Inb as [E|Inb]; [auto|].
        rewrite Forall_forall in Hf1, Hf2.
        apply Ht; [left; reflexivity|right; exact Inb|apply Hf1; exact Inb|apply Hf2; exact Ina]. }
      subst b. f_equal. apply IH; auto.
      + eapply Permutation_cons_inv. exact Hp.
      + intros x y Hx Hy. apply Ht; right; assumption.
  Qed.

  Theorem sort_by_perm l1 l2 : Permutation l1 l2 -> ties_identical l1 ->
    Enc.sort_by ltb key l1 = Enc.sort_by ltb key l2.
  Proof.
    intros Hp Ht. apply sorted_perm_unique; try apply sort_by_sorted.
    - eapply perm_trans; [apply Permutation_sym, sort_by_perm_self|].
      eapply perm_trans; [exact Hp|apply sort_by_perm_self].
    - intros x y Hx Hy. apply Ht; eapply Permutation_in; try apply Permutation_sym, sort_by_perm_self; assumption.
  Qed.
End SortPerm.

Lemma bytes_ltb_irrefl : forall a, bytes_ltb a a = false.
Proof. induction a as [|x a IH]; cbn; auto. rewrite N.ltb_irrefl, N.eqb_refl, IH. reflexivity. Qed.

Lemma bytes_ltb_trans : forall a b c, bytes_ltb a b = true -> bytes_ltb b c = true -> bytes_ltb a c = true.
Proof.
  induction a as [|x a IH]; intros [|y b] [|z c]; cbn; try discriminate; auto.
  rewrite !orb_true_iff, !andb_true_iff, !N.ltb_lt, !N.eqb_eq.
  intros [H1|[-> H1]] [H2|[-> H2]]; [left; lia|left; assumption..|right; eauto].
Qed.

Lemma bytes_ltb_tricho : forall a b, bytes_ltb a b = false -> bytes_ltb b a = false -> a = b.
Proof.
  induction a as [|x a IH]; intros [|y b]; cbn; try discriminate; auto.
  rewrite !orb_false_iff, !N.ltb_ge. intros [L1 H1] [L2 H2].
  assert (x = y) by lia. subst y. rewrite N.eqb_refl in H1, H2. f_equal. apply IH; assumption.
Qed.

Lemma bytes_ltb_negtrans a b c : bytes_ltb a c = true -> bytes_ltb a b = true \/ bytes_ltb b c = true.
Proof.
  intros H. destruct (bytes_ltb a b) eqn:E1; [left; reflexivity|]. right.
  destruct (bytes_ltb b a) eqn:E2.
  - eapply bytes_ltb_trans; eauto.
  - rewrite <- (bytes_ltb_tricho a b E1 E2). exact H.
Qed.

Lemma max_len_perm l1 l2 : Permutation l1 l2 -> max_len l1 = max_len l2.
Proof. unfold max_len. induction 1; cbn [fold_right] in *; try lia; congruence. Qed.

Theorem sort_setof_perm l1 l2 : Permutation l1 l2 -> pad_distinct l1 -> sort_setof l1 = sort_setof l2.
Proof.
  intros Hp Hd. unfold sort_setof.
  destruct l1 as [|a [|b l1]].
  - apply Permutation_nil in Hp. subst. reflexivity.
  - apply Permutation_length_1_inv in Hp. subst. reflexivity.
  - destruct l2 as [|a2 [|b2 l2]].
    + apply Permutation_sym, Permutation_nil in Hp. discriminate.
    + apply Permutation_length in Hp. discriminate.
    + fold (max_len (a :: b :: l1)). fold (max_len (a2 :: b2 :: l2)).
      rewrite <- (max_len_perm _ _ Hp).
      apply sort_by_perm; [exact bytes_ltb_irrefl|exact bytes_ltb_trans|exact bytes_ltb_negtrans|exact Hp|].
      intros x y Hx Hy L1 L2. apply Hd; auto. unfold le_key in *. apply bytes_ltb_tricho; assumption.
Qed.

(* without the hypothesis the stable sort keeps the order the members came in *)
Theorem sort_setof_perm_refuted :
  exists l1 l2, Permutation l1 l2 /\ concat (sort_setof l1) <> concat (sort_setof l2).
Proof.
  exists [[4; 1; 0]; [4; 1; 0; 0]]%N, [[4; 1; 0; 0]; [4; 1; 0]]%N. split; [apply perm_swap|].
  vm_compute. discriminate.
Qed.

(* A tag is ordered and compared through (class, number), a tag set through the concatenation of
   these pairs: the orders of Model/Tag.v are [bytes_ltb] on the keys. *)
Definition tag_sortkey (t: tag) : bytes := [cls_bits (tcls t); tnum t].
Definition tagset_sortkey (ts: tagset) : bytes := flat_map tag_sortkey ts.

Lemma cls_eqb_bits a b : cls_eqb a b = N.eqb (cls_bits a) (cls_bits b).
Proof. destruct a, b; reflexivity. Qed.

Lemma tagset_ltb_sortkey : forall a b, tagset_ltb a b = bytes_ltb (tagset_sortkey a) (tagset_sortkey b).
Proof.
  induction a as [|x a IH]; intros [|y b]; try reflexivity.
  cbn [tagset_ltb tagset_sortkey flat_map tag_sortkey app bytes_ltb]. fold (tagset_sortkey a) (tagset_sortkey b).
  rewrite <- IH. unfold tag_ltb, tag_eqb. rewrite cls_eqb_bits.
  rewrite <- orb_assoc, <- andb_assoc, <- andb_orb_distrib_r. reflexivity.
Qed.

Lemma tag_ltb_sortkey a b : tag_ltb a b = bytes_ltb (tag_sortkey a) (tag_sortkey b).
Proof. unfold tag_ltb, tag_sortkey. cbn [bytes_ltb]. rewrite andb_false_r, orb_false_r. reflexivity. Qed.

Lemma tag_ltb_irrefl t : tag_ltb t t = false.
Proof. rewrite tag_ltb_sortkey. apply bytes_ltb_irrefl. Qed.
Lemma tag_ltb_trans a b c : tag_ltb a b = true -> tag_ltb b c = true -> tag_ltb a c = true.
Proof. rewrite !tag_ltb_sortkey. apply bytes_ltb_trans. Qed.

Lemma tagset_ltb_irrefl : forall a, tagset_ltb a a = false.
Proof. intros a. rewrite tagset_ltb_sortkey. apply bytes_ltb_irrefl. Qed.
Lemma tagset_ltb_trans : forall a b c, tagset_ltb a b = true -> tagset_ltb b c = true -> tagset_ltb a c = true.
Proof. intros a b c. rewrite !tagset_ltb_sortkey. apply bytes_ltb_trans. Qed.
Lemma tagset_ltb_negtrans : forall a b c, tagset_ltb a c = true -> tagset_ltb a b = true \/ tagset_ltb b c = true.
Proof. intros a b c. rewrite !tagset_ltb_sortkey. apply bytes_ltb_negtrans. Qed.

Theorem sort_set_perm (p1 p2: list (tagset * bytes)) : Permutation p1 p2 -> tags_distinct p1 ->
  Enc.sort_by tagset_ltb fst p1 = Enc.sort_by tagset_ltb fst p2.
Proof.
  intros Hp Hd. apply sort_by_perm; [exact tagset_ltb_irrefl|exact tagset_ltb_trans|exact tagset_ltb_negtrans|exact Hp|].
  intros x y Hx Hy L1 L2. apply Hd; assumption.
Qed.

Theorem sort_set_perm_refuted :
  exists p1 p2 : list (tagset * bytes), Permutation p1 p2 /\
    concat (map snd (Enc.sort_by tagset_ltb fst p1)) <> concat (map snd (Enc.sort_by tagset_ltb fst p2)).
Proof.
  exists [([mkTag Ctx false 0%N], [128; 0]%N); ([mkTag Ctx true 0%N], [160; 0]%N)],
         [([mkTag Ctx true 0%N], [160; 0]%N); ([mkTag Ctx false 0%N], [128; 0]%N)].
  split; [apply perm_swap|]. vm_compute. discriminate.
Qed.

Local Open Scope N_scope.

Lemma setof_content c t cd fl o xs ps : elems_encode c t o xs ps ->
  enc_content c (TSetOf t) cd fl o (VList xs) =
  match cd with
  | EcSeqOfBer | EcSeqOfCer => Ok (concat ps, true)
  | EcSetOfCer => Ok (concat (sort_setof ps), true)
  | _ => Err EMalformed
  end.
Proof.
  intros H. cbn [enc_content].
  match goal with |- bind (?g xs) _ = _ => assert (G: g xs = Ok ps) end.
  { induction H as [|x p xs ps Hx Hr IH]; [reflexivity|]. rewrite Hx. cbn [bind]. rewrite IH. reflexivity. }
  rewrite G. cbn [bind]. destruct cd; reflexivity.
Qed.

(* SET OF: the contents octets do not depend on the order the members were added in *)
Theorem setof_order c t fl o xs ys ps : Permutation xs ys -> elems_encode c t o xs ps -> pad_distinct ps ->
  enc_content c (TSetOf t) EcSetOfCer fl o (VList xs) = enc_content c (TSetOf t) EcSetOfCer fl o (VList ys).
Proof.
  intros Hp He Hd. destruct (Permutation_Forall2 Hp He) as (ps' & Hpp & He').
  rewrite (setof_content c t EcSetOfCer fl o xs ps He), (setof_content c t EcSetOfCer fl o ys ps' He').
  rewrite (sort_setof_perm ps ps' Hpp Hd). reflexivity.
Qed.

(* the same for complete encodings, for every codec whose table sends SET OF to the sorting encoder *)
Theorem setof_order_encode c d k t xs ys ps fl :
  concrete_encoder c (TSetOf t) = Ok (EcSetOfCer, fl) -> Permutation xs ys ->
  let o := fix_opts c (mkOpts d k false) in
  elems_encode c t (mkOpts (o_def o) (o_chunk o) false) xs ps -> pad_distinct ps ->
  encode c d k (TSetOf t) (VList xs) = encode c d k (TSetOf t) (VList ys).
Proof.
  intros Hc Hp o He Hd. unfold encode, enc, enc_with. rewrite Hc. cbn [bind].
  destruct (tagset_of (TSetOf t)) as [ts|e]; [|reflexivity]. cbn [bind]. fold o.
  rewrite (setof_order c t fl _ xs ys ps Hp He Hd). reflexivity.
Qed.

Lemma cer_der_setof_sorted t :
  (exists fl, concrete_encoder CER (TSetOf t) = Ok (EcSetOfCer, fl)) /\
  (exists fl, concrete_encoder DER (TSetOf t) = Ok (EcSetOfCer, fl)).
Proof. split; eexists; vm_compute; reflexivity. Qed.
