(* C16, containers: decoding WITHOUT a guiding type what an encoder wrote for SEQUENCE OF / SET OF /
   SEQUENCE / SET (all components mandatory) built to any depth from the self-describing simple
   types of SchemalessRT.v, untagged or under EXPLICIT non-universal tags.  The decoder guesses a type
   (Model/Dec.v schemaless_loop: SEQUENCE (OF) -> SEQUENCE of the members' types, empty -> SEQUENCE OF;
   SET (OF) -> SET OF CHOICE when all members have the same tag set, else SET); the guessed object
   has the same tags at every level and the same leaves, and re-encoding it with DER gives the DER
   encoding of the original.  One induction ([sl_item_all]) covers every encoder in every mode it has
   and every decoder that reads the mode; where the encoder re-orders the members of SET OF / SET (CER
   and DER do) the skeleton is compared up to that order ([sk_sim]).  A SET all of whose (>= 2)
   components carry the same tag set is excluded ([set_mixed], schemaless_same_tag_set_differs). *)
From Coq Require Import Lia Sorting.Permutation Sorting.Sorted.
From PV Require Import Base.Bytes Model.Tag Model.TableTypes Model.Types Model.Proc Model.Enc Model.Dec Gen.Tables
     Proofs.LeafInt Proofs.LeafOidBits Proofs.LeafReal
     Proofs.ProcBind Proofs.RunLemmas Proofs.TagOctets Proofs.DecHeader Proofs.DecFrame Proofs.DecPrim
     Proofs.TagsetShape Proofs.Schemaless Proofs.RoundTrip1 Proofs.RoundTrip2 Proofs.RoundTrip3 Proofs.RoundTrip3a
     Proofs.ContainerCodecDefs Proofs.ContainerCodecSort Proofs.DerAbsFunction
     Proofs.RoundTripModesA Proofs.RoundTripModesB Proofs.RoundTripModesC Proofs.RoundTripModes Proofs.RoundTripModes3d
     Proofs.SchemalessRT.
Local Open Scope N_scope.

(* the elements of the guessed SET OF CHOICE: the i-th member as the i-th alternative *)
Fixpoint number_choices (i: nat) (l: list (ty * val)) : list val :=
  match l with [] => [] | tv :: r => VChoice i (snd tv) :: number_choices (S i) r end.

(* the guessed container type (before the wire tags are put around it) and value, from the
   decoded members *)
Definition guess_proto (is_set: bool) (acc: list (ty * val)) : ty :=
  match acc with
  | [] => if is_set then TSetOf TNull else TSeqOf TNull
  | (T0, _) :: _ =>
      let same := forallb (fun tv => tagset_eqb (tagset_of' (fst tv)) (tagset_of' T0)) acc in
      let rec_ty := map (fun tv => (Req, fst tv)) acc in
      if is_set then (if same then TSetOf (TChoice (map fst acc)) else TSet rec_ty) else TSeq rec_ty
  end.
Definition guess_val (is_set: bool) (acc: list (ty * val)) : val :=
  match acc with
  | [] => VList []
  | (T0, _) :: _ =>
      let same := forallb (fun tv => tagset_eqb (tagset_of' (fst tv)) (tagset_of' T0)) acc in
      if is_set && same then VList (number_choices O acc) else VRec (map (fun tv => Some (snd tv)) acc)
  end.
Definition guess_dv (is_set: bool) (ts: tagset) (acc: list (ty * val)) : dval :=
  DV (schemaless_ty (guess_proto is_set acc) ts) (guess_val is_set acc).

Section SLoop.
  Variable rec : spec -> tagset -> option (option N) -> bool -> bool -> proc dval.

  (* a member is read alike whether end-of-octets is allowed before it or not *)
  Definition sl_elem_ok (p: bytes) (tv: ty * val) : Prop :=
    (forall ae, consumes (rec SNone [] None ae false) p (DV (fst tv) (snd tv))) /\ (0 < length p)%nat.

  Lemma sl_elem_count parts tvs : Forall2 sl_elem_ok parts tvs -> (length parts <= length (concat parts))%nat.
  Proof.
    induction 1 as [|p x' parts xs' [_ Hpl] _ IH]; [cbn; lia|]. cbn [length concat]. rewrite app_length. lia.
  Qed.

  Lemma schemaless_loop_S is_set ts len start n acc :
    schemaless_loop rec is_set ts len start (S n) acc =
    let! p := tell in
    if negb (match len with Some l => N.ltb (N.of_nat p) (N.of_nat start + l) | None => true end)
    then Ret (guess_dv is_set ts acc)
    else let! d := rec SNone [] None (match len with None => true | Some _ => false end) false in
         match d with
         | DEoo => Ret (guess_dv is_set ts acc)
         | DV Tc vc => schemaless_loop rec is_set ts len start n (acc ++ [(Tc, vc)])
         | _ => Raise (ECrash AttributeError)
         end.
  Proof. unfold guess_dv, guess_proto, guess_val. destruct acc as [|[T0 v0] acc']; reflexivity. Qed.

  (* the loop over the members the encoder wrote: up to the announced length, or up to 00 00 *)
  Lemma schemaless_loop_run is_set ts d : (d = false -> eoo_ok rec) ->
    forall parts tvs, Forall2 sl_elem_ok parts tvs ->
    forall n acc start total s tl,
      (length parts < n)%nat ->
      avail s = concat parts ++ body_end d ++ tl ->
      (d = true -> (start <= pos s)%nat /\ (pos s - start + length (concat parts) = total)%nat) ->
      exists s', resume (schemaless_loop rec is_set ts (body_len d total) start n acc) s
                 = inr (Ok (guess_dv is_set ts (acc ++ tvs)), s')
        /\ pos s' = (pos s + length (concat parts ++ body_end d))%nat /\ arrived s' = arrived s /\ closed s' = closed s.
  Proof.
    intros Heoo parts tvs HF.
    induction HF as [|p tv parts tvs [Hp Hpl] HF IH]; intros n acc start total s tl Hn Hav Htot;
      (destruct n as [|n']; [cbn [length] in Hn; lia|]); rewrite schemaless_loop_S, resume_tell.
    - rewrite app_nil_r. destruct d; cbn [body_len body_end concat app length negb] in *.
      + destruct (Htot eq_refl) as [Hst Ht].
        destruct (N.ltb_spec (N.of_nat (pos s)) (N.of_nat start + N.of_nat total)) as [Hlt|_]; [lia|]. cbn [negb].
        exists s. split; [reflexivity|]. repeat split; lia.
      + rewrite (resume_pbind_done _ _ _ _ _ (Heoo eq_refl SNone false s tl Hav)).
        exists (adv s 2). split; [reflexivity|]. rewrite pos_adv. repeat split.
    - cbn [concat] in *. rewrite <- app_assoc in Hav. rewrite app_length in Htot.
      assert (Hgo: negb (match body_len d total with
                         | Some l => N.ltb (N.of_nat (pos s)) (N.of_nat start + l) | None => true end) = false).
      { destruct d; [|reflexivity]. destruct (Htot eq_refl) as [Hst Ht]. cbn [body_len].
        destruct (N.ltb_spec (N.of_nat (pos s)) (N.of_nat start + N.of_nat total)); [reflexivity|lia]. }
      rewrite Hgo. destruct (Hp (match body_len d total with None => true | Some _ => false end) s _ Hav)
        as (s1 & Hrun & Hpos & Harr & Hcl).
      rewrite (resume_pbind_done _ _ _ _ _ Hrun).
      pose proof (consumes_avail p s _ s1 Hav Hpos Harr) as Hav1.
      destruct tv as [Tc vc]. cbn [fst snd length] in *.
      destruct (IH n' (acc ++ [(Tc, vc)]) start total s1 tl ltac:(lia) Hav1) as (s2 & Hrun2 & Hpos2 & Harr2 & Hcl2).
      { intros Hd. destruct (Htot Hd). lia. }
      exists s2. rewrite Hrun2, <- !app_assoc. cbn [app]. rewrite !app_length in *.
      split; [reflexivity|]. split; [lia|]. split; congruence.
  Qed.

  Lemma dec_schemaless_consumes lf is_set ts d parts tvs : (d = false -> eoo_ok rec) ->
    Forall2 sl_elem_ok parts tvs -> (length parts < lf)%nat ->
    consumes (dec_schemaless rec lf is_set ts (body_len d (length (concat parts)))) (concat parts ++ body_end d)
             (guess_dv is_set ts tvs).
  Proof.
    intros Heoo HF Hlf s tl Hav. unfold dec_schemaless. rewrite resume_tell. rewrite <- app_assoc in Hav.
    exact (schemaless_loop_run is_set ts d Heoo parts tvs HF lf [] (pos s) (length (concat parts)) s tl Hlf Hav ltac:(intros _; lia)).
  Qed.
End SLoop.

(* a SET with two or more components all of which have the same tag set is read back as a SET OF
   (and then re-ordered by DER): excluded.  Distinct tags, as ASN.1 demands, are more than enough. *)
Definition set_mixed (ts: list ty) : bool :=
  match ts with
  | t1 :: _ :: _ => negb (forallb (fun t => tagset_eqb (tagset_of' t) (tagset_of' t1)) ts)
  | _ => true
  end.

(* [aset]: are SET OF / SET allowed *)
Fixpoint sl_frag (aset: bool) (T: ty) : bool :=
  match T with
  | TBool | TInt | TEnum | TBits | TOcts | TNull | TOid | TReal | TStr _ => true
  | TExp t x => negb (cls_eqb (tcls t) Univ) && sl_frag aset x
  | TSeqOf t => sl_frag aset t
  | TSetOf t => aset && sl_frag aset t
  | TSeq fs => forallb (fun f => is_req (fst f) && sl_frag aset (snd f)) fs
  | TSet fs => aset && forallb (fun f => is_req (fst f) && sl_frag aset (snd f)) fs && set_mixed (map snd fs)
  | TImp _ _ | TChoice _ | TAny => false
  end.

Fixpoint sl_val (ce cd: codec) (T: ty) (v: val) {struct T} : bool :=
  match T with
  | TImp _ x | TExp _ x => sl_val ce cd x v
  | TSeqOf t | TSetOf t => match v with VList xs => forallb (sl_val ce cd t) xs | _ => false end
  | TSeq fs | TSet fs =>
      match v with
      | VRec vs =>
          (fix go (fs: list (presence * ty)) (vs: list (option val)) : bool :=
             match fs, vs with
             | [], [] => true
             | f :: fs', Some x :: vs' => sl_val ce cd (snd f) x && go fs' vs'
             | _, _ => false
             end) fs vs
      | _ => false
      end
  | TChoice _ | TAny => false
  | _ => stage1_val ce cd T v
  end.

Definition slv_fields (ce cd: codec) : list (presence * ty) -> list (option val) -> bool :=
  fix go (fs: list (presence * ty)) (vs: list (option val)) : bool :=
    match fs, vs with
    | [], [] => true
    | f :: fs', Some x :: vs' => sl_val ce cd (snd f) x && go fs' vs'
    | _, _ => false
    end.

Lemma sl_val_seq ce cd fs vs : sl_val ce cd (TSeq fs) (VRec vs) = slv_fields ce cd fs vs.
Proof. reflexivity. Qed.
Lemma sl_val_set ce cd fs vs : sl_val ce cd (TSet fs) (VRec vs) = slv_fields ce cd fs vs.
Proof. reflexivity. Qed.

Lemma sl_val_base ce cd : forall T v, sl_val ce cd T v = sl_val ce cd (base_of T) v.
Proof.
  induction T as [| | | | | | | | n|fs IH|fs IH|t IH|t IH|alts IH| |tg x IH|tg x IH] using ty_ind'; intros v; try reflexivity.
  - cbn [base_of sl_val]. apply IH.
  - cbn [base_of sl_val]. apply IH.
Qed.

Lemma sl_val_prim ce cd T v : prim_base T = true -> sl_val ce cd T v = stage1_val ce cd T v.
Proof.
  intros Hp. rewrite sl_val_base, (stage1_val_base ce cd T). unfold prim_base in Hp.
  destruct (base_of T); try discriminate Hp; reflexivity.
Qed.

(* tag set of a type of the fragment: the base type's own universal tag, then the explicit tags *)
Lemma frag_shape aset : forall T, sl_frag aset T = true ->
  exists b0 r, tagset_of (base_of T) = Ok [b0] /\ tagset_of T = Ok (b0 :: r) /\ tcls b0 = Univ
               /\ Forall explicit_like r /\ sl_frag aset (base_of T) = true.
Proof.
  intros T H.
  destruct (explicit_shape (sl_frag aset) (fun _ _ => eq_refl) (fun _ _ => eq_refl) (fun _ => eq_refl) eq_refl T H)
    as (b0 & r & Hb & Hts & Hu & Hex & _ & Hfb).
  exists b0, r. repeat split; assumption.
Qed.

Lemma frag_prim aset : forall T, sl_frag aset T = true -> prim_base T = true -> univ_explicit T = true.
Proof.
  unfold prim_base.
  induction T as [| | | | | | | | n|fs IH|fs IH|t IH|t IH|alts IH| |tg x IH|tg x IH] using ty_ind';
    intros H Hp; try reflexivity; try discriminate H; try discriminate Hp.
  cbn [sl_frag] in H. apply Bool.andb_true_iff in H. destruct H as [Hcl H2].
  cbn [univ_explicit]. rewrite Hcl. cbn [andb]. exact (IH H2 Hp).
Qed.

(* what a type and a value show on the wire, and what the theorems compare: the tag set of every
   container and of every leaf, and the abstract content of every leaf *)
Inductive sk := SLeaf (ts: tagset) (a: aval) | SNode (ts: tagset) (cs: list sk).

(* W: the type with its tagging wrappers; T: what is left of it to look at *)
Fixpoint skel_aux (W T: ty) (v: val) {struct T} : sk :=
  match T with
  | TImp _ x | TExp _ x => skel_aux W x v
  | TSeqOf t | TSetOf t =>
      match v with VList xs => SNode (tagset_of' W) (map (skel_aux t t) xs) | _ => SLeaf (tagset_of' W) ABad end
  | TSeq fs | TSet fs =>
      match v with
      | VRec vs => SNode (tagset_of' W)
          ((fix go (fs: list (presence * ty)) (vs: list (option val)) : list sk :=
              match fs, vs with
              | f :: fs', Some x :: vs' => skel_aux (snd f) (snd f) x :: go fs' vs'
              | _ :: fs', None :: vs' => go fs' vs'
              | _, _ => []
              end) fs vs)
      | _ => SLeaf (tagset_of' W) ABad
      end
  | TChoice alts =>      (* an untagged CHOICE is transparent *)
      match v with
      | VChoice i x => (fix go (alts: list ty) (k: nat) : sk :=
           match alts, k with
           | a :: _, O => skel_aux a a x
           | _ :: r, S k' => go r k'
           | [], _ => SLeaf [] ABad
           end) alts i
      | _ => SLeaf [] ABad
      end
  | _ => SLeaf (tagset_of' W) (abs T v)
  end.

Definition skel (T: ty) (v: val) : sk := skel_aux T T v.

Fixpoint leaves_of (s: sk) : list (tagset * aval) :=
  match s with SLeaf ts a => [(ts, a)] | SNode _ cs => flat_map leaves_of cs end.

(* the leaves in order: tag set and abstract content of each *)
Definition leaves (T: ty) (v: val) : list (tagset * aval) := leaves_of (skel T v).

Definition skel_fields : list (presence * ty) -> list (option val) -> list sk :=
  fix go (fs: list (presence * ty)) (vs: list (option val)) : list sk :=
    match fs, vs with
    | f :: fs', Some x :: vs' => skel (snd f) x :: go fs' vs'
    | _ :: fs', None :: vs' => go fs' vs'
    | _, _ => []
    end.

Lemma skel_aux_base W : forall T v, skel_aux W T v = skel_aux W (base_of T) v.
Proof.
  induction T as [| | | | | | | | n|fs IH|fs IH|t IH|t IH|alts IH| |tg x IH|tg x IH] using ty_ind'; intros v; try reflexivity.
  - cbn [base_of skel_aux]. apply IH.
  - cbn [base_of skel_aux]. apply IH.
Qed.

Lemma skel_listof T t xs : base_of T = TSeqOf t \/ base_of T = TSetOf t ->
  skel T (VList xs) = SNode (tagset_of' T) (map (skel t) xs).
Proof. intros Hb. unfold skel at 1. rewrite skel_aux_base. destruct Hb as [-> | ->]; reflexivity. Qed.

Lemma skel_record T fs vs : base_of T = TSeq fs \/ base_of T = TSet fs ->
  skel T (VRec vs) = SNode (tagset_of' T) (skel_fields fs vs).
Proof. intros Hb. unfold skel at 1. rewrite skel_aux_base. destruct Hb as [-> | ->]; reflexivity. Qed.

Lemma skel_choice alts i x a : nth_error alts i = Some a -> skel (TChoice alts) (VChoice i x) = skel a x.
Proof.
  intros H. unfold skel. cbn [skel_aux]. rewrite (nth_loop (fun a => skel_aux a a x) (SLeaf [] ABad)), H. reflexivity.
Qed.

Lemma skel_leaf T v : prim_base T = true -> skel T v = SLeaf (tagset_of' T) (abs T v).
Proof.
  intros Hp. unfold skel. rewrite skel_aux_base, (abs_wrappers T v). unfold prim_base in Hp.
  destruct (base_of T); try discriminate Hp; reflexivity.
Qed.

Lemma enc_with_unfold ce d k T ec fl ts v : stable ce d k ->
  concrete_encoder ce (base_of T) = Ok (ec, fl) -> tagset_of T = Ok ts ->
  enc_with ce (enc_content ce) T (mo d k) v
  = (do cc <- enc_content ce (base_of T) ec fl (mo d k) v;
     let '(content, cns) := cc in frame ts content cns (mo d k) (ef_indef fl)).
Proof.
  intros Hst Hc Hts. unfold enc_with. rewrite Hst, concrete_encoder_base, Hc, Hts. cbn [bind].
  rewrite enc_content_base. reflexivity.
Qed.

Lemma der_unfold T ec fl ts v : concrete_encoder DER (base_of T) = Ok (ec, fl) -> tagset_of T = Ok ts ->
  enc_with DER (enc_content DER) T def_opts v
  = (do cc <- enc_content DER (base_of T) ec fl def_opts v;
     let '(content, cns) := cc in frame ts content cns def_opts (ef_indef fl)).
Proof. exact (enc_with_unfold DER true 0 T ec fl ts v stable_der). Qed.

Lemma enc_with_congr c T1 T2 o v1 v2 :
  concrete_encoder c T1 = concrete_encoder c T2 -> tagset_of T1 = tagset_of T2 ->
  (forall cd fl o', enc_content c (base_of T1) cd fl o' v1 = enc_content c (base_of T2) cd fl o' v2) ->
  enc_with c (enc_content c) T1 o v1 = enc_with c (enc_content c) T2 o v2.
Proof.
  intros H1 H2 H3. unfold enc_with. rewrite H1, H2.
  destruct (concrete_encoder c T2) as [[cd fl]|e]; cbn [bind]; [|reflexivity].
  destruct (tagset_of T2) as [ts|e]; cbn [bind]; [|reflexivity].
  rewrite (enc_content_base c T1), (enc_content_base c T2), H3. reflexivity.
Qed.

Lemma record_content c (is_set: bool) fs cd fl o vs :
  enc_content c (if is_set then TSet fs else TSeq fs) cd fl o (VRec vs)
  = (do parts <- enc_rec_fields_g c cd (omit_empty cd fl) o fs vs; record_finish cd parts).
Proof. destruct is_set; reflexivity. Qed.

Lemma listof_content c (is_set: bool) t cd fl o xs :
  enc_content c (if is_set then TSetOf t else TSeqOf t) cd fl o (VList xs)
  = (do parts <- enc_elems_g c t o xs; listof_finish cd parts).
Proof. destruct is_set; reflexivity. Qed.

Definition not_choice (T: ty) : Prop := match T with TChoice _ => False | _ => True end.

Lemma wrap_explicit_not_choice : forall r X, not_choice X -> not_choice (wrap_explicit r X).
Proof. induction r as [|t r IH]; intros X HX; cbn [wrap_explicit]; [exact HX|]. apply IH. exact I. Qed.

Lemma schemaless_ty_not_choice proto t0 r : not_choice proto -> not_choice (schemaless_ty proto (t0 :: r)).
Proof.
  intros Hp. unfold schemaless_ty. apply wrap_explicit_not_choice.
  destruct (tagset_of' proto) as [|p0 [|p1 l]]; try exact I. destruct (tag_eqb p0 t0); [exact Hp|exact I].
Qed.

Definition set_node (ts: tagset) : bool := match ts with t :: _ => tag_eqb t (utag true 17) | [] => false end.

(* the same tree, except that the children of a SET / SET OF node may come in another order *)
Inductive sk_sim : sk -> sk -> Prop :=
| sim_leaf ts a : sk_sim (SLeaf ts a) (SLeaf ts a)
| sim_node ts cs cs' cs'' : Permutation cs cs' -> (set_node ts = false -> cs' = cs) -> Forall2 sk_sim cs' cs'' ->
    sk_sim (SNode ts cs) (SNode ts cs'').

Lemma sk_sim_leaves : forall s s', sk_sim s s' -> Permutation (leaves_of s) (leaves_of s').
Proof.
  fix IH 3. intros s s' H. destruct H as [ts a|ts cs cs' cs'' Hp _ HF].
  - apply Permutation_refl.
  - cbn [leaves_of]. eapply perm_trans; [apply Permutation_flat_map; exact Hp|].
    clear Hp. induction HF as [|x y l l' Hxy HF IHF]; [apply perm_nil|].
    cbn [flat_map]. apply Permutation_app; [apply IH; exact Hxy|exact IHF].
Qed.

Fixpoint sk_sim_refl (s: sk) : sk_sim s s :=
  match s with
  | SLeaf ts a => sim_leaf ts a
  | SNode ts cs => sim_node ts cs cs cs (Permutation_refl cs) (fun _ => eq_refl)
      ((fix go (l: list sk) : Forall2 sk_sim l l :=
          match l with [] => Forall2_nil _ | c :: r => Forall2_cons c c (sk_sim_refl c) (go r) end) cs)
  end.

(* what the induction needs of the relation between the skeleton of the encoded value and that of
   the decoded one: equality ([perm] = false), or [sk_sim] when the encoder re-orders ([perm] = true) *)
Record skrel_ok (R: sk -> sk -> Prop) (perm: bool) : Prop := {
  sr_refl : forall s, R s s;
  sr_node : forall ts cs cs', Forall2 R cs cs' -> R (SNode ts cs) (SNode ts cs');
  sr_perm : perm = true -> forall ts cs cs' cs'', set_node ts = true -> Permutation cs cs' -> Forall2 R cs' cs'' ->
            R (SNode ts cs) (SNode ts cs'')
}.

Lemma skrel_eq : skrel_ok eq false.
Proof.
  split.
  - reflexivity.
  - intros ts cs cs' H. rewrite (Forall2_eq _ _ H). reflexivity.
  - discriminate.
Qed.

Lemma skrel_sim : skrel_ok sk_sim true.
Proof.
  split.
  - exact sk_sim_refl.
  - intros ts cs cs' H. exact (sim_node ts cs cs cs' (Permutation_refl cs) (fun _ => eq_refl) H).
  - intros _ ts cs cs' cs'' Hs Hp HF. apply (sim_node ts cs cs' cs'' Hp); [|exact HF].
    intros Hn. rewrite Hn in Hs. discriminate Hs.
Qed.

(* a member: a component or element together with its type *)
Definition skelm (m: ty * val) : sk := skel (fst m) (snd m).

(* what the induction gives for each member: the guessed member type and value *)
Definition item_res (R: sk -> sk -> Prop) (m tv: ty * val) : Prop :=
  tagset_of (fst tv) = tagset_of (fst m) /\ not_choice (fst tv) /\ R (skelm m) (skelm tv)
  /\ enc_with DER (enc_content DER) (fst tv) def_opts (snd tv) = enc_with DER (enc_content DER) (fst m) def_opts (snd m).

(* when the DER encoder refuses a value of the fragment, it is always with the same error, so
   that it refuses the value with its SET OF / SET members in another order alike *)
Definition der_err_ok (T: ty) (v: val) : Prop :=
  forall e, enc_with DER (enc_content DER) T def_opts v = Err e -> e = EMalformed.

(* what the induction establishes for one item in the mode (d, k) of encoder ce; tv: the guessed
   type and the decoded value; R relates the two skeletons.  The errors of DER matter only where
   the encoder re-orders, so not for BER (whose type map has string types - the time types - that DER
   encodes by a class of their own) *)
Definition sl_item (R: sk -> sk -> Prop) (ce cd: codec) (d: bool) (k: N) (T: ty) (v: val) : Prop :=
  (ce <> BER -> der_err_ok T v) /\
  forall b, enc_with ce (enc_content ce) T (mo d k) v = Ok b -> N.of_nat (length b) <= index_max ->
  (2 <= length b)%nat /\ hd 0 b <> 0 /\
  exists tv, item_res R (T, v) tv
    /\ forall f ae, (2 * length b <= f)%nat -> consumes (dec_call cd f SNone [] None ae false) b (DV (fst tv) (snd tv)).

Lemma enc_len_err n i e : enc_len n i = Err e -> e = EMalformed.
Proof.
  unfold enc_len. destruct i; [discriminate|]. destruct (N.ltb n 128); [discriminate|].
  destruct (Nat.ltb 126 (length (b256 n))); [|discriminate]. intros H; inversion H; reflexivity.
Qed.

Lemma frame_one_err t c d si sub e : frame_one t c d si sub = Err e -> e = EMalformed.
Proof.
  unfold frame_one. destruct (enc_len (N.of_nat (length sub)) (negb d && si)) as [l|e0] eqn:El; cbn [bind]; [discriminate|].
  intros H; injection H as <-. exact (enc_len_err _ _ _ El).
Qed.

Lemma frame_outer_err : forall r c d si sub e, frame_outer r c d si sub = Err e -> e = EMalformed.
Proof.
  induction r as [|t r IH]; intros c d si sub e H; cbn [frame_outer] in H; [discriminate|].
  destruct (frame_one t c d si sub) as [s1|e1] eqn:E1; cbn [bind] in H.
  - exact (IH _ _ _ _ _ H).
  - injection H as <-. exact (frame_one_err _ _ _ _ _ _ E1).
Qed.

Lemma frame_err ts content ic o si e : frame ts content ic o si = Err e -> e = EMalformed.
Proof.
  destruct ts as [|t0 r]; cbn [frame]; [discriminate|].
  destruct ((match content with [] => true | _ => false end) && ic && o_ifne o)%bool; [discriminate|].
  destruct (frame_one t0 ic (if ic then o_def o else true) si content) as [s0|e0] eqn:E0; cbn [bind].
  - apply frame_outer_err.
  - intros H; injection H as <-. exact (frame_one_err _ _ _ _ _ _ E0).
Qed.

(* the string types a sorting encoder knows are known to the DER encoder *)
Definition str_row_der (x: tkey * enc_codec * enc_flags) : bool :=
  match x with
  | (KStr n, EcOcts, _) => match concrete_encoder DER (TStr n) with Ok (EcOcts, _) => true | _ => false end
  | _ => true
  end.

Lemma known_string_der ce cd n : ce <> BER -> known_string ce cd n = true ->
  exists fl, concrete_encoder DER (TStr n) = Ok (EcOcts, fl).
Proof.
  unfold known_string. intros Hce H. apply Bool.andb_true_iff in H. destruct H as [H _].
  destruct (lookup3 (KStr n) (enc_type_map ce)) as [[ec ef]|] eqn:E; [|discriminate]. destruct ec; try discriminate.
  assert (Hrows: forallb str_row_der (enc_type_map ce) = true) by (destruct ce; [contradiction|vm_compute; reflexivity..]).
  destruct (lookup3_forallb _ _ _ _ _ Hrows E) as (k' & Hk & Hrow).
  destruct k'; try discriminate Hk. apply N.eqb_eq in Hk. subst n0. cbn [str_row_der] in Hrow.
  destruct (concrete_encoder DER (TStr n)) as [[ec fl]|]; [|discriminate]. destruct ec; try discriminate.
  exists fl. reflexivity.
Qed.

Lemma der_leaf_err ce cd T v : ce <> BER -> univ_explicit T = true -> stage1_val ce cd T v = true -> der_err_ok T v.
Proof.
  intros Hce Hue Hs e. destruct (univ_explicit_shape T Hue) as (b0 & r & _ & Hts & _).
  (* the contents octets: only OBJECT IDENTIFIER and REAL can be refused *)
  assert (Hcont: forall ec fl e0, concrete_encoder DER (base_of T) = Ok (ec, fl) ->
            enc_content DER (base_of T) ec fl def_opts v = Err e0 -> e0 = EMalformed).
  { unfold stage1_val in Hs.
    destruct (base_of T) eqn:Hb; destruct v as [bb|z|bs|bo|cs| |arcs|rr|vfs|xs|i x|ab]; try discriminate Hs;
      intros ec fl e0 Hc H; try (vm_compute in Hc; inversion Hc; subst ec fl; cbn [enc_content] in H; try discriminate H).
    - unfold enc_oid in H. destruct (oid_first arcs) as [subs|e1] eqn:Eo; cbn [bind] in H; [discriminate|].
      injection H as <-. unfold oid_first in Eo.
      destruct arcs as [|f1 [|f2 rest]]; try (injection Eo as <-; reflexivity).
      destruct (N.leb f2 39); [destruct (N.eqb f1 1); [discriminate|destruct (N.eqb f1 0); [discriminate|destruct (N.eqb f1 2); [discriminate|injection Eo as <-; reflexivity]]]|].
      destruct (N.eqb f1 2); [discriminate|injection Eo as <-; reflexivity].
    - destruct (enc_real rr) as [c0|e1] eqn:Er; cbn [bind] in H; [discriminate|]. injection H as <-.
      destruct rr as [| |m ex|m ex|]; try discriminate Hs; try discriminate Er.
      unfold enc_real in Er. destruct (Z.eqb m 0); [discriminate|].
      destruct (strip2 _ _ ex) as [m' e']. cbv zeta in Er.
      destruct (Nat.ltb 255 (length (exp_octets e'))); [injection Er as <-; reflexivity|].
      destruct (length (exp_octets e')) as [|[|[|[|?]]]]; discriminate Er.
    - apply Bool.andb_true_iff in Hs. destruct Hs as [Hk _].
      destruct (known_string_der ce cd n Hce Hk) as (fl' & Hc'). rewrite Hc' in Hc. inversion Hc; subst ec fl.
      cbn [enc_content] in H. discriminate H. }
  destruct (concrete_encoder DER (base_of T)) as [[ec fl]|e1] eqn:Hc.
  - rewrite (der_unfold T ec fl _ v Hc Hts).
    destruct (enc_content DER (base_of T) ec fl def_opts v) as [[content ic]|e0] eqn:Ec; cbn [bind].
    + apply frame_err.
    + intros H; injection H as <-. exact (Hcont ec fl e0 eq_refl Ec).
  - unfold enc_with. rewrite concrete_encoder_base, Hc. intros H; injection H as <-.
    unfold concrete_encoder in Hc. destruct (lookup3 _ (enc_type_map DER)); [discriminate|].
    destruct (lookup3 _ (enc_tag_map DER)); [discriminate|]. injection Hc as <-. reflexivity.
Qed.

(* the DER contents octets of a simple value are determined by its abstract content *)
Lemma leaf_content_abs ce cd T v v' ec fl o : stage1_val ce cd T v = true ->
  abs (sl_proto (base_of T)) v' = abs (base_of T) v ->
  enc_content DER (sl_proto (base_of T)) ec fl o v' = enc_content DER (base_of T) ec fl o v.
Proof.
  unfold stage1_val. intros Hs Ha.
  destruct (base_of T) eqn:Hb; destruct v as [bb|z|bs|bo|cs| |arcs|r|vfs|xs|i x|ab]; try discriminate Hs;
    cbn [sl_proto] in *; cbn [abs] in Ha.
  - destruct v'; try discriminate Ha. inversion Ha; subst. reflexivity.
  - destruct v'; try discriminate Ha. inversion Ha; subst. reflexivity.
  - destruct v'; try discriminate Ha. inversion Ha; subst. reflexivity.
  - destruct v'; try discriminate Ha. inversion Ha; subst. reflexivity.
  - destruct v'; try discriminate Ha. inversion Ha; subst. reflexivity.
  - destruct v'; try discriminate Ha. reflexivity.
  - destruct v'; try discriminate Ha. inversion Ha; subst. reflexivity.
  - destruct v' as [| | | | | | |r'| | | |]; try discriminate Ha. injection Ha as Ha.
    assert (Hr: enc_real r' = enc_real r).
    { apply DerAbsFunction.enc_real_abs.
      - (* a base-10 value has another abstract content *)
        destruct r' as [| |m2 e2|m2 e2|]; try reflexivity. exfalso.
        assert (Hdec: abs_real (RDec m2 e2) = AZero \/ exists m' e', abs_real (RDec m2 e2) = ADec m' e').
        { unfold abs_real. destruct (Z.eqb m2 0); [left; reflexivity|]. destruct (strip_factor _ _ m2 e2). right; eauto. }
        destruct r as [| |m e|m e|]; try discriminate Hs; destruct Hdec as [H|(m' & e' & H)]; rewrite H in Ha;
          try discriminate Ha; unfold abs_real in Ha; (destruct (Z.eqb m 0); [discriminate Hs|]);
          destruct (strip_factor _ _ m e); discriminate Ha.
      - destruct r; try reflexivity; discriminate Hs.
      - rewrite Ha. destruct r as [| |m e|m e|]; try discriminate Hs; try reflexivity.
        unfold abs_real. destruct (Z.eqb m 0); [reflexivity|]. destruct (strip_factor _ _ m e).
        cbn [areal_eqb]. rewrite !Z.eqb_refl. reflexivity. }
    cbn [enc_content]. rewrite Hr. reflexivity.
  - destruct v' as [| | |b'|cs'| | | | | | |]; try discriminate Ha.
    + inversion Ha; subst. reflexivity.
    + inversion Ha; subst. reflexivity.
Qed.

Lemma sl_ty_not_choice T : univ_explicit T = true -> not_choice (sl_ty T).
Proof.
  intros Hue. destruct (univ_explicit_shape T Hue) as (b0 & r & _ & Hts & _).
  unfold sl_ty. rewrite (tagset_of'_ok T _ Hts). apply schemaless_ty_not_choice.
  pose proof (univ_explicit_prim T Hue) as Hp. unfold prim_base in Hp.
  destruct (base_of T); try discriminate Hp; exact I.
Qed.

Lemma leaf_item R perm ce cd d k T v : skrel_ok R perm -> stable ce d k -> reads cd d k ->
  univ_explicit T = true -> (d = false -> f01_class T = false) -> stage1_val ce cd T v = true ->
  sl_item R ce cd d k T v.
Proof.
  intros HR Hst Hrd Hue Hf01 Hs. split; [intros Hce; exact (der_leaf_err ce cd T v Hce Hue Hs)|]. intros b He Hmax.
  destruct (leaf_consumes ce cd d k T v b Hst Hrd Hue Hf01 Hs He Hmax) as (H2 & Hhd & vdec & Habs & Hc).
  split; [exact H2|]. split; [exact Hhd|]. exists (sl_ty T, vdec). split; [|exact Hc].
  destruct (sl_ty_facts T Hue) as [Htags Hbase]. pose proof (univ_explicit_prim T Hue) as Hp.
  assert (Hp0: prim_base (sl_ty T) = true).
  { unfold prim_base in *. rewrite Hbase. destruct (base_of T); try discriminate Hp; reflexivity. }
  split; [exact Htags|]. split; [exact (sl_ty_not_choice T Hue)|]. unfold skelm. cbn [fst snd]. split.
  - rewrite (skel_leaf T v Hp), (skel_leaf (sl_ty T) vdec Hp0), Habs.
    unfold tagset_of'. rewrite Htags. apply (sr_refl R perm HR).
  - apply enc_with_congr.
    + rewrite (concrete_encoder_base DER (sl_ty T)), (concrete_encoder_base DER T), Hbase.
      unfold prim_base in Hp. destruct (base_of T); try discriminate Hp; reflexivity.
    + exact Htags.
    + intros ec fl o'. rewrite Hbase. apply (leaf_content_abs ce cd T v vdec ec fl o' Hs).
      rewrite <- Hbase, <- (abs_wrappers (sl_ty T) vdec), <- (abs_wrappers T v). exact Habs.
Qed.

(* the outermost tag of a member's type: what the components of a SET are sorted by *)
Definition keym (m: ty * val) : tagset := last_tag (tagset_of' (fst m)).

Definition enc_members (c: codec) (o: eopts) : list (ty * val) -> res (list (tagset * bytes)) :=
  fix go (ms: list (ty * val)) : res (list (tagset * bytes)) :=
  match ms with
  | [] => Ok []
  | m :: r => do b <- enc_with c (enc_content c) (fst m) o (snd m); do rest <- go r; Ok ((keym m, b) :: rest)
  end.

(* DER: every member with the outermost tag of its type *)
Definition der_members : list (ty * val) -> res (list (tagset * bytes)) :=
  fix go (ms: list (ty * val)) : res (list (tagset * bytes)) :=
  match ms with
  | [] => Ok []
  | m :: r => do b <- enc_with DER (enc_content DER) (fst m) def_opts (snd m); do rest <- go r;
              Ok ((last_tag (tagset_of' (fst m)), b) :: rest)
  end.

Definition der_container (ts: tagset) (arr: list (tagset * bytes) -> list bytes) (ms: list (ty * val)) : res bytes :=
  do kps <- der_members ms; frame ts (concat (arr kps)) true def_opts true.

Lemma der_members_eq : der_members = enc_members DER def_opts.
Proof. reflexivity. Qed.

Definition em_rel (c: codec) (o: eopts) (m: ty * val) (kp: tagset * bytes) : Prop :=
  enc_with c (enc_content c) (fst m) o (snd m) = Ok (snd kp) /\ fst kp = keym m.

Lemma enc_members_F2 c o : forall ms kps, enc_members c o ms = Ok kps <-> Forall2 (em_rel c o) ms kps.
Proof.
  induction ms as [|m ms IH]; intros kps; split; intros H.
  - inversion H; subst. constructor.
  - inversion H; subst. reflexivity.
  - cbn [enc_members] in H.
    destruct (enc_with c (enc_content c) (fst m) o (snd m)) as [p|e] eqn:Ep; cbn [bind] in H; [|discriminate].
    destruct (enc_members c o ms) as [r|e] eqn:E; cbn [bind] in H; [|discriminate].
    inversion H; subst. constructor; [split; [exact Ep|reflexivity]|]. apply IH. reflexivity.
  - inversion H as [|? kp ? kps' [Hm Hk] HF]; subst. cbn [enc_members]. rewrite Hm. cbn [bind].
    apply IH in HF. rewrite HF. cbn [bind]. destruct kp as [k0 p]. cbn [fst snd] in *. subst k0. reflexivity.
Qed.

Lemma enc_members_length c o ms kps : enc_members c o ms = Ok kps -> length kps = length ms.
Proof. intros H. apply enc_members_F2 in H. symmetry. exact (Forall2_length _ _ _ H). Qed.

Lemma enc_members_err c o : forall ms e, enc_members c o ms = Err e ->
  exists m, In m ms /\ enc_with c (enc_content c) (fst m) o (snd m) = Err e.
Proof.
  induction ms as [|m ms IH]; intros e H; cbn [enc_members] in H; [discriminate|].
  destruct (enc_with c (enc_content c) (fst m) o (snd m)) as [p|e1] eqn:Ep; cbn [bind] in H.
  - destruct (enc_members c o ms) as [r|e2] eqn:E; cbn [bind] in H; [discriminate|]. injection H as <-.
    destruct (IH e2 eq_refl) as (m' & Hin & Hm'). exists m'. split; [right; exact Hin|exact Hm'].
  - injection H as <-. exists m. split; [left; reflexivity|exact Ep].
Qed.

Lemma enc_members_perm c o ms kps kps' : enc_members c o ms = Ok kps -> Permutation kps kps' ->
  exists ms', Permutation ms ms' /\ enc_members c o ms' = Ok kps'.
Proof.
  intros H Hp. apply enc_members_F2 in H.
  destruct (Forall2_perm_r _ ms kps kps' H Hp) as (ms' & Hpm & HF).
  exists ms'. split; [exact Hpm|]. apply enc_members_F2. exact HF.
Qed.

Section SortF2.
  Context {A B K: Type} (ltb: K -> K -> bool) (ka: A -> K) (kb: B -> K) (P: A -> B -> Prop).
  Hypothesis Hkey : forall a b, P a b -> ka a = kb b.

  Lemma insert_by_F2 a b : P a b -> forall la lb, Forall2 P la lb ->
    Forall2 P (insert_by ltb ka a la) (insert_by ltb kb b lb).
  Proof.
    intros Hab la lb HF. induction HF as [|x y la lb Hxy HF IH]; cbn [insert_by].
    - constructor; [exact Hab|constructor].
    - rewrite (Hkey _ _ Hab), (Hkey _ _ Hxy). destruct (ltb (kb y) (kb b)).
      + constructor; [exact Hxy|exact IH].
      + constructor; [exact Hab|]. constructor; assumption.
  Qed.

  Lemma sort_by_F2 : forall la lb, Forall2 P la lb -> Forall2 P (sort_by ltb ka la) (sort_by ltb kb lb).
  Proof.
    induction 1 as [|x y la lb Hxy HF IH]; [constructor|].
    change (sort_by ltb ka (x :: la)) with (insert_by ltb ka x (sort_by ltb ka la)).
    change (sort_by ltb kb (y :: lb)) with (insert_by ltb kb y (sort_by ltb kb lb)).
    apply insert_by_F2; assumption.
  Qed.
End SortF2.

Lemma enc_members_sorted c o ms kps : enc_members c o ms = Ok kps ->
  enc_members c o (sort_by tagset_ltb keym ms) = Ok (sort_by tagset_ltb fst kps).
Proof.
  rewrite !enc_members_F2. apply (sort_by_F2 tagset_ltb keym fst). intros m kp [_ Hk]. symmetry. exact Hk.
Qed.

Lemma enc_members_snd c o : forall ms ms',
  Forall2 (fun m m' => enc_with c (enc_content c) (fst m) o (snd m) = enc_with c (enc_content c) (fst m') o (snd m')) ms ms' ->
  match enc_members c o ms, enc_members c o ms' with
  | Ok p, Ok p' => map snd p = map snd p'
  | Err e, Err e' => e = e'
  | _, _ => False
  end.
Proof.
  induction 1 as [|m m' ms ms' Hm _ IH]; [reflexivity|]. cbn [enc_members]. rewrite Hm.
  destruct (enc_with c (enc_content c) (fst m') o (snd m')) as [b|e]; cbn [bind]; [|reflexivity].
  destruct (enc_members c o ms) as [r|e]; destruct (enc_members c o ms') as [r'|e']; cbn [bind]; try contradiction.
  - cbn [map snd]. rewrite IH. reflexivity.
  - exact IH.
Qed.

(* members that encode alike under the same outermost tags *)
Definition der_same (m tv: ty * val) : Prop :=
  tagset_of (fst tv) = tagset_of (fst m)
  /\ enc_with DER (enc_content DER) (fst tv) def_opts (snd tv) = enc_with DER (enc_content DER) (fst m) def_opts (snd m).

Lemma der_members_congr : forall ms tvs, Forall2 der_same ms tvs -> der_members tvs = der_members ms.
Proof.
  induction 1 as [|m tv ms tvs [Ht He] _ IH]; [reflexivity|].
  cbn [der_members]. rewrite He, IH. unfold tagset_of'. rewrite Ht. reflexivity.
Qed.

Lemma elems_members c o t : forall xs,
  enc_elems_g c t o xs = (do kps <- enc_members c o (map (pair t) xs); Ok (map snd kps)).
Proof.
  induction xs as [|x xs IH]; [reflexivity|]. rewrite enc_elems_g_cons. cbn [map enc_members fst snd]. unfold enc.
  destruct (enc_with c (enc_content c) t o x) as [p|e]; cbn [bind]; [|reflexivity].
  rewrite IH. destruct (enc_members c o (map (pair t) xs)) as [kps|e]; reflexivity.
Qed.

Definition rec_members : list (presence * ty) -> list (option val) -> list (ty * val) :=
  fix go (fs: list (presence * ty)) (vs: list (option val)) : list (ty * val) :=
    match fs, vs with
    | f :: fs', Some x :: vs' => (snd f, x) :: go fs' vs'
    | _, _ => []
    end.

(* fs all mandatory, vs one filled slot per component *)
Definition rec_full : list (presence * ty) -> list (option val) -> bool :=
  fix go (fs: list (presence * ty)) (vs: list (option val)) : bool :=
    match fs, vs with
    | [], [] => true
    | f :: fs', Some x :: vs' => is_req (fst f) && go fs' vs'
    | _, _ => false
    end.

Lemma fields_emit c cd omit o p ft fs x vs :
  (forall dv, p = Def dv -> val_py_eq x dv = Some false) ->
  enc_rec_fields_g c cd omit o ((p, ft) :: fs) (Some x :: vs)
  = (do b <- enc_with c (enc_content c) ft (if omit then mkOpts (o_def o) (o_chunk o) (match p with Opt => true | _ => false end) else o) x;
     do rest <- enc_rec_fields_g c cd omit o fs vs;
     Ok ((set_sort_key (match cd with EcSetDer => true | _ => false end) ft x, b) :: rest)).
Proof.
  intros Hd. destruct p as [| |dv]; try reflexivity.
  cbn [enc_rec_fields_g]. rewrite (Hd dv eq_refl). reflexivity.
Qed.

Lemma fields_emit_req c cd omit d k ft fs x vs :
  enc_rec_fields_g c cd omit (mo d k) ((Req, ft) :: fs) (Some x :: vs)
  = (do b <- enc_with c (enc_content c) ft (mo d k) x;
     do rest <- enc_rec_fields_g c cd omit (mo d k) fs vs;
     Ok ((set_sort_key (match cd with EcSetDer => true | _ => false end) ft x, b) :: rest)).
Proof. destruct omit; reflexivity. Qed.

Lemma fields_skip_def c cd omit o dv ft fs x vs : val_py_eq x dv = Some true ->
  enc_rec_fields_g c cd omit o ((Def dv, ft) :: fs) (Some x :: vs) = enc_rec_fields_g c cd omit o fs vs.
Proof. intros H. cbn [enc_rec_fields_g]. rewrite H. reflexivity. Qed.

Lemma fields_skip_none c cd omit o p ft fs vs : is_req p = false ->
  enc_rec_fields_g c cd omit o ((p, ft) :: fs) (None :: vs) = enc_rec_fields_g c cd omit o fs vs.
Proof. intros H. destruct p; try discriminate H; reflexivity. Qed.

Lemma sort_key_plain dyn T v : not_choice T -> set_sort_key dyn T v = last_tag (tagset_of' T).
Proof. intros H. destruct dyn; destruct T; try reflexivity; destruct H. Qed.

(* the components of a SEQUENCE / SET none of which is an untagged CHOICE, as members: the static
   and the dynamic sort key are both the outermost tag *)
Lemma fields_members c cd omit d k : forall fs vs, rec_full fs vs = true -> Forall (fun f => not_choice (snd f)) fs ->
  enc_rec_fields_g c cd omit (mo d k) fs vs = enc_members c (mo d k) (rec_members fs vs).
Proof.
  induction fs as [|[p ft] fs IH]; intros vs Hf Hnc.
  - destruct vs; [reflexivity|discriminate Hf].
  - destruct vs as [|[x|] vs]; try discriminate Hf.
    change (rec_full ((p, ft) :: fs) (Some x :: vs)) with (is_req p && rec_full fs vs)%bool in Hf.
    apply Bool.andb_true_iff in Hf. destruct Hf as [Hp Hf]. destruct p; try discriminate Hp.
    inversion Hnc as [|? ? Hn Hncs]; subst. cbn [snd] in Hn.
    change (rec_members ((Req, ft) :: fs) (Some x :: vs)) with ((ft, x) :: rec_members fs vs).
    rewrite fields_emit_req, (IH vs Hf Hncs). cbn [enc_members fst snd]. unfold keym. cbn [fst].
    rewrite (sort_key_plain (match cd with EcSetDer => true | _ => false end) ft x Hn). reflexivity.
Qed.

Lemma rec_members_fst : forall fs vs, rec_full fs vs = true -> map fst (rec_members fs vs) = map snd fs.
Proof.
  induction fs as [|f fs IH]; intros vs Hf; destruct vs as [|[x|] vs]; try discriminate Hf; [reflexivity|].
  change (rec_full (f :: fs) (Some x :: vs)) with (is_req (fst f) && rec_full fs vs)%bool in Hf.
  apply Bool.andb_true_iff in Hf. destruct Hf as [_ Hf].
  change (rec_members (f :: fs) (Some x :: vs)) with ((snd f, x) :: rec_members fs vs).
  cbn [map fst]. rewrite (IH vs Hf). reflexivity.
Qed.

Lemma skel_fields_members : forall fs vs, rec_full fs vs = true -> skel_fields fs vs = map skelm (rec_members fs vs).
Proof.
  induction fs as [|f fs IH]; intros vs Hf; destruct vs as [|[x|] vs]; try discriminate Hf; [reflexivity|].
  change (rec_full (f :: fs) (Some x :: vs)) with (is_req (fst f) && rec_full fs vs)%bool in Hf.
  apply Bool.andb_true_iff in Hf. destruct Hf as [_ Hf].
  change (skel_fields (f :: fs) (Some x :: vs)) with (skel (snd f) x :: skel_fields fs vs).
  change (rec_members (f :: fs) (Some x :: vs)) with ((snd f, x) :: rec_members fs vs).
  cbn [map]. rewrite (IH vs Hf). reflexivity.
Qed.

Definition enc_container (ce: codec) (d: bool) (k: N) (ts: tagset) (arr: list (tagset * bytes) -> list bytes)
           (ms: list (ty * val)) : res bytes :=
  do kps <- enc_members ce (mo d k) ms; frame ts (concat (arr kps)) true (mo d k) true.

Definition arr_listof (sorted: bool) : list (tagset * bytes) -> list bytes :=
  if sorted then (fun kps => sort_setof (map snd kps)) else map snd.
Definition arr_record (sorted: bool) : list (tagset * bytes) -> list bytes :=
  if sorted then (fun kps => map snd (sort_by tagset_ltb fst kps)) else map snd.

(* CER and DER sort the members of SET OF / SET, BER does not *)
Lemma enc_listof ce d k T t (is_set: bool) ts xs : stable ce d k ->
  base_of T = (if is_set then TSetOf t else TSeqOf t) -> tagset_of T = Ok ts ->
  enc_with ce (enc_content ce) T (mo d k) (VList xs)
  = enc_container ce d k ts (arr_listof (is_set && sorts ce)) (map (pair t) xs).
Proof.
  intros Hst Hb Hts.
  assert (Hc: exists ec fl, concrete_encoder ce (base_of T) = Ok (ec, fl) /\ ef_indef fl = true
              /\ forall kps, listof_finish ec (map snd kps) = Ok (concat (arr_listof (is_set && sorts ce) kps), true))
    by (rewrite Hb; destruct ce, is_set; eexists; eexists; (split; [reflexivity|]); split; reflexivity).
  destruct Hc as (ec & fl & Hc & Hsi & Hfin).
  rewrite (enc_with_unfold ce d k T ec fl ts _ Hst Hc Hts), Hb, Hsi, listof_content, elems_members.
  unfold enc_container.
  destruct (enc_members ce (mo d k) (map (pair t) xs)) as [kps|e]; cbn [bind]; [|reflexivity]. rewrite Hfin. reflexivity.
Qed.

Lemma enc_record ce d k T fs (is_set: bool) ts vs : stable ce d k ->
  base_of T = (if is_set then TSet fs else TSeq fs) -> tagset_of T = Ok ts ->
  rec_full fs vs = true -> Forall (fun f => not_choice (snd f)) fs ->
  enc_with ce (enc_content ce) T (mo d k) (VRec vs)
  = enc_container ce d k ts (arr_record (is_set && sorts ce)) (rec_members fs vs).
Proof.
  intros Hst Hb Hts Hf Hnc.
  assert (Hc: exists ec fl, concrete_encoder ce (base_of T) = Ok (ec, fl) /\ ef_indef fl = true
              /\ forall kps, record_finish ec kps = Ok (concat (arr_record (is_set && sorts ce) kps), true))
    by (rewrite Hb; destruct ce, is_set; eexists; eexists; (split; [reflexivity|]); split; reflexivity).
  destruct Hc as (ec & fl & Hc & Hsi & Hfin).
  rewrite (enc_with_unfold ce d k T ec fl ts _ Hst Hc Hts), Hb, Hsi, record_content.
  rewrite (fields_members ce _ _ d k fs vs Hf Hnc). unfold enc_container.
  destruct (enc_members ce (mo d k) (rec_members fs vs)) as [kps|e]; cbn [bind]; [|reflexivity]. rewrite Hfin. reflexivity.
Qed.

Lemma der_listof T t (is_set: bool) ts xs : base_of T = (if is_set then TSetOf t else TSeqOf t) -> tagset_of T = Ok ts ->
  enc_with DER (enc_content DER) T def_opts (VList xs) = der_container ts (arr_listof is_set) (map (pair t) xs).
Proof.
  intros Hb Hts. pose proof (enc_listof DER true 0 T t is_set ts xs stable_der Hb Hts) as H.
  cbn [sorts] in H. rewrite Bool.andb_true_r in H. exact H.
Qed.

Lemma der_record T fs (is_set: bool) ts vs : base_of T = (if is_set then TSet fs else TSeq fs) -> tagset_of T = Ok ts ->
  rec_full fs vs = true -> Forall (fun f => not_choice (snd f)) fs ->
  enc_with DER (enc_content DER) T def_opts (VRec vs) = der_container ts (arr_record is_set) (rec_members fs vs).
Proof.
  intros Hb Hts Hf Hnc. pose proof (enc_record DER true 0 T fs is_set ts vs stable_der Hb Hts Hf Hnc) as H.
  cbn [sorts] in H. rewrite Bool.andb_true_r in H. exact H.
Qed.

(* an untagged CHOICE is encoded as the alternative chosen *)
Lemma choice_enc ce d k alts i a x : stable ce d k -> nth_error alts i = Some a ->
  enc_with ce (enc_content ce) (TChoice alts) (mo d k) (VChoice i x) = enc_with ce (enc_content ce) a (mo d k) x.
Proof.
  intros Hst Hn.
  assert (Hc: exists fl, concrete_encoder ce (base_of (TChoice alts)) = Ok (EcChoice, fl))
    by (destruct ce; eexists; vm_compute; reflexivity).
  destruct Hc as (fl & Hc). rewrite (enc_with_unfold ce d k _ _ _ [] _ Hst Hc eq_refl). cbn [base_of].
  rewrite enc_content_choice_g, Hn. unfold enc.
  destruct (enc_with ce (enc_content ce) a (mo d k) x) as [p|e]; reflexivity.
Qed.

Lemma der_elems_choice : forall tvs pre,
  enc_elems_g DER (TChoice (pre ++ map fst tvs)) def_opts (number_choices (length pre) tvs)
  = (do kps <- der_members tvs; Ok (map snd kps)).
Proof.
  induction tvs as [|tv tvs IH]; intros pre; [reflexivity|].
  cbn [number_choices der_members map]. rewrite enc_elems_g_cons. unfold enc.
  rewrite (choice_enc DER true 0 (pre ++ fst tv :: map fst tvs) (length pre) (fst tv) (snd tv) stable_der
             (nth_error_app_exact pre (fst tv) (map fst tvs)) : enc_with DER _ _ def_opts _ = enc_with DER _ _ def_opts _).
  destruct (enc_with DER (enc_content DER) (fst tv) def_opts (snd tv)) as [p|e]; cbn [bind]; [|reflexivity].
  specialize (IH (pre ++ [fst tv])). rewrite <- app_assoc in IH. cbn [app] in IH.
  rewrite app_length in IH. cbn [length] in IH. rewrite Nat.add_1_r in IH.
  rewrite IH. destruct (der_members tvs) as [kps|e]; reflexivity.
Qed.

Lemma skel_choices : forall tvs pre,
  map (skel (TChoice (pre ++ map fst tvs))) (number_choices (length pre) tvs) = map skelm tvs.
Proof.
  induction tvs as [|tv tvs IH]; intros pre; [reflexivity|].
  cbn [number_choices map]. rewrite (skel_choice _ _ _ _ (nth_error_app_exact pre (fst tv) (map fst tvs))).
  specialize (IH (pre ++ [fst tv])). rewrite <- app_assoc in IH. cbn [app] in IH.
  rewrite app_length in IH. cbn [length] in IH. rewrite Nat.add_1_r in IH.
  rewrite IH. reflexivity.
Qed.

Lemma der_setof_choice T tvs ts : base_of T = TSetOf (TChoice (map fst tvs)) -> tagset_of T = Ok ts ->
  enc_with DER (enc_content DER) T def_opts (VList (number_choices O tvs)) = der_container ts (arr_listof true) tvs.
Proof.
  intros Hb Hts.
  assert (Hc: concrete_encoder DER (base_of T) = Ok (EcSetOfCer, mkEncFlags true false false None 0 0))
    by (rewrite Hb; reflexivity).
  rewrite (der_unfold T _ _ ts _ Hc Hts), Hb, enc_content_setof_g.
  pose proof (der_elems_choice tvs []) as Hel. cbn [app length] in Hel. rewrite Hel. unfold der_container.
  destruct (der_members tvs) as [kps|e]; reflexivity.
Qed.

Definition all_same (tvs: list (ty * val)) : bool :=
  match tvs with
  | [] => true
  | (T0, _) :: _ => forallb (fun tv => tagset_eqb (tagset_of' (fst tv)) (tagset_of' T0)) tvs
  end.

Definition arr_guess (is_set: bool) (tvs: list (ty * val)) : list (tagset * bytes) -> list bytes :=
  if is_set then (if all_same tvs then (fun kps => sort_setof (map snd kps))
                  else (fun kps => map snd (sort_by tagset_ltb fst kps)))
  else map snd.

Definition rec_ty_of (tvs: list (ty * val)) : list (presence * ty) := map (fun tv => (Req, fst tv)) tvs.
Definition rec_val_of (tvs: list (ty * val)) : list (option val) := map (fun tv => Some (snd tv)) tvs.

Lemma guess_proto_cons is_set tv rest :
  guess_proto is_set (tv :: rest)
  = if is_set then (if all_same (tv :: rest) then TSetOf (TChoice (map fst (tv :: rest))) else TSet (rec_ty_of (tv :: rest)))
    else TSeq (rec_ty_of (tv :: rest)).
Proof. destruct tv; reflexivity. Qed.

Lemma guess_val_cons is_set tv rest :
  guess_val is_set (tv :: rest)
  = if is_set && all_same (tv :: rest) then VList (number_choices O (tv :: rest)) else VRec (rec_val_of (tv :: rest)).
Proof. destruct tv; reflexivity. Qed.

Lemma rec_of_full : forall tvs, rec_full (rec_ty_of tvs) (rec_val_of tvs) = true.
Proof. induction tvs as [|tv tvs IH]; [reflexivity|]. cbn. exact IH. Qed.

Lemma rec_of_members : forall tvs, rec_members (rec_ty_of tvs) (rec_val_of tvs) = tvs.
Proof.
  induction tvs as [|[T0 v0] tvs IH]; [reflexivity|].
  change (rec_members (rec_ty_of ((T0, v0) :: tvs)) (rec_val_of ((T0, v0) :: tvs)))
    with ((T0, v0) :: rec_members (rec_ty_of tvs) (rec_val_of tvs)).
  rewrite IH. reflexivity.
Qed.

Lemma rec_of_not_choice tvs : Forall (fun tv => not_choice (fst tv)) tvs ->
  Forall (fun f : presence * ty => not_choice (snd f)) (rec_ty_of tvs).
Proof. intros H. unfold rec_ty_of. apply Forall_map. cbn [snd]. exact H. Qed.

Lemma schemaless_ty_own proto b0 r : tagset_of proto = Ok [b0] -> schemaless_ty proto (b0 :: r) = wrap_explicit r proto.
Proof. intros H. unfold schemaless_ty, tagset_of'. rewrite H, tag_eqb_refl. reflexivity. Qed.

Lemma guess_wrap proto b0 r : tagset_of proto = Ok [b0] -> Forall explicit_like r -> not_choice proto ->
  base_of proto = proto ->
  tagset_of (schemaless_ty proto (b0 :: r)) = Ok (b0 :: r) /\ not_choice (schemaless_ty proto (b0 :: r))
  /\ base_of (schemaless_ty proto (b0 :: r)) = proto.
Proof.
  intros Hp Hex Hnc Hb. rewrite (schemaless_ty_own proto b0 r Hp).
  split; [apply (wrap_explicit_tags_exact r proto [b0]); assumption|].
  split; [apply wrap_explicit_not_choice; exact Hnc|]. rewrite base_of_wrap_explicit. exact Hb.
Qed.

Theorem guess_props (is_set: bool) b0 r tvs :
  b0 = utag true (if is_set then 17 else 16) -> Forall explicit_like r ->
  Forall (fun tv => not_choice (fst tv)) tvs ->
  let T0 := schemaless_ty (guess_proto is_set tvs) (b0 :: r) in
  let v0 := guess_val is_set tvs in
  tagset_of T0 = Ok (b0 :: r) /\ not_choice T0
  /\ skel T0 v0 = SNode (b0 :: r) (map skelm tvs)
  /\ enc_with DER (enc_content DER) T0 def_opts v0 = der_container (b0 :: r) (arr_guess is_set tvs) tvs.
Proof.
  intros Hb0 Hex Hnc. cbv zeta.
  destruct tvs as [|tv rest].
  - (* no members: SEQUENCE OF / SET OF with no elements *)
    cbn [guess_proto guess_val].
    assert (Hp: tagset_of (if is_set then TSetOf TNull else TSeqOf TNull) = Ok [b0]) by (subst b0; destruct is_set; reflexivity).
    destruct (guess_wrap _ b0 r Hp Hex) as (Hts & Hn & Hbase); [destruct is_set; exact I|destruct is_set; reflexivity|].
    split; [exact Hts|]. split; [exact Hn|].
    destruct is_set.
    + split; [rewrite (skel_listof _ TNull [] (or_intror Hbase)), (tagset_of'_ok _ _ Hts); reflexivity|].
      rewrite (der_listof _ TNull true _ [] Hbase Hts). reflexivity.
    + split; [rewrite (skel_listof _ TNull [] (or_introl Hbase)), (tagset_of'_ok _ _ Hts); reflexivity|].
      rewrite (der_listof _ TNull false _ [] Hbase Hts). reflexivity.
  - rewrite guess_proto_cons, guess_val_cons. set (tvs := tv :: rest) in *.
    destruct is_set; cbn [andb].
    + destruct (all_same tvs) eqn:Esame.
      * (* look-alike members: SET OF CHOICE *)
        assert (Hp: tagset_of (TSetOf (TChoice (map fst tvs))) = Ok [b0]) by (subst b0; reflexivity).
        destruct (guess_wrap _ b0 r Hp Hex I eq_refl) as (Hts & Hn & Hbase).
        split; [exact Hts|]. split; [exact Hn|]. split.
        { rewrite (skel_listof _ _ _ (or_intror Hbase)), (tagset_of'_ok _ _ Hts).
          pose proof (skel_choices tvs []) as Hsk. cbn [app length] in Hsk. rewrite Hsk. reflexivity. }
        rewrite (der_setof_choice _ tvs _ Hbase Hts). unfold arr_guess. rewrite Esame. reflexivity.
      * assert (Hp: tagset_of (TSet (rec_ty_of tvs)) = Ok [b0]) by (subst b0; reflexivity).
        destruct (guess_wrap _ b0 r Hp Hex I eq_refl) as (Hts & Hn & Hbase).
        split; [exact Hts|]. split; [exact Hn|]. split.
        { rewrite (skel_record _ _ _ (or_intror Hbase)), (tagset_of'_ok _ _ Hts).
          rewrite (skel_fields_members _ _ (rec_of_full tvs)), rec_of_members. reflexivity. }
        rewrite (der_record _ _ true _ _ Hbase Hts (rec_of_full tvs) (rec_of_not_choice tvs Hnc)), rec_of_members.
        unfold arr_guess. rewrite Esame. reflexivity.
    + assert (Hp: tagset_of (TSeq (rec_ty_of tvs)) = Ok [b0]) by (subst b0; reflexivity).
      destruct (guess_wrap _ b0 r Hp Hex I eq_refl) as (Hts & Hn & Hbase).
      split; [exact Hts|]. split; [exact Hn|]. split.
      { rewrite (skel_record _ _ _ (or_introl Hbase)), (tagset_of'_ok _ _ Hts).
        rewrite (skel_fields_members _ _ (rec_of_full tvs)), rec_of_members. reflexivity. }
      rewrite (der_record _ _ false _ _ Hbase Hts (rec_of_full tvs) (rec_of_not_choice tvs Hnc)), rec_of_members.
      reflexivity.
Qed.

Lemma container_consumes cd (is_set: bool) b0 r d k parts b tvs : (d = false -> dec_ok cd) ->
  b0 = utag true (if is_set then 17 else 16) -> Forall explicit_like r ->
  frame (b0 :: r) (concat parts) true (mo d k) true = Ok b ->
  forall f, (2 * length b <= f)%nat ->
  Forall2 (sl_elem_ok (dec_call cd (f - 1 - length r))) parts tvs ->
  hd 0 b <> 0 /\ forall ae, consumes (dec_call cd f SNone [] None ae false) b (guess_dv is_set (b0 :: r) tvs).
Proof.
  intros Hcd Hb0 Hex Hfr f Hf HF.
  pose proof (sl_elem_count _ _ _ HF) as Hcnt.
  pose proof (frame_modes_len_r _ _ _ _ _ _ _ _ Hfr) as Hlenb.
  assert (Hw: wire b0 true = b0) by (subst b0; reflexivity).
  assert (Hby: by_tag cd [wire b0 true] = Some (if is_set then DcSetOrSetOf else DcSeqOrSeqOf, mkDecFlags true None))
    by (subst b0; destruct is_set; destruct cd; reflexivity).
  assert (Hnz: tcls b0 <> Univ \/ tnum b0 <> 0) by (right; subst b0; destruct is_set; cbn; discriminate).
  replace f with (S (f - 1 - length r) + length r)%nat by lia.
  refine (proj2 (framed_modes_none cd b0 r true true d k (concat parts) b (f - 1 - length r) _ _ _ _
           (fun Hd => dec_ok_indef cd (Hcd Hd)) Hnz Hex Hby (fun _ _ => eq_refl) Hfr ltac:(lia) _)).
  rewrite Hw.
  assert (Hdv: forall len, dec_value (dec_call cd (f - 1 - length r)) (f - 1 - length r)
                 (if is_set then DcSetOrSetOf else DcSeqOrSeqOf) (mkDecFlags true None) None (b0 :: r) len false
               = dec_schemaless (dec_call cd (f - 1 - length r)) (f - 1 - length r) is_set (b0 :: r) len)
    by (intros len; subst b0; destruct is_set; reflexivity).
  rewrite Hdv. apply dec_schemaless_consumes; [|exact HF|lia].
  intros Hd. destruct (f - 1 - length r)%nat as [|f'] eqn:Ef; [lia|]. exact (eoo_ok_call cd f' (Hcd Hd)).
Qed.

Lemma members_item R ce cd d k : forall ms, Forall (fun m => sl_item R ce cd d k (fst m) (snd m)) ms ->
  forall kps, enc_members ce (mo d k) ms = Ok kps -> N.of_nat (length (concat (map snd kps))) <= index_max ->
  exists tvs, Forall2 (item_res R) ms tvs /\
    forall f, (2 * length (concat (map snd kps)) <= f)%nat -> Forall2 (sl_elem_ok (dec_call cd f)) (map snd kps) tvs.
Proof.
  induction 1 as [|m ms [_ Hm] _ IH]; intros kps He Hmax.
  - inversion He; subst. exists []. split; [constructor|]. intros f _. constructor.
  - cbn [enc_members] in He.
    destruct (enc_with ce (enc_content ce) (fst m) (mo d k) (snd m)) as [p|e] eqn:Ep; cbn [bind] in He; [|discriminate].
    destruct (enc_members ce (mo d k) ms) as [ps|e] eqn:Eps; cbn [bind] in He; [|discriminate].
    inversion He; subst kps; clear He.
    cbn [map snd concat] in *. rewrite app_length in Hmax.
    destruct (Hm p eq_refl ltac:(lia)) as (Hpl & _ & tv & Hres & Hcons).
    destruct (IH ps eq_refl ltac:(lia)) as (tvs & HF & Hcs).
    exists (tv :: tvs). split.
    + constructor; [|exact HF]. destruct m. exact Hres.
    + intros f Hf. rewrite app_length in Hf. constructor.
      * split; [|lia]. intros ae. apply Hcons. lia.
      * apply Hcs. lia.
Qed.

Lemma item_res_not_choice R ms tvs : Forall2 (item_res R) ms tvs -> Forall (fun tv => not_choice (fst tv)) tvs.
Proof. induction 1 as [|m tv ms tvs (_ & Hn & _) _ IH]; constructor; assumption. Qed.

Lemma item_res_skel R ms tvs : Forall2 (item_res R) ms tvs -> Forall2 R (map skelm ms) (map skelm tvs).
Proof. induction 1 as [|m tv ms tvs (_ & _ & Hs & _) _ IH]; cbn [map]; constructor; assumption. Qed.

Lemma item_res_der R ms tvs : Forall2 (item_res R) ms tvs -> Forall2 der_same ms tvs.
Proof. induction 1 as [|m tv ms tvs (Ht & _ & _ & Hd) _ IH]; constructor; [split|]; assumption. Qed.

(* the decoder's test "all members have the tag set of the first" on decoded members is [all_same];
   on the component types of the encoded type it is [all_same_tys], which [set_mixed] negates *)
Definition all_same_tys (ts: list ty) : bool :=
  match ts with [] => true | t1 :: _ => forallb (fun t => tagset_eqb (tagset_of' t) (tagset_of' t1)) ts end.

Lemma forallb_map_fst (f: ty -> bool) : forall (l: list (ty * val)), forallb (fun tv => f (fst tv)) l = forallb f (map fst l).
Proof. induction l as [|a l IH]; [reflexivity|]. cbn [forallb map]. rewrite IH. reflexivity. Qed.

Lemma all_same_map tvs : all_same tvs = all_same_tys (map fst tvs).
Proof.
  destruct tvs as [|[T0 v0] rest]; [reflexivity|]. unfold all_same, all_same_tys. cbn [map fst].
  apply (forallb_map_fst (fun t => tagset_eqb (tagset_of' t) (tagset_of' T0))).
Qed.

Lemma set_mixed_spec ts : set_mixed ts = match ts with _ :: _ :: _ => negb (all_same_tys ts) | _ => true end.
Proof. destruct ts as [|t1 [|t2 r]]; reflexivity. Qed.

Lemma all_same_tys_ext : forall l1 l2, Forall2 (fun a b => tagset_of' b = tagset_of' a) l1 l2 ->
  all_same_tys l2 = all_same_tys l1.
Proof.
  intros l1 l2 H. destruct H as [|a b l1 l2 Hab H]; [reflexivity|].
  unfold all_same_tys. rewrite Hab. cbn [forallb]. rewrite Hab. f_equal.
  induction H as [|a' b' l1 l2 H1 _ IH]; [reflexivity|]. cbn [forallb]. rewrite H1, IH. reflexivity.
Qed.

Lemma item_res_tags R ms tvs : Forall2 (item_res R) ms tvs ->
  Forall2 (fun a b => tagset_of' b = tagset_of' a) (map fst ms) (map fst tvs).
Proof.
  induction 1 as [|m tv ms tvs (Ht & _) _ IH]; cbn [map]; constructor; [|exact IH].
  unfold tagset_of'. rewrite Ht. reflexivity.
Qed.

Lemma all_same_tys_spec l : all_same_tys l = true <->
  (forall a b, In a l -> In b l -> tagset_eqb (tagset_of' a) (tagset_of' b) = true).
Proof.
  destruct l as [|t1 l]; [split; [intros _ a b []|reflexivity]|].
  unfold all_same_tys. rewrite forallb_forall. split.
  - intros H a b Ha Hb. apply (tagset_eqb_trans _ (tagset_of' t1)); [apply H; exact Ha|].
    rewrite tagset_eqb_sym. apply H; exact Hb.
  - intros H a Ha. apply H; [exact Ha|left; reflexivity].
Qed.

Lemma all_same_tys_perm l l' : Permutation l l' -> all_same_tys l = all_same_tys l'.
Proof.
  intros Hp.
  destruct (all_same_tys l) eqn:E1; destruct (all_same_tys l') eqn:E2; try reflexivity.
  - rewrite all_same_tys_spec in E1. assert (H: all_same_tys l' = true).
    { apply all_same_tys_spec. intros a b Ha Hb. apply E1; eapply Permutation_in; try apply Permutation_sym; eassumption. }
    congruence.
  - rewrite all_same_tys_spec in E2. assert (H: all_same_tys l = true).
    { apply all_same_tys_spec. intros a b Ha Hb. apply E2; eapply Permutation_in; eassumption. }
    congruence.
Qed.

Lemma all_same_const t (l: list ty) : Forall (fun a => a = t) l -> all_same_tys l = true.
Proof.
  intros H. apply all_same_tys_spec. rewrite Forall_forall in H. intros a b Ha Hb.
  rewrite (H a Ha), (H b Hb). apply tagset_eqb_refl.
Qed.

Lemma der_container_arr ts arr1 arr2 ms :
  (forall kps, der_members ms = Ok kps -> arr1 kps = arr2 kps) -> der_container ts arr1 ms = der_container ts arr2 ms.
Proof.
  intros H. unfold der_container. destruct (der_members ms) as [kps|e]; cbn [bind]; [|reflexivity].
  rewrite (H kps eq_refl). reflexivity.
Qed.

Section SortIdem.
  Context {A K: Type} (ltb: K -> K -> bool) (key: A -> K).

  Lemma sort_by_of_sorted : forall l, StronglySorted (le_key ltb key) l -> sort_by ltb key l = l.
  Proof.
    induction 1 as [|z l Hs IH Hz]; [reflexivity|].
    change (sort_by ltb key (z :: l)) with (insert_by ltb key z (sort_by ltb key l)). rewrite IH.
    destruct l as [|w l']; [reflexivity|]. cbn [insert_by].
    inversion Hz as [|? ? Hw _]; subst. unfold le_key in Hw. rewrite Hw. reflexivity.
  Qed.
End SortIdem.

Lemma sort_tags_idem (kps: list (tagset * bytes)) :
  sort_by tagset_ltb fst (sort_by tagset_ltb fst kps) = sort_by tagset_ltb fst kps.
Proof.
  apply sort_by_of_sorted. apply sort_by_sorted.
  - exact tagset_ltb_irrefl.
  - exact tagset_ltb_trans.
  - exact tagset_ltb_negtrans.
Qed.

Lemma der_members_err ms : Forall (fun m => der_err_ok (fst m) (snd m)) ms ->
  forall e, der_members ms = Err e -> e = EMalformed.
Proof.
  intros HF e H. destruct (enc_members_err DER def_opts ms e H) as (m & Hin & Hm).
  rewrite Forall_forall in HF. exact (HF m Hin e Hm).
Qed.

Lemma der_container_err ts arr ms : Forall (fun m => der_err_ok (fst m) (snd m)) ms ->
  forall e, der_container ts arr ms = Err e -> e = EMalformed.
Proof.
  intros HF e H. unfold der_container in H.
  destruct (der_members ms) as [kps|e1] eqn:Ek; cbn [bind] in H.
  - exact (frame_err _ _ _ _ _ _ H).
  - injection H as <-. exact (der_members_err ms HF e1 Ek).
Qed.

Lemma der_members_perm_res ms ms' : Permutation ms ms' ->
  Forall (fun m => der_err_ok (fst m) (snd m)) ms ->
  match der_members ms, der_members ms' with
  | Ok kps, Ok kps' => Permutation kps kps'
  | Err e, Err e' => e = EMalformed /\ e' = EMalformed
  | _, _ => False
  end.
Proof.
  intros Hp Hok.
  assert (Hone: forall l l' kps e, Permutation l l' -> der_members l = Ok kps -> der_members l' = Err e -> False).
  { intros l l' kps e Hpl E1 E2. destruct (enc_members_err DER def_opts l' e E2) as (m & Hin & Hm).
    apply (enc_members_F2 DER def_opts) in E1.
    assert (Hin0: In m l) by (eapply Permutation_in; [apply Permutation_sym; exact Hpl|exact Hin]).
    clear - E1 Hin0 Hm. induction E1 as [|m0 kp ms kps [Hm0 _] _ IH]; [destruct Hin0|].
    destruct Hin0 as [->|Hin0]; [rewrite Hm0 in Hm; discriminate Hm|exact (IH Hin0)]. }
  destruct (der_members ms) as [kps|e] eqn:E1; destruct (der_members ms') as [kps'|e'] eqn:E2.
  - apply (enc_members_F2 DER def_opts) in E1. destruct (Permutation_Forall2 Hp E1) as (kps2 & Hp2 & HF2).
    apply (enc_members_F2 DER def_opts) in HF2. rewrite <- der_members_eq, E2 in HF2. injection HF2 as <-. exact Hp2.
  - exact (Hone ms ms' kps e' Hp E1 E2).
  - exact (Hone ms' ms kps' e (Permutation_sym Hp) E2 E1).
  - split; [exact (der_members_err ms Hok e E1)|exact (der_members_err ms' (Permutation_Forall Hp Hok) e' E2)].
Qed.

(* DER encodings are complete TLVs, which the zero-padded comparison of SET OF tells apart *)
Lemma der_enc_tlv T v t0 r p : tagset_of T = Ok (t0 :: r) ->
  enc_with DER (enc_content DER) T def_opts v = Ok p -> tlvb p = true.
Proof.
  intros Hts He.
  destruct (enc_with_inv_g DER T true 0 v p stable_der He) as (ec & fl & ts & content & cns & _ & Hts' & _ & Hfr).
  rewrite Hts in Hts'. inversion Hts'; subst ts. exact (frame_tlv t0 r content cns (mo true 0) _ p eq_refl eq_refl Hfr).
Qed.

(* the members in the order the encoder wrote them: the given order, or - a sorting encoder on
   SET OF / SET - a permutation on which DER gives the same octets *)
Definition wire_members (perm: bool) (ts: tagset) (is_set: bool) (arr: list (tagset * bytes) -> list bytes)
           (ms ms': list (ty * val)) : Prop :=
  (ms' = ms \/ (perm = true /\ is_set = true /\ Permutation ms ms'))
  /\ forall tvs, Forall2 der_same ms' tvs -> Forall2 (fun a b => tagset_of' b = tagset_of' a) (map fst ms') (map fst tvs) ->
       der_container ts (arr_guess is_set tvs) tvs = der_container ts arr ms.

Lemma der_container_congr ts arr ms tvs : Forall2 der_same ms tvs -> der_container ts arr tvs = der_container ts arr ms.
Proof. intros Hd. unfold der_container. rewrite (der_members_congr ms tvs Hd). reflexivity. Qed.

(* the members in the given order: what is left to show is that the guess arranges them alike *)
Lemma wire_same perm ts is_set arr ms :
  (forall tvs, Forall2 (fun a b => tagset_of' b = tagset_of' a) (map fst ms) (map fst tvs) ->
     forall kps, der_members ms = Ok kps -> arr_guess is_set tvs kps = arr kps) ->
  wire_members perm ts is_set arr ms ms.
Proof.
  intros H. split; [left; reflexivity|]. intros tvs Hd Ht.
  rewrite (der_container_congr ts _ ms tvs Hd). exact (der_container_arr ts _ _ ms (H tvs Ht)).
Qed.

(* DER on the members in another order: when it refuses a member it refuses both containers
   alike; otherwise what is left to compare is how the two arrangements order the encodings *)
Lemma der_container_perm ts arr arr' ms ms' : Permutation ms ms' ->
  Forall (fun m => der_err_ok (fst m) (snd m)) ms ->
  (forall kps kps', der_members ms = Ok kps -> der_members ms' = Ok kps' -> Permutation kps kps' -> arr' kps' = arr kps) ->
  der_container ts arr' ms' = der_container ts arr ms.
Proof.
  intros Hp Herr Harr. unfold der_container.
  pose proof (der_members_perm_res ms ms' Hp Herr) as Hres.
  destruct (der_members ms) as [kps|e]; destruct (der_members ms') as [kps'|e']; cbn [bind]; try contradiction.
  - rewrite (Harr kps kps' eq_refl eq_refl Hres). reflexivity.
  - destruct Hres as [-> ->]. reflexivity.
Qed.

(* SET OF, elements in another order: DER sorts their encodings, which are TLVs *)
Lemma wire_setof_sorted ts ms ms' : Permutation ms ms' ->
  Forall (fun m => der_err_ok (fst m) (snd m)) ms ->
  Forall (fun m => exists t0 r, tagset_of (fst m) = Ok (t0 :: r)) ms ->
  (forall tvs, Forall2 (fun a b => tagset_of' b = tagset_of' a) (map fst ms') (map fst tvs) -> all_same tvs = true) ->
  wire_members true ts true (arr_listof true) ms ms'.
Proof.
  intros Hp Herr Htags Hsame. split; [right; repeat split; exact Hp|].
  intros tvs Hd Ht. rewrite (der_container_congr ts _ ms' tvs Hd). unfold arr_guess. rewrite (Hsame tvs Ht).
  apply (der_container_perm ts _ _ ms ms' Hp Herr). intros kps kps' E1 _ Hres. cbn [arr_listof].
  symmetry. apply (sort_setof_perm _ _ (Permutation_map snd Hres)).
  apply tlv_pad_distinct. apply (enc_members_F2 DER def_opts) in E1. clear - E1 Htags.
  induction E1 as [|m kp ms kps [Hm _] _ IH]; cbn [map]; [constructor|].
  inversion Htags as [|? ? (t0 & r & Hts) Hrest]; subst.
  constructor; [exact (der_enc_tlv _ _ _ _ _ Hts Hm)|exact (IH Hrest)].
Qed.

(* SET, components sorted by their tags: DER has nothing left to re-order *)
Lemma wire_set_sorted ts ms :
  Forall (fun m => der_err_ok (fst m) (snd m)) ms ->
  (forall ms' tvs, Permutation ms ms' ->
     Forall2 (fun a b => tagset_of' b = tagset_of' a) (map fst ms') (map fst tvs) -> all_same tvs = true -> (length ms <= 1)%nat) ->
  wire_members true ts true (arr_record true) ms (sort_by tagset_ltb keym ms).
Proof.
  intros Herr Hshort.
  pose proof (sort_by_perm_self tagset_ltb keym ms) as Hp.
  split; [right; repeat split; exact Hp|].
  intros tvs Hd Ht. rewrite (der_container_congr ts _ _ tvs Hd).
  apply (der_container_perm ts _ _ ms _ Hp Herr). intros kps kps' E1 E2 _.
  rewrite der_members_eq, (enc_members_sorted DER def_opts ms kps E1) in E2. injection E2 as <-.
  cbn [arr_record]. unfold arr_guess. destruct (all_same tvs) eqn:Esame.
  - pose proof (Hshort _ tvs Hp Ht Esame) as Hl. rewrite <- (enc_members_length _ _ _ _ E1) in Hl.
    destruct kps as [|kp [|kp2 kps]]; try reflexivity. cbn [length] in Hl. lia.
  - rewrite sort_tags_idem. reflexivity.
Qed.

(* what an encoder wrote for a SEQUENCE OF / SET OF: the elements in the given order, or - CER and
   DER on SET OF - sorted by their encodings *)
Lemma enc_listof_inv ce d k T t (is_set: bool) xs b0 r b : stable ce d k ->
  base_of T = (if is_set then TSetOf t else TSeqOf t) -> tagset_of T = Ok (b0 :: r) ->
  enc_with ce (enc_content ce) T (mo d k) (VList xs) = Ok b ->
  exists ms' kps, (ms' = map (pair t) xs \/ (is_set = true /\ ce <> BER /\ Permutation (map (pair t) xs) ms'))
    /\ enc_members ce (mo d k) ms' = Ok kps /\ frame (b0 :: r) (concat (map snd kps)) true (mo d k) true = Ok b.
Proof.
  intros Hst Hb Hts He. rewrite (enc_listof ce d k T t is_set _ xs Hst Hb Hts) in He. unfold enc_container in He.
  destruct (enc_members ce (mo d k) (map (pair t) xs)) as [kps|e] eqn:Em; cbn [bind] in He; [|discriminate].
  destruct (is_set && sorts ce)%bool eqn:Es; cbn [arr_listof] in He.
  - apply Bool.andb_true_iff in Es. destruct Es as [His Hs].
    destruct (Permutation_map_inv snd kps (Permutation_sym (sort_setof_perm_self (map snd kps)))) as (kps' & Hs' & Hp').
    destruct (enc_members_perm ce _ _ kps kps' Em Hp') as (ms' & Hpm & Hm').
    exists ms', kps'. split; [right; repeat split; [exact His|intros ->; discriminate Hs|exact Hpm]|].
    split; [exact Hm'|]. rewrite <- Hs'. exact He.
  - exists (map (pair t) xs), kps. split; [left; reflexivity|]. split; assumption.
Qed.

(* the same for SEQUENCE / SET: the components in the given order, or - CER and DER on SET -
   sorted by their tags *)
Lemma enc_record_inv ce d k T fs (is_set: bool) vs b0 r b : stable ce d k ->
  base_of T = (if is_set then TSet fs else TSeq fs) -> tagset_of T = Ok (b0 :: r) ->
  rec_full fs vs = true -> Forall (fun f => not_choice (snd f)) fs ->
  enc_with ce (enc_content ce) T (mo d k) (VRec vs) = Ok b ->
  exists ms' kps, (ms' = rec_members fs vs
                   \/ (is_set = true /\ ce <> BER /\ ms' = sort_by tagset_ltb keym (rec_members fs vs)))
    /\ enc_members ce (mo d k) ms' = Ok kps /\ frame (b0 :: r) (concat (map snd kps)) true (mo d k) true = Ok b.
Proof.
  intros Hst Hb Hts Hfull Hnc He. rewrite (enc_record ce d k T fs is_set _ vs Hst Hb Hts Hfull Hnc) in He.
  unfold enc_container in He.
  destruct (enc_members ce (mo d k) (rec_members fs vs)) as [kps|e] eqn:Em; cbn [bind] in He; [|discriminate].
  destruct (is_set && sorts ce)%bool eqn:Es; cbn [arr_record] in He.
  - apply Bool.andb_true_iff in Es. destruct Es as [His Hs].
    exists (sort_by tagset_ltb keym (rec_members fs vs)), (sort_by tagset_ltb fst kps).
    split; [right; repeat split; [exact His|intros ->; discriminate Hs]|].
    split; [exact (enc_members_sorted ce _ _ kps Em)|exact He].
  - exists (rec_members fs vs), kps. split; [left; reflexivity|]. split; assumption.
Qed.

Lemma container_item R perm ce cd d k T' (is_set: bool) v ms b0 r arr : skrel_ok R perm -> (d = false -> dec_ok cd) ->
  tagset_of T' = Ok (b0 :: r) -> b0 = utag true (if is_set then 17 else 16) -> Forall explicit_like r ->
  skel T' v = SNode (b0 :: r) (map skelm ms) ->
  enc_with DER (enc_content DER) T' def_opts v = der_container (b0 :: r) arr ms ->
  (forall b, enc_with ce (enc_content ce) T' (mo d k) v = Ok b ->
     exists ms' kps, wire_members perm (b0 :: r) is_set arr ms ms'
       /\ enc_members ce (mo d k) ms' = Ok kps /\ frame (b0 :: r) (concat (map snd kps)) true (mo d k) true = Ok b) ->
  Forall (fun m => sl_item R ce cd d k (fst m) (snd m)) ms ->
  sl_item R ce cd d k T' v.
Proof.
  intros HR Hcd Hts Hb0 Hex Hsk Hder Hinv Hms. split.
  { intros Hce e. rewrite Hder. apply der_container_err. exact (Forall_impl _ (fun m H => proj1 H Hce) Hms). }
  intros b He Hmax.
  destruct (Hinv b He) as (ms' & kps & [Hord Harr] & Hm & Hfr).
  pose proof (frame_modes_len_r _ _ _ _ _ _ _ _ Hfr) as Hlen.
  assert (Hms': Forall (fun m => sl_item R ce cd d k (fst m) (snd m)) ms').
  { destruct Hord as [-> | (_ & _ & Hp)]; [exact Hms|exact (Permutation_Forall Hp Hms)]. }
  destruct (members_item R ce cd d k ms' Hms' kps Hm ltac:(lia)) as (tvs & HF & Hcons).
  assert (Hgen: forall f, (2 * length b <= f)%nat -> hd 0 b <> 0 /\
            forall ae, consumes (dec_call cd f SNone [] None ae false) b (guess_dv is_set (b0 :: r) tvs)).
  { intros f Hf. apply (container_consumes cd is_set b0 r d k (map snd kps) b tvs Hcd Hb0 Hex Hfr f Hf).
    apply Hcons. lia. }
  split; [lia|]. split; [exact (proj1 (Hgen (2 * length b)%nat ltac:(lia)))|].
  destruct (guess_props is_set b0 r tvs Hb0 Hex (item_res_not_choice R ms' tvs HF)) as (Hts0 & Hn0 & Hsk0 & Hder0).
  exists (schemaless_ty (guess_proto is_set tvs) (b0 :: r), guess_val is_set tvs).
  split; [|intros f ae Hf; exact (proj2 (Hgen f Hf) ae)].
  split; [cbn [fst]; rewrite Hts0, Hts; reflexivity|]. split; [exact Hn0|]. unfold skelm. cbn [fst snd]. split.
  - rewrite Hsk0, Hsk. pose proof (item_res_skel R ms' tvs HF) as HF2.
    destruct Hord as [-> | (Hperm & His & Hp)].
    + apply (sr_node R perm HR). exact HF2.
    + apply (sr_perm R perm HR Hperm (b0 :: r) (map skelm ms) (map skelm ms') (map skelm tvs)).
      * subst b0. rewrite His. reflexivity.
      * apply Permutation_map. exact Hp.
      * exact HF2.
  - rewrite Hder0, Hder. exact (Harr tvs (item_res_der R ms' tvs HF) (item_res_tags R ms' tvs HF)).
Qed.

Lemma frag_not_choice aset T : sl_frag aset T = true -> not_choice T.
Proof. destruct T; try exact (fun _ => I). discriminate. Qed.

Lemma listof_sl_item R perm ce cd d k aset T' t (is_set: bool) : skrel_ok R perm -> stable ce d k -> (d = false -> dec_ok cd) ->
  base_of T' = (if is_set then TSetOf t else TSeqOf t) -> (is_set = true -> ce = BER \/ perm = true) ->
  sl_frag aset T' = true -> sl_frag aset t = true ->
  forall xs, Forall (sl_item R ce cd d k t) xs -> sl_item R ce cd d k T' (VList xs).
Proof.
  intros HR Hst Hcd Hb Hset Hfr Hfrt xs Hxs.
  destruct (frag_shape aset T' Hfr) as (b0 & r & Hb0 & Hts & _ & Hex & _).
  assert (Hb0': b0 = utag true (if is_set then 17 else 16)) by (rewrite Hb in Hb0; destruct is_set; inversion Hb0; reflexivity).
  set (ms := map (pair t) xs).
  assert (Hms: Forall (fun m => sl_item R ce cd d k (fst m) (snd m)) ms) by (apply Forall_map; exact Hxs).
  (* whatever the order, the guessed members all carry the tags of t *)
  assert (Hsame: forall ms' tvs, Permutation ms ms' ->
            Forall2 (fun a b => tagset_of' b = tagset_of' a) (map fst ms') (map fst tvs) -> all_same tvs = true).
  { intros ms' tvs Hp Ht. rewrite all_same_map, (all_same_tys_ext _ _ Ht).
    rewrite <- (all_same_tys_perm _ _ (Permutation_map fst Hp)). unfold ms. rewrite map_map. cbn [fst].
    apply (all_same_const t). apply Forall_forall. intros a Ha. apply in_map_iff in Ha. destruct Ha as (x & <- & _). reflexivity. }
  apply (container_item R perm ce cd d k T' is_set (VList xs) ms b0 r (arr_listof is_set) HR Hcd Hts Hb0' Hex).
  - assert (Hbb: base_of T' = TSeqOf t \/ base_of T' = TSetOf t) by (destruct is_set; [right|left]; exact Hb).
    rewrite (skel_listof T' t xs Hbb), (tagset_of'_ok _ _ Hts). unfold ms. rewrite map_map. reflexivity.
  - exact (der_listof T' t is_set _ xs Hb Hts).
  - intros b He.
    destruct (enc_listof_inv ce d k T' t is_set xs b0 r b Hst Hb Hts He) as (ms' & kps & Hord & Hm & Hfr').
    exists ms', kps. split; [|split; assumption]. destruct Hord as [-> | (His & Hce & Hp)].
    + apply wire_same. intros tvs Ht kps0 _. unfold arr_guess, arr_listof. destruct is_set; [|reflexivity].
      rewrite (Hsame _ tvs (Permutation_refl _) Ht). reflexivity.
    + subst is_set. assert (Hperm: perm = true) by (destruct (Hset eq_refl) as [H|H]; [contradiction|exact H]). subst perm.
      apply (wire_setof_sorted (b0 :: r) ms ms' Hp).
      * exact (Forall_impl _ (fun m H => proj1 H Hce) Hms).
      * destruct (frag_shape aset t Hfrt) as (t0 & rt & _ & Htt & _).
        apply Forall_forall. intros m Hin. apply in_map_iff in Hin. destruct Hin as (x & <- & _). exists t0, rt. exact Htt.
      * intros tvs Ht. exact (Hsame ms' tvs Hp Ht).
  - exact Hms.
Qed.

Lemma record_sl_item R perm ce cd d k aset T' fs (is_set: bool) : skrel_ok R perm -> stable ce d k -> (d = false -> dec_ok cd) ->
  base_of T' = (if is_set then TSet fs else TSeq fs) -> (is_set = true -> ce = BER \/ perm = true) ->
  sl_frag aset T' = true ->
  Forall (fun f => not_choice (snd f)) fs ->
  (is_set = true -> set_mixed (map snd fs) = true) ->
  forall vs, rec_full fs vs = true ->
  Forall (fun m => sl_item R ce cd d k (fst m) (snd m)) (rec_members fs vs) ->
  sl_item R ce cd d k T' (VRec vs).
Proof.
  intros HR Hst Hcd Hb Hset Hfr Hnc Hmix vs Hfull Hms.
  destruct (frag_shape aset T' Hfr) as (b0 & r & Hb0 & Hts & _ & Hex & _).
  assert (Hb0': b0 = utag true (if is_set then 17 else 16)) by (rewrite Hb in Hb0; destruct is_set; inversion Hb0; reflexivity).
  set (ms := rec_members fs vs) in *.
  (* look-alike members in a SET of the fragment, in whatever order: there is at most one of them *)
  assert (Hshort: is_set = true -> forall ms' tvs, Permutation ms ms' ->
            Forall2 (fun a b => tagset_of' b = tagset_of' a) (map fst ms') (map fst tvs) ->
            all_same tvs = true -> (length ms <= 1)%nat).
  { intros His ms' tvs Hp Ht Esame.
    rewrite all_same_map, (all_same_tys_ext _ _ Ht) in Esame.
    rewrite <- (all_same_tys_perm _ _ (Permutation_map fst Hp)) in Esame.
    subst ms. rewrite (rec_members_fst fs vs Hfull) in Esame.
    specialize (Hmix His). rewrite set_mixed_spec in Hmix.
    assert (Hlm: length (rec_members fs vs) = length (map snd fs)) by (rewrite <- (rec_members_fst fs vs Hfull), map_length; reflexivity).
    rewrite Hlm. destruct (map snd fs) as [|t1 [|t2 rest]]; cbn [length]; try lia.
    rewrite Esame in Hmix. discriminate Hmix. }
  apply (container_item R perm ce cd d k T' is_set (VRec vs) ms b0 r (arr_record is_set) HR Hcd Hts Hb0' Hex).
  - assert (Hbb: base_of T' = TSeq fs \/ base_of T' = TSet fs) by (destruct is_set; [right|left]; exact Hb).
    rewrite (skel_record T' fs vs Hbb), (tagset_of'_ok _ _ Hts), (skel_fields_members fs vs Hfull). reflexivity.
  - exact (der_record T' fs is_set _ vs Hb Hts Hfull Hnc).
  - intros b He.
    destruct (enc_record_inv ce d k T' fs is_set vs b0 r b Hst Hb Hts Hfull Hnc He) as (ms' & kps & Hord & Hm & Hfr').
    exists ms', kps. split; [|split; assumption]. destruct Hord as [-> | (His & Hce & ->)].
    + apply wire_same. intros tvs Ht kps0 Hk. unfold arr_guess, arr_record. destruct is_set; [|reflexivity].
      destruct (all_same tvs) eqn:Esame; [|reflexivity].
      pose proof (Hshort eq_refl ms tvs (Permutation_refl ms) Ht Esame) as Hl.
      rewrite <- (enc_members_length DER def_opts ms kps0 Hk) in Hl.
      destruct kps0 as [|kp [|kp2 kps0]]; try reflexivity. cbn [length] in Hl. lia.
    + subst is_set. assert (Hperm: perm = true) by (destruct (Hset eq_refl) as [H|H]; [contradiction|exact H]). subst perm.
      exact (wire_set_sorted (b0 :: r) ms (Forall_impl _ (fun m H => proj1 H Hce) Hms) (Hshort eq_refl)).
  - exact Hms.
Qed.

(* from the induction hypothesis on the component types to every member of a record value of the
   fragment, for any property P of items *)
Lemma fields_prep (P: ty -> val -> Prop) ce cd (d: bool) aset : forall fs,
  Forall (fun f => forall T', base_of T' = base_of (snd f) -> sl_frag aset T' = true -> (d = false -> no_f01 T' = true) ->
                   forall v, sl_val ce cd T' v = true -> P T' v) fs ->
  forallb (fun f => is_req (fst f) && sl_frag aset (snd f)) fs = true ->
  (d = false -> forallb (fun f => no_f01 (snd f)) fs = true) ->
  forall vs, slv_fields ce cd fs vs = true ->
  rec_full fs vs = true /\ Forall (fun m => P (fst m) (snd m)) (rec_members fs vs)
  /\ Forall (fun f => not_choice (snd f)) fs.
Proof.
  induction 1 as [|f fs Hf _ IH]; intros Hfr Hno vs Hv.
  - destruct vs; [|discriminate Hv]. repeat split; constructor.
  - destruct vs as [|[x|] vs]; try discriminate Hv.
    cbn [forallb] in Hfr. apply Bool.andb_true_iff in Hfr. destruct Hfr as [Hf1 Hfr].
    apply Bool.andb_true_iff in Hf1. destruct Hf1 as [Hreq Hff].
    change (slv_fields ce cd (f :: fs) (Some x :: vs)) with (sl_val ce cd (snd f) x && slv_fields ce cd fs vs)%bool in Hv.
    apply Bool.andb_true_iff in Hv. destruct Hv as [Hx Hvs].
    assert (Hno': d = false -> no_f01 (snd f) = true /\ forallb (fun f => no_f01 (snd f)) fs = true).
    { intros Hd. specialize (Hno Hd). cbn [forallb] in Hno. apply Bool.andb_true_iff in Hno. exact Hno. }
    destruct (IH Hfr (fun Hd => proj2 (Hno' Hd)) vs Hvs) as (Hfull & Hms & Hnc).
    change (rec_full (f :: fs) (Some x :: vs)) with (is_req (fst f) && rec_full fs vs)%bool.
    change (rec_members (f :: fs) (Some x :: vs)) with ((snd f, x) :: rec_members fs vs).
    rewrite Hreq, Hfull. split; [reflexivity|]. split.
    + constructor; [|exact Hms]. cbn [fst snd]. exact (Hf (snd f) eq_refl Hff (fun Hd => proj1 (Hno' Hd)) x Hx).
    + constructor; [|exact Hnc]. exact (frag_not_choice aset _ Hff).
Qed.

(* the claim is about T'; T only drives the induction, which runs over the base type so that the
   EXPLICIT tags around a container are taken all at once ([frag_shape]) *)
Theorem sl_item_all R perm ce cd d k aset : skrel_ok R perm -> stable ce d k -> reads cd d k ->
  (aset = true -> ce = BER \/ perm = true) ->
  forall T T', base_of T' = base_of T -> sl_frag aset T' = true -> (d = false -> no_f01 T' = true) ->
  forall v, sl_val ce cd T' v = true -> sl_item R ce cd d k T' v.
Proof.
  intros HR Hst Hrd Haset. pose proof (reads_indef cd d k Hrd) as Hcd.
  induction T as [| | | | | | | | n|fs IH|fs IH|t IH|t IH|alts IH| |tg x IH|tg x IH] using ty_ind';
    intros T' Hb Hfr Hno v Hv; cbn [base_of] in Hb;
    destruct (frag_shape aset T' Hfr) as (_ & _ & _ & _ & _ & _ & Hfb);
    assert (Hnob: d = false -> no_f01 (base_of T') = true /\ f01_class T' = false)
      by (intros Hd; exact (no_f01_base T' (Hno Hd)));
    try (assert (Hp: prim_base T' = true) by (unfold prim_base; rewrite Hb; reflexivity);
         rewrite (sl_val_prim ce cd T' v Hp) in Hv;
         exact (leaf_item R perm ce cd d k T' v HR Hst Hrd (frag_prim aset T' Hfr Hp) (fun Hd => proj2 (Hnob Hd)) Hv));
    try (rewrite Hb in Hfb; discriminate Hfb);
    try exact (IH T' Hb Hfr Hno v Hv);
    rewrite Hb in Hfb, Hnob; cbn [sl_frag no_f01] in Hfb, Hnob;
    rewrite sl_val_base, Hb in Hv; destruct v; try discriminate Hv.
  - rewrite sl_val_seq in Hv.
    destruct (fields_prep _ ce cd d aset fs IH Hfb (fun Hd => proj1 (Hnob Hd)) fs0 Hv) as (Hfull & Hms & Hnc).
    exact (record_sl_item R perm ce cd d k aset T' fs false HR Hst Hcd Hb ltac:(discriminate) Hfr Hnc ltac:(discriminate) fs0 Hfull Hms).
  - apply Bool.andb_true_iff in Hfb. destruct Hfb as [Hfb Hmix].
    apply Bool.andb_true_iff in Hfb. destruct Hfb as [Has Hfb].
    rewrite sl_val_set in Hv.
    destruct (fields_prep _ ce cd d aset fs IH Hfb (fun Hd => proj1 (Hnob Hd)) fs0 Hv) as (Hfull & Hms & Hnc).
    exact (record_sl_item R perm ce cd d k aset T' fs true HR Hst Hcd Hb (fun _ => Haset Has) Hfr Hnc (fun _ => Hmix) fs0 Hfull Hms).
  - cbn [sl_val] in Hv. rewrite forallb_forall in Hv.
    apply (listof_sl_item R perm ce cd d k aset T' t false HR Hst Hcd Hb ltac:(discriminate) Hfr Hfb).
    apply Forall_forall. intros x Hx. exact (IH t eq_refl Hfb (fun Hd => proj1 (Hnob Hd)) x (Hv x Hx)).
  - apply Bool.andb_true_iff in Hfb. destruct Hfb as [Has Hfb].
    cbn [sl_val] in Hv. rewrite forallb_forall in Hv.
    apply (listof_sl_item R perm ce cd d k aset T' t true HR Hst Hcd Hb (fun _ => Haset Has) Hfr Hfb).
    apply Forall_forall. intros x Hx. exact (IH t eq_refl Hfb (fun Hd => proj1 (Hnob Hd)) x (Hv x Hx)).
Qed.

(* C16 for the container fragment, every encoder in every mode it has (stable), every decoder that
   reads the mode; SET OF / SET (aset) under an encoder that keeps the order of their members (BER),
   or - perm - up to it.  R relates the skeleton of the encoded value to that of the decoded object:
   equality, or [sk_sim]. *)
Theorem schemaless_roundtrip_generic : forall R perm ce cd d k aset T v b tl,
  skrel_ok R perm -> stable ce d k -> reads cd d k -> (aset = true -> ce = BER \/ perm = true) ->
  sl_frag aset T = true -> (d = false -> no_f01 T = true) -> sl_val ce cd T v = true ->
  encode ce d k T v = Ok b -> N.of_nat (length b) <= index_max ->
  exists T0 v0, decode cd None (b ++ tl) = Ok (DV T0 v0, tl)
    /\ tagset_of T0 = tagset_of T
    /\ R (skel T v) (skel T0 v0)
    /\ encode DER true 0 T0 v0 = encode DER true 0 T v.
Proof.
  intros R perm ce cd d k aset T v b tl HR Hst Hrd Haset Hfr Hno Hv He Hmax.
  destruct (sl_item_all R perm ce cd d k aset HR Hst Hrd Haset T T eq_refl Hfr Hno v Hv) as [_ Hi].
  destruct (Hi b He Hmax) as (_ & _ & [T0 v0] & (Hts & _ & Hsk & Hder) & Hc).
  exists T0, v0. split; [|split; [exact Hts|split; [exact Hsk|exact Hder]]].
  apply (consumes_decode_with cd _ None b tl). apply Hc. unfold dec_fuel. rewrite app_length. lia.
Qed.

(* the encoder keeps the order of the members: same skeleton, same leaves in the same order *)
Theorem schemaless_roundtrip_same : forall ce cd d k aset T v b tl,
  stable ce d k -> reads cd d k -> (aset = true -> ce = BER) ->
  sl_frag aset T = true -> (d = false -> no_f01 T = true) -> sl_val ce cd T v = true ->
  encode ce d k T v = Ok b -> N.of_nat (length b) <= index_max ->
  exists T0 v0, decode cd None (b ++ tl) = Ok (DV T0 v0, tl)
    /\ tagset_of T0 = tagset_of T
    /\ skel T0 v0 = skel T v
    /\ leaves T0 v0 = leaves T v
    /\ encode DER true 0 T0 v0 = encode DER true 0 T v.
Proof.
  intros ce cd d k aset T v b tl Hst Hrd Haset Hfr Hno Hv He Hmax.
  destruct (schemaless_roundtrip_generic eq false ce cd d k aset T v b tl skrel_eq Hst Hrd
              (fun H => or_introl (Haset H)) Hfr Hno Hv He Hmax) as (T0 & v0 & Hd & Hts & Hsk & Hder).
  exists T0, v0. split; [exact Hd|]. split; [exact Hts|]. split; [symmetry; exact Hsk|].
  split; [unfold leaves; rewrite Hsk; reflexivity|exact Hder].
Qed.

(* any encoder, SET OF / SET included: the decoded object lists their members in the order the
   encoder wrote them - its skeleton is that of the encoded value up to the order of the children
   of SET OF / SET nodes, its leaves are a permutation *)
Theorem schemaless_roundtrip_sorted : forall ce cd d k T v b tl,
  stable ce d k -> reads cd d k ->
  sl_frag true T = true -> (d = false -> no_f01 T = true) -> sl_val ce cd T v = true ->
  encode ce d k T v = Ok b -> N.of_nat (length b) <= index_max ->
  exists T0 v0, decode cd None (b ++ tl) = Ok (DV T0 v0, tl)
    /\ tagset_of T0 = tagset_of T
    /\ sk_sim (skel T v) (skel T0 v0)
    /\ Permutation (leaves T v) (leaves T0 v0)
    /\ encode DER true 0 T0 v0 = encode DER true 0 T v.
Proof.
  intros ce cd d k T v b tl Hst Hrd Hfr Hno Hv He Hmax.
  destruct (schemaless_roundtrip_generic sk_sim true ce cd d k true T v b tl skrel_sim Hst Hrd
              (fun _ => or_intror eq_refl) Hfr Hno Hv He Hmax) as (T0 & v0 & Hd & Hts & Hsk & Hder).
  exists T0, v0. split; [exact Hd|]. split; [exact Hts|]. split; [exact Hsk|].
  split; [unfold leaves; apply sk_sim_leaves; exact Hsk|exact Hder].
Qed.

(* C16, containers.  Types built to any depth from the self-describing simple types, SEQUENCE OF,
   SEQUENCE with mandatory components and - for the BER encoder, which keeps the order - SET OF and
   SET, each untagged or under EXPLICIT non-universal tags; written by the BER or the DER encoder
   (definite lengths, unsegmented) and read by the BER, the CER or the DER decoder WITHOUT a guiding
   type.  The decoder returns an object of a guessed type T0 such that
     - its tag set is the tag set of the encoded type,
     - its skeleton - the tag set of every container and of every leaf, in order, and the abstract
       content of every leaf - is that of the encoded value (so in particular the leaves agree),
     - re-encoding it with DER gives exactly what DER gives for the original value. *)
Theorem schemaless_roundtrip_containers : forall ce cd aset T v b tl,
  enc_ok ce -> (aset = true -> ce = BER) ->
  sl_frag aset T = true -> sl_val ce cd T v = true ->
  encode ce true 0 T v = Ok b -> N.of_nat (length b) <= index_max ->
  exists T0 v0, decode cd None (b ++ tl) = Ok (DV T0 v0, tl)
    /\ tagset_of T0 = tagset_of T
    /\ skel T0 v0 = skel T v
    /\ leaves T0 v0 = leaves T v
    /\ encode DER true 0 T0 v0 = encode DER true 0 T v.
Proof.
  intros ce cd aset T v b tl Hce Haset.
  assert (Hst: stable ce true 0) by (destruct Hce as [-> | ->]; reflexivity).
  exact (fun Hfr => schemaless_roundtrip_same ce cd true 0 aset T v b tl Hst (or_intror (conj eq_refl eq_refl)) Haset Hfr
           ltac:(discriminate)).
Qed.

Corollary schemaless_roundtrip_containers_ber : forall T v b tl,
  sl_frag true T = true -> sl_val BER BER T v = true ->
  encode BER true 0 T v = Ok b -> N.of_nat (length b) <= index_max ->
  exists T0 v0, decode BER None (b ++ tl) = Ok (DV T0 v0, tl)
    /\ tagset_of T0 = tagset_of T
    /\ leaves T0 v0 = leaves T v
    /\ encode DER true 0 T0 v0 = encode DER true 0 T v.
Proof.
  intros T v b tl Hfr Hv He Hmax.
  destruct (schemaless_roundtrip_containers BER BER true T v b tl (or_introl eq_refl) (fun _ => eq_refl) Hfr Hv He Hmax)
    as (T0 & v0 & Hd & Hts & _ & Hl & Hder).
  exists T0, v0. repeat split; assumption.
Qed.

(* types without SET OF / SET: a DER encoding,
   decoded without a schema by any of the three decoders and re-encoded with DER, is reproduced *)
Corollary schemaless_der_reencode : forall cd T v e tl,
  sl_frag false T = true -> sl_val DER cd T v = true ->
  encode DER true 0 T v = Ok e -> N.of_nat (length e) <= index_max ->
  exists T0 v0, decode cd None (e ++ tl) = Ok (DV T0 v0, tl)
    /\ encode DER true 0 T0 v0 = Ok e
    /\ leaves T0 v0 = leaves T v.
Proof.
  intros cd T v e tl Hfr Hv He Hmax.
  destruct (schemaless_roundtrip_containers DER cd false T v e tl (or_intror eq_refl) ltac:(discriminate) Hfr Hv He Hmax)
    as (T0 & v0 & Hd & _ & _ & Hl & Hder).
  exists T0, v0. split; [exact Hd|]. split; [rewrite Hder; exact He|exact Hl].
Qed.

(* the same with SET OF / SET: the DER encoder sorts their members, so the decoded object lists them
   in the sorted order - its skeleton is that of the encoded value up to the order of the children
   of SET OF / SET nodes, its leaves are a permutation - and re-encoding still reproduces the octets *)
Corollary schemaless_der_reencode_sets : forall cd T v e tl,
  sl_frag true T = true -> sl_val DER cd T v = true ->
  encode DER true 0 T v = Ok e -> N.of_nat (length e) <= index_max ->
  exists T0 v0, decode cd None (e ++ tl) = Ok (DV T0 v0, tl)
    /\ encode DER true 0 T0 v0 = Ok e
    /\ tagset_of T0 = tagset_of T
    /\ sk_sim (skel T v) (skel T0 v0)
    /\ Permutation (leaves T v) (leaves T0 v0).
Proof.
  intros cd T v e tl Hfr Hv He Hmax.
  destruct (schemaless_roundtrip_sorted DER cd true 0 T v e tl stable_der (or_intror (conj eq_refl eq_refl))
              Hfr ltac:(discriminate) Hv He Hmax) as (T0 & v0 & Hd & Hts & Hsk & Hl & Hder).
  exists T0, v0. split; [exact Hd|]. split; [rewrite Hder; exact He|]. repeat split; assumption.
Qed.

(* distinct tags - what ASN.1 asks of the components of a SET - are enough for [set_mixed] *)
Lemma distinct_tags_mixed t1 t2 rest :
  tagset_eqb (tagset_of' t2) (tagset_of' t1) = false -> set_mixed (t1 :: t2 :: rest) = true.
Proof. intros H. cbn [set_mixed forallb]. rewrite H, Bool.andb_false_r. reflexivity. Qed.

(* [APPLICATION 7] EXPLICIT SEQUENCE {
     [0] EXPLICIT SEQUENCE OF INTEGER,
     SET OF [1] EXPLICIT ENUMERATED,
     SET { OCTET STRING, [2] EXPLICIT SEQUENCE OF SEQUENCE OF NULL, BOOLEAN },
     SEQUENCE {}, REAL, SET { UTF8String } } *)
Definition sl2_example_ty : ty :=
  TExp (mkTag Appl false 7)
   (TSeq [ (Req, TExp (mkTag Ctx false 0) (TSeqOf TInt));
           (Req, TSetOf (TExp (mkTag Ctx false 1) TEnum));
           (Req, TSet [(Req, TOcts); (Req, TExp (mkTag Ctx false 2) (TSeqOf (TSeqOf TNull))); (Req, TBool)]);
           (Req, TSeq []);
           (Req, TReal);
           (Req, TSet [(Req, TStr 12)]) ]).
Definition sl2_example_val : val :=
  VRec [ Some (VList [VInt 5; VInt (-129)]);
         Some (VList [VInt 7; VInt 3; VInt 300]);
         Some (VRec [Some (VOcts [1; 2; 3]); Some (VList [VList [VNull; VNull]; VList []]); Some (VBool true)]);
         Some (VRec []);
         Some (VReal (RBin 10 0));
         Some (VRec [Some (VOcts [104; 105])]) ].

Example schemaless_roundtrip_containers_nonvacuous :
  sl_frag true sl2_example_ty = true /\ sl_val BER BER sl2_example_ty sl2_example_val = true
  /\ (exists b, encode BER true 0 sl2_example_ty sl2_example_val = Ok b /\ N.of_nat (length b) <= index_max
        /\ length b = 68%nat
        /\ exists T0 v0, decode BER None (b ++ [9; 9]) = Ok (DV T0 v0, [9; 9])
             /\ leaves T0 v0 = leaves sl2_example_ty sl2_example_val
             /\ length (leaves T0 v0) = 11%nat
             /\ encode DER true 0 T0 v0 = encode DER true 0 sl2_example_ty sl2_example_val
             /\ encode DER true 0 T0 v0 <> Ok b).
Proof.
  split; [vm_compute; reflexivity|]. split; [vm_compute; reflexivity|].
  eexists. split; [vm_compute; reflexivity|]. split; [vm_compute; discriminate|]. split; [reflexivity|].
  eexists; eexists. split; [vm_compute; reflexivity|]. split; [vm_compute; reflexivity|].
  split; [vm_compute; reflexivity|]. split; [vm_compute; reflexivity|]. vm_compute. discriminate.
Qed.

(* a DER encoding (no SET OF / SET), read by the CER decoder *)
Example schemaless_der_reencode_nonvacuous :
  let T := TExp (mkTag Priv true 1000) (TSeqOf (TSeq [(Req, TBool); (Req, TExp (mkTag Ctx true 0) (TStr 22)); (Req, TSeqOf TOid)])) in
  let v := VList [VRec [Some (VBool true); Some (VOcts [97]); Some (VList [VOid [1; 2; 840]])];
                  VRec [Some (VBool false); Some (VOcts []); Some (VList [])]] in
  sl_frag false T = true /\ sl_val DER CER T v = true
  /\ exists e, encode DER true 0 T v = Ok e /\ N.of_nat (length e) <= index_max
       /\ exists T0 v0, decode CER None e = Ok (DV T0 v0, []) /\ encode DER true 0 T0 v0 = Ok e.
Proof.
  cbv zeta. split; [vm_compute; reflexivity|]. split; [vm_compute; reflexivity|].
  eexists. split; [vm_compute; reflexivity|]. split; [vm_compute; discriminate|].
  eexists; eexists. split; [vm_compute; reflexivity | vm_compute; reflexivity].
Qed.

(* what the decoder guesses: SEQUENCE OF comes back as a SEQUENCE of as many components; SET OF as
   SET OF CHOICE; an empty SEQUENCE as an empty SEQUENCE OF; ENUMERATED as a re-tagged INTEGER *)
Example schemaless_guesses :
  decode BER None [48; 6; 2; 1; 5; 2; 1; 6]
    = Ok (DV (TSeq [(Req, TInt); (Req, TInt)]) (VRec [Some (VInt 5); Some (VInt 6)]), [])
  /\ decode BER None [49; 6; 2; 1; 6; 2; 1; 5]
    = Ok (DV (TSetOf (TChoice [TInt; TInt])) (VList [VChoice 0 (VInt 6); VChoice 1 (VInt 5)]), [])
  /\ decode BER None [49; 6; 4; 1; 97; 2; 1; 5]
    = Ok (DV (TSet [(Req, TOcts); (Req, TInt)]) (VRec [Some (VOcts [97]); Some (VInt 5)]), [])
  /\ decode BER None [164; 2; 48; 0] = Ok (DV (TExp (mkTag Ctx true 4) (TSeqOf TNull)) (VList []), []).
Proof. repeat split; vm_compute; reflexivity. Qed.

(* why [set_mixed] is there: a SET whose components all carry the same tag (not legal ASN.1, but
   pyasn1 builds and encodes it) is read back as a SET OF, whose DER encoding sorts the elements by
   their octets, while DER keeps the declaration order of same-tagged SET components *)
Example schemaless_same_tag_set_differs :
  let T := TSet [(Req, TInt); (Req, TInt)] in
  let v := VRec [Some (VInt 6); Some (VInt 5)] in
  encode BER true 0 T v = Ok [49; 6; 2; 1; 6; 2; 1; 5]
  /\ decode BER None [49; 6; 2; 1; 6; 2; 1; 5]
     = Ok (DV (TSetOf (TChoice [TInt; TInt])) (VList [VChoice 0 (VInt 6); VChoice 1 (VInt 5)]), [])
  /\ encode DER true 0 T v = Ok [49; 6; 2; 1; 6; 2; 1; 5]
  /\ encode DER true 0 (TSetOf (TChoice [TInt; TInt])) (VList [VChoice 0 (VInt 6); VChoice 1 (VInt 5)])
     = Ok [49; 6; 2; 1; 5; 2; 1; 6].
Proof. cbv zeta. repeat split; vm_compute; reflexivity. Qed.

(* a DER encoding with SET OF and SET: the decoded object has the members in DER's order; its
   re-encoding is the input; the leaves are NOT in the order of the original value *)
Example schemaless_der_reencode_sets_nonvacuous :
  sl_frag true sl2_example_ty = true /\ sl_val DER DER sl2_example_ty sl2_example_val = true
  /\ exists e, encode DER true 0 sl2_example_ty sl2_example_val = Ok e /\ N.of_nat (length e) <= index_max
       /\ exists T0 v0, decode DER None e = Ok (DV T0 v0, []) /\ encode DER true 0 T0 v0 = Ok e
            /\ leaves T0 v0 <> leaves sl2_example_ty sl2_example_val.
Proof.
  split; [vm_compute; reflexivity|]. split; [vm_compute; reflexivity|].
  eexists. split; [vm_compute; reflexivity|]. split; [vm_compute; discriminate|].
  eexists; eexists. split; [vm_compute; reflexivity|]. split; [vm_compute; reflexivity|]. vm_compute. discriminate.
Qed.

Print Assumptions schemaless_roundtrip_containers.
Print Assumptions schemaless_roundtrip_containers_ber.
Print Assumptions schemaless_der_reencode.
Print Assumptions schemaless_roundtrip_generic.
Print Assumptions schemaless_der_reencode_sets.
Print Assumptions schemaless_der_reencode_sets_nonvacuous.
Print Assumptions sk_sim_leaves.
Print Assumptions schemaless_roundtrip_containers_nonvacuous.
Print Assumptions schemaless_der_reencode_nonvacuous.
Print Assumptions schemaless_guesses.
Print Assumptions schemaless_same_tag_set_differs.
Print Assumptions guess_props.
