(* REAL contents octets (X.690 8.5): the decoder's reading of what the encoder writes keeps the
   abstract content, for the special values and for every binary value (no bound on mantissa or
   exponent other than the encoder's own 255-octet exponent limit); and the independent reference
   [real_contents] of Spec/X690.v coincides with the model of pyasn1's encoder exactly when the
   exponent fits that limit. *)
From Coq Require Import Lia.
From PV Require Import Base.Bytes Model.Tag Model.Types Model.Enc Model.Dec Spec.X690
                       Proofs.Bits Proofs.TagOctets Proofs.SpecOctets Proofs.LeafInt.
Local Open Scope N_scope.
(* lia in this file meets / and mod by numerals *)
Local Ltac Zify.zify_post_hook ::= Z.to_euclidean_division_equations.

Lemma land1_mod2 n : N.land n 1 = n mod 2.
Proof. apply (land_ones_mod n 1). Qed.
Lemma shiftr1_div2 n : N.shiftr n 1 = n / 2.
Proof. apply (shiftr_div n 1). Qed.

Lemma make_odd_is_strip2 : forall fuel m e, make_odd fuel m e = strip2 fuel m e.
Proof.
  induction fuel as [|f IH]; intros m e; [reflexivity|].
  cbn [make_odd strip2]. rewrite land1_mod2, shiftr1_div2, IH. reflexivity.
Qed.

(* with enough fuel a non-zero mantissa comes out odd (and stays non-zero) *)
Lemma strip2_odd : forall fuel m e, m <> 0 -> (N.size_nat m <= fuel)%nat ->
  (fst (strip2 fuel m e)) mod 2 = 1.
Proof.
  induction fuel as [|f IH]; intros m e Hm Hf.
  - exfalso. apply Hm. apply size_nat_0. lia.
  - cbn [strip2]. rewrite land1_mod2, shiftr1_div2.
    destruct (N.eqb_spec (m mod 2) 0) as [Hz|Hnz].
    + assert (Hq: m / 2 <> 0).
      { lia. }
      apply IH; [exact Hq|].
      pose proof (size_nat_div m 1 Hm eq_refl) as Hd. change (2 ^ 1) with 2 in Hd. lia.
    + cbn [fst]. pose proof (N.mod_lt m 2). lia.
Qed.

(* the value is kept: m * 2^e = m' * 2^e', stated without powers as m = m' * 2^k, e' = e + k *)
Lemma strip2_value : forall fuel m e,
  exists k: N, m = fst (strip2 fuel m e) * 2 ^ k /\ snd (strip2 fuel m e) = (e + Z.of_N k)%Z.
Proof.
  induction fuel as [|f IH]; intros m e.
  - exists 0. cbn [strip2 fst snd]. split; [rewrite N.pow_0_r; lia|cbn; lia].
  - cbn [strip2]. rewrite land1_mod2, shiftr1_div2.
    destruct (N.eqb_spec (m mod 2) 0) as [Hz|Hnz].
    + destruct (IH (m / 2) (e + 1)%Z) as (k & Hm & He). exists (k + 1). split.
      * rewrite N.pow_add_r, N.pow_1_r, N.mul_assoc, <- Hm.
        lia.
      * rewrite He. lia.
    + exists 0. cbn [fst snd]. split; [rewrite N.pow_0_r; lia|cbn; lia].
Qed.

(* the model's abstract normalisation (Z.rem / Z.quot on a signed mantissa) is the encoder's loop
   (N.land / N.shiftr on the magnitude) with the sign carried along *)
Lemma strip_factor_is_strip2 (neg: bool) : forall fuel a e,
  let s := (fun x: Z => if neg then (- x)%Z else x) in
  strip_factor fuel 2 (s (Z.of_N a)) e =
  (s (Z.of_N (fst (strip2 fuel a e))), snd (strip2 fuel a e)).
Proof.
  intros fuel a e s. revert a e.
  induction fuel as [|f IH]; intros a e; [reflexivity|].
  cbn [strip_factor strip2]. rewrite land1_mod2, shiftr1_div2.
  assert (Hrem: Z.eqb (Z.rem (s (Z.of_N a)) 2) 0 = N.eqb (a mod 2) 0).
  { subst s. cbv beta.
    assert (E: Z.rem (Z.of_N a) 2 = Z.of_N (a mod 2)).
    { rewrite Z.rem_mod_nonneg by lia. rewrite N2Z.inj_mod. reflexivity. }
    destruct neg.
    - rewrite Z.rem_opp_l by lia. rewrite E.
      destruct (N.eqb_spec (a mod 2) 0) as [H|H]; destruct (Z.eqb_spec (- Z.of_N (a mod 2)) 0); lia.
    - rewrite E.
      destruct (N.eqb_spec (a mod 2) 0) as [H|H]; destruct (Z.eqb_spec (Z.of_N (a mod 2)) 0); lia. }
  rewrite Hrem. destruct (N.eqb (a mod 2) 0); [|reflexivity].
  assert (Hquot: Z.quot (s (Z.of_N a)) 2 = s (Z.of_N (a / 2))).
  { subst s. cbv beta.
    assert (E: Z.quot (Z.of_N a) 2 = Z.of_N (a / 2)).
    { rewrite Z.quot_div_nonneg by lia. rewrite N2Z.inj_div. reflexivity. }
    destruct neg; [rewrite Z.quot_opp_l by lia|]; rewrite E; reflexivity. }
  rewrite Hquot. apply IH.
Qed.

Lemma strip_factor_odd fuel m e : Z.rem m 2 <> 0%Z -> strip_factor fuel 2 m e = (m, e).
Proof.
  intros H. destruct fuel; [reflexivity|]. cbn [strip_factor].
  destruct (Z.eqb_spec (Z.rem m 2) 0); [contradiction|reflexivity].
Qed.

Lemma pos_size_nat p : Pos.size_nat p = Pos.to_nat (Pos.size p).
Proof. induction p; cbn [Pos.size_nat Pos.size]; rewrite ?IHp; lia. Qed.

(* the two fuels are the same number: the bit length of |m| *)
Lemma fuel_eq m : m <> 0%Z -> (Z.to_nat (Z.log2 (Z.abs m)) + 1)%nat = N.size_nat (Z.abs_N m).
Proof.
  intros Hm.
  assert (forall p, (Z.to_nat (Z.log2 (Z.pos p)) + 1)%nat = Pos.size_nat p) as Hp.
  { intros p. destruct p; cbn [Z.log2 Pos.size_nat Z.to_nat]; rewrite ?pos_size_nat; lia. }
  destruct m as [|p|p]; [congruence| |]; cbn [Z.abs Z.abs_N N.size_nat]; apply Hp.
Qed.

Lemma signed_abs m : m = (if Z.ltb m 0 then - Z.of_N (Z.abs_N m) else Z.of_N (Z.abs_N m))%Z.
Proof. rewrite N2Z.inj_abs_N. destruct (Z.ltb_spec m 0); lia. Qed.

(* the first-octet fields as the decoder extracts them: base 2 (bits 6-5 = 0), scaling factor 0
   (bits 4-3 = 0), sign in bit 7, exponent form in bits 2-1 *)
Lemma dec_real_binary fo (neg: bool) (k: N) (pre eo mo: bytes) :
  N.land fo 128 = 128 -> N.land fo 64 = (if neg then 64 else 0) ->
  N.land (N.shiftr fo 4) 3 = 0 -> N.land (N.shiftr fo 2) 3 = 0 -> N.land fo 3 = k ->
  (k < 3 /\ pre = [] /\ length eo = N.to_nat (k + 1)
   \/ k = 3 /\ pre = [N.of_nat (length eo)]) ->
  eo <> [] -> mo <> [] ->
  dec_real (fo :: pre ++ eo ++ mo) =
  Ok (RBin (if neg then - Z.of_N (be_num 0 mo) else Z.of_N (be_num 0 mo)) (from_bytes_signed eo)).
Proof.
  intros H128 H64 Hbb Hsf Hk Hform Heo Hmo.
  unfold dec_real. rewrite H128, H64, Hbb, Hsf, Hk.
  change (N.eqb 128 0) with false. cbv beta iota zeta delta [negb].
  assert (Hfin: forall (x: bytes),
    x = eo ->
    match x, mo with
    | [], _ | _, [] => Err EMalformed
    | _, _ =>
        let e := from_bytes_signed x in
        if N.ltb 2 0 then Err EMalformed else
        let e' := if N.eqb 0 1 then (e * 3)%Z else if N.eqb 0 2 then (e * 4)%Z else e in
        let p := Z.of_N (be_num 0 mo) in
        let p' := if negb (N.eqb (if neg then 64 else 0) 0) then (- p)%Z else p in
        Ok (RBin (p' * 2 ^ Z.of_N 0) e')
    end = Ok (RBin (if neg then - Z.of_N (be_num 0 mo) else Z.of_N (be_num 0 mo)) (from_bytes_signed eo))).
  { intros x ->. destruct eo as [|e0 eo']; [congruence|]. destruct mo as [|m0 mo']; [congruence|].
    cbv beta iota zeta. change (N.ltb 2 0) with false. change (N.eqb 0 1) with false.
    change (N.eqb 0 2) with false. cbv iota.
    change (2 ^ Z.of_N 0)%Z with 1%Z. rewrite Z.mul_1_r. destruct neg; reflexivity. }
  destruct Hform as [(Hk3 & -> & Hlen)|(-> & ->)].
  - cbn [app]. destruct (N.eqb_spec (k + 1) 4) as [Hc|_]; [lia|].
    assert (exists c0 crest, eo ++ mo = c0 :: crest) as (c0 & crest & Hc).
    { destruct eo as [|e0 eo']; [congruence|]. eexists; eexists; reflexivity. }
    rewrite Hc. cbv beta iota. rewrite <- Hc, <- Hlen.
    rewrite firstn_app_exact, skipn_app_exact. exact (Hfin eo eq_refl).
  - cbn [app]. change (N.eqb (3 + 1) 4) with true. cbv beta iota.
    rewrite Nat2N.id, firstn_app_exact, skipn_app_exact. exact (Hfin eo eq_refl).
Qed.

Lemma exp_octets_is_twos e : exp_octets e = twos_bytes e.
Proof.
  unfold exp_octets. destruct (Z.eqb_spec e 0) as [->|_]; [reflexivity|].
  destruct (Z.eqb_spec e (-1)) as [->|_]; reflexivity.
Qed.

Lemma exp_octets_is_int_contents e : int_contents e = exp_octets e.
Proof. rewrite int_contents_is_enc_integer, enc_integer_false, exp_octets_is_twos. reflexivity. Qed.

Lemma exp_octets_roundtrip e : from_bytes_signed (exp_octets e) = e.
Proof. rewrite exp_octets_is_twos. apply twos_roundtrip. Qed.

Lemma exp_octets_nonempty e : exp_octets e <> [].
Proof. rewrite exp_octets_is_twos. apply twos_nonempty. Qed.

(* the encoder's limit of 255 exponent octets, as a range of exponents *)
Lemma exp_octets_length_255 e :
  (length (exp_octets e) <= 255)%nat <-> (- 2 ^ 2039 <= e < 2 ^ 2039)%Z.
Proof.
  rewrite exp_octets_is_twos, twos_bytes_eq, be_bytes_length.
  pose proof (nbytes_spec e) as (H1 & H2 & H3).
  (* 2 ^ 2039 never meets lia, which would write the number out *)
  assert (Hmag: forall B, (mag e < B <-> - B <= e < B)%Z)
    by (intros B; unfold mag; destruct (Z.ltb_spec e 0); lia).
  rewrite <- Hmag. clear Hmag. split.
  - intros Hle. apply Z.lt_le_trans with (2 ^ (8 * nbytes e - 1))%Z; [exact H2|].
    apply Z.pow_le_mono_r; lia.
  - intros Hlt. destruct (Z.le_gt_cases (nbytes e) 255) as [Hle|Hgt]; [clear - Hle; lia|].
    exfalso. apply (Z.lt_irrefl (mag e)), (Z.lt_le_trans _ _ _ Hlt).
    apply Z.le_trans with (2 ^ (8 * nbytes e - 9))%Z; [|apply H3; clear - Hgt; lia].
    apply Z.pow_le_mono_r; clear - Hgt; lia.
Qed.

(* abstract content of a binary value and of its odd-mantissa form *)

Lemma abs_real_bin_norm m e m' e' :
  m <> 0%Z -> strip2 (N.size_nat (Z.abs_N m)) (Z.abs_N m) e = (m', e') ->
  let sm := (if Z.ltb m 0 then - Z.of_N m' else Z.of_N m')%Z in
  abs_real (RBin m e) = ABin sm e' /\ abs_real (RBin sm e') = ABin sm e'.
Proof.
  intros Hm Es sm.
  assert (Hodd: m' mod 2 = 1).
  { pose proof (strip2_odd (N.size_nat (Z.abs_N m)) (Z.abs_N m) e) as H.
    rewrite Es in H. apply H; [lia|lia]. }
  split.
  - unfold abs_real. destruct (Z.eqb_spec m 0) as [|_]; [contradiction|].
    rewrite fuel_eq by assumption.
    pose proof (strip_factor_is_strip2 (Z.ltb m 0) (N.size_nat (Z.abs_N m)) (Z.abs_N m) e) as H.
    cbv zeta beta in H. rewrite <- signed_abs in H. rewrite H, Es. reflexivity.
  - unfold abs_real. assert (Hsm: sm <> 0%Z) by (subst sm; destruct (Z.ltb m 0); lia).
    destruct (Z.eqb_spec sm 0) as [|_]; [contradiction|].
    rewrite strip_factor_odd; [reflexivity|].
    subst sm. destruct (Z.ltb m 0); lia.
Qed.

Theorem real_roundtrip_special :
  (enc_real RPInf = Ok [64] /\ dec_real [64] = Ok RPInf) /\
  (enc_real RNInf = Ok [65] /\ dec_real [65] = Ok RNInf) /\
  (forall e, enc_real (RBin 0 e) = Ok [] /\ dec_real [] = Ok (RDec 0 0) /\
             abs_real (RDec 0 0) = AZero /\ abs_real (RBin 0 e) = AZero).
Proof. repeat split; reflexivity. Qed.

Theorem real_roundtrip_bin : forall m e b, m <> 0%Z -> enc_real (RBin m e) = Ok b ->
  exists r, dec_real b = Ok r /\ abs_real r = abs_real (RBin m e).
Proof.
  intros m e b Hm. unfold enc_real.
  destruct (Z.eqb_spec m 0) as [|_]; [contradiction|].
  destruct (strip2 (N.size_nat (Z.abs_N m)) (Z.abs_N m) e) as [m' e'] eqn:Es.
  cbv zeta.
  destruct (Nat.ltb_spec 255 (length (exp_octets e'))) as [|Hn255]; [discriminate|].
  destruct (abs_real_bin_norm m e m' e' Hm Es) as [Ha1 Ha2]. cbv zeta in Ha1, Ha2.
  assert (Hm': m' <> 0).
  { pose proof (strip2_odd (N.size_nat (Z.abs_N m)) (Z.abs_N m) e) as H.
    rewrite Es in H. cbn [fst] in H. intros ->.
    assert (0 mod 2 = 1) as Hc by (apply H; lia). discriminate Hc. }
  pose proof (b256_nonempty m' Hm') as Hmo.
  pose proof (exp_octets_nonempty e') as Heo.
  pose proof (exp_octets_roundtrip e') as Hexp.
  set (eo := exp_octets e') in *. set (neg := Z.ltb m 0) in *.
  assert (Hdec: forall fo k pre,
    N.land fo 128 = 128 -> N.land fo 64 = (if neg then 64 else 0) ->
    N.land (N.shiftr fo 4) 3 = 0 -> N.land (N.shiftr fo 2) 3 = 0 -> N.land fo 3 = k ->
    (k < 3 /\ pre = [] /\ length eo = N.to_nat (k + 1) \/ k = 3 /\ pre = [N.of_nat (length eo)]) ->
    Ok ([fo] ++ (pre ++ eo) ++ b256 m') = Ok b ->
    exists r, dec_real b = Ok r /\ abs_real r = abs_real (RBin m e)).
  { intros fo k pre F1 F2 F3 F4 F5 F6 Hb.
    apply (f_equal (fun x => match x with Ok a => a | Err _ => [] end)) in Hb. cbv beta iota in Hb.
    subst b. eexists. split.
    - cbn [app]. rewrite <- app_assoc.
      apply (dec_real_binary fo neg k pre eo (b256 m')); assumption.
    - rewrite be_num_b256, Hexp, Ha1. exact Ha2. }
  destruct (length eo) as [|[|[|[|n]]]] eqn:Hlen; cbv iota.
  - destruct eo; [congruence|discriminate].
  - apply (Hdec _ 0 []); try (destruct neg; reflexivity). left. repeat split; try exact Hlen.
  - apply (Hdec _ 1 []); try (destruct neg; reflexivity). left. repeat split; try exact Hlen.
  - apply (Hdec _ 2 []); try (destruct neg; reflexivity). left. repeat split; try exact Hlen.
  - apply (Hdec _ 3 [N.of_nat (S (S (S (S n))))]); try (destruct neg; reflexivity).
    right. split; reflexivity.
Qed.

(* the only difference: pyasn1 refuses an exponent of more than 255 octets (the length-prefixed
   form has one length octet), the reference writes the length octet regardless.  The side
   condition is that the exponent of the odd-mantissa form fits 255 octets. *)
Definition real_exp_fits (m e: Z) : bool :=
  Z.eqb m 0 ||
  Nat.leb (length (exp_octets (snd (strip2 (N.size_nat (Z.abs_N m)) (Z.abs_N m) e)))) 255.

Lemma real_contents_bin m e : m <> 0%Z ->
  let '(m', e') := strip2 (N.size_nat (Z.abs_N m)) (Z.abs_N m) e in
  let eo := exp_octets e' in
  let first := 128 + (if Z.ltb m 0 then 64 else 0) in
  real_contents (RBin m e) =
  Some (match length eo with
        | 1%nat => [first] | 2%nat => [first + 1] | 3%nat => [first + 2]
        | n => [first + 3; N.of_nat n] end ++ eo ++ b256 m').
Proof.
  intros Hm. unfold real_contents. destruct (Z.eqb_spec m 0) as [|_]; [contradiction|].
  rewrite make_odd_is_strip2.
  destruct (strip2 (N.size_nat (Z.abs_N m)) (Z.abs_N m) e) as [m' e'] eqn:Es. cbv zeta.
  assert (Hm': m' <> 0).
  { pose proof (strip2_odd (N.size_nat (Z.abs_N m)) (Z.abs_N m) e) as H.
    rewrite Es in H. cbn [fst] in H. intros ->.
    assert (0 mod 2 = 1) as Hc by (apply H; lia). discriminate Hc. }
  rewrite exp_octets_is_int_contents, digits_of_256_is_b256 by assumption. reflexivity.
Qed.

Theorem real_contents_is_enc_real_partial : forall m e, real_exp_fits m e = true ->
  real_contents (RBin m e) = match enc_real (RBin m e) with Ok b => Some b | Err _ => None end.
Proof.
  intros m e Hfit. destruct (Z.eq_dec m 0) as [->|Hm]; [reflexivity|].
  pose proof (real_contents_bin m e Hm) as Hrc.
  unfold real_exp_fits in Hfit. unfold enc_real.
  destruct (Z.eqb_spec m 0) as [|_]; [contradiction|]. cbn [orb] in Hfit.
  revert Hrc Hfit.
  destruct (strip2 (N.size_nat (Z.abs_N m)) (Z.abs_N m) e) as [m' e'] eqn:Es.
  cbn [snd]. cbv zeta. intros -> Hfit. apply Nat.leb_le in Hfit.
  destruct (Nat.ltb_spec 255 (length (exp_octets e'))) as [Hc|_]; [lia|].
  destruct (length (exp_octets e')) as [|[|[|[|n]]]]; reflexivity.
Qed.

(* the side condition is necessary: outside it the model errs while the reference answers *)
Theorem real_contents_is_enc_real_only_if : forall m e,
  real_contents (RBin m e) = match enc_real (RBin m e) with Ok b => Some b | Err _ => None end ->
  real_exp_fits m e = true.
Proof.
  intros m e Heq. unfold real_exp_fits.
  destruct (Z.eqb_spec m 0) as [|Hm]; [reflexivity|]. cbn [orb].
  pose proof (real_contents_bin m e Hm) as Hrc.
  unfold enc_real in Heq. destruct (Z.eqb_spec m 0) as [|_]; [contradiction|].
  revert Hrc Heq.
  destruct (strip2 (N.size_nat (Z.abs_N m)) (Z.abs_N m) e) as [m' e'] eqn:Es.
  cbn [snd]. cbv zeta. intros -> Heq.
  destruct (Nat.ltb_spec 255 (length (exp_octets e'))) as [Hc|Hok]; [discriminate Heq|].
  apply Nat.leb_le. exact Hok.
Qed.

(* what it excludes, as arithmetic: with |m| = m' * 2^k, m' odd, the exponent e + k that is
   written must lie in [-2^2039, 2^2039) *)
Theorem real_exp_fits_spec : forall m e, m <> 0%Z ->
  exists m' k: N, Z.abs_N m = m' * 2 ^ k /\ m' mod 2 = 1 /\
    (real_exp_fits m e = true <-> (- 2 ^ 2039 <= e + Z.of_N k < 2 ^ 2039)%Z).
Proof.
  intros m e Hm. unfold real_exp_fits.
  destruct (Z.eqb_spec m 0) as [|_]; [contradiction|]. cbn [orb].
  pose proof (strip2_odd (N.size_nat (Z.abs_N m)) (Z.abs_N m) e) as Hodd.
  destruct (strip2_value (N.size_nat (Z.abs_N m)) (Z.abs_N m) e) as (k & Hv & He).
  exists (fst (strip2 (N.size_nat (Z.abs_N m)) (Z.abs_N m) e)), k.
  split; [exact Hv|]. split; [apply Hodd; lia|].
  rewrite He, Nat.leb_le. apply exp_octets_length_255.
Qed.

(* the encoder succeeds exactly on that domain *)
Theorem enc_real_bin_ok_iff : forall m e,
  (exists b, enc_real (RBin m e) = Ok b) <-> real_exp_fits m e = true.
Proof.
  intros m e. unfold real_exp_fits, enc_real.
  destruct (Z.eqb_spec m 0) as [|Hm]; [split; [reflexivity|eexists; reflexivity]|]. cbn [orb].
  destruct (strip2 (N.size_nat (Z.abs_N m)) (Z.abs_N m) e) as [m' e'] eqn:Es.
  cbn [snd]. cbv zeta.
  destruct (Nat.ltb_spec 255 (length (exp_octets e'))) as [Hc|Hok].
  - split; [intros (b & Hb); discriminate Hb|]. intros H. apply Nat.leb_le in H. lia.
  - split; [intros _; apply Nat.leb_le; exact Hok|].
    intros _. destruct (length (exp_octets e')) as [|[|[|[|n]]]]; eexists; reflexivity.
Qed.

Print Assumptions real_roundtrip_special.
Print Assumptions real_roundtrip_bin.
Print Assumptions real_contents_is_enc_real_partial.
Print Assumptions real_contents_is_enc_real_only_if.
Print Assumptions real_exp_fits_spec.
Print Assumptions enc_real_bin_ok_iff.
