(* C16: self-describing encodings decode faithfully WITHOUT a schema.  The simple types.
   Every simple type with its own UNIVERSAL tag, under any stack of EXPLICIT tags of non-universal
   class, written by any of the encoders in any of its modes (definite or indefinite lengths, strings
   whole or segmented) and read with no guiding type (asn1Spec=None) by a decoder that accepts the
   mode ([reads]): the decoder returns an object whose tag set is exactly the tag set of the encoded
   type (the tags on the wire), whose base type is the encoded base type (ENUMERATED comes back as an
   INTEGER object carrying the ENUMERATED tag), and whose abstract content is that of the encoded
   value ([leaf_consumes]).  The theorems called stage 1 are its definite, unsegmented case. *)
From Coq Require Import Lia.
From PV Require Import Base.Bytes Model.Tag Model.TableTypes Model.Types Model.Proc Model.Enc Model.Dec Gen.Tables
     Proofs.LeafInt Proofs.LeafOidBits Proofs.LeafReal
     Proofs.ProcBind Proofs.RunLemmas Proofs.TagOctets Proofs.DecHeader Proofs.DecFrame Proofs.DecPrim
     Proofs.DecShape Proofs.TagsetShape Proofs.Schemaless Proofs.RoundTrip1 Proofs.RoundTrip2
     Proofs.RoundTripModesA Proofs.RoundTripModesB Proofs.RoundTripModesC Proofs.RoundTripModes Proofs.RoundTripModes3d.
Local Open Scope N_scope.

(* a simple base type with its own UNIVERSAL tag, under zero or more EXPLICIT tags of
   non-universal class; no IMPLICIT tag anywhere (an implicitly tagged value is not self-describing) *)
Fixpoint univ_explicit (T: ty) : bool :=
  match T with
  | TBool | TInt | TEnum | TBits | TOcts | TNull | TOid | TReal | TStr _ => true
  | TExp t x => negb (cls_eqb (tcls t) Univ) && univ_explicit x
  | _ => false
  end.

Lemma univ_explicit_prim T : univ_explicit T = true -> prim_base T = true.
Proof.
  unfold prim_base.
  induction T as [| | | | | | | | n|fs IH|fs IH|t IH|t IH|alts IH| |tg x IH|tg x IH] using ty_ind';
    intros H; try reflexivity; try discriminate H.
  cbn [univ_explicit] in H. apply Bool.andb_true_iff in H. destruct H as [_ H2].
  cbn [base_of]. exact (IH H2).
Qed.

(* the type object the schemaless decoder builds for an encoding of T: the prototype of the value
   decoder registered for the base tag (INTEGER for ENUMERATED) under the tags of T *)
Definition sl_proto (B: ty) : ty := match B with TEnum => TInt | _ => B end.
Definition sl_ty (T: ty) : ty := schemaless_ty (sl_proto (base_of T)) (tagset_of' T).

Lemma explicit_like_self t : explicit_like t -> mkTag (tcls t) true (tnum t) = t.
Proof. intros [Hc _]. destruct t as [c f n]. cbn in *. subst f. reflexivity. Qed.

(* a class F of types closed under EXPLICIT non-universal tags and under nothing else that tags:
   their tag set is the base type's own tag, then the explicit tags *)
Lemma explicit_shape (F: ty -> bool) :
  (forall t x, F (TExp t x) = negb (cls_eqb (tcls t) Univ) && F x) ->
  (forall t x, F (TImp t x) = false) -> (forall alts, F (TChoice alts) = false) -> F TAny = false ->
  forall T, F T = true ->
  exists b0 r, tagset_of (base_of T) = Ok [b0] /\ tagset_of T = Ok (b0 :: r) /\ tcls b0 = Univ
               /\ Forall explicit_like r /\ length r = n_explicit T /\ F (base_of T) = true.
Proof.
  intros Hexp Himp Hch Hany.
  induction T as [| | | | | | | | n|fs IH|fs IH|t IH|t IH|alts IH| |tg x IH|tg x IH] using ty_ind';
    intros H; try (eexists; exists []; repeat split; [constructor|exact H]).
  - rewrite Hch in H. discriminate H.
  - rewrite Hany in H. discriminate H.
  - rewrite Himp in H. discriminate H.
  - rewrite Hexp in H. apply Bool.andb_true_iff in H. destruct H as [Hcl H2].
    destruct (IH H2) as (b0 & r & Hb & Hts & Hu & Hex & Hn & Hfb).
    assert (Hnu: tcls tg <> Univ) by (destruct (tcls tg); try discriminate; cbn in Hcl; congruence).
    exists b0, (r ++ [mkTag (tcls tg) true (tnum tg)]).
    split; [exact Hb|]. split.
    + cbn [tagset_of]. rewrite Hts. cbn [bind]. unfold tag_explicitly. destruct (tcls tg); try reflexivity; congruence.
    + split; [exact Hu|]. split; [|split; [rewrite app_length, Hn; cbn [length n_explicit]; lia|exact Hfb]].
      apply Forall_app. split; [exact Hex|]. constructor; [|constructor]. split; [reflexivity|exact Hnu].
Qed.

Lemma univ_explicit_shape : forall T, univ_explicit T = true ->
  exists b0 r, tagset_of (base_of T) = Ok [b0] /\ tagset_of T = Ok (b0 :: r)
               /\ tcon b0 = false /\ tcls b0 = Univ /\ Forall explicit_like r /\ length r = n_explicit T.
Proof.
  intros T H.
  destruct (explicit_shape univ_explicit (fun _ _ => eq_refl) (fun _ _ => eq_refl) (fun _ => eq_refl) eq_refl T H)
    as (b0 & r & Hb & Hts & Hu & Hex & Hn & Hfb).
  exists b0, r. repeat split; try assumption.
  pose proof (base_of_plain T) as Hpl.
  destruct (base_of T); try contradiction; try discriminate Hfb; cbn [tagset_of] in Hb; inversion Hb; reflexivity.
Qed.

(* the explicit wrappers the schemaless decoder puts around the prototype reproduce the wire tags exactly *)
Lemma wrap_explicit_tags_exact : forall outer X ts0,
  Forall explicit_like outer -> tagset_of X = Ok ts0 ->
  tagset_of (wrap_explicit outer X) = Ok (ts0 ++ outer).
Proof.
  induction outer as [|t r IH]; intros X ts0 Hex HX; cbn [wrap_explicit].
  - rewrite app_nil_r. exact HX.
  - inversion Hex as [|? ? Ht Hr]; subst.
    assert (HE: tagset_of (TExp t X) = Ok (ts0 ++ [t])).
    { cbn [tagset_of]. rewrite HX. cbn [bind]. unfold tag_explicitly.
      rewrite (explicit_like_self t Ht). destruct Ht as [_ Hn]. destruct (tcls t); try reflexivity; congruence. }
    rewrite (IH (TExp t X) _ Hr HE). rewrite <- app_assoc. reflexivity.
Qed.

Lemma base_of_wrap_explicit : forall outer X, base_of (wrap_explicit outer X) = base_of X.
Proof.
  induction outer as [|t r IH]; intros X; cbn [wrap_explicit]; [reflexivity|].
  rewrite IH. reflexivity.
Qed.

(* the object built without a schema: same tag set as the encoded type, and the expected base type *)
Theorem sl_ty_facts : forall T, univ_explicit T = true ->
  tagset_of (sl_ty T) = tagset_of T /\ base_of (sl_ty T) = sl_proto (base_of T).
Proof.
  intros T H. destruct (univ_explicit_shape T H) as (b0 & r & Hb & Hts & Hc0 & Hu & Hex & _).
  unfold sl_ty. rewrite (tagset_of'_ok T _ Hts). unfold schemaless_ty.
  pose proof (univ_explicit_prim T H) as Hp. unfold prim_base in Hp.
  destruct (base_of T) eqn:EB; try discriminate Hp; cbn [sl_proto];
    cbn [tagset_of] in Hb; inversion Hb; subst b0; clear Hb;
    cbn [tagset_of' tagset_of]; rewrite ?tag_eqb_refl.
  all: rewrite base_of_wrap_explicit; (split; [|reflexivity]); rewrite Hts.
  (* for ENUMERATED: the INTEGER prototype, re-tagged with the tag met on the wire *)
  all: apply (wrap_explicit_tags_exact r _ [_]); [exact Hex|reflexivity].
Qed.

(* what a header announces - the length of the body in the definite form [d], none in the
   indefinite one - and the octets that close the body *)
Definition body_len (d: bool) (n: nat) : option N := if d then Some (N.of_nat n) else None.
Definition body_end (d: bool) : bytes := if d then [] else [0; 0].

Lemma consumes_after (p q: proc dval) (hdr body: bytes) v :
  (forall s tl, avail s = hdr ++ body ++ tl -> resume p s = resume q (adv (setmark s (pos s)) (length hdr))) ->
  consumes q body v -> consumes p (hdr ++ body) v.
Proof.
  intros Hhdr Hq s tl Hav. rewrite <- app_assoc in Hav. rewrite (Hhdr s tl Hav).
  assert (Hav1: avail (adv (setmark s (pos s)) (length hdr)) = body ++ tl).
  { rewrite avail_adv, avail_setmark, Hav. apply skipn_app_exact. }
  destruct (Hq _ tl Hav1) as (s2 & Hrun & Hpos & Harr & Hcl).
  exists s2. split; [exact Hrun|]. rewrite Hpos, Harr, Hcl, pos_adv, app_length.
  split; [cbn [pos setmark]; lia|split; reflexivity].
Qed.

(* the identifier and length octets [frame_one] wrote take the decoder to the dispatch on the tags
   accumulated so far; what is left to read is the body and what closes it *)
Lemma level_header c f sp acc sfun t cns d si sub b v :
  frame_one t cns d si sub = Ok b ->
  (d = false -> si = true /\ support_indef c = true) ->
  (length (enc_tag t cns) <= S f)%nat ->
  consumes (dispatch c (dec_call c f) f sp (wire t cns :: acc) (body_len d (length sub)) sfun) (sub ++ body_end d) v ->
  consumes (dec_call c (S f) sp acc None false sfun) b v.
Proof.
  intros Hfr Hmode Hlen Hin. unfold frame_one in Hfr.
  destruct (enc_len (N.of_nat (length sub)) (negb d && si)) as [l|e] eqn:El; cbn [bind] in Hfr; [|discriminate].
  injection Hfr as <-. rewrite app_assoc.
  refine (consumes_after _ _ (enc_tag t cns ++ l) (sub ++ body_end d) v _ Hin).
  intros s tl Hav. rewrite <- app_assoc in Hav. rewrite app_length. destruct d.
  - exact (dec_call_header c f sp acc sfun t cns _ l _ s El Hav Hlen).
  - destruct (Hmode eq_refl) as [-> Hsi]. injection El as <-.
    exact (dec_call_header_indef c f sp acc sfun t cns _ s Hsi Hav Hlen).
Qed.

Lemma consumes_checked k bs v : consumes k bs v -> consumes (run_value (Some (N.of_nat (length bs))) k) bs v.
Proof.
  intros H s tl Hav. destruct (H s tl Hav) as (s2 & Hrun & Hpos & Harr & Hcl).
  unfold run_value. rewrite resume_tell, (resume_pbind_done _ _ _ _ _ Hrun), resume_tell.
  rewrite Hpos, (Nat.add_comm (pos s)), Nat.add_sub, N.eqb_refl.
  exists s2. split; [reflexivity|]. rewrite Nat.add_comm. repeat split; assumption.
Qed.

(* from a run with end-of-octets not allowed to a run with it allowed or not: the item does not
   start with a zero octet, or the decoder does not know the indefinite form at all *)
Lemma ae_any_g c f sp acc sfun b v :
  (support_indef c = true -> (2 <= length b)%nat /\ hd 0 b <> 0) ->
  consumes (dec_call c f sp acc None false sfun) b v ->
  forall ae, consumes (dec_call c f sp acc None ae sfun) b v.
Proof.
  intros Hb H. destruct (support_indef c) eqn:Hsi.
  - destruct (Hb eq_refl). apply ae_any; assumption.
  - intros ae. destruct f as [|f]; [exact H|].
    cbn [dec_call]. unfold dec_body. rewrite Hsi, Bool.andb_false_r. exact H.
Qed.

(* a non-universal tag is in no tag map entry: neither as the whole tag set nor as its first tag *)
Lemma by_tag_nonuniv c t acc0 : tcls t <> Univ -> by_tag c (t :: acc0) = None.
Proof.
  intros Hn. unfold by_tag. destruct acc0 as [|a l]; [|reflexivity].
  unfold key_of_univ_tag. destruct (tcls t); [congruence|reflexivity|reflexivity|reflexivity].
Qed.

(* no decoder is registered for a constructed non-universal tag, so it is taken for an explicit
   wrapper: the decoder re-enters with the tag accumulated *)
Lemma dispatch_none_explicit c rec lf t acc len : explicit_like t ->
  dispatch c rec lf SNone (t :: acc) len false = run_value len (dec_raw rec lf SNone (t :: acc) len false).
Proof.
  intros [Hcon Hcls]. unfold dispatch. cbn [firstn].
  rewrite (by_tag_nonuniv c t acc Hcls), (by_tag_nonuniv c t [] Hcls), Hcon.
  destruct (tcls t); [congruence|reflexivity|reflexivity|reflexivity].
Qed.

(* the value decoder is the one registered for the first (base) tag, whatever explicit tags were
   accumulated on the way *)
Lemma dispatch_none_value c rec lf t acc len sfun cd fl : by_tag c [t] = Some (cd, fl) ->
  dispatch c rec lf SNone (t :: acc) len sfun = run_value len (dec_value rec lf cd fl None (t :: acc) len sfun).
Proof.
  intros H. unfold dispatch. cbn [firstn].
  destruct acc as [|a l]; [|change (by_tag c (t :: a :: l)) with (@None (dec_codec * dec_flags))]; rewrite H; reflexivity.
Qed.

(* one EXPLICIT tag level; in the indefinite form the inner item is read with end-of-octets
   allowed, and the 00 00 after it ends the level *)
Lemma explicit_level_none c f acc t d si inner b Tv vv :
  frame_one t false d si inner = Ok b -> explicit_like t ->
  (d = false -> si = true /\ support_indef c = true /\ (2 <= f)%nat) ->
  (length (enc_tag t false) <= S f)%nat ->
  consumes (dec_call c f SNone (t :: acc) None (negb d) false) inner (DV Tv vv) ->
  consumes (dec_call c (S f) SNone acc None false false) b (DV Tv vv).
Proof.
  intros Hfr Hex Hmode Hlen Hin.
  apply (level_header c f SNone acc false t false d si inner b _ Hfr); [intros Hd; split; apply (Hmode Hd)|exact Hlen|].
  rewrite wire_false, (dispatch_none_explicit _ _ _ _ _ _ Hex). unfold dec_raw.
  destruct d; cbn [body_len body_end run_value negb] in *.
  - rewrite app_nil_r. apply consumes_checked. exact Hin.
  - destruct (Hmode eq_refl) as (_ & Hsi & Hf2). destruct f as [|[|f']]; try lia. cbn [raw_loop].
    intros s tl Hav. rewrite <- app_assoc in Hav.
    destruct (Hin s _ Hav) as (s2 & Hrun & Hpos & Harr & Hcl).
    rewrite (resume_pbind_done _ _ _ _ _ Hrun).
    pose proof (consumes_avail inner s _ s2 Hav Hpos Harr) as Hav2.
    rewrite (resume_pbind_done _ _ _ _ _ (eoo_read c (S f') SNone (t :: acc) None false s2 tl Hsi Hav2)).
    cbn [resume]. exists (adv s2 2). split; [reflexivity|].
    rewrite app_length, pos_adv, arrived_adv, closed_adv. cbn [length]. repeat split; [lia|congruence|congruence].
Qed.

(* the innermost level: the value decoder runs on the contents octets (and, in the indefinite
   form, takes the closing 00 00 itself) *)
Lemma match_level_none c f acc t0 cns d si content b v cd fl :
  frame_one t0 cns d si content = Ok b ->
  (d = false -> si = true /\ support_indef c = true) ->
  by_tag c [wire t0 cns] = Some (cd, fl) ->
  (length (enc_tag t0 cns) <= S f)%nat ->
  consumes (dec_value (dec_call c f) f cd fl None (wire t0 cns :: acc) (body_len d (length content)) false)
           (content ++ body_end d) v ->
  consumes (dec_call c (S f) SNone acc None false false) b v.
Proof.
  intros Hfr Hmode Hby Hlen Hin. apply (level_header c f SNone acc false t0 cns d si content b v Hfr Hmode Hlen).
  rewrite (dispatch_none_value _ _ _ _ _ _ _ _ _ Hby).
  destruct d; cbn [body_len body_end run_value] in *; [rewrite app_nil_r in *; apply consumes_checked|]; exact Hin.
Qed.

Lemma peel_none c f d si r : forall acc sub b Tv vv,
  frame_outer r false d si sub = Ok b ->
  Forall explicit_like r ->
  Forall (fun t => (length (enc_tag t false) <= S f)%nat) r ->
  (r <> [] -> d = false -> si = true /\ support_indef c = true /\ (2 <= f)%nat) ->
  (forall ae, consumes (dec_call c f SNone (r ++ acc) None ae false) sub (DV Tv vv)) ->
  forall ae, consumes (dec_call c (f + length r) SNone acc None ae false) b (DV Tv vv).
Proof.
  induction r as [|tn r' IH] using rev_ind; intros acc sub b Tv vv Hfr Hex Hlen Hmode Hin.
  - injection Hfr as <-. rewrite Nat.add_0_r. exact Hin.
  - rewrite frame_outer_snoc in Hfr.
    destruct (frame_outer r' false d si sub) as [inner|e] eqn:Ein; cbn [bind] in Hfr; [|discriminate].
    apply Forall_app in Hex. destruct Hex as [Hex' Hexn]. inversion Hexn as [|? ? Htn _]; subst.
    apply Forall_app in Hlen. destruct Hlen as [Hlen' Hlenn]. inversion Hlenn as [|? ? Hl _]; subst.
    specialize (Hmode ltac:(destruct r'; discriminate)).
    rewrite app_length. cbn [length]. replace (f + (length r' + 1))%nat with (S (f + length r')) by lia.
    destruct (frame_one_facts _ _ _ _ _ _ Hfr (explicit_like_nz _ Htn)) as (F1 & _ & F3).
    apply ae_any_g; [intros _; split; [lia|exact F3]|].
    apply (explicit_level_none c (f + length r') acc tn d si inner b Tv vv Hfr Htn); [|lia|].
    + intros Hd. destruct (Hmode Hd) as (H1 & H2 & H3). repeat split; [exact H1|exact H2|lia].
    + apply (IH (tn :: acc) sub inner Tv vv Ein Hex' Hlen' (fun _ => Hmode)).
      intros ae. rewrite <- app_assoc in Hin. exact (Hin ae).
Qed.

(* every level of the framing the encoder wrote, in any mode: the contents are framed in the
   definite form unless they are constructed and the mode is indefinite; the F01 class (a definite
   length AND 00 00 around primitive contents) is what the hypothesis on [si] excludes *)
Theorem framed_modes_none : forall c t0 r cns si d k content b f0 dcd dfl Tv vv,
  (d = false -> support_indef c = true) ->
  (tcls t0 <> Univ \/ tnum t0 <> 0) ->
  Forall explicit_like r ->
  by_tag c [wire t0 cns] = Some (dcd, dfl) ->
  (d = false -> (cns = true \/ r <> []) -> si = true) ->
  frame (t0 :: r) content cns (mo d k) si = Ok b ->
  (length b <= S f0)%nat ->
  consumes (dec_value (dec_call c f0) f0 dcd dfl None (wire t0 cns :: r)
                      (body_len (if cns then d else true) (length content)) false)
           (content ++ body_end (if cns then d else true)) (DV Tv vv) ->
  (length content + 2 + 2 * length r <= length b)%nat /\ hd 0 b <> 0 /\
  forall ae, consumes (dec_call c (S f0 + length r) SNone [] None ae false) b (DV Tv vv).
Proof.
  intros c t0 r cns si d k content b f0 dcd dfl Tv vv Hsi Hnz Hex Hby Hmode He Hb Hval.
  pose proof (frame_modes_len_r _ _ _ _ _ _ _ _ He) as Hlen.
  cbn [frame] in He. unfold mo in He. rewrite Bool.andb_false_r in He. cbn [o_def] in He.
  destruct (frame_one t0 cns (if cns then d else true) si content) as [s0|e] eqn:E0; cbn [bind] in He; [|discriminate].
  rewrite (frame_outer_con r cns d si s0 Hex) in He.
  destruct (frame_outer_facts _ _ _ _ _ _ He Hex) as (Hlen0 & Hhd & Htl).
  destruct (frame_one_facts _ _ _ _ _ _ E0 Hnz) as (F1 & F2 & F3).
  split; [exact Hlen|]. split; [exact (Hhd F3)|].
  apply (peel_none c (S f0) d si r [] s0 b Tv vv He Hex (Htl (S (S f0)) ltac:(lia))).
  - intros Hr Hd. repeat split; [apply Hmode; [exact Hd|right; exact Hr]|exact (Hsi Hd)|lia].
  - apply ae_any_g; [intros _; split; [lia|exact F3]|]. rewrite app_nil_r.
    apply (match_level_none c f0 r t0 cns _ si content s0 _ dcd dfl E0); [|exact Hby|lia|exact Hval].
    intros Hd. destruct cns; [|discriminate Hd]. split; [apply Hmode; [exact Hd|left; reflexivity]|exact (Hsi Hd)].
Qed.

(* the value decoder registered for the universal tag of the base type B turns the contents octets
   into vdec, in an object of its prototype's type under the tags [ts] met on the wire *)
Definition val_dec (cd: codec) (B: ty) (content: bytes) (vdec: val) : Prop :=
  exists dcd dfl, by_tag cd (tagset_of' B) = Some (dcd, dfl)
    /\ forall f ts, tag0_simple ts = true -> fits f content ->
       base_of (schemaless_ty (sl_proto B) ts) = sl_proto B ->
       consumes (dec_value (dec_call cd f) f dcd dfl None ts (Some (N.of_nat (length content))) false)
                content (DV (schemaless_ty (sl_proto B) ts) vdec).

Lemma vd_int cd B z : B = TInt \/ B = TEnum -> val_dec cd B (enc_integer false z) (VInt z).
Proof.
  intros [-> | ->]; (eexists; eexists; split; [destruct cd; vm_compute; reflexivity|]);
    intros f ts Hts Hfit Hb; cbn [dec_value df_proto sl_proto] in *; unfold dec_integer; rewrite Hts;
    (apply consumes_ret; [exact Hfit|]); unfold create; rewrite Hb, enc_integer_roundtrip_all; reflexivity.
Qed.

Lemma consumes_bool_cer_none f ts (b: bool) :
  base_of (schemaless_ty TBool ts) = TBool ->
  consumes (dec_bool_cer f None ts 1) [if b then 255 else 0] (DV (schemaless_ty TBool ts) (VBool b)).
Proof. intros Hb. apply consumes_bool_cer_g. unfold create. rewrite Hb. destruct b; reflexivity. Qed.

(* the strict BOOLEAN decoder of CER/DER takes 00 and FF only *)
Lemma vd_bool ce cd b : enc_ok ce -> bool_compat ce cd b = true -> val_dec cd TBool [bool_octet ce b] (VBool b).
Proof.
  intros Hce Hcompat. destruct cd; (eexists; eexists; split; [vm_compute; reflexivity|]);
    intros f ts Hts Hfit Hb; cbn [dec_value df_proto sl_proto length] in *.
  1: unfold dec_integer; rewrite Hts; (apply consumes_ret; [exact Hfit|]); unfold create; rewrite Hb;
     destruct Hce as [-> | ->]; destruct b; reflexivity.
  all: destruct Hce as [-> | ->];
    [destruct b; [discriminate Hcompat|exact (consumes_bool_cer_none f ts false Hb)]|exact (consumes_bool_cer_none f ts b Hb)].
Qed.

Lemma vd_null cd : val_dec cd TNull [] VNull.
Proof.
  eexists; eexists. split; [destruct cd; vm_compute; reflexivity|].
  intros f ts Hts Hfit Hb. cbn [dec_value length sl_proto] in *. unfold dec_null. rewrite Hts.
  apply (consumes_ret _ []); [exact Hfit|]. unfold create. rewrite Hb. reflexivity.
Qed.

Lemma vd_octets cd bs : val_dec cd TOcts bs (VOcts bs).
Proof.
  destruct cd; (eexists; eexists; split; [vm_compute; reflexivity|]);
    intros f ts Hts Hfit Hb; cbn [dec_value df_proto sl_proto] in *; unfold dec_octets; rewrite Hts;
    (apply consumes_ret; [exact Hfit|]); unfold create; rewrite Hb; reflexivity.
Qed.

Lemma vd_oid cd arcs content : enc_oid arcs = Ok content -> val_dec cd TOid content (VOid arcs).
Proof.
  intros He. eexists; eexists. split; [destruct cd; vm_compute; reflexivity|].
  intros f ts Hts Hfit Hb. cbn [dec_value sl_proto] in *. unfold dec_oid_v. rewrite Hts.
  apply (consumes_bind_lift f content arcs dec_oid); [exact Hfit|exact (oid_roundtrip arcs content He)|].
  unfold create. rewrite Hb. reflexivity.
Qed.

Lemma vd_real cd content r : dec_real content = Ok r -> val_dec cd TReal content (VReal r).
Proof.
  intros Hd. eexists; eexists. split; [destruct cd; vm_compute; reflexivity|].
  intros f ts Hts Hfit Hb. cbn [dec_value sl_proto] in *. unfold dec_real_v. rewrite Hts.
  apply (consumes_bind_lift f content r dec_real); [exact Hfit|exact Hd|].
  unfold create. rewrite Hb. reflexivity.
Qed.

(* primitive BIT STRING: initial octet (unused bits), then the octets *)
Lemma vd_bits cd bs : val_dec cd TBits (enc_bits_prim bs) (VBits bs).
Proof.
  destruct cd; (eexists; eexists; split; [vm_compute; reflexivity|]);
    intros f ts Hts Hfit Hb; cbn [dec_value sl_proto] in *; unfold enc_bits_prim in *;
    (apply (consumes_bits_g _ _ _ _ _ _ _ bs);
       [exact Hts|exact Hfit|pose proof (pad_of_lt (length bs)); lia|apply bits_roundtrip
       |unfold create; rewrite Hb; reflexivity]).
Qed.

(* the table fact behind a lookup: what holds of every row holds of the row found *)
Lemma lookup3_forallb {B C} (ok: tkey * B * C -> bool) k l b c :
  forallb ok l = true -> lookup3 k l = Some (b, c) -> exists k', tkey_eqb k k' = true /\ ok (k', b, c) = true.
Proof.
  intros Hall H. destruct (lookup3_in_eqb _ _ _ _ H) as (k' & Hin & Hk).
  rewrite forallb_forall in Hall. exists k'. split; [exact Hk|exact (Hall _ Hin)].
Qed.

(* character and useful strings: the universal tag must be one the codec's tag map knows, with a
   prototype of that very string type *)
Definition sl_string (cd: codec) (n: N) : bool :=
  match by_tag cd [utag false n] with
  | Some (DcStr, fl) => match df_proto fl with Some (KStr m) => N.eqb m n | _ => false end
  | _ => false
  end.

Lemma sl_string_inv cd n : sl_string cd n = true ->
  exists dfl, by_tag cd [utag false n] = Some (DcStr, dfl) /\ df_proto dfl = Some (KStr n).
Proof.
  unfold sl_string. destruct (by_tag cd [utag false n]) as [[dcd dfl]|]; [|discriminate].
  destruct dcd; try discriminate.
  destruct (df_proto dfl) as [k|] eqn:Ep; [|discriminate]. destruct k; try discriminate.
  intros H. apply N.eqb_eq in H. subst n0. exists dfl. split; [reflexivity|exact Ep].
Qed.

Lemma vd_str cd n bs : sl_string cd n = true -> str_octets_ok n bs = Some true -> val_dec cd (TStr n) bs (VOcts bs).
Proof.
  intros Hs Hok. destruct (sl_string_inv cd n Hs) as (dfl & Eb & Ep).
  exists DcStr, dfl. split; [exact Eb|].
  intros f ts Hts Hfit Hb. cbn [dec_value sl_proto] in *. rewrite Ep. unfold dec_octets. rewrite Hts.
  apply consumes_ret; [exact Hfit|]. unfold create. rewrite Hb, Hok. reflexivity.
Qed.

(* every string type registered in the decoder's type map is also registered, with its own
   prototype, under its universal tag in the tag map regenerated from /repo *)
Definition str_row_tagged (cd: codec) (x: tkey * dec_codec * dec_flags) : bool :=
  match x with (KStr n, DcStr, _) => sl_string cd n | _ => true end.

Lemma known_string_sl ce cd n : known_string ce cd n = true -> sl_string cd n = true.
Proof.
  unfold known_string. intros H. apply Bool.andb_true_iff in H. destruct H as [_ H].
  destruct (lookup3 (KStr n) (dec_type_map cd)) as [[dc df]|] eqn:E; [|discriminate]. destruct dc; try discriminate.
  assert (Hrows: forallb (str_row_tagged cd) (dec_type_map cd) = true) by (destruct cd; vm_compute; reflexivity).
  destruct (lookup3_forallb _ _ _ _ _ Hrows E) as (k' & Hk & Hrow).
  destruct k'; try discriminate Hk. apply N.eqb_eq in Hk. subst n0. exact Hrow.
Qed.

(* the DER decoder reads definite, unsegmented encodings only *)
Definition reads (cd: codec) (d: bool) (k: N) : Prop := dec_ok cd \/ (d = true /\ k = 0).

Lemma reads_indef cd d k : reads cd d k -> d = false -> dec_ok cd.
Proof. intros [H|[-> _]] Hd; [exact H|discriminate Hd]. Qed.

(* segmented string contents (RoundTripModesC.chunked_octets_g, chunked_bits_g) with no guiding type *)
Lemma chunked_octets_none cd f0 dcd dfl ts d bs pieces ps T0 :
  dec_ok cd -> (dcd = DcOcts \/ dcd = DcStr) -> df_constructed dfl = true -> tag0_simple ts = false ->
  create None (match df_proto dfl with Some (KStr n) => TStr n | _ => TOcts end) ts (VOcts bs) = Ret (DV T0 (VOcts bs)) ->
  concat pieces = bs -> Forall2 (fun piece p => frame_piece 4 piece = Ok p) pieces ps ->
  N.of_nat (length (concat ps)) <= index_max -> (length (concat ps) + 2 <= f0)%nat ->
  consumes (dec_value (dec_call cd f0) f0 dcd dfl None ts (body_len d (length (concat ps))) false)
           (concat ps ++ body_end d) (DV T0 (VOcts bs)).
Proof.
  intros Hcd Hdcd Hcf Hts Hcreate Hcat HF Hmax Hf.
  pose proof (chunked_octets_g cd f0 _ dfl None ts d bs pieces ps _ Hcd Hcf Hts Hcreate Hcat HF Hmax Hf) as H.
  destruct d; cbn [body_len body_end]; [rewrite app_nil_r|]; destruct Hdcd as [-> | ->]; exact H.
Qed.

Lemma chunked_bits_none cd f0 dfl ts d bs pieces ps T0 :
  dec_ok cd -> df_constructed dfl = true -> tag0_simple ts = false ->
  create None TBits ts (VBits bs) = Ret (DV T0 (VBits bs)) ->
  concat pieces = bs -> pieces <> [] ->
  Forall2 (fun piece p => frame_piece 3 (enc_bits_prim piece) = Ok p) pieces ps ->
  N.of_nat (length (concat ps)) <= index_max -> (length (concat ps) + 2 <= f0)%nat ->
  consumes (dec_value (dec_call cd f0) f0 DcBits dfl None ts (body_len d (length (concat ps))) false)
           (concat ps ++ body_end d) (DV T0 (VBits bs)).
Proof.
  intros Hcd Hcf Hts Hcreate Hcat Hne HF Hmax Hf.
  pose proof (chunked_bits_g cd f0 dfl None ts d bs pieces ps _ Hcd Hcf Hts Hcreate Hcat Hne HF Hmax Hf) as H.
  destruct d; cbn [body_len body_end]; [rewrite app_nil_r|]; exact H.
Qed.

(* the constructed form of a string type carries the same tag as far as the guessed type is concerned *)
Lemma schemaless_ty_wire B b0 cns r : tagset_of B = Ok [b0] ->
  schemaless_ty B (wire b0 cns :: r) = schemaless_ty B (b0 :: r).
Proof.
  intros H. unfold schemaless_ty, tagset_of'. rewrite H, tag_eqb_refl.
  unfold tag_eqb, wire. cbn [tcls tnum]. rewrite cls_eqb_refl, N.eqb_refl. reflexivity.
Qed.

(* the string decoders registered in the tag maps of the BER and CER decoders read the constructed form *)
Definition dec_tag_row_ok (x: tkey * dec_codec * dec_flags) : bool :=
  match snd (fst x) with DcStr | DcOcts | DcBits => df_constructed (snd x) | _ => true end.

Lemma by_tag_constructed cd t dcd dfl : dec_ok cd -> by_tag cd [t] = Some (dcd, dfl) ->
  dcd = DcStr \/ dcd = DcOcts \/ dcd = DcBits -> df_constructed dfl = true.
Proof.
  intros Hcd Eb Hdcd. unfold by_tag in Eb. destruct (key_of_univ_tag t) as [kk|]; [|discriminate].
  assert (Hrows: forallb dec_tag_row_ok (dec_tag_map cd) = true) by (destruct Hcd as [-> | ->]; vm_compute; reflexivity).
  destruct (lookup3_forallb _ _ _ _ _ Hrows Eb) as (k' & _ & Hrow).
  destruct Hdcd as [-> | [-> | ->]]; exact Hrow.
Qed.

Lemma create_none T b0 cns r v : univ_explicit T = true -> sl_proto (base_of T) = base_of T ->
  tagset_of (base_of T) = Ok [b0] -> tagset_of T = Ok (b0 :: r) ->
  (match base_of T, v with
   | TStr n, VOcts b => str_octets_ok n b = Some true
   | TBool, VInt _ => False
   | _, _ => True end) ->
  create None (base_of T) (wire b0 cns :: r) v = Ret (DV (sl_ty T) v).
Proof.
  intros Hue Hp HB Hts Hv. unfold create.
  rewrite (schemaless_ty_wire _ b0 cns r HB).
  assert (E: schemaless_ty (base_of T) (b0 :: r) = sl_ty T).
  { unfold sl_ty. rewrite (tagset_of'_ok T _ Hts), Hp. reflexivity. }
  rewrite E. destruct (sl_ty_facts T Hue) as [_ Hbase]. rewrite Hbase, Hp.
  destruct (base_of T); try reflexivity.
  - destruct v; try reflexivity. destruct Hv.
  - destruct v; try reflexivity. rewrite Hv. reflexivity.
Qed.

(* what a simple value establishes: the value decoder found by the first wire tag reads the
   contents octets as the encoder framed them - in the definite form unless they are constructed
   (segmented) and the mode is indefinite - into vdec, inside the object type sl_ty T *)
Definition sl_leaf_goal (cd: codec) (d: bool) (T: ty) (v: val) (b0: tag) (r: tagset) (content: bytes) (cns: bool) : Prop :=
  exists dcd dfl vdec, by_tag cd [wire b0 cns] = Some (dcd, dfl) /\ abs (sl_ty T) vdec = abs T v /\
    forall f0, N.of_nat (length content) <= index_max -> (length content + 2 <= f0)%nat ->
      consumes (dec_value (dec_call cd f0) f0 dcd dfl None (wire b0 cns :: r)
                          (body_len (if cns then d else true) (length content)) false)
               (content ++ body_end (if cns then d else true)) (DV (sl_ty T) vdec).

Lemma sl_prim_goal cd d T v b0 r content vdec : univ_explicit T = true ->
  tagset_of (base_of T) = Ok [b0] -> tagset_of T = Ok (b0 :: r) -> tcon b0 = false ->
  val_dec cd (base_of T) content vdec -> abs (sl_proto (base_of T)) vdec = abs (base_of T) v ->
  sl_leaf_goal cd d T v b0 r content false.
Proof.
  intros Hue Hb0 Hts Hc0 (dcd & dfl & Hby & Hval) Habs. destruct (sl_ty_facts T Hue) as [_ Hbase].
  rewrite (tagset_of'_ok _ _ Hb0) in Hby.
  exists dcd, dfl, vdec. split; [exact Hby|].
  split; [rewrite (abs_wrappers (sl_ty T)), Hbase, (abs_wrappers T); exact Habs|].
  intros f0 Hmax Hf. cbn [body_len body_end]. rewrite app_nil_r, wire_false.
  unfold sl_ty in *. rewrite (tagset_of'_ok T _ Hts) in *.
  apply Hval; [unfold tag0_simple; rewrite Hc0; reflexivity|split; lia|exact Hbase].
Qed.

(* with maxChunkSize 0 nothing is segmented *)
Lemma whole_bits o bs : o_chunk o = 0 -> enc_bits o bs = Ok (enc_bits_prim bs, false).
Proof. intros H. unfold enc_bits. rewrite H. reflexivity. Qed.
Lemma whole_octets o b : o_chunk o = 0 -> enc_octets_like o (VOcts b) = Ok (b, false).
Proof. intros H. unfold enc_octets_like. rewrite H. reflexivity. Qed.

(* every simple type, every encoder and mode: what the encoder writes as contents, the value decoder
   selected by the first tag on the wire reads back *)
Lemma sl_leaf_modes ce cd d k T v ec fl content cns b0 r :
  reads cd d k -> univ_explicit T = true -> tagset_of (base_of T) = Ok [b0] -> tagset_of T = Ok (b0 :: r) ->
  stage1_val ce cd T v = true ->
  concrete_encoder ce T = Ok (ec, fl) -> enc_content ce T ec fl (mo d k) v = Ok (content, cns) ->
  (six T = true -> cns = false) /\ (six T = false -> ef_indef fl = true) /\ sl_leaf_goal cd d T v b0 r content cns.
Proof.
  intros Hrd Hue Hb0 Hts Hs Hce Hcont.
  rewrite concrete_encoder_base in Hce. rewrite enc_content_base in Hcont.
  pose proof (prim_content ce (base_of T) ec fl d k v content cns Hce Hcont) as Hpc.
  unfold stage1_val in Hs. unfold six.
  pose proof (ce0_ok ce) as Hce0.
  assert (Hc0: tcon b0 = false).
  { pose proof (univ_explicit_prim T Hue) as Hp. unfold prim_base in Hp.
    destruct (base_of T); try discriminate Hp; cbn [tagset_of] in Hb0; inversion Hb0; reflexivity. }
  assert (Hprim: forall vdec, val_dec cd (base_of T) content vdec -> abs (sl_proto (base_of T)) vdec = abs (base_of T) v ->
            sl_leaf_goal cd d T v b0 r content false)
    by (intros vdec; exact (sl_prim_goal cd d T v b0 r content vdec Hue Hb0 Hts Hc0)).
  (* segmented contents: maxChunkSize is not 0, so the decoder is not DER's *)
  assert (Hseg: forall w dcd dfl, k <> 0 -> by_tag cd [b0] = Some (dcd, dfl) ->
            dcd = DcStr \/ dcd = DcOcts \/ dcd = DcBits -> sl_proto (base_of T) = base_of T ->
            abs (base_of T) w = abs (base_of T) v ->
            (dec_ok cd -> df_constructed dfl = true ->
             forall f0, N.of_nat (length content) <= index_max -> (length content + 2 <= f0)%nat ->
             consumes (dec_value (dec_call cd f0) f0 dcd dfl None (wire b0 true :: r) (body_len d (length content)) false)
                      (content ++ body_end d) (DV (sl_ty T) w)) ->
            sl_leaf_goal cd d T v b0 r content true).
  { intros w dcd dfl Hk Hby Hdcd Hp Habs Hrun.
    assert (Hcd: dec_ok cd) by (destruct Hrd as [H|[_ H]]; [exact H|contradiction]).
    exists dcd, dfl, w. split; [exact Hby|].
    destruct (sl_ty_facts T Hue) as [_ Hbase].
    split; [rewrite (abs_wrappers (sl_ty T)), Hbase, Hp, (abs_wrappers T); exact Habs|].
    exact (Hrun Hcd (by_tag_constructed cd b0 dcd dfl Hcd Hby Hdcd)). }
  destruct (base_of T) eqn:Hb; destruct v as [bb|z|bs|bo|cs| |arcs|rr|vfs|xs|i x|ab]; try discriminate Hs;
    cbn [sl_proto] in *.
  - destruct Hpc as [-> ->]. split; [reflexivity|]. split; [discriminate|].
    exact (Hprim _ (vd_bool (ce0 ce) cd bb Hce0 (bool_compat_ce0 ce cd bb Hs)) eq_refl).
  - destruct Hpc as [-> ->]. split; [reflexivity|]. split; [discriminate|].
    exact (Hprim _ (vd_int cd TInt z (or_introl eq_refl)) eq_refl).
  - destruct Hpc as [-> ->]. split; [reflexivity|]. split; [discriminate|].
    exact (Hprim _ (vd_int cd TEnum z (or_intror eq_refl)) eq_refl).
  - destruct Hpc as (Hsi & o' & Hk0 & Hc).
    split; [discriminate|]. split; [intros _; exact Hsi|].
    destruct (enc_bits_cases _ _ _ _ Hc) as [[-> ->]|(-> & pieces & ps & Hcat & Hne & HF & ->)].
    + exact (Hprim _ (vd_bits cd bs) eq_refl).
    + inversion Hb0; subst b0.
      assert (Hby: exists dfl, by_tag cd [utag false 3] = Some (DcBits, dfl)) by (destruct cd; eexists; vm_compute; reflexivity).
      destruct Hby as (dfl & Hby).
      apply (Hseg (VBits bs) DcBits dfl); [|exact Hby|right; right; reflexivity|reflexivity|reflexivity|].
      { intros ->. rewrite (whole_bits o' bs (Hk0 eq_refl)) in Hc. discriminate Hc. }
      intros Hcd Hcf f0 Hmax Hf.
      apply (chunked_bits_none cd f0 dfl _ d bs pieces ps (sl_ty T) Hcd Hcf (wire_true_not_simple _ r)); try assumption.
      rewrite <- Hb. apply (create_none T (utag false 3) true r (VBits bs) Hue); rewrite ?Hb; [reflexivity|reflexivity|exact Hts|exact I].
  - destruct Hpc as (Hsi & Hc).
    split; [discriminate|]. split; [intros _; exact Hsi|].
    destruct (enc_octets_like_cases _ _ _ _ Hc) as [[-> ->]|(-> & pieces & ps & Hcat & HF & ->)].
    + exact (Hprim _ (vd_octets cd bo) eq_refl).
    + inversion Hb0; subst b0.
      assert (Hby: exists dfl, by_tag cd [utag false 4] = Some (DcOcts, dfl) /\ df_proto dfl = Some KOcts)
        by (destruct cd; eexists; split; vm_compute; reflexivity).
      destruct Hby as (dfl & Hby & Hpr).
      apply (Hseg (VOcts bo) DcOcts dfl); [|exact Hby|right; left; reflexivity|reflexivity|reflexivity|].
      { intros ->. rewrite (whole_octets (mo d 0) bo eq_refl) in Hc. discriminate Hc. }
      intros Hcd Hcf f0 Hmax Hf.
      apply (chunked_octets_none cd f0 DcOcts dfl _ d bo pieces ps (sl_ty T) Hcd (or_introl eq_refl) Hcf (wire_true_not_simple _ r));
        try assumption.
      rewrite Hpr, <- Hb. apply (create_none T (utag false 4) true r (VOcts bo) Hue); rewrite ?Hb; [reflexivity|reflexivity|exact Hts|exact I].
  - destruct Hpc as [-> ->]. split; [reflexivity|]. split; [discriminate|].
    exact (Hprim _ (vd_null cd) eq_refl).
  - destruct Hpc as [-> Eo]. split; [reflexivity|]. split; [discriminate|].
    exact (Hprim _ (vd_oid cd arcs content Eo) eq_refl).
  - destruct Hpc as [-> Er]. split; [reflexivity|]. split; [discriminate|].
    destruct rr as [| |m e|m e|]; try discriminate Hs.
    + destruct real_roundtrip_special as [[E1 D1] _]. rewrite E1 in Er. inversion Er; subst.
      exact (Hprim _ (vd_real cd [64] RPInf D1) eq_refl).
    + destruct real_roundtrip_special as [_ [[E1 D1] _]]. rewrite E1 in Er. inversion Er; subst.
      exact (Hprim _ (vd_real cd [65] RNInf D1) eq_refl).
    + assert (Hm: m <> 0%Z) by (destruct (Z.eqb_spec m 0); [discriminate|assumption]).
      destruct (real_roundtrip_bin m e content Hm Er) as (r' & Hd & Habs).
      apply (Hprim _ (vd_real cd content r' Hd)). cbn [abs]. rewrite Habs. reflexivity.
  - clear Hpc. apply Bool.andb_true_iff in Hs. destruct Hs as [Hk Hok].
    destruct (str_octets_ok n bo) as [[|]|] eqn:Eok; try discriminate.
    pose proof (known_string_sl ce cd n Hk) as Hsl.
    unfold known_string in Hk. apply Bool.andb_true_iff in Hk. destruct Hk as [Hk1 Hk2].
    destruct (lookup3 (KStr n) (enc_type_map ce)) as [[ec' ef]|] eqn:Ele; [|discriminate].
    destruct ec'; try discriminate.
    unfold concrete_encoder in Hce. cbn [key_of base_of] in Hce. rewrite Ele in Hce. inversion Hce; subst ec fl; clear Hce.
    cbn [enc_content] in Hcont.
    split; [discriminate|]. split; [intros _; exact (proj1 (enc_str_flag ce n ef Ele))|].
    destruct (enc_octets_like_cases _ _ _ _ Hcont) as [[-> ->]|(-> & pieces & ps & Hcat & HF & ->)].
    + exact (Hprim _ (vd_str cd n bo Hsl Eok) eq_refl).
    + inversion Hb0; subst b0. destruct (sl_string_inv cd n Hsl) as (dfl & Hby & Hpr).
      apply (Hseg (VOcts bo) DcStr dfl); [|exact Hby|left; reflexivity|reflexivity|reflexivity|].
      { intros ->. rewrite (whole_octets (mo d 0) bo eq_refl) in Hcont. discriminate Hcont. }
      intros Hcd Hcf f0 Hmax Hf.
      apply (chunked_octets_none cd f0 DcStr dfl _ d bo pieces ps (sl_ty T) Hcd (or_intror eq_refl) Hcf (wire_true_not_simple _ r));
        try assumption.
      rewrite Hpr, <- Hb. apply (create_none T (utag false n) true r (VOcts bo) Hue); rewrite ?Hb; [reflexivity|reflexivity|exact Hts|exact Eok].
Qed.

(* C16 for the simple types, every encoder and mode.  With NO guiding type, the encoding of a
   simple value of a self-describing type decodes to an object of the type [sl_ty T] with the
   abstract content of the encoded value, leaving exactly the octets that followed the encoding.
   In indefinite mode the F01 class is left out (Proofs/RoundTripModes.v). *)
Theorem leaf_consumes ce cd d k T v b : stable ce d k -> reads cd d k ->
  univ_explicit T = true -> (d = false -> f01_class T = false) -> stage1_val ce cd T v = true ->
  enc_with ce (enc_content ce) T (mo d k) v = Ok b -> N.of_nat (length b) <= index_max ->
  (2 <= length b)%nat /\ hd 0 b <> 0 /\
  exists vdec, abs (sl_ty T) vdec = abs T v /\
    forall f ae, (2 * length b <= f)%nat -> consumes (dec_call cd f SNone [] None ae false) b (DV (sl_ty T) vdec).
Proof.
  intros Hst Hrd Hue Hf01 Hs He Hmax.
  destruct (enc_with_inv_g ce T d k v b Hst He) as (ec & fl & ts & content & cns & Hce & Hts' & Hcont & Hfr).
  destruct (univ_explicit_shape T Hue) as (b0 & r & Hb0 & Hts & Hc0 & Hu & Hex & Hne).
  rewrite Hts in Hts'. inversion Hts'; subst ts; clear Hts'.
  destruct (sl_leaf_modes ce cd d k T v ec fl content cns b0 r Hrd Hue Hb0 Hts Hs Hce Hcont)
    as (Hsix & Hnsix & dcd & dfl & vdec & Hby & Habs & Hval).
  assert (Hb0n: tnum b0 <> 0).
  { apply (base_tag_nz T b0 Hb0). intros n Hbn. unfold stage1_val in Hs. rewrite Hbn in Hs.
    destruct v; try discriminate Hs. apply Bool.andb_true_iff in Hs. destruct Hs as [Hk _].
    unfold known_string in Hk. apply Bool.andb_true_iff in Hk. destruct Hk as [Hk _].
    destruct (lookup3 (KStr n) (enc_type_map ce)) as [[ec' ef]|] eqn:Ele; [|discriminate].
    destruct ec'; try discriminate. exact (proj2 (enc_str_flag ce n ef Ele)). }
  assert (Hmode: d = false -> cns = true \/ r <> [] -> ef_indef fl = true).
  { intros Hd0 Hor. destruct (six T) eqn:E6; [|exact (Hnsix eq_refl)].
    exfalso. specialize (Hsix eq_refl). destruct Hor as [Hc|Hr]; [congruence|].
    specialize (Hf01 Hd0). unfold f01_class in Hf01. rewrite E6 in Hf01. cbn [andb] in Hf01.
    apply Bool.negb_false_iff in Hf01. apply Nat.eqb_eq in Hf01. destruct r; [congruence|]. cbn [length] in Hne. lia. }
  pose proof (frame_modes_len_r _ _ _ _ _ _ _ _ Hfr) as Hlen.
  assert (Hgen: forall f, (2 * length b <= f)%nat -> hd 0 b <> 0 /\
            forall ae, consumes (dec_call cd f SNone [] None ae false) b (DV (sl_ty T) vdec)).
  { intros f Hf.
    replace f with (S (f - 1 - length r) + length r)%nat by lia.
    refine (proj2 (framed_modes_none cd b0 r cns (ef_indef fl) d k content b (f - 1 - length r) dcd dfl (sl_ty T) vdec
             (fun Hd => dec_ok_indef cd (reads_indef cd d k Hrd Hd)) (or_intror Hb0n) Hex Hby Hmode Hfr ltac:(lia) _)).
    apply (Hval (f - 1 - length r)%nat); lia. }
  split; [lia|]. split; [exact (proj1 (Hgen (2 * length b)%nat ltac:(lia)))|].
  exists vdec. split; [exact Habs|]. intros f ae Hf. exact (proj2 (Hgen f Hf) ae).
Qed.

(* C16, stage 1.  With NO guiding type, the encoding of a stage-1 value of a self-describing type
   decodes to an object
     - of the type [sl_ty T]: the base type of T (INTEGER when it is ENUMERATED) under the tags of T,
     - whose tag set is exactly the tag set of T (the tags that were on the wire),
     - with the abstract content of the encoded value,
   leaving exactly the octets that followed the encoding. *)
Theorem schemaless_roundtrip_stage1_codecs : forall ce cd T v b tl,
  enc_ok ce -> univ_explicit T = true -> stage1_val ce cd T v = true ->
  encode ce true 0 T v = Ok b -> N.of_nat (length b) <= index_max ->
  exists T0 v', decode cd None (b ++ tl) = Ok (DV T0 v', tl)
    /\ T0 = sl_ty T
    /\ tagset_of T0 = tagset_of T
    /\ base_of T0 = sl_proto (base_of T)
    /\ abs T0 v' = abs T v.
Proof.
  intros ce cd T v b tl Hce Hue Hs He Hmax.
  assert (Hst: stable ce true 0) by (destruct Hce as [-> | ->]; reflexivity).
  destruct (leaf_consumes ce cd true 0 T v b Hst (or_intror (conj eq_refl eq_refl)) Hue ltac:(discriminate) Hs He Hmax)
    as (_ & _ & vdec & Habs & Hc).
  destruct (sl_ty_facts T Hue) as [Htags Hbase].
  exists (sl_ty T), vdec. split; [|repeat split; assumption].
  apply (consumes_decode_with cd _ None b tl). apply Hc. unfold dec_fuel. rewrite app_length. lia.
Qed.

(* the BER encoder read back by the BER decoder; the tag set as the model's total function *)
Corollary schemaless_roundtrip_stage1 : forall T v b tl,
  univ_explicit T = true -> stage1_val BER BER T v = true ->
  encode BER true 0 T v = Ok b -> N.of_nat (length b) <= index_max ->
  exists T0 v', decode BER None (b ++ tl) = Ok (DV T0 v', tl)
    /\ tagset_of' T0 = tagset_of' T
    /\ base_of T0 = sl_proto (base_of T)
    /\ abs T0 v' = abs T v.
Proof.
  intros T v b tl Hue Hs He Hmax.
  destruct (schemaless_roundtrip_stage1_codecs BER BER T v b tl (or_introl eq_refl) Hue Hs He Hmax)
    as (T0 & v' & Hd & _ & Hts & Hb & Ha).
  exists T0, v'. split; [exact Hd|]. split; [unfold tagset_of'; rewrite Hts; reflexivity|]. split; assumption.
Qed.

(* DER encodings of self-describing stage-1 values are read back the same way by all three decoders *)
Corollary schemaless_der_stage1 : forall cd T v b tl,
  univ_explicit T = true -> stage1_val DER cd T v = true ->
  encode DER true 0 T v = Ok b -> N.of_nat (length b) <= index_max ->
  exists T0 v', decode cd None (b ++ tl) = Ok (DV T0 v', tl)
    /\ tagset_of' T0 = tagset_of' T
    /\ base_of T0 = sl_proto (base_of T)
    /\ abs T0 v' = abs T v.
Proof.
  intros cd T v b tl Hue Hs He Hmax.
  destruct (schemaless_roundtrip_stage1_codecs DER cd T v b tl (or_intror eq_refl) Hue Hs He Hmax)
    as (T0 & v' & Hd & _ & Hts & Hb & Ha).
  exists T0, v'. split; [exact Hd|]. split; [unfold tagset_of'; rewrite Hts; reflexivity|]. split; assumption.
Qed.

(* explicit tags written in their canonical (constructed) form over a base type other than ENUMERATED *)
Fixpoint canon_explicit (T: ty) : bool :=
  match T with
  | TBool | TInt | TBits | TOcts | TNull | TOid | TReal | TStr _ => true
  | TExp t x => negb (cls_eqb (tcls t) Univ) && tcon t && canon_explicit x
  | _ => false
  end.

Lemma canon_univ_explicit T : canon_explicit T = true -> univ_explicit T = true.
Proof.
  induction T as [| | | | | | | | n|fs IH|fs IH|t IH|t IH|alts IH| |tg x IH|tg x IH] using ty_ind';
    intros H; try reflexivity; try discriminate H.
  cbn [canon_explicit] in H. apply Bool.andb_true_iff in H. destruct H as [H1 H2].
  apply Bool.andb_true_iff in H1. destruct H1 as [H0 H1].
  cbn [univ_explicit]. rewrite H0, (IH H2). reflexivity.
Qed.

Lemma wrap_explicit_snoc : forall r t X, wrap_explicit (r ++ [t]) X = TExp t (wrap_explicit r X).
Proof.
  induction r as [|a r IH]; intros t X; cbn [app wrap_explicit]; [reflexivity|]. apply IH.
Qed.

Theorem sl_ty_canon : forall T, canon_explicit T = true -> sl_ty T = T.
Proof.
  induction T as [| | | | | | | | n|fs IH|fs IH|t IH|t IH|alts IH| |tg x IH|tg x IH] using ty_ind';
    intros H; try discriminate H;
    try (unfold sl_ty; cbn [base_of sl_proto tagset_of' tagset_of schemaless_ty]; rewrite tag_eqb_refl; reflexivity).
  cbn [canon_explicit] in H. apply Bool.andb_true_iff in H. destruct H as [H1 H2].
  apply Bool.andb_true_iff in H1. destruct H1 as [H0 H1].
  specialize (IH H2).
  destruct (univ_explicit_shape x (canon_univ_explicit x H2)) as (b0 & r & Hb & Hts & _ & _ & _).
  assert (Htg: mkTag (tcls tg) true (tnum tg) = tg) by (destruct tg as [c f n]; cbn in *; subst f; reflexivity).
  assert (HtsT: tagset_of (TExp tg x) = Ok (b0 :: r ++ [tg])).
  { cbn [tagset_of]. rewrite Hts. cbn [bind]. unfold tag_explicitly. rewrite Htg.
    destruct (tcls tg); try reflexivity. discriminate H0. }
  unfold sl_ty in *. rewrite (tagset_of'_ok _ _ HtsT). rewrite (tagset_of'_ok _ _ Hts) in IH.
  cbn [base_of]. unfold schemaless_ty in *. rewrite wrap_explicit_snoc. rewrite IH. reflexivity.
Qed.

(* a self-describing encoding decodes, without a schema, to a value OF THE ENCODED TYPE *)
Corollary schemaless_roundtrip_stage1_same_type : forall ce cd T v b tl,
  enc_ok ce -> canon_explicit T = true -> stage1_val ce cd T v = true ->
  encode ce true 0 T v = Ok b -> N.of_nat (length b) <= index_max ->
  exists v', decode cd None (b ++ tl) = Ok (DV T v', tl) /\ abs T v' = abs T v.
Proof.
  intros ce cd T v b tl Hce Hc Hs He Hmax.
  destruct (schemaless_roundtrip_stage1_codecs ce cd T v b tl Hce (canon_univ_explicit T Hc) Hs He Hmax)
    as (T0 & v' & Hd & HT0 & _ & _ & Ha).
  rewrite (sl_ty_canon T Hc) in HT0. subst T0. exists v'. split; assumption.
Qed.

Example schemaless_roundtrip_stage1_nonvacuous :
  let T := TExp (mkTag Appl false 2) (TExp (mkTag Ctx true 1) TEnum) in
  let v := VInt (-300) in
  let b := [98; 6; 161; 4; 10; 2; 254; 212] in
  univ_explicit T = true /\ stage1_val BER BER T v = true /\ encode BER true 0 T v = Ok b
  /\ N.of_nat (length b) <= index_max
  /\ decode BER None (b ++ [7; 7])
     = Ok (DV (TExp (mkTag Appl true 2) (TExp (mkTag Ctx true 1) (TImp (utag false 10) TInt))) v, [7; 7])
  /\ sl_ty T = TExp (mkTag Appl true 2) (TExp (mkTag Ctx true 1) (TImp (utag false 10) TInt)).
Proof. cbv zeta. repeat match goal with |- _ /\ _ => split end; vm_compute; try reflexivity; discriminate. Qed.

Example schemaless_same_type_nonvacuous :
  let T := TExp (mkTag Priv true 1000) (TExp (mkTag Ctx true 0) (TStr 12)) in
  let v := VOcts [104; 105] in
  canon_explicit T = true /\ stage1_val DER CER T v = true
  /\ encode DER true 0 T v = Ok [255; 135; 104; 6; 160; 4; 12; 2; 104; 105]
  /\ decode CER None [255; 135; 104; 6; 160; 4; 12; 2; 104; 105; 1] = Ok (DV T v, [1])
  /\ (let T2 := TExp (mkTag Ctx true 3) TReal in
      stage1_val BER DER T2 (VReal (RBin 10 0)) = true
      /\ exists b, encode BER true 0 T2 (VReal (RBin 10 0)) = Ok b
                   /\ decode DER None b = Ok (DV T2 (VReal (RBin 5 1)), [])).
Proof.
  cbv zeta. repeat match goal with |- _ /\ _ => split end;
    match goal with
    | |- exists _, _ => eexists; split; [vm_compute; reflexivity | vm_compute; reflexivity]
    | |- _ => vm_compute; reflexivity
    end.
Qed.

(* what is NOT self-describing or not known to the tag map is refused: an IMPLICIT tag, a string
   type the codec has no decoder for *)
Example schemaless_refused :
  (exists b, encode BER true 0 (TImp (mkTag Ctx false 1) TInt) (VInt 5) = Ok b /\ decode BER None b = Err EMalformed)
  /\ (exists b, encode BER true 0 (TStr 13) (VOcts [65]) = Ok b /\ decode BER None b = Err EMalformed).
Proof. split; (eexists; split; [vm_compute; reflexivity | vm_compute; reflexivity]). Qed.

Print Assumptions schemaless_roundtrip_stage1_codecs.
Print Assumptions schemaless_roundtrip_stage1.
Print Assumptions schemaless_der_stage1.
Print Assumptions schemaless_roundtrip_stage1_same_type.
Print Assumptions sl_ty_facts.
Print Assumptions sl_ty_canon.
Print Assumptions schemaless_roundtrip_stage1_nonvacuous.
Print Assumptions schemaless_same_type_nonvacuous.
