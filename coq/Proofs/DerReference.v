(* C03: the DER encoder's output is byte-identical to the distinguished encoding computed by the
   independent reference Spec/X690.v.

   The reference nests TLVs by re-tagging (IMPLICIT, 8.14.3, which has to read its own identifier octets
   back) and wrapping (EXPLICIT); the library frames the contents over the tag set of the type.  Both
   compute ref_frame over tagset_of (canon_wrappers, frame_is_ref, frame_total), so agreement on the
   contents octets of a value carries over to the item under all its tags (frame_item, item_complete).
   Here: the contents of the simple types, and the theorems for them; the domain of SEQUENCE / SEQUENCE OF
   over them.  The induction over all types is in Proofs/DerReference2.v. *)
From Coq Require Import Lia.
From PV Require Import Base.Bytes Model.Tag Model.TableTypes Model.Types Model.Enc Gen.Tables Spec.X690
     Proofs.Bits Proofs.SpecOctets Proofs.LeafInt Proofs.LeafOidBits Proofs.LeafReal Proofs.TagAlgebra.
From PV Require Export Proofs.EncUnfold.
From PV Require Import Proofs.Basics.
From PV Require Proofs.TagsetShape Proofs.RoundTrip1.
Local Open Scope N_scope.

Fixpoint val128 (acc: N) (ds: list N) : N :=
  match ds with [] => acc | d :: r => val128 (acc * 128 + d) r end.

Lemma val128_snoc l : forall acc d, val128 acc (l ++ [d]) = val128 acc l * 128 + d.
Proof. induction l as [|x l IH]; intros acc d; [reflexivity|]. cbn [app val128]. apply IH. Qed.

Lemma digits128_value : forall f n, (N.size_nat n <= f)%nat ->
  Forall (fun d => d < 128) (digits f 128 n) /\ val128 0 (digits f 128 n) = n.
Proof.
  induction f as [|f IH]; intros n Hf.
  - assert (n = 0) as -> by (apply size_nat_0; lia). cbn [digits val128]. split; [constructor; [lia|constructor]|reflexivity].
  - cbn [digits]. destruct (N.ltb_spec n 128) as [Hs|Hl].
    + cbn [val128]. split; [constructor; [exact Hs|constructor]|lia].
    + assert (Hn: n <> 0) by lia.
      pose proof (size_nat_div n 7 Hn eq_refl) as Hd. change (2 ^ 7) with 128 in Hd.
      destruct (IH (n / 128)) as [Hall Hval]; [lia|].
      split.
      * apply Forall_app. split; [exact Hall|]. constructor; [|constructor].
        apply N.mod_lt. lia.
      * rewrite val128_snoc, Hval. pose proof (N.div_mod n 128). lia.
Qed.

Lemma digits_of_128_value n : Forall (fun d => d < 128) (digits_of 128 n) /\ val128 0 (digits_of 128 n) = n.
Proof. unfold digits_of. apply digits128_value. lia. Qed.

Lemma mark_continuation_cons2 d e r : mark_continuation (d :: e :: r) = (128 + d) :: mark_continuation (e :: r).
Proof. reflexivity. Qed.

Lemma long_number_digits : forall ds fuel acc rest, ds <> [] -> Forall (fun d => d < 128) ds ->
  (length ds <= fuel)%nat ->
  long_number fuel acc (mark_continuation ds ++ rest) = Some (val128 acc ds, rest).
Proof.
  induction ds as [|d ds IH]; intros fuel acc rest Hne Hall Hf; [congruence|].
  inversion Hall as [|? ? Hd Hall']; subst.
  destruct fuel as [|fuel]; [cbn [length] in Hf; lia|].
  destruct ds as [|e ds'].
  - cbn [mark_continuation app long_number val128].
    destruct (N.ltb_spec d 128) as [_|Hc]; [reflexivity|lia].
  - rewrite mark_continuation_cons2. cbn [app long_number].
    destruct (N.ltb_spec (128 + d) 128) as [Hc|_]; [lia|].
    replace (128 + d - 128) with d by lia.
    change (val128 acc (d :: e :: ds')) with (val128 (acc * 128 + d) (e :: ds')).
    apply IH; [discriminate|exact Hall'|cbn [length] in *; lia].
Qed.

Lemma mark_continuation_length ds : length (mark_continuation ds) = length ds.
Proof.
  induction ds as [|d [|e r] IH]; [reflexivity|reflexivity|].
  rewrite mark_continuation_cons2. cbn [length] in *. rewrite IH. reflexivity.
Qed.

Lemma class_of_no_class_no c : class_of_no (class_no c) = c.
Proof. destruct c; reflexivity. Qed.

Lemma lead_fields (a b low: N) : b < 2 -> low < 32 ->
  (64 * a + 32 * b + low) / 64 = a /\ ((64 * a + 32 * b + low) / 32) mod 2 = b /\ (64 * a + 32 * b + low) mod 32 = low.
Proof.
  intros Hb Hl. repeat split.
  - symmetry. apply (N.div_unique _ 64 a (32 * b + low)); lia.
  - assert (E: (64 * a + 32 * b + low) / 32 = 2 * a + b).
    { symmetry. apply (N.div_unique _ 32 (2 * a + b) low); lia. }
    rewrite E. symmetry. apply (N.mod_unique _ 2 a b); lia.
  - symmetry. apply (N.mod_unique _ 32 (2 * a + b) low); lia.
Qed.

(* X.690 8.1.2 read back *)
Theorem split_ident_ident (c: tclass) (pc: bool) (n: N) (rest: bytes) :
  split_ident (ident c pc n ++ rest) = Some (c, pc, n, rest).
Proof.
  unfold ident.
  set (b := if pc then 1 else 0).
  assert (Hb: b < 2) by (subst b; destruct pc; lia).
  assert (Hlead: 64 * class_no c + (if pc then 32 else 0) = 64 * class_no c + 32 * b) by (subst b; destruct pc; lia).
  assert (Hpc: N.eqb b 1 = pc) by (subst b; destruct pc; reflexivity).
  rewrite Hlead.
  destruct (N.ltb_spec n 31) as [Hs|Hl].
  - cbn [app split_ident].
    destruct (lead_fields (class_no c) b n Hb) as (E1 & E2 & E3); [lia|].
    rewrite E1, E2, E3, class_of_no_class_no, Hpc.
    destruct (N.eqb_spec n 31) as [Hc|_]; [lia|reflexivity].
  - cbn [app split_ident].
    destruct (lead_fields (class_no c) b 31 Hb) as (E1 & E2 & E3); [lia|].
    rewrite E1, E2, E3, class_of_no_class_no, Hpc. cbn [N.eqb Pos.eqb].
    destruct (digits_of_128_value n) as [Hall Hval].
    rewrite (long_number_digits (digits_of 128 n) _ 0 rest).
    + rewrite Hval. reflexivity.
    + apply digits_nonempty.
    + exact Hall.
    + rewrite app_length, mark_continuation_length. lia.
Qed.

Definition tlv_tag (t: tag) (c: bytes) : bytes := tlv (tcls t) (tcon t) (tnum t) c.

(* the reference's TLVs nested over a tag set, innermost tag first *)
Definition ref_frame (ts: tagset) (c: bytes) : bytes := fold_left (fun acc t => tlv_tag t acc) ts c.

Lemma ref_frame_snoc ts t c : ref_frame (ts ++ [t]) c = tlv_tag t (ref_frame ts c).
Proof. unfold ref_frame. rewrite fold_left_app. reflexivity. Qed.

Lemma ident_tag t : ident (tcls t) (tcon t) (tnum t) = enc_tag t false.
Proof. destruct t as [c f n]. apply ident_is_enc_tag. Qed.

(* the tag's own form bit already says what the encoder's [constructed] argument says *)
Definition form_agrees (ic: bool) (t: tag) : Prop := (tcon t || ic)%bool = tcon t.

Lemma enc_tag_form t ic : form_agrees ic t -> enc_tag t ic = enc_tag t false.
Proof. unfold form_agrees, enc_tag. intros H. rewrite H, Bool.orb_false_r. reflexivity. Qed.

Lemma form_agrees_prim t : form_agrees false t.
Proof. unfold form_agrees. apply Bool.orb_false_r. Qed.

Lemma frame_one_is_tlv t ic si sub s : form_agrees ic t ->
  frame_one t ic true si sub = Ok s -> s = tlv_tag t sub.
Proof.
  intros Hf. unfold frame_one. cbn [negb andb].
  destruct (enc_len (N.of_nat (length sub)) false) as [l|e] eqn:E; cbn [bind]; [|discriminate].
  intros H. apply (f_equal (fun x => match x with Ok a => a | Err _ => [] end)) in H. cbv beta iota in H. subst s.
  apply length_octets_is_enc_len in E.
  unfold tlv_tag, tlv. rewrite ident_tag, E, app_nil_r, (enc_tag_form t ic Hf). reflexivity.
Qed.

Lemma frame_outer_is_ref : forall r ic si s b, Forall (form_agrees ic) r ->
  frame_outer r ic true si s = Ok b -> b = ref_frame r s.
Proof.
  induction r as [|x r IH]; intros ic si s b Hall H; cbn [frame_outer] in H.
  - apply (f_equal (fun x => match x with Ok a => a | Err _ => [] end)) in H. symmetry. exact H.
  - inversion Hall as [|? ? Hx Hr]; subst.
    destruct (frame_one x ic true si s) as [s1|e] eqn:E1; cbn [bind] in H; [|discriminate].
    apply (frame_one_is_tlv x ic si s s1 Hx) in E1. subst s1.
    apply (IH ic si _ b Hr H).
Qed.

Theorem frame_is_ref ts content ic o si b :
  o_def o = true -> o_ifne o = false -> Forall (form_agrees ic) ts ->
  frame ts content ic o si = Ok b -> b = ref_frame ts content.
Proof.
  intros Hd Hi Hall H. destruct ts as [|t0 r]; cbn [frame] in H.
  - apply (f_equal (fun x => match x with Ok a => a | Err _ => [] end)) in H. symmetry. exact H.
  - rewrite Hi, Bool.andb_false_r, Hd in H.
    replace (if ic then true else true) with true in H by (destruct ic; reflexivity).
    inversion Hall as [|? ? H0 Hr]; subst.
    destruct (frame_one t0 ic true si content) as [s0|e] eqn:E0; cbn [bind] in H; [|discriminate].
    apply (frame_one_is_tlv t0 ic si content s0 H0) in E0. subst s0.
    apply (frame_outer_is_ref r ic si _ b Hr H).
Qed.

Lemma digits256_length : forall f (k: nat) n, (1 <= k)%nat -> n < 256 ^ N.of_nat k -> (length (digits f 256 n) <= k)%nat.
Proof.
  induction f as [|f IH]; intros k n Hk Hn; cbn [digits]; [cbn [length]; lia|].
  destruct (N.ltb_spec n 256) as [Hs|Hl]; [cbn [length]; lia|].
  destruct k as [|k]; [lia|].
  rewrite pow256_succ in Hn.
  assert (Hq: n / 256 < 256 ^ N.of_nat k) by (apply N.div_lt_upper_bound; lia).
  destruct k as [|k].
  { change (256 ^ N.of_nat 0) with 1 in Hq. assert (n / 256 = 0) as Hz by lia. apply N.div_small_iff in Hz; lia. }
  rewrite app_length. cbn [length]. specialize (IH (S k) (n / 256)). lia.
Qed.

Definition max_len : N := 256 ^ 126.

Lemma enc_len_total n : n < max_len -> exists l, enc_len n false = Ok l.
Proof.
  intros Hn. unfold enc_len. destruct (N.ltb_spec n 128) as [Hs|Hl]; [eexists; reflexivity|].
  rewrite <- digits_of_256_is_b256 by lia.
  pose proof (digits256_length (N.size_nat n) 126 n) as Hlen.
  unfold digits_of.
  destruct (Nat.ltb_spec 126 (length (digits (N.size_nat n) 256 n))) as [Hc|_]; [|eexists; reflexivity].
  assert (length (digits (N.size_nat n) 256 n) <= 126)%nat; [|lia].
  apply Hlen; [lia|]. exact Hn.
Qed.

Lemma tlv_tag_length t c : (length c <= length (tlv_tag t c))%nat.
Proof. unfold tlv_tag, tlv. rewrite !app_length. lia. Qed.

Lemma ref_frame_length : forall ts c, (length c <= length (ref_frame ts c))%nat.
Proof.
  induction ts as [|t ts IH]; intros c; [cbn; lia|].
  change (ref_frame (t :: ts) c) with (ref_frame ts (tlv_tag t c)).
  pose proof (IH (tlv_tag t c)). pose proof (tlv_tag_length t c). lia.
Qed.

Lemma frame_one_total t ic si sub : form_agrees ic t -> N.of_nat (length sub) < max_len ->
  frame_one t ic true si sub = Ok (tlv_tag t sub).
Proof.
  intros Hf Hn. destruct (enc_len_total _ Hn) as [l El].
  assert (E: frame_one t ic true si sub = Ok (enc_tag t ic ++ l ++ sub ++ [])).
  { unfold frame_one. cbn [negb andb]. rewrite El. reflexivity. }
  rewrite E. f_equal. apply (frame_one_is_tlv t ic si sub _ Hf E).
Qed.

Lemma frame_outer_total : forall r ic si s, Forall (form_agrees ic) r ->
  N.of_nat (length (ref_frame r s)) < max_len -> frame_outer r ic true si s = Ok (ref_frame r s).
Proof.
  induction r as [|x r IH]; intros ic si s Hall Hn; [reflexivity|].
  inversion Hall as [|? ? Hx Hr]; subst.
  change (ref_frame (x :: r) s) with (ref_frame r (tlv_tag x s)) in *.
  cbn [frame_outer]. rewrite (frame_one_total x ic si s Hx).
  - cbn [bind]. apply IH; assumption.
  - pose proof (ref_frame_length r (tlv_tag x s)). pose proof (tlv_tag_length x s). lia.
Qed.

Theorem frame_total ts content ic o si :
  o_def o = true -> o_ifne o = false -> Forall (form_agrees ic) ts ->
  N.of_nat (length (ref_frame ts content)) < max_len ->
  frame ts content ic o si = Ok (ref_frame ts content).
Proof.
  intros Hd Hi Hall Hn. destruct ts as [|t0 r]; [reflexivity|].
  cbn [frame]. rewrite Hi, Bool.andb_false_r, Hd.
  replace (if ic then true else true) with true by (destruct ic; reflexivity).
  inversion Hall as [|? ? H0 Hr]; subst.
  change (ref_frame (t0 :: r) content) with (ref_frame r (tlv_tag t0 content)) in *.
  rewrite (frame_one_total t0 ic si content H0).
  - cbn [bind]. apply frame_outer_total; assumption.
  - pose proof (ref_frame_length r (tlv_tag t0 content)). pose proof (tlv_tag_length t0 content). lia.
Qed.

Lemma canon_imp cer t x v : canon cer (TImp t x) v = opt_bind (canon cer x v) (retag t).
Proof. destruct v; reflexivity. Qed.

Lemma canon_exp cer t x v :
  canon cer (TExp t x) v = match tcls t with
                           | Univ => None
                           | _ => opt_bind (canon cer x v) (fun e => Some (ctlv cer (tcls t) (tnum t) e))
                           end.
Proof. destruct v; reflexivity. Qed.

(* CHOICE and ANY have no tag of their own *)
Definition untagged (T: ty) : bool := match base_of T with TChoice _ | TAny => true | _ => false end.

Lemma tag_implicitly_nonempty ts t : tag_implicitly ts t <> [].
Proof.
  unfold tag_implicitly. destruct (rev ts) as [|l r]; [discriminate|].
  intros H. apply app_eq_nil in H. destruct H as [_ H]. discriminate H.
Qed.

Lemma tagset_nonempty : forall T ts, untagged T = false -> tagset_of T = Ok ts -> ts <> [].
Proof. intros T ts Hu Hts ->. destruct (tagset_empty T Hts) as [->|[alts ->]]; discriminate Hu. Qed.

(* 8.14.3 on a TLV: the identifier is replaced, P/C kept *)
Lemma retag_tlv_tag t last e : retag t (tlv_tag last e) = Some (tlv_tag (mkTag (tcls t) (tcon last) (tnum t)) e).
Proof. unfold retag, tlv_tag, tlv. rewrite split_ident_ident. reflexivity. Qed.

(* every IMPLICIT tag of the type has a tag below it to replace (X.680 31.2.7 turns an IMPLICIT tag on
   an untagged CHOICE or ANY into an EXPLICIT one, and so does the library; the reference does not) *)
Fixpoint imp_tagged (T: ty) : Prop :=
  match T with
  | TImp _ x => tagset_of x <> Ok [] /\ imp_tagged x
  | TExp _ x => imp_tagged x
  | _ => True
  end.

Lemma untagged_imp_tagged : forall T, untagged T = false -> imp_tagged T.
Proof.
  induction T; intros Hu; try exact I; cbn [imp_tagged]; [split|]; try (apply IHT; exact Hu).
  intros E. exact (tagset_nonempty T [] Hu E eq_refl).
Qed.

(* the tag set of a type, from that of its base: IMPLICIT replaces the outermost tag and keeps its form,
   EXPLICIT adds a constructed one *)
Lemma tagset_wrappers_ind (P: ty -> tagset -> Prop) :
  (forall t x ts0 last, P x (ts0 ++ [last]) -> P (TImp t x) (ts0 ++ [mkTag (tcls t) (tcon last) (tnum t)])) ->
  (forall t x ts, tcls t <> Univ -> P x ts -> P (TExp t x) (ts ++ [mkTag (tcls t) true (tnum t)])) ->
  forall T tsb, imp_tagged T -> tagset_of (base_of T) = Ok tsb -> P (base_of T) tsb ->
  forall ts, tagset_of T = Ok ts -> P T ts.
Proof.
  intros Himp Hexp.
  induction T as [| | | | | | | | n|fs IH|fs IH|t IH|t IH|alts IH| |tg x IH|tg x IH] using ty_ind';
    intros tsb Hi Hb HP ts Hts;
    try (cbn [base_of] in Hb, HP; rewrite Hb in Hts; injection Hts as <-; exact HP).
  - destruct Hi as [Hne Hi].
    destruct (tagset_of_imp _ _ _ Hts) as (ts' & Ex & ->). pose proof (IH tsb Hi Hb HP ts' Ex) as HPx.
    destruct (@exists_last _ ts') as (ts0 & last & ->); [intros ->; exact (Hne Ex)|].
    rewrite tag_implicitly_spec. apply Himp, HPx.
  - destruct (tagset_of_exp _ _ _ Hts) as (ts' & Ex & Hnu & ->).
    apply (Hexp tg x ts' Hnu), (IH tsb Hi Hb HP ts' Ex).
Qed.

(* the reference on a tagged type = the reference on the base type, re-framed over the library's tag set *)
Theorem canon_wrappers : forall T v c tsb, imp_tagged T ->
  tagset_of (base_of T) = Ok tsb -> canon false (base_of T) v = Some (ref_frame tsb c) ->
  forall ts, tagset_of T = Ok ts -> canon false T v = Some (ref_frame ts c).
Proof.
  intros T v c. apply (tagset_wrappers_ind (fun T ts => canon false T v = Some (ref_frame ts c))).
  - intros t x ts0 last H. rewrite canon_imp, H, !ref_frame_snoc. cbn [opt_bind]. apply retag_tlv_tag.
  - intros t x ts Hnu H. rewrite canon_exp, H, ref_frame_snoc. cbn [opt_bind ctlv].
    destruct (tcls t); [congruence|reflexivity|reflexivity|reflexivity].
Qed.

Lemma tagset_all_cons : forall T tsb ts, imp_tagged T -> tagset_of (base_of T) = Ok tsb ->
  Forall (fun t => tcon t = true) tsb -> tagset_of T = Ok ts -> Forall (fun t => tcon t = true) ts.
Proof.
  intros T tsb ts Hi Hb Hc. apply (tagset_wrappers_ind (fun _ ts => Forall (fun t => tcon t = true) ts)) with (tsb := tsb); try assumption.
  - intros t x ts0 last H. apply Forall_app in H. destruct H as [H0 Hl]. inversion Hl; subst.
    apply Forall_app. split; [exact H0|]. constructor; [assumption|constructor].
  - intros t x ts' _ H. apply Forall_app. split; [exact H|]. constructor; [reflexivity|constructor].
Qed.

Theorem canon_wrappers_none : forall cer T v, canon cer (base_of T) v = None -> canon cer T v = None.
Proof.
  intros cer. induction T as [| | | | | | | | n|fs IH|fs IH|t IH|t IH|alts IH| |tg x IH|tg x IH] using ty_ind';
    intros v Hb; try exact Hb.
  - rewrite canon_imp, (IH v Hb). reflexivity.
  - rewrite canon_exp, (IH v Hb). destruct (tcls tg); reflexivity.
Qed.

(* EXPLICIT UNIVERSAL is refused by both sides *)
Theorem canon_tagset_err : forall cer T v e, tagset_of T = Err e -> canon cer T v = None.
Proof.
  intros cer. induction T as [| | | | | | | | n|fs IH|fs IH|t IH|t IH|alts IH| |tg x IH|tg x IH] using ty_ind';
    intros v e Hts; try discriminate Hts.
  - cbn [tagset_of] in Hts. destruct (tagset_of x) as [ts'|e'] eqn:Ex; cbn [bind] in Hts; [discriminate|].
    rewrite canon_imp, (IH v e' eq_refl). reflexivity.
  - cbn [tagset_of] in Hts. rewrite canon_exp. destruct (tagset_of x) as [ts'|e'] eqn:Ex; cbn [bind] in Hts.
    + pose proof (tag_explicitly_spec ts' tg) as Hsp. rewrite Hts in Hsp. destruct Hsp as [-> _]. reflexivity.
    + rewrite (IH v e' eq_refl). destruct (tcls tg); reflexivity.
Qed.

Definition def_opts : eopts := mkOpts true 0 false.

(* enc under DER, whose fixed options are definite lengths and no segmentation; i is ifNotEmpty *)
Lemma enc_der_unfold T i v :
  enc DER T (mkOpts true 0 i) v =
  (do ce <- concrete_encoder DER T;
   do ts <- tagset_of T;
   do cc <- enc_content DER T (fst ce) (snd ce) def_opts v;
   frame ts (fst cc) (snd cc) (mkOpts true 0 i) (ef_indef (snd ce))).
Proof. exact (enc_unfold DER T (mkOpts true 0 i) v). Qed.

Lemma enc_der_inv T i v b : enc DER T (mkOpts true 0 i) v = Ok b ->
  exists cd fl ts content ic, concrete_encoder DER (base_of T) = Ok (cd, fl) /\ tagset_of T = Ok ts /\
    enc_content DER (base_of T) cd fl def_opts v = Ok (content, ic) /\
    frame ts content ic (mkOpts true 0 i) (ef_indef fl) = Ok b.
Proof. exact (enc_inv DER T (mkOpts true 0 i) v b). Qed.

Definition base_tag (B: ty) : tag :=
  match B with
  | TBool => utag false 1 | TInt => utag false 2 | TBits => utag false 3 | TOcts => utag false 4
  | TNull => utag false 5 | TOid => utag false 6 | TReal => utag false 9 | TEnum => utag false 10
  | TStr n => utag false n
  | _ => utag false 0
  end.

Definition simple_base (B: ty) : bool :=
  match B with TBool | TInt | TEnum | TBits | TOcts | TNull | TOid | TReal | TStr _ => true | _ => false end.

(* the reference's contents octets (clauses 8.2-8.23, 11.2, 11.3), before any framing *)
Definition ref_contents (B: ty) (v: val) : option bytes :=
  match B, v with
  | TBool, VBool b => Some [if b then 255 else 0]
  | (TInt | TEnum), VInt z => Some (int_contents z)
  | TBits, VBits bs => Some (bitstring_contents bs)
  | TOcts, VOcts b => Some b
  | TNull, VNull => Some []
  | TOid, VOid a => oid_contents a
  | TReal, VReal r => real_contents r
  | TStr n, _ => string_octets v
  | _, _ => None
  end.

Lemma canon_simple B v : simple_base B = true ->
  tagset_of B = Ok [base_tag B] /\
  canon false B v = match ref_contents B v with Some c => Some (ref_frame [base_tag B] c) | None => None end.
Proof.
  intros Hs. destruct B; try discriminate Hs; (split; [reflexivity|]); destruct v; reflexivity.
Qed.

(* the values of a simple type on which the reference is defined the way the library is:
   REAL in decimal form is outside the reference (only a zero mantissa, empty contents, is common) *)
Definition der_ref_base (B: ty) (v: val) : bool :=
  match B, v with
  | TBool, VBool _ | (TInt | TEnum), VInt _ | TNull, VNull | TOcts, VOcts _ | TBits, VBits _ | TOid, VOid _ => true
  | TReal, VReal (RBin _ _ | RPInf | RNInf | RFloat) => true
  | TReal, VReal (RDec m _) => Z.eqb m 0
  | TStr _, (VOcts _ | VChars _) => true
  | _, _ => false
  end.
Definition der_ref_val (T: ty) (v: val) : bool := der_ref_base (base_of T) v.

Lemma lookup3_in_key {B C} (k: tkey) (l: list (tkey * B * C)) b c :
  lookup3 k l = Some (b, c) -> exists k', tkey_eqb k k' = true /\ In (k', b, c) l.
Proof.
  unfold lookup3. induction l as [|[[k' b'] c'] l IH]; cbn [map assoc fst snd]; [discriminate|].
  destruct (tkey_eqb k k') eqn:E.
  - intros H. injection H as <- <-. exists k'. split; [exact E|left; reflexivity].
  - intros H. destruct (IH H) as (k2 & H1 & H2). exists k2. split; [exact H1|right; exact H2].
Qed.

(* character and useful string types: plain octets, except the two time types *)
Lemma der_string_encoder n cd fl : concrete_encoder DER (TStr n) = Ok (cd, fl) ->
  cd = EcOcts \/ ((cd = EcUtcTime \/ cd = EcGenTime) /\ ef_max_len fl <= 20 /\ (n = 23 \/ n = 24)).
Proof.
  unfold concrete_encoder. cbn [key_of base_of tag_fallback_key enc_type_map enc_tag_map].
  destruct (lookup3 (KStr n) der_enc_type_map) as [[cd' fl']|] eqn:E.
  - intros H. injection H as <- <-.
    destruct (lookup3_in_key _ _ _ _ E) as (k' & Hk & Hin).
    unfold der_enc_type_map in Hin. cbn [In] in Hin.
    repeat (destruct Hin as [Hin|Hin];
            [injection Hin as <- <- <-;
             first [discriminate Hk | left; reflexivity
                   | right; cbn [tkey_eqb] in Hk; apply N.eqb_eq in Hk; split; [auto|split; [cbn [ef_max_len]; lia|auto]]]|]).
    contradiction.
  - assert (Ek: lookup3 KOcts der_enc_tag_map = Some (EcOcts, mkEncFlags true false false None 0 0)) by (vm_compute; reflexivity).
    rewrite Ek. intros H. injection H as <- <-. left; reflexivity.
Qed.

Lemma der_string_encoder_total n : exists cd fl, concrete_encoder DER (TStr n) = Ok (cd, fl).
Proof.
  unfold concrete_encoder. cbn [key_of base_of tag_fallback_key enc_type_map enc_tag_map].
  destruct (lookup3 (KStr n) der_enc_type_map) as [[cd' fl']|]; [eexists; eexists; reflexivity|].
  assert (Ek: lookup3 KOcts der_enc_tag_map = Some (EcOcts, mkEncFlags true false false None 0 0)) by (vm_compute; reflexivity).
  rewrite Ek. eexists; eexists; reflexivity.
Qed.

Lemma time_guard_len fl b : time_guard fl b = Ok tt -> N.of_nat (length b) < ef_max_len fl.
Proof.
  unfold time_guard. destruct (existsb (fun x => N.eqb x 43 || N.eqb x 45) b); [discriminate|].
  generalize (rev b) as rb. intros rb H.
  destruct rb as [|x l]; [discriminate H|]. destruct x as [|p]; [discriminate H|].
  do 7 (destruct p as [p|p|]; try discriminate H).
  destruct (existsb (N.eqb 44) b); [discriminate H|]. destruct (existsb (N.eqb 46) b); [discriminate H|].
  destruct (N.ltb_spec (N.of_nat (length b)) (ef_max_len fl)) as [Hlt|]; [exact Hlt|].
  rewrite Bool.andb_false_r in H. discriminate H.
Qed.

Lemma octets_like_plain v b : octets_of v = Some b -> enc_octets_like def_opts v = Ok (b, false).
Proof. intros H. unfold enc_octets_like. rewrite H. reflexivity. Qed.

Lemma octets_like_1000 v b : octets_of v = Some b -> N.of_nat (length b) <= 1000 ->
  enc_octets_like (mkOpts true 1000 false) v = Ok (b, false).
Proof.
  intros H Hl. unfold enc_octets_like. rewrite H. cbn [o_chunk].
  destruct (Nat.leb_spec (length b) (N.to_nat 1000)) as [_|Hc]; [rewrite Bool.orb_true_r; reflexivity|lia].
Qed.

Lemma der_string_content n v b cd fl content ic : octets_of v = Some b ->
  concrete_encoder DER (TStr n) = Ok (cd, fl) -> enc_content DER (TStr n) cd fl def_opts v = Ok (content, ic) ->
  ic = false /\ content = b.
Proof.
  intros Ho Hce He. destruct (der_string_encoder n cd fl Hce) as [->|[Hcd [Hmax _]]].
  - cbn [enc_content] in He. rewrite (octets_like_plain v b Ho) in He. injection He as <- <-. split; reflexivity.
  - assert (Hg: (do _ <- time_guard fl b; enc_octets_like (mkOpts true 1000 false) v) = Ok (content, ic)).
    { destruct Hcd as [-> | ->]; cbn [enc_content] in He; rewrite Ho in He; exact He. }
    destruct (time_guard fl b) as [[]|] eqn:Eg; cbn [bind] in Hg; [|discriminate Hg].
    apply time_guard_len in Eg.
    rewrite (octets_like_1000 v b Ho) in Hg by lia. injection Hg as <- <-. split; reflexivity.
Qed.

Lemma der_string_total n v b : octets_of v = Some b -> negb (N.eqb n 23 || N.eqb n 24) = true ->
  exists cd fl, concrete_encoder DER (TStr n) = Ok (cd, fl) /\ exists cc, enc_content DER (TStr n) cd fl def_opts v = Ok cc.
Proof.
  intros Ho Hx. destruct (der_string_encoder_total n) as (cd & fl & Hce). exists cd, fl. split; [exact Hce|].
  destruct (der_string_encoder n cd fl Hce) as [->|[_ [_ Hn]]].
  - eexists. cbn [enc_content]. apply (octets_like_plain v b Ho).
  - destruct Hn as [-> | ->]; discriminate Hx.
Qed.

Ltac encoder_is Hce :=
  match type of Hce with
  | ?lhs = Ok _ => let r := fresh "r" in let Er := fresh "Er" in
                   remember lhs as r eqn:Er; vm_compute in Er; subst r; injection Hce as <- <-
  end.

(* contents: whenever the library's DER encodeValue answers, it answers the reference's contents octets *)
Theorem der_contents_sound B v cd fl content ic :
  der_ref_base B v = true -> concrete_encoder DER B = Ok (cd, fl) ->
  enc_content DER B cd fl def_opts v = Ok (content, ic) ->
  ic = false /\ ref_contents B v = Some content.
Proof.
  intros Hd Hce He.
  destruct B; try discriminate Hd; destruct v as [bb|z|bs|bo|cs| |arcs|r|vfs|xs|i x|ab]; try discriminate Hd.
  - (* BOOLEAN *) encoder_is Hce. cbn [enc_content] in He. injection He as <- <-. split; reflexivity.
  - (* INTEGER *) encoder_is Hce. cbn [enc_content ef_compact_zero] in He. injection He as <- <-.
    split; [reflexivity|]. cbn [ref_contents]. rewrite int_contents_is_enc_integer. reflexivity.
  - (* ENUMERATED *) encoder_is Hce. cbn [enc_content ef_compact_zero] in He. injection He as <- <-.
    split; [reflexivity|]. cbn [ref_contents]. rewrite int_contents_is_enc_integer. reflexivity.
  - (* BIT STRING *) encoder_is Hce. cbn [enc_content] in He.
    change (enc_bits def_opts bs) with (Ok (enc_bits_prim bs, false)) in He. injection He as <- <-.
    split; [reflexivity|]. cbn [ref_contents]. rewrite bitstring_contents_is_enc_bits_prim. reflexivity.
  - (* OCTET STRING *) encoder_is Hce. cbn [enc_content] in He.
    rewrite (octets_like_plain (VOcts bo) bo eq_refl) in He. injection He as <- <-. split; reflexivity.
  - (* NULL *) encoder_is Hce. cbn [enc_content] in He. injection He as <- <-. split; reflexivity.
  - (* OBJECT IDENTIFIER *) encoder_is Hce. cbn [enc_content] in He. cbn [ref_contents].
    rewrite oid_contents_is_enc_oid.
    destruct (enc_oid arcs) as [c|]; cbn [bind] in He; [|discriminate He]. injection He as <- <-. split; reflexivity.
  - (* REAL *) encoder_is Hce. cbn [enc_content] in He. cbn [ref_contents].
    destruct (enc_real r) as [c|] eqn:Er; cbn [bind] in He; [|discriminate He]. injection He as <- <-.
    split; [reflexivity|].
    destruct r as [| |m e|m e|].
    + cbn [enc_real] in Er. injection Er as <-. reflexivity.
    + cbn [enc_real] in Er. injection Er as <-. reflexivity.
    + assert (Hfit: real_exp_fits m e = true) by (apply enc_real_bin_ok_iff; exists c; exact Er).
      rewrite (real_contents_is_enc_real_partial m e Hfit), Er. reflexivity.
    + cbn [der_ref_base] in Hd. cbn [enc_real real_contents] in *. rewrite Hd in *. injection Er as <-. reflexivity.
    + discriminate Er.
  - (* strings as octets *)
    destruct (der_string_content n (VOcts bo) bo cd fl content ic eq_refl Hce He) as [-> ->]. split; reflexivity.
  - (* strings as characters *)
    destruct (der_string_content n (VChars cs) (concat cs) cd fl content ic eq_refl Hce He) as [-> ->]. split; reflexivity.
Qed.

Lemma der_ref_simple B v : der_ref_base B v = true -> simple_base B = true.
Proof. destruct B; try reflexivity; destruct v; discriminate. Qed.

Lemma simple_tagged T : simple_base (base_of T) = true -> untagged T = false.
Proof. unfold untagged. destruct (base_of T); try reflexivity; discriminate. Qed.

Lemma all_form_agrees_prim ts : Forall (form_agrees false) ts.
Proof. apply Forall_forall. intros t _. apply form_agrees_prim. Qed.

Lemma forms_of_cons ts : Forall (fun t => tcon t = true) ts -> Forall (form_agrees true) ts.
Proof.
  intros H. apply Forall_forall. intros t Ht. rewrite Forall_forall in H. unfold form_agrees. rewrite (H t Ht). reflexivity.
Qed.

(* ifNotEmpty changes nothing unless the item is constructed and empty *)
Lemma frame_ifne_irrelevant ts content ic si : (ic = false \/ content <> []) ->
  frame ts content ic (mkOpts true 0 true) si = frame ts content ic def_opts si.
Proof.
  intros H. destruct ts as [|t0 r]; [reflexivity|]. cbn [frame o_ifne o_def def_opts].
  destruct H as [->|H]; [rewrite !Bool.andb_false_r; reflexivity|].
  destruct content; [congruence|reflexivity].
Qed.

(* the frame of an item: constructed contents come over constructed tags only, and are not empty where
   ifNotEmpty (i) is set; then frame_is_ref and frame_total apply *)
Lemma frame_item T ts tsb content ic i si : imp_tagged T -> tagset_of T = Ok ts ->
  tagset_of (base_of T) = Ok tsb -> (ic = true -> Forall (fun t => tcon t = true) tsb) ->
  (ic = true -> content = [] -> i = false) ->
  frame ts content ic (mkOpts true 0 i) si = frame ts content ic def_opts si /\ Forall (form_agrees ic) ts.
Proof.
  intros Hit Hts Htsb Hcons Hne. split.
  - destruct i; [|reflexivity]. apply frame_ifne_irrelevant.
    destruct ic; [right|left; reflexivity]. intros E. discriminate (Hne eq_refl E).
  - destruct ic; [|apply all_form_agrees_prim].
    apply forms_of_cons. exact (tagset_all_cons T tsb ts Hit Htsb (Hcons eq_refl) Hts).
Qed.

(* from the contents of a value to the item: if the encoder's contents octets are the reference's (once
   they are short enough to be framed at all; the two conditions of frame_item are only asked for then),
   so is the encoding under all the tags of the type *)
Lemma item_complete T i v b tsb c cd fl ic : imp_tagged T -> tagset_of (base_of T) = Ok tsb ->
  canon false (base_of T) v = Some (ref_frame tsb c) -> concrete_encoder DER (base_of T) = Ok (cd, fl) ->
  (N.of_nat (length c) < max_len -> enc_content DER (base_of T) cd fl def_opts v = Ok (c, ic) /\
     (ic = true -> Forall (fun t => tcon t = true) tsb) /\ (ic = true -> c = [] -> i = false)) ->
  der T v = Some b -> N.of_nat (length b) < max_len -> enc DER T (mkOpts true 0 i) v = Ok b.
Proof.
  intros Hit Htsb Hcan Hce Hc Hr Hlen. unfold der in Hr.
  destruct (tagset_of T) as [ts|e0] eqn:Ets; [|rewrite (canon_tagset_err false T v e0 Ets) in Hr; discriminate Hr].
  rewrite (canon_wrappers T v c tsb Hit Htsb Hcan ts Ets) in Hr. injection Hr as <-.
  pose proof (ref_frame_length ts c) as Hcl.
  destruct Hc as (Henc & Hcons & Hne); [lia|].
  destruct (frame_item T ts tsb c ic i (ef_indef fl) Hit Ets Htsb Hcons Hne) as [Ef Hforms].
  rewrite enc_der_unfold, concrete_encoder_base, Hce. cbn [bind fst snd]. rewrite Ets. cbn [bind].
  rewrite enc_content_base, Henc. cbn [bind fst snd]. rewrite Ef.
  apply frame_total; [reflexivity|reflexivity|exact Hforms|exact Hlen].
Qed.

(* Soundness.  Every simple type - BOOLEAN, INTEGER, ENUMERATED, BIT STRING, OCTET STRING, NULL,
   OBJECT IDENTIFIER, REAL, every character and useful string type (as octets or as characters) -
   under ANY stack of IMPLICIT and EXPLICIT tags of any class and number (UNIVERSAL included):
   whatever the library's DER encoder outputs is the distinguished encoding of the reference. *)
Theorem der_is_reference_simple : forall T v b,
  der_ref_val T v = true -> encode DER true 0 T v = Ok b -> X690.der T v = Some b.
Proof.
  intros T v b Hd He. unfold der_ref_val in Hd.
  destruct (enc_der_inv T false v b He) as (cd & fl & ts & content & ic & Hce & Hts & Hc & Hfr).
  destruct (der_contents_sound (base_of T) v cd fl content ic Hd Hce Hc) as [-> Hrc].
  pose proof (der_ref_simple _ _ Hd) as Hs.
  destruct (canon_simple (base_of T) v Hs) as [Htb Hcb]. rewrite Hrc in Hcb.
  apply (frame_is_ref ts content false def_opts (ef_indef fl) b eq_refl eq_refl (all_form_agrees_prim ts)) in Hfr.
  subst b. exact (canon_wrappers T v content _ (untagged_imp_tagged T (simple_tagged T Hs)) Htb Hcb ts Hts).
Qed.

(* the statement over the predicate of the round-trip theorem (Proofs/RoundTrip1.v); wf_tags is not needed *)
Lemma stage1_val_der_ref T v : RoundTrip1.stage1_val DER DER T v = true -> der_ref_val T v = true.
Proof.
  unfold RoundTrip1.stage1_val, der_ref_val. destruct (base_of T); destruct v; try discriminate; try reflexivity.
  destruct r; try discriminate; reflexivity.
Qed.

Theorem der_is_reference_stage1 : forall T v b,
  TagsetShape.wf_tags T = true -> RoundTrip1.stage1_val DER DER T v = true ->
  encode DER true 0 T v = Ok b -> X690.der T v = Some b.
Proof. intros T v b _ Hs He. apply der_is_reference_simple; [apply stage1_val_der_ref; exact Hs|exact He]. Qed.

(* On top of der_ref_val, two places where the library refuses what X.690 allows:
   - REAL whose (odd-mantissa) exponent needs more than 255 octets (LeafReal.real_exp_fits);
   - UTCTime / GeneralizedTime (universal 23, 24): the DER encoder vets the text (Model/Time.v, C20). *)
Definition exact_extra (B: ty) (v: val) : bool :=
  match B, v with
  | TReal, VReal (RBin m e) => real_exp_fits m e
  | TStr n, _ => negb (N.eqb n 23 || N.eqb n 24)
  | _, _ => true
  end.
Definition der_exact_base (B: ty) (v: val) : bool := der_ref_base B v && exact_extra B v.
Definition der_exact_val (T: ty) (v: val) : bool := der_exact_base (base_of T) v.

Lemma der_contents_total B v : der_exact_base B v = true ->
  exists cd fl, concrete_encoder DER B = Ok (cd, fl) /\
    (ref_contents B v = None \/ exists cc, enc_content DER B cd fl def_opts v = Ok cc).
Proof.
  unfold der_exact_base, exact_extra. intros Hx. apply Bool.andb_true_iff in Hx. destruct Hx as [Hd Hx].
  destruct B; try discriminate Hd; destruct v as [bb|z|bs|bo|cs| |arcs|r|vfs|xs|i x|ab]; try discriminate Hd.
  1-6: eexists; eexists; (split; [vm_compute; reflexivity|]); right; eexists; reflexivity.
  - eexists; eexists. split; [vm_compute; reflexivity|]. cbn [enc_content ref_contents].
    rewrite oid_contents_is_enc_oid. destruct (enc_oid arcs) as [c|]; [right; eexists; reflexivity|left; reflexivity].
  - eexists; eexists. split; [vm_compute; reflexivity|]. cbn [enc_content ref_contents].
    destruct r as [| |m e|m e|].
    + right. eexists. reflexivity.
    + right. eexists. reflexivity.
    + apply enc_real_bin_ok_iff in Hx. destruct Hx as [c Hc]. right. rewrite Hc. eexists. reflexivity.
    + cbn [der_ref_base] in Hd. right. cbn [enc_real]. rewrite Hd. eexists. reflexivity.
    + left. reflexivity.
  - destruct (der_string_total n (VOcts bo) bo eq_refl Hx) as (cd & fl & Hce & Hc). exists cd, fl. split; [exact Hce|right; exact Hc].
  - destruct (der_string_total n (VChars cs) (concat cs) eq_refl Hx) as (cd & fl & Hce & Hc). exists cd, fl. split; [exact Hce|right; exact Hc].
Qed.

Lemma der_exact_ref B v : der_exact_base B v = true -> der_ref_base B v = true.
Proof. unfold der_exact_base. intros H. apply Bool.andb_true_iff in H. tauto. Qed.

(* Completeness.  On the same types, outside the two documented refusals, if the reference assigns
   a distinguished encoding (of a length that definite length octets can express at all, < 256^126),
   the library's DER encoder succeeds and outputs exactly it. *)
Theorem der_is_reference_complete : forall T v b,
  der_exact_val T v = true -> X690.der T v = Some b -> N.of_nat (length b) < max_len ->
  encode DER true 0 T v = Ok b.
Proof.
  intros T v b Hx Hr Hlen. unfold der_exact_val in Hx.
  pose proof (der_exact_ref _ _ Hx) as Hd. pose proof (der_ref_simple _ _ Hd) as Hs.
  destruct (der_contents_total _ _ Hx) as (cd & fl & Hce & Hc).
  destruct (canon_simple (base_of T) v Hs) as [Htb Hcb].
  destruct Hc as [Hnone|[[content ic] Hc]].
  { rewrite Hnone in Hcb. unfold der in Hr. rewrite (canon_wrappers_none false T v Hcb) in Hr. discriminate Hr. }
  destruct (der_contents_sound (base_of T) v cd fl content ic Hd Hce Hc) as [-> Hrc]. rewrite Hrc in Hcb.
  apply (item_complete T false v b [base_tag (base_of T)] content cd fl false
           (untagged_imp_tagged T (simple_tagged T Hs)) Htb Hcb Hce); [|exact Hr|exact Hlen].
  intros _. split; [exact Hc|split; discriminate].
Qed.

(* the contrapositive: when the encoder refuses, the reference has no encoding either
   (or only one whose length no definite form can express) *)
Corollary der_refusal_is_reference : forall T v e,
  der_exact_val T v = true -> encode DER true 0 T v = Err e ->
  X690.der T v = None \/ exists b, X690.der T v = Some b /\ max_len <= N.of_nat (length b).
Proof.
  intros T v e Hx He. destruct (der T v) as [b|] eqn:Er; [|left; reflexivity].
  right. exists b. split; [reflexivity|].
  destruct (N.lt_ge_cases (N.of_nat (length b)) max_len) as [Hlt|Hge]; [|exact Hge].
  rewrite (der_is_reference_complete T v b Hx Er Hlt) in He. discriminate He.
Qed.

(* [CONTEXT 40] EXPLICIT [APPLICATION 5] IMPLICIT [PRIVATE 1000] EXPLICIT INTEGER, value -129:
   long-form tag numbers, retagging of a constructed wrapper, two-octet two's complement *)
Example der_is_reference_witness_int :
  let T := TExp (mkTag Ctx false 40) (TImp (mkTag Appl false 5) (TExp (mkTag Priv false 1000) TInt)) in
  let v := VInt (-129)%Z in
  TagsetShape.wf_tags T = true /\ RoundTrip1.stage1_val DER DER T v = true /\ der_exact_val T v = true /\
  encode DER true 0 T v = Ok [191; 40; 6; 101; 4; 2; 2; 255; 127] /\
  der T v = Some [191; 40; 6; 101; 4; 2; 2; 255; 127].
Proof. vm_compute. repeat split. Qed.

(* [UNIVERSAL 77] IMPLICIT [APPLICATION 31] EXPLICIT [2] IMPLICIT REAL, value -80 * 2^3 = -5 * 2^7 *)
Example der_is_reference_witness_real :
  let T := TImp (mkTag Univ false 77) (TExp (mkTag Appl true 31) (TImp (mkTag Ctx true 2) TReal)) in
  let v := VReal (RBin (-80) 3) in
  der_ref_val T v = true /\ der_exact_val T v = true /\
  encode DER true 0 T v = Ok [63; 77; 5; 130; 3; 192; 7; 5] /\ der T v = Some [63; 77; 5; 130; 3; 192; 7; 5].
Proof. vm_compute. repeat split. Qed.

(* [0] EXPLICIT [PRIVATE 16383] IMPLICIT BIT STRING of 10 bits; [3] IMPLICIT UTF8String given as characters;
   [1] EXPLICIT OBJECT IDENTIFIER 2.999.3; GeneralizedTime *)
Example der_is_reference_witness_strings :
  (let T := TExp (mkTag Ctx false 0) (TImp (mkTag Priv false 16383) TBits) in
   let v := VBits [true;false;true;true;false;false;false;false;true;true] in
   der_exact_val T v = true /\ encode DER true 0 T v = Ok [160; 7; 223; 255; 127; 3; 6; 176; 192]
   /\ der T v = Some [160; 7; 223; 255; 127; 3; 6; 176; 192]) /\
  (let T := TImp (mkTag Ctx false 3) (TStr 12) in let v := VChars [[195;169];[65]] in
   der_exact_val T v = true /\ encode DER true 0 T v = Ok [131; 3; 195; 169; 65] /\ der T v = Some [131; 3; 195; 169; 65]) /\
  (let T := TExp (mkTag Ctx false 1) TOid in let v := VOid [2;999;3] in
   der_exact_val T v = true /\ encode DER true 0 T v = Ok [161; 5; 6; 3; 136; 55; 3] /\ der T v = Some [161; 5; 6; 3; 136; 55; 3]) /\
  (let T := TStr 24 in let v := VOcts [50;48;50;48;48;49;48;49;49;50;48;48;48;48;90] in
   der_ref_val T v = true /\ exists b, encode DER true 0 T v = Ok b /\ der T v = Some b).
Proof. vm_compute. repeat split. eexists. split; reflexivity. Qed.

(* both sides refuse: arc 1.40 is not an OBJECT IDENTIFIER; EXPLICIT UNIVERSAL is not a tagging *)
Example der_refusal_witness :
  (let T := TExp (mkTag Ctx false 1) TOid in let v := VOid [1;40;3] in
   der_exact_val T v = true /\ encode DER true 0 T v = Err EMalformed /\ der T v = None) /\
  (let T := TExp (mkTag Univ false 1) TInt in let v := VInt 5 in
   der_exact_val T v = true /\ encode DER true 0 T v = Err EMalformed /\ der T v = None).
Proof. vm_compute. repeat split. Qed.

(* REAL in decimal form: the library writes ISO 6093 NR3 text (X.690 8.5.8), the reference covers
   the binary forms only - der_ref_val excludes RDec with a non-zero mantissa *)
Example der_reference_excludes_decimal_real :
  encode DER true 0 TReal (VReal (RDec 15 (-1))) = Ok [9; 6; 3; 49; 53; 69; 45; 49] /\
  der TReal (VReal (RDec 15 (-1))) = None /\ der_ref_val TReal (VReal (RDec 15 (-1))) = false.
Proof. vm_compute. repeat split. Qed.

(* a value of the wrong kind that the library's OCTET STRING encoder happens to take *)
Example der_reference_excludes_any_as_octets :
  encode DER true 0 TOcts (VAny [1; 2]) = Ok [4; 2; 1; 2] /\ der TOcts (VAny [1; 2]) = None
  /\ der_ref_val TOcts (VAny [1; 2]) = false.
Proof. vm_compute. repeat split. Qed.

(* An exponent of 256 octets, whatever it is: the encoder refuses, the reference writes 263 octets.  The
   witness below has the exponent 2^2039, of which only the number of octets is ever computed. *)
Lemma huge_exponent e : length (exp_octets e) = 256%nat ->
  encode DER true 0 TReal (VReal (RBin 1 e)) = Err EMalformed
  /\ (exists b, der TReal (VReal (RBin 1 e)) = Some b /\ length b = 263%nat)
  /\ der_exact_val TReal (VReal (RBin 1 e)) = false.
Proof.
  intros Hlen. split; [|split].
  - change (encode DER true 0 TReal (VReal (RBin 1 e))) with (enc DER TReal (mkOpts true 0 false) (VReal (RBin 1 e))).
    rewrite enc_der_unfold.
    assert (Hce: concrete_encoder DER TReal = Ok (EcRealCer, mkEncFlags false false false (Some 2) 0 0)) by (vm_compute; reflexivity).
    rewrite Hce. cbn [bind fst snd tagset_of enc_content]. unfold enc_real.
    change (strip2 (N.size_nat (Z.abs_N 1)) (Z.abs_N 1) e) with (1, e). change (Z.eqb 1 0) with false.
    cbv beta iota zeta. rewrite Hlen. reflexivity.
  - unfold der. cbn [canon]. unfold real_contents.
    change (make_odd (N.size_nat (Z.abs_N 1)) (Z.abs_N 1) e) with (1, e). change (Z.eqb 1 0) with false.
    cbv beta iota zeta. rewrite exp_octets_is_int_contents, Hlen. cbn [opt_bind]. eexists. split; [reflexivity|].
    unfold tlv. rewrite !app_length, Hlen. reflexivity.
  - unfold der_exact_val, der_exact_base, exact_extra, real_exp_fits. cbn [base_of der_ref_base andb].
    change (strip2 (N.size_nat (Z.abs_N 1)) (Z.abs_N 1) e) with (1, e). cbn [snd]. rewrite Hlen. reflexivity.
Qed.

(* completeness only: UTCTime text the DER encoder vets and refuses; a REAL exponent of 256 octets *)
Example der_exact_excludes_time_and_huge_exponent :
  (encode DER true 0 (TStr 23) (VOcts [49; 50]) = Err EMalformed /\ der (TStr 23) (VOcts [49; 50]) = Some [23; 2; 49; 50]
   /\ der_exact_val (TStr 23) (VOcts [49; 50]) = false) /\
  (encode DER true 0 TReal (VReal (RBin 1 (2 ^ 2039))) = Err EMalformed
   /\ (exists b, der TReal (VReal (RBin 1 (2 ^ 2039))) = Some b /\ length b = 263%nat)
   /\ der_exact_val TReal (VReal (RBin 1 (2 ^ 2039))) = false).
Proof.
  split; [vm_compute; repeat split|]. apply huge_exponent.
  rewrite exp_octets_is_twos, twos_bytes_eq, be_bytes_length. vm_compute. reflexivity.
Qed.

Lemma tagged_of_base T tb : tagset_of (base_of T) = Ok [tb] -> untagged T = false.
Proof. unfold untagged. destruct (base_of T); intros H; try reflexivity; discriminate H. Qed.

(* SEQUENCE components: mandatory ones assigned; OPTIONAL and DEFAULT ones of simple type
   (a present-but-empty OPTIONAL constructed component is omitted by the library, finding F24;
   DEFAULT values of constructed or REAL type are compared by Python == outside the model) *)
Fixpoint der_ref_deep (T: ty) (v: val) {struct T} : bool :=
  match T with
  | TImp _ x | TExp _ x => der_ref_deep x v
  | TSeqOf t => match v with VList xs => forallb (der_ref_deep t) xs | _ => false end
  | TSeq fs =>
      match v with
      | VRec vs =>
          (fix go (fs: list (presence * ty)) (vs: list (option val)) : bool :=
             match fs with
             | [] => true
             | (p, ft) :: fs' =>
                 let ov := match vs with x :: _ => x | [] => None end in
                 let vs' := match vs with _ :: r => r | [] => [] end in
                 (match p, ov with
                  | Req, None => false
                  | _, None => true
                  | Req, Some x => der_ref_deep ft x
                  | Opt, Some x => simple_base (base_of ft) && der_ref_deep ft x
                  | Def d, Some x => simple_base (base_of ft) && der_ref_deep ft x && der_ref_deep ft d
                  end) && go fs' vs'
             end) fs vs
      | _ => false
      end
  | _ => der_ref_base T v
  end.

(* the loop inside der_ref_deep, under a name: a nested fix cannot be unfolded one component at a time
   (deep_seq, deep_fields_cons hold by reflexivity); likewise extra_fields for deep_extra *)
Definition deep_fields : list (presence * ty) -> list (option val) -> bool :=
  fix go (fs: list (presence * ty)) (vs: list (option val)) : bool :=
    match fs with
    | [] => true
    | (p, ft) :: fs' =>
        let ov := match vs with x :: _ => x | [] => None end in
        let vs' := match vs with _ :: r => r | [] => [] end in
        (match p, ov with
         | Req, None => false
         | _, None => true
         | Req, Some x => der_ref_deep ft x
         | Opt, Some x => simple_base (base_of ft) && der_ref_deep ft x
         | Def d, Some x => simple_base (base_of ft) && der_ref_deep ft x && der_ref_deep ft d
         end) && go fs' vs'
    end.

Lemma deep_seq fs vs : der_ref_deep (TSeq fs) (VRec vs) = deep_fields fs vs.
Proof. reflexivity. Qed.

Lemma deep_base : forall T v, der_ref_deep T v = der_ref_deep (base_of T) v.
Proof.
  induction T as [| | | | | | | | n|fs IH|fs IH|t IH|t IH|alts IH| |tg x IH|tg x IH] using ty_ind'; intros v; try reflexivity.
  - cbn [der_ref_deep base_of]. apply IH.
  - cbn [der_ref_deep base_of]. apply IH.
Qed.

Lemma deep_simple T v : simple_base (base_of T) = true -> der_ref_deep T v = der_ref_val T v.
Proof.
  intros Hs. rewrite deep_base. unfold der_ref_val. destruct (base_of T); try discriminate Hs; reflexivity.
Qed.

Lemma canon_seqof cer t xs :
  canon cer (TSeqOf t) (VList xs) =
  opt_bind (opt_all (map (canon cer t) xs)) (fun es => Some (ctlv cer Univ 16 (concat es))).
Proof.
  cbn [canon].
  match goal with |- opt_bind (opt_all ?a) _ = _ => assert (E: a = map (canon cer t) xs) end.
  { induction xs as [|x r IH]; [reflexivity|]. cbn [map]. rewrite <- IH. reflexivity. }
  rewrite E. reflexivity.
Qed.

Definition canon_fields (cer: bool) : list (presence * ty) -> list (option val) -> option (list bytes) :=
  fix go (fs: list (presence * ty)) (vs: list (option val)) : option (list bytes) :=
    match fs with
    | [] => Some []
    | (p, ft) :: fs' =>
        let ov := match vs with x :: _ => x | [] => None end in
        let vs' := match vs with _ :: r => r | [] => [] end in
        match p, ov with
        | Req, None => None
        | Opt, None | Def _, None => go fs' vs'
        | Def d, Some x => if is_default ft x d then go fs' vs'
                           else opt_bind (canon cer ft x) (fun e => opt_bind (go fs' vs') (fun r => Some (e :: r)))
        | _, Some x => opt_bind (canon cer ft x) (fun e => opt_bind (go fs' vs') (fun r => Some (e :: r)))
        end
    end.

Lemma canon_seq cer fs vs :
  canon cer (TSeq fs) (VRec vs) = opt_bind (canon_fields cer fs vs) (fun es => Some (ctlv cer Univ 16 (concat es))).
Proof. reflexivity. Qed.

Definition ohd (vs: list (option val)) : option val := match vs with x :: _ => x | [] => None end.
Definition otl (vs: list (option val)) : list (option val) := match vs with _ :: r => r | [] => [] end.

Lemma deep_fields_cons p ft fs' vs :
  deep_fields ((p, ft) :: fs') vs =
  (match p, ohd vs with
   | Req, None => false
   | _, None => true
   | Req, Some x => der_ref_deep ft x
   | Opt, Some x => simple_base (base_of ft) && der_ref_deep ft x
   | Def d, Some x => simple_base (base_of ft) && der_ref_deep ft x && der_ref_deep ft d
   end) && deep_fields fs' (otl vs).
Proof. reflexivity. Qed.

Lemma enc_rec_fields_g_cons c cd omit o p ft fs' vs :
  enc_rec_fields_g c cd omit o ((p, ft) :: fs') vs =
  let emit (x: val) :=
    do b <- enc c ft (if omit then mkOpts (o_def o) (o_chunk o) (match p with Opt => true | _ => false end) else o) x;
    do rest <- enc_rec_fields_g c cd omit o fs' (otl vs);
    Ok ((set_sort_key (match cd with EcSetDer => true | _ => false end) ft x, b) :: rest) in
  match p, ohd vs with
  | Opt, None => enc_rec_fields_g c cd omit o fs' (otl vs)
  | Def d, None => enc_rec_fields_g c cd omit o fs' (otl vs)
  | Def d, Some x => match val_py_eq x d with
                     | Some true => enc_rec_fields_g c cd omit o fs' (otl vs)
                     | Some false => emit x
                     | None => Err EUnmodelled end
  | Req, None => if all_optional_container ft then emit (VRec []) else Err EMalformed
  | _, Some x => emit x
  end.
Proof. reflexivity. Qed.

Lemma canon_fields_cons cer p ft fs' vs :
  canon_fields cer ((p, ft) :: fs') vs =
  match p, ohd vs with
  | Req, None => None
  | Opt, None | Def _, None => canon_fields cer fs' (otl vs)
  | Def d, Some x => if is_default ft x d then canon_fields cer fs' (otl vs)
                     else opt_bind (canon cer ft x) (fun e => opt_bind (canon_fields cer fs' (otl vs)) (fun r => Some (e :: r)))
  | _, Some x => opt_bind (canon cer ft x) (fun e => opt_bind (canon_fields cer fs' (otl vs)) (fun r => Some (e :: r)))
  end.
Proof. reflexivity. Qed.

(* DEFAULT (11.5): Python == on simple values is equality of abstract values *)
Lemma py_eq_is_default ft x d q : simple_base (base_of ft) = true ->
  der_ref_deep ft x = true -> der_ref_deep ft d = true -> val_py_eq x d = Some q -> is_default ft x d = q.
Proof.
  intros Hs Hx Hd Hq. unfold is_default. rewrite (TagsetShape.abs_wrappers ft x), (TagsetShape.abs_wrappers ft d).
  rewrite deep_base in Hx, Hd.
  destruct (base_of ft); try discriminate Hs;
    destruct x; try discriminate Hx; destruct d; try discriminate Hd; try discriminate Hq;
    cbn [val_py_eq] in Hq; injection Hq as <-; cbn [abs aval_eqb]; try reflexivity.
  - apply bytes_eqb_sym.
Qed.

(* the additional conditions of der_exact_val at the leaves, and DEFAULT comparisons the model can make *)
Fixpoint deep_extra (T: ty) (v: val) {struct T} : bool :=
  match T with
  | TImp _ x | TExp _ x => deep_extra x v
  | TSeqOf t => match v with VList xs => forallb (deep_extra t) xs | _ => true end
  | TSeq fs =>
      match v with
      | VRec vs =>
          (fix go (fs: list (presence * ty)) (vs: list (option val)) : bool :=
             match fs with
             | [] => true
             | (p, ft) :: fs' =>
                 let ov := match vs with x :: _ => x | [] => None end in
                 let vs' := match vs with _ :: r => r | [] => [] end in
                 (match p, ov with
                  | _, None => true
                  | Def d, Some x => deep_extra ft x && match val_py_eq x d with Some _ => true | None => false end
                  | _, Some x => deep_extra ft x
                  end) && go fs' vs'
             end) fs vs
      | _ => true
      end
  | _ => exact_extra T v
  end.

Definition extra_fields : list (presence * ty) -> list (option val) -> bool :=
  fix go (fs: list (presence * ty)) (vs: list (option val)) : bool :=
    match fs with
    | [] => true
    | (p, ft) :: fs' =>
        let ov := match vs with x :: _ => x | [] => None end in
        let vs' := match vs with _ :: r => r | [] => [] end in
        (match p, ov with
         | _, None => true
         | Def d, Some x => deep_extra ft x && match val_py_eq x d with Some _ => true | None => false end
         | _, Some x => deep_extra ft x
         end) && go fs' vs'
    end.

Lemma extra_seq fs vs : deep_extra (TSeq fs) (VRec vs) = extra_fields fs vs.
Proof. reflexivity. Qed.

Lemma extra_fields_cons p ft fs' vs :
  extra_fields ((p, ft) :: fs') vs =
  (match p, ohd vs with
   | _, None => true
   | Def d, Some x => deep_extra ft x && match val_py_eq x d with Some _ => true | None => false end
   | _, Some x => deep_extra ft x
   end) && extra_fields fs' (otl vs).
Proof. reflexivity. Qed.

Definition der_exact_deep (T: ty) (v: val) : bool := der_ref_deep T v && deep_extra T v.

Lemma concat_length_head (e: bytes) (es: list bytes) :
  (length e <= length (concat (e :: es)))%nat /\ (length (concat es) <= length (concat (e :: es)))%nat.
Proof. cbn [concat]. rewrite app_length. lia. Qed.

(* [APPLICATION 7] IMPLICIT SEQUENCE { INTEGER, [0] IMPLICIT UTF8String OPTIONAL,
     [1] EXPLICIT BOOLEAN DEFAULT FALSE (equal to its default: omitted), [2] IMPLICIT INTEGER DEFAULT 5 (6: written),
     [3] EXPLICIT SEQUENCE OF SEQUENCE { OBJECT IDENTIFIER, NULL OPTIONAL }, BIT STRING OPTIONAL (absent) } *)
Example der_is_reference_deep_witness :
  let T := TImp (mkTag Appl false 7) (TSeq [
     (Req, TInt);
     (Opt, TImp (mkTag Ctx false 0) (TStr 12));
     (Def (VBool false), TExp (mkTag Ctx false 1) TBool);
     (Def (VInt 5), TImp (mkTag Ctx false 2) TInt);
     (Req, TExp (mkTag Ctx false 3) (TSeqOf (TSeq [(Req, TOid); (Opt, TNull)])));
     (Opt, TBits)]) in
  let v := VRec [Some (VInt 300); Some (VChars [[104];[105]]); Some (VBool false); Some (VInt 6);
     Some (VList [VRec [Some (VOid [1;2;840]); Some VNull]; VRec [Some (VOid [2;5]); None]]); None] in
  let b := [103; 29; 2; 2; 1; 44; 128; 2; 104; 105; 130; 1; 6; 163; 16; 48;
            14; 48; 7; 6; 3; 42; 134; 72; 5; 0; 48; 3; 6; 1; 85] in
  der_ref_deep T v = true /\ der_exact_deep T v = true /\ encode DER true 0 T v = Ok b /\ der T v = Some b.
Proof. vm_compute. repeat split. Qed.

Example der_is_reference_deep_witness_nested :
  let T := TSeqOf (TSeqOf TBool) in let v := VList [VList []; VList [VBool true]] in
  der_exact_deep T v = true /\ encode DER true 0 T v = Ok [48; 7; 48; 0; 48; 3; 1; 1; 255]
  /\ der T v = Some [48; 7; 48; 0; 48; 3; 1; 1; 255].
Proof. vm_compute. repeat split. Qed.

(* why OPTIONAL components of the fragment are of simple type: a present, empty OPTIONAL SEQUENCE OF
   is left out by the library's DER encoder, while X.690 8.9/8.10 encodes it (known finding F24) *)
Example der_deep_excludes_empty_optional_constructed :
  let T := TSeq [(Opt, TSeqOf TInt)] in let v := VRec [Some (VList [])] in
  encode DER true 0 T v = Ok [48; 0] /\ der T v = Some [48; 2; 48; 0] /\ der_ref_deep T v = false.
Proof. vm_compute. repeat split. Qed.

(* why mandatory components must be assigned: an unassigned mandatory component whose type has only
   OPTIONAL members is encoded by the library as present and empty; the reference has no encoding *)
Example der_deep_excludes_unassigned_mandatory :
  let T := TSeq [(Req, TSeq [(Opt, TInt)])] in let v := VRec [None] in
  encode DER true 0 T v = Ok [48; 2; 48; 0] /\ der T v = None /\ der_ref_deep T v = false.
Proof. vm_compute. repeat split. Qed.

Print Assumptions split_ident_ident.
Print Assumptions frame_is_ref.
Print Assumptions frame_total.
Print Assumptions canon_wrappers.
Print Assumptions der_contents_sound.
Print Assumptions der_is_reference_simple.
Print Assumptions der_is_reference_stage1.
Print Assumptions der_is_reference_complete.
Print Assumptions der_refusal_is_reference.
