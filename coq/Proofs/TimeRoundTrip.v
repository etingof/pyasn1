(* C20, the round trip of the datetime conversions: asDateTime inverts fromDateTime on every valid datetime of the
   property's precision, for every whole-minute offset (model of the code after F11/F26). *)
From Coq Require Import Lia.
From PV Require Import Base.Bytes Spec.X680Time Model.Time Proofs.TimeText.
Local Open Scope N_scope.

(* the digit lemmas are stated over [dg] and [num]; keep them folded *)
#[local] Arguments dg : simpl never.
#[local] Arguments num : simpl never.

Definition norm_off (o: option Z) : option Z := match o with None => Some 0%Z | _ => o end.
Definition valid_off (o: option Z) : bool :=
  match o with None => true | Some z => Z.ltb (-1440) z && Z.ltb z 1440 end.

Lemma d2d2_length a b : length (d2 a ++ d2 b) = 4%nat. Proof. reflexivity. Qed.
Lemma d2d2_firstn a b : firstn 2 (d2 a ++ d2 b) = d2 a. Proof. reflexivity. Qed.
Lemma d2d2_skipn a b : skipn 2 (d2 a ++ d2 b) = d2 b. Proof. reflexivity. Qed.
Lemma d2_nonempty a : d2 a <> []. Proof. discriminate. Qed.

(* stage 1: the zone suffix *)

Lemma parse_zone_signed k X (neg: bool) m :
  has 43 X = false -> has 45 X = false -> m < 1440 ->
  parse_zone k (X ++ (if neg then 45 else 43) :: d2 (m / 60) ++ d2 (m mod 60))
  = Ok (Some (if neg then (- Z.of_N m)%Z else Z.of_N m), X).
Proof.
  intros H43 H45 Hm. unfold parse_zone.
  assert (Htz: all_digits (d2 (m / 60) ++ d2 (m mod 60)) = true)
    by (rewrite all_digits_app, !all_digits_d2; reflexivity).
  rewrite last_app_ne by discriminate.
  replace (last ((if neg then 45 else 43) :: d2 (m / 60) ++ d2 (m mod 60)) 0) with (dg (m mod 60)) by reflexivity.
  rewrite (digit_ne _ 90 (dg_digit _) eq_refl).
  rewrite !has_app, H43, H45, !has_cons, (has_digits 43 _ eq_refl Htz), (has_digits 45 _ eq_refl Htz).
  assert (Hh: m / 60 < 100) by dlia. assert (Hmm: m mod 60 < 100) by dlia.
  destruct neg; cbn [N.eqb Pos.eqb orb negb]; rewrite split_at_app by assumption.
  all: destruct k; rewrite ?d2d2_length; cbn [Nat.eqb negb]; rewrite ?d2d2_length; cbn [Nat.eqb negb].
  all: rewrite d2d2_firstn, d2d2_skipn, !pyint_digits by (auto using d2_nonempty, all_digits_d2).
  all: rewrite !num_d2 by assumption; do 3 f_equal; dlia.
Qed.

Lemma parse_zone_zone_text k X o :
  has 43 X = false -> has 45 X = false -> valid_off o = true ->
  parse_zone k (X ++ zone_text o) = Ok (norm_off o, X).
Proof.
  intros H43 H45 Hv. destruct o as [z|]; cbn [zone_text norm_off].
  - destruct (Z.eqb_spec z 0) as [->|Hz].
    + unfold parse_zone. rewrite last_last, removelast_last. reflexivity.
    + cbn [valid_off] in Hv. apply andb_true_iff in Hv. destruct Hv as [Hlo Hhi].
      apply Z.ltb_lt in Hlo, Hhi.
      assert (Hm: Z.to_N (Z.abs z) < 1440) by lia.
      pose proof (parse_zone_signed k X (Z.ltb z 0) (Z.to_N (Z.abs z)) H43 H45 Hm) as P.
      rewrite P. do 3 f_equal. destruct (Z.ltb_spec z 0); lia.
  - unfold parse_zone. rewrite last_last, removelast_last. reflexivity.
Qed.

(* stage 2: the millisecond suffix *)

Lemma parse_fraction_some D ms :
  all_digits D = true -> ms <> [] -> all_digits ms = true ->
  parse_fraction (D ++ 46 :: ms) = Ok (num ms * 1000, D).
Proof.
  intros HD Hne Hms. unfold parse_fraction.
  rewrite has_app, has_cons, N.eqb_refl, orb_true_r. cbn [orb].
  rewrite split_at_app by (apply has_digits; [reflexivity|assumption]).
  rewrite pyint_digits by assumption. reflexivity.
Qed.

Lemma parse_fraction_none D : all_digits D = true -> parse_fraction D = Ok (0, D).
Proof.
  intros HD. unfold parse_fraction.
  rewrite (has_digits 46 _ eq_refl HD), (has_digits 44 _ eq_refl HD). reflexivity.
Qed.

(* stage 3: strptime on the fourteen (twelve) digits *)

Definition date_text (k: tkind) (d: dt) : text :=
  (match k with GenT => d4 (yr d) | UtcT => d2 (yr d mod 100) end)
  ++ d2 (mo d) ++ d2 (dy d) ++ d2 (hh d) ++ d2 (mi d) ++ d2 (ss d).

Lemma date_text_digits k d : all_digits (date_text k d) = true.
Proof.
  unfold date_text. rewrite !all_digits_app, !all_digits_d2.
  destruct k; rewrite ?all_digits_d4, ?all_digits_d2; reflexivity.
Qed.

Lemma valid_dt_fields d : valid_dt d = true ->
  valid_date (yr d) (mo d) (dy d) = true /\ hh d < 24 /\ mi d < 60 /\ ss d < 60 /\ us d < 1000000
  /\ valid_off (off d) = true.
Proof.
  unfold valid_dt. rewrite !andb_true_iff, !N.ltb_lt. unfold valid_off. tauto.
Qed.

Lemma valid_date_bounds y m d : valid_date y m d = true -> 1 <= y <= 9999 /\ 1 <= m <= 12 /\ 1 <= d <= 31.
Proof.
  unfold valid_date. rewrite !andb_true_iff, !N.leb_le. intros [[[[[H1 H2] H3] H4] H5] H6].
  repeat split; try assumption.
  assert (dim y m <= 31); [|lia].
  unfold dim. destruct m as [|p]; [lia|].
  do 4 (try destruct p as [p|p|]); try lia; destruct (is_leap y); lia.
Qed.

Lemma strptime_date k d :
  valid_dt d = true -> (k = UtcT -> 1969 <= yr d <= 2068) ->
  strptime k (date_text k d) = Ok (yr d, mo d, dy d, hh d, mi d, ss d).
Proof.
  intros Hv Hy. destruct (valid_dt_fields d Hv) as (Hd & Hh & Hmi & Hs & _ & _).
  destruct (valid_date_bounds _ _ _ Hd) as (Hyr & Hmo & Hdy).
  pose proof (date_text_digits k d) as Hdig.
  assert (Hsp: forallb (fun c => is_digit c || (c =? 32)) (date_text k d) = true).
  { apply forallb_forall. intros c Hc. rewrite (proj1 (forallb_forall _ _) Hdig c Hc). reflexivity. }
  unfold strptime. rewrite Hsp, Hdig.
  (* lengths and digit groups are read off by computation; [num] gives each field back *)
  pose proof (num_d2 : forall n, n < 100 -> num [dg (n / 10); dg n] = n) as N2.
  pose proof (num_d4 : forall n, n < 10000 ->
                num [dg (n / 1000); dg (n / 100); dg (n / 10); dg n] = n) as N4.
  destruct k; unfold date_text, year_digits;
    cbn [length firstn skipn app d4 d2 Nat.add Nat.ltb Nat.leb Nat.eqb orb andb negb].
  - rewrite N4, !N2 by lia. apply N.ltb_lt in Hh, Hmi, Hs. rewrite Hd, Hh, Hmi, Hs. reflexivity.
  - specialize (Hy eq_refl). rewrite !N2 by dlia.
    replace (if yr d mod 100 <? 69 then 2000 + yr d mod 100 else 1900 + yr d mod 100) with (yr d)
      by (destruct (N.ltb_spec (yr d mod 100) 69); dlia).
    apply N.ltb_lt in Hh, Hmi, Hs. rewrite Hd, Hh, Hmi, Hs. reflexivity.
Qed.

Lemma pad_time_date k d : pad_time k (date_text k d) = date_text k d.
Proof. destruct k; reflexivity. Qed.

Lemma from_dt_split k d :
  from_dt k d = (date_text k d ++ match k with GenT => 46 :: dec3 (us d / 1000) | UtcT => [] end)
                ++ zone_text (off d).
Proof. unfold from_dt, date_text. rewrite <- !app_assoc. reflexivity. Qed.

Theorem as_dt_from_dt k d :
  valid_dt d = true -> in_domain k d = true -> as_dt k (from_dt k d) = Ok (norm_dt k d).
Proof.
  intros Hv Hdom. destruct (valid_dt_fields d Hv) as (_ & _ & _ & _ & Hus & Hoff).
  pose proof (date_text_digits k d) as Hdig.
  unfold as_dt. rewrite from_dt_split.
  assert (Hms: all_digits (dec3 (us d / 1000)) = true) by apply all_digits_dec3.
  rewrite parse_zone_zone_text; [| | |exact Hoff].
  2:{ destruct k; rewrite ?app_nil_r, ?has_app, ?has_cons; rewrite !(has_digits 43 _ eq_refl) by assumption; reflexivity. }
  2:{ destruct k; rewrite ?app_nil_r, ?has_app, ?has_cons; rewrite !(has_digits 45 _ eq_refl) by assumption; reflexivity. }
  cbn [bind].
  destruct k.
  - cbn [in_domain] in Hdom. apply N.eqb_eq in Hdom.
    rewrite parse_fraction_some by (auto using dec3_nonempty).
    cbn [bind]. rewrite pad_time_date, strptime_date by (assumption || discriminate).
    cbn [bind]. rewrite num_dec3 by dlia.
    replace (us d / 1000 * 1000) with (us d) by dlia.
    destruct (N.ltb_spec 999999 (us d)); [lia|].
    unfold norm_dt, norm_off. destruct (off d); reflexivity.
  - cbn [in_domain] in Hdom. apply andb_true_iff in Hdom. destruct Hdom as [Hdom Hy2].
    apply andb_true_iff in Hdom. destruct Hdom as [Hus0 Hy1].
    apply N.eqb_eq in Hus0. apply N.leb_le in Hy1, Hy2.
    rewrite app_nil_r, parse_fraction_none by assumption.
    cbn [bind]. rewrite pad_time_date, strptime_date by (assumption || (intros _; lia)).
    cbn [bind N.ltb N.compare].
    unfold norm_dt, norm_off. destruct (off d); reflexivity.
Qed.

(* same fields -> same instant and same offset *)
Lemma norm_dt_instant k d : in_domain k d = true ->
  dt_instant (norm_dt k d) = dt_instant d /\ dt_offset (norm_dt k d) = dt_offset d.
Proof.
  intros Hdom. unfold dt_instant, dt_offset, norm_dt. cbn [yr mo dy hh mi ss us off].
  destruct k.
  - destruct (off d); split; reflexivity.
  - cbn [in_domain] in Hdom. apply andb_true_iff in Hdom. destruct Hdom as [Hdom _].
    apply andb_true_iff in Hdom. destruct Hdom as [Hus0 _]. apply N.eqb_eq in Hus0.
    rewrite Hus0. destruct (off d); split; reflexivity.
Qed.

Theorem roundtrip k d :
  valid_dt d = true -> in_domain k d = true ->
  exists d', as_dt k (from_dt k d) = Ok d'
             /\ dt_instant d' = dt_instant d /\ dt_offset d' = dt_offset d
             /\ off d' = Some (dt_offset d).
Proof.
  intros Hv Hdom. exists (norm_dt k d). split; [apply as_dt_from_dt; assumption|].
  destruct (norm_dt_instant k d Hdom) as [H1 H2]. repeat split; try assumption.
  unfold norm_dt, dt_offset. cbn [off]. destruct (off d); reflexivity.
Qed.
