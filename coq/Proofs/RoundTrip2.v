(* Stage 2 of the BER round trip (C01): types built to any nesting depth from the stage-1 simple
   types, SEQUENCE OF / SET OF, SEQUENCE with mandatory components, and IMPLICIT / EXPLICIT tagging
   of any of these; definite-length, unsegmented encoder mode. *)
From Coq Require Import Lia.
From PV Require Import Base.Bytes Model.Tag Model.TableTypes Model.Types Model.Proc Model.Enc Model.Dec Gen.Tables
     Proofs.ProcBind Proofs.RunLemmas Proofs.TagOctets Proofs.TagAlgebra Proofs.DecHeader Proofs.DecFrame Proofs.DecPrim
     Proofs.TagsetShape Proofs.Schemaless Proofs.RoundTrip1 Proofs.EncUnfold.
(* the sizes of what the framing writes, for every file above this one *)
From PV Require Export Proofs.Spine.
Local Open Scope N_scope.

Definition non_univ (t: tag) : bool := negb (cls_eqb (tcls t) Univ).

Fixpoint stage2_ty (T: ty) : bool :=
  match T with
  | TBool | TInt | TEnum | TBits | TOcts | TNull | TOid | TReal | TStr _ => true
  | TSeqOf t | TSetOf t => stage2_ty t
  | TSeq fs => forallb (fun f => is_req (fst f) && stage2_ty (snd f)) fs
  | TImp t x | TExp t x => non_univ t && stage2_ty x
  | TSet _ | TChoice _ | TAny => false
  end.

Fixpoint stage2_val (T: ty) (v: val) {struct T} : bool :=
  match T with
  | TImp _ x | TExp _ x => stage2_val x v
  | TSeqOf t | TSetOf t => match v with VList xs => forallb (stage2_val t) xs | _ => false end
  | TSeq fs =>
      match v with
      | VRec vs =>
          (fix go (fs: list (presence * ty)) (vs: list (option val)) : bool :=
             match fs, vs with
             | [], [] => true
             | f :: fs', Some x :: vs' => stage2_val (snd f) x && go fs' vs'
             | _, _ => false
             end) fs vs
      | _ => false
      end
  | TSet _ | TChoice _ | TAny => false
  | _ => stage1_val BER BER T v
  end.

(* the encoder's loops over elements and components (EncUnfold.v), for the BER encoder *)
Definition enc_elems (t: ty) (o: eopts) : list val -> res (list bytes) := enc_elems_g BER t o.

Lemma enc_content_seqof t cd fl o xs :
  enc_content BER (TSeqOf t) cd fl o (VList xs) =
  (do parts <- enc_elems t o xs;
   match cd with
   | EcSeqOfBer | EcSeqOfCer => Ok (concat parts, true)
   | EcSetOfCer => Ok (concat (sort_setof parts), true)
   | _ => Err EMalformed
   end).
Proof. reflexivity. Qed.

Lemma enc_content_setof t cd fl o xs :
  enc_content BER (TSetOf t) cd fl o (VList xs) =
  (do parts <- enc_elems t o xs;
   match cd with
   | EcSeqOfBer | EcSeqOfCer => Ok (concat parts, true)
   | EcSetOfCer => Ok (concat (sort_setof parts), true)
   | _ => Err EMalformed
   end).
Proof. reflexivity. Qed.

(* the SEQUENCE component loop when nothing is omitted and every slot is filled *)
Definition enc_fields (o: eopts) : list (presence * ty) -> list val -> res (list bytes) :=
  fix go (fs: list (presence * ty)) (vs: list val) : res (list bytes) :=
  match fs, vs with
  | [], _ => Ok []
  | f :: fs', x :: vs' => do b <- enc_with BER (enc_content BER) (snd f) o x; do rest <- go fs' vs'; Ok (b :: rest)
  | _ :: _, [] => Err EMalformed
  end.

Lemma stage2_val_base : forall T v, stage2_val T v = stage2_val (base_of T) v.
Proof.
  induction T as [| | | | | | | | n|fs IH|fs IH|t IH|t IH|alts IH| |tg x IH|tg x IH] using ty_ind'; intros v; try reflexivity.
  - cbn [base_of stage2_val]. apply IH.
  - cbn [base_of stage2_val]. apply IH.
Qed.

Lemma stage2_ty_base : forall T, stage2_ty T = true -> wf_tags T = true /\ stage2_ty (base_of T) = true.
Proof.
  induction T as [| | | | | | | | n|fs IH|fs IH|t IH|t IH|alts IH| |tg x IH|tg x IH] using ty_ind'; intros H;
    try (split; [reflexivity|exact H]).
  - cbn [stage2_ty] in H. apply Bool.andb_true_iff in H. destruct H as [Hn Hx]. destruct (IH Hx) as [Hw Hb].
    cbn [wf_tags base_of]. unfold non_univ in Hn. rewrite Hn, Hw. split; [reflexivity|exact Hb].
  - cbn [stage2_ty] in H. apply Bool.andb_true_iff in H. destruct H as [Hn Hx]. destruct (IH Hx) as [Hw Hb].
    cbn [wf_tags base_of]. unfold non_univ in Hn. rewrite Hn, Hw. split; [reflexivity|exact Hb].
Qed.

Lemma stage1_val_base ce cd T v : stage1_val ce cd T v = stage1_val ce cd (base_of T) v.
Proof. unfold stage1_val. rewrite base_of_idem. reflexivity. Qed.

Lemma stage2_val_prim T v : prim_base T = true -> stage2_val T v = stage1_val BER BER T v.
Proof.
  intros Hp. rewrite stage2_val_base, (stage1_val_base BER BER T). unfold prim_base in Hp.
  destruct (base_of T); try discriminate Hp; reflexivity.
Qed.

Definition tagged_base (T: ty) : bool := match base_of T with TChoice _ | TAny => false | _ => true end.

Lemma tagset_shape : forall T, tagged_base T = true -> wf_tags T = true ->
  exists t0 r b0, tagset_of (base_of T) = Ok [b0] /\ tagset_of T = Ok (t0 :: r) /\ tcon t0 = tcon b0
    /\ Forall explicit_like r /\ (length r + ty_depth (base_of T) <= ty_depth T)%nat.
Proof.
  induction T as [| | | | | | | | n|fs IH|fs IH|t IH|t IH|alts IH| |tg x IH|tg x IH] using ty_ind';
    intros Hp Hw; try discriminate Hp;
    try (eexists; exists []; eexists; split; [reflexivity|split; [reflexivity|split; [reflexivity|split; [constructor|cbn [length base_of]; lia]]]]).
  - (* TImp *)
    cbn [wf_tags] in Hw. apply Bool.andb_true_iff in Hw. destruct Hw as [Hcl Hw].
    destruct (IH Hp Hw) as (t0 & r & b0 & Hb0 & Hts & Hc0 & Hex & Hd).
    cbn [tagset_of base_of]. rewrite Hts. cbn [bind].
    destruct r as [|r1 r'].
    + exists (mkTag (tcls tg) (tcon t0) (tnum tg)), [], b0.
      split; [exact Hb0|]. split; [reflexivity|]. split; [exact Hc0|]. split; [constructor|]. cbn [ty_depth length] in *. lia.
    + destruct (tag_implicitly_cons t0 (r1 :: r') tg) as (r2 & E & Hl & Hf); [discriminate|].
      exists t0, r2, b0. rewrite E. split; [exact Hb0|]. split; [reflexivity|]. split; [exact Hc0|]. split.
      * apply Hf; [exact Hex|]. destruct (tcls tg); try discriminate; cbn in Hcl; congruence.
      * cbn [ty_depth]. lia.
  - (* TExp *)
    cbn [wf_tags] in Hw. apply Bool.andb_true_iff in Hw. destruct Hw as [Hcl Hw].
    destruct (IH Hp Hw) as (t0 & r & b0 & Hb0 & Hts & Hc0 & Hex & Hd).
    cbn [tagset_of base_of]. rewrite Hts. cbn [bind]. unfold tag_explicitly.
    assert (Hnu: tcls tg <> Univ) by (destruct (tcls tg); try discriminate; cbn in Hcl; congruence).
    exists t0, (r ++ [mkTag (tcls tg) true (tnum tg)]), b0.
    split; [exact Hb0|].
    split; [destruct (tcls tg); try reflexivity; congruence|].
    split; [exact Hc0|]. split.
    + apply Forall_app. split; [exact Hex|]. constructor; [|constructor]. split; [reflexivity|exact Hnu].
    + rewrite app_length. cbn [length ty_depth]. lia.
Qed.

Lemma enc_tag_con t c : tcon t = true -> enc_tag t c = enc_tag t false.
Proof. intros H. unfold enc_tag. rewrite H. reflexivity. Qed.

Lemma frame_one_con t c d si sub : tcon t = true -> frame_one t c d si sub = frame_one t false d si sub.
Proof. intros H. unfold frame_one. rewrite (enc_tag_con t c H). reflexivity. Qed.

Lemma frame_outer_con : forall r c d si sub, Forall explicit_like r ->
  frame_outer r c d si sub = frame_outer r false d si sub.
Proof.
  induction r as [|t r IH]; intros c d si sub Hex; [reflexivity|].
  inversion Hex as [|? ? [Hc _] Hr]; subst. cbn [frame_outer].
  rewrite (frame_one_con t c d si sub Hc).
  destruct (frame_one t false d si sub) as [s'|e]; cbn [bind]; [apply IH; exact Hr|reflexivity].
Qed.

Lemma wire_con t c : tcon t = true -> wire t c = t.
Proof. intros H. destruct t as [cl f n]. cbn in H. subst f. reflexivity. Qed.

Lemma frame_def_inv t0 r content cns si b : frame (t0 :: r) content cns def_opts si = Ok b ->
  exists s0, frame_one t0 cns true si content = Ok s0 /\ frame_outer r cns true si s0 = Ok b.
Proof.
  cbn [frame]. rewrite Bool.andb_false_r. cbn [o_def def_opts]. intros H.
  replace (if cns then true else true) with true in H by (destruct cns; reflexivity).
  destruct (frame_one t0 cns true si content) as [s0|e]; cbn [bind] in H; [|discriminate].
  exists s0. split; [reflexivity|exact H].
Qed.

Lemma frame_len_r t0 r content cns si b : frame (t0 :: r) content cns def_opts si = Ok b ->
  (length content + 2 + 2 * length r <= length b)%nat.
Proof.
  intros H. destruct (frame_def_inv _ _ _ _ _ _ H) as (s0 & E0 & Hr).
  pose proof (frame_outer_len_r _ _ _ _ _ Hr) as Hl.
  destruct (frame_one_length _ _ _ _ _ E0) as (l & -> & Hl0). pose proof (enc_tag_nonempty t0 cns).
  rewrite !app_length in Hl. lia.
Qed.

(* every level of the framing the encoder wrote, for any fuel that covers the octets *)
Theorem framed_consumes : forall c T t0 r cns si content b f0 dcd dfl v,
  tagset_of T = Ok (t0 :: r) -> tcon t0 = cns -> Forall explicit_like r -> plain_map T ->
  by_type c T = Some (dcd, dfl) ->
  frame (t0 :: r) content cns def_opts si = Ok b ->
  (length b <= S f0)%nat ->
  consumes (dec_value (dec_call c f0) f0 dcd dfl (Some T) (t0 :: r) (Some (N.of_nat (length content))) false) content v ->
  consumes (dec_call c (S f0 + length r) (STy T) [] None false false) b v.
Proof.
  intros c T t0 r cns si content b f0 dcd dfl v Hts Hc0 Hex Hpm Hby He Hb Hval.
  destruct (frame_def_inv _ _ _ _ _ _ He) as (s0 & E0 & He'). clear He. rename He' into He.
  rewrite (frame_outer_con r cns true si s0 Hex) in He.
  pose proof (frame_outer_length _ _ _ _ _ He) as Hlen0.
  pose proof (frame_outer_taglens _ _ _ _ _ (S (S f0)) He ltac:(lia)) as Htl.
  rewrite Nat.add_comm. replace (length r + S f0)%nat with (S f0 + length r)%nat by lia.
  apply (peel_all c T (S f0) si r [] s0 b v He Hex Htl Hpm).
  - rewrite (tagset_of'_ok T _ Hts). cbn [length]. lia.
  - rewrite app_nil_r.
    assert (Hw: wire t0 cns = t0).
    { destruct cns; [apply wire_con; exact Hc0|apply wire_false]. }
    apply (match_level c f0 T r t0 cns si content s0 v dcd dfl E0).
    + rewrite Hw, (tagset_of'_ok T _ Hts). apply tagset_eqb_refl.
    + rewrite Hpm. reflexivity.
    + exact Hby.
    + destruct (frame_one_length _ _ _ _ _ E0) as (l & -> & _). rewrite !app_length in Hlen0. lia.
    + rewrite Hw. exact Hval.
Qed.

Section Loops.
  Variable rec : spec -> tagset -> option (option N) -> bool -> bool -> proc dval.

  Definition elem_ok (t: ty) (p: bytes) (x': val) : Prop :=
    consumes (rec (STy t) [] None false false) p (DV t x') /\ (0 < length p)%nat.

  (* one round of the element loop: the announced contents are read, or one more element is decoded *)
  Lemma listof_loop_end T t total start n acc s : (total <= pos s - start)%nat ->
    resume (listof_loop rec T t (Some (N.of_nat total)) start (S n) acc) s = inr (Ok (DV T (VList acc)), s).
  Proof.
    intros H. cbn [listof_loop]. cbv zeta. rewrite resume_tell.
    destruct (N.ltb_spec (N.of_nat (pos s - start)) (N.of_nat total)) as [Hlt|_]; [lia|reflexivity].
  Qed.

  Lemma listof_loop_next T t total start n acc s p tl x' :
    consumes (rec (STy t) [] None false false) p (DV t x') -> avail s = p ++ tl -> (pos s - start < total)%nat ->
    exists s1, resume (listof_loop rec T t (Some (N.of_nat total)) start (S n) acc) s
               = resume (listof_loop rec T t (Some (N.of_nat total)) start n (acc ++ [x'])) s1
      /\ avail s1 = tl /\ pos s1 = (pos s + length p)%nat /\ arrived s1 = arrived s /\ closed s1 = closed s.
  Proof.
    intros Hp Hav H. destruct (Hp s _ Hav) as (s1 & Hrun & Hpos & Harr & Hcl). exists s1.
    split; [|split; [exact (consumes_avail p s _ s1 Hav Hpos Harr)|repeat split; assumption]].
    cbn [listof_loop]. cbv zeta. rewrite resume_tell.
    destruct (N.ltb_spec (N.of_nat (pos s - start)) (N.of_nat total)) as [_|Hge]; [|lia].
    cbn [negb]. rewrite (resume_pbind_done _ _ _ _ _ Hrun). reflexivity.
  Qed.

  Lemma listof_loop_run T t : forall parts xs',
    Forall2 (elem_ok t) parts xs' ->
    forall n acc start total s tl,
      (length parts < n)%nat ->
      avail s = concat parts ++ tl ->
      (start <= pos s)%nat ->
      (pos s - start + length (concat parts) = total)%nat ->
      exists s', resume (listof_loop rec T t (Some (N.of_nat total)) start n acc) s = inr (Ok (DV T (VList (acc ++ xs'))), s')
        /\ pos s' = (pos s + length (concat parts))%nat /\ arrived s' = arrived s /\ closed s' = closed s.
  Proof.
    intros parts xs' HF. induction HF as [|p x' parts xs' [Hp Hpl] HF IH]; intros n acc start total s tl Hn Hav Hst Htot;
      (destruct n as [|n]; [cbn [length] in Hn; lia|]); cbn [concat length] in *.
    - rewrite listof_loop_end by lia. exists s. rewrite app_nil_r. repeat split. lia.
    - rewrite app_length in Htot. rewrite <- app_assoc in Hav.
      destruct (listof_loop_next T t total start n acc s p _ x' Hp Hav ltac:(lia)) as (s1 & -> & Hav1 & Hp1 & Ha1 & Hc1).
      destruct (IH n (acc ++ [x']) start total s1 tl ltac:(lia) Hav1 ltac:(lia) ltac:(lia)) as (s2 & -> & Hp2 & Ha2 & Hc2).
      exists s2. rewrite <- app_assoc, app_length. split; [reflexivity|]. split; [lia|]. split; congruence.
  Qed.

  Lemma dec_listof_consumes lf T t parts xs' :
    Forall2 (elem_ok t) parts xs' -> (length parts < lf)%nat ->
    consumes (dec_listof rec lf T t (Some (N.of_nat (length (concat parts))))) (concat parts) (DV T (VList xs')).
  Proof.
    intros HF Hlf s tl Hav. unfold dec_listof. rewrite resume_tell.
    destruct (listof_loop_run T t parts xs' HF lf [] (pos s) (length (concat parts)) s tl Hlf Hav ltac:(lia) ltac:(lia))
      as (s' & Hrun & Hpos & Harr & Hcl).
    exists s'. rewrite Hrun. cbn [app]. repeat split; assumption.
  Qed.
End Loops.

Lemma set_nth_app {X} : forall (a: list X) x y b, set_nth (length a) x (a ++ y :: b) = a ++ x :: b.
Proof. induction a as [|z a IH]; intros x y b; [reflexivity|]. cbn [length app set_nth]. rewrite IH. reflexivity. Qed.

Lemma nth_error_app_exact {X} : forall (a: list X) x b, nth_error (a ++ x :: b) (length a) = Some x.
Proof. induction a as [|z a IH]; intros x b; [reflexivity|]. cbn [length app nth_error]. apply IH. Qed.

Section RecordLoop.
  Variable rec : spec -> tagset -> option (option N) -> bool -> bool -> proc dval.
  Variable lf : nat.

  Inductive fields_ok : list (presence * ty) -> list bytes -> list val -> Prop :=
  | fields_nil : fields_ok [] [] []
  | fields_cons f p x' fs ps xs : elem_ok rec (snd f) p x' -> fields_ok fs ps xs -> fields_ok (f :: fs) (p :: ps) (x' :: xs).

  Lemma required_seen_all_some : forall fs vs, required_seen fs (map Some vs) = true.
  Proof.
    unfold required_seen. induction fs as [|f fs IH]; intros vs; [reflexivity|].
    destruct vs as [|x vs]; [reflexivity|]. cbn [map combine forallb fst snd].
    rewrite IH. destruct (fst f); reflexivity.
  Qed.

  (* one round of the component loop of SEQUENCE and SET: the announced contents are read and every
     mandatory component was seen, or one more component is decoded and put in its place *)
  Lemma record_loop_end T fs (is_set: bool) total start n idx vs s :
    (match fs with [] => true | _ => false end) = false -> (total <= pos s - start)%nat -> required_seen fs vs = true ->
    resume (record_loop rec lf T fs is_set (Some (N.of_nat total)) start (S n) idx vs 0%nat) s = inr (Ok (DV T (VRec vs)), s).
  Proof.
    intros Hne H Hseen. cbn [record_loop]. cbv zeta. rewrite resume_tell.
    destruct (N.ltb_spec (N.of_nat (pos s - start)) (N.of_nat total)) as [Hlt|_]; [lia|].
    cbn [negb]. rewrite Hne, Hseen. reflexivity.
  Qed.

  Lemma record_loop_next T fs (is_set: bool) total start n idx vs s sp p tl ft x' i :
    (match fs with [] => true | _ => false end) = false -> (pos s - start < total)%nat ->
    (if is_set then Some (SMap (fields_tagmap true (map snd fs)))
     else seq_component_spec fs (negb is_set && forallb (fun f => is_req (fst f)) fs) idx) = Some sp ->
    consumes (rec sp [] None false false) p (DV ft x') -> avail s = p ++ tl ->
    (negb is_set && Nat.leb (length fs) idx)%bool = false ->
    seq_position lf fs is_set (negb is_set && forallb (fun f => is_req (fst f)) fs) idx ft x' = Ok i -> (i < length fs)%nat ->
    exists s1, resume (record_loop rec lf T fs is_set (Some (N.of_nat total)) start (S n) idx vs 0%nat) s
               = resume (record_loop rec lf T fs is_set (Some (N.of_nat total)) start n (S i) (set_nth i (Some x') vs) 0%nat) s1
      /\ avail s1 = tl /\ pos s1 = (pos s + length p)%nat /\ arrived s1 = arrived s /\ closed s1 = closed s.
  Proof.
    intros Hne H Hsp Hp Hav Hidx Hposn Hi. destruct (Hp s _ Hav) as (s1 & Hrun & Hpos & Harr & Hcl). exists s1.
    split; [|split; [exact (consumes_avail p s _ s1 Hav Hpos Harr)|repeat split; assumption]].
    cbn [record_loop]. cbv zeta. rewrite resume_tell.
    destruct (N.ltb_spec (N.of_nat (pos s - start)) (N.of_nat total)) as [_|Hge]; [|lia].
    cbn [negb]. rewrite Hne, Hsp, (resume_pbind_done _ _ _ _ _ Hrun), Hidx, Hposn. cbn [lift pbind].
    apply Nat.leb_gt in Hi. rewrite Hi. reflexivity.
  Qed.

  (* The loop on the components as they stand on the wire, each with the position the decoder computes
     for it (SEQUENCE: from the position after the previous one; SET: by its tags alone). *)
  Definition sitem : Type := (nat * bytes * val)%type.
  Definition sidx (it: sitem) : nat := fst (fst it).
  Definition sbytes (it: sitem) : bytes := snd (fst it).
  Definition sval (it: sitem) : val := snd it.

  Definition place (items: list sitem) (vs: list (option val)) : list (option val) :=
    fold_left (fun acc it => set_nth (sidx it) (Some (sval it)) acc) items vs.

  Definition step_ok fs (is_set: bool) (idx: nat) (it: sitem) : Prop :=
    exists sp ft,
      (if is_set then Some (SMap (fields_tagmap true (map snd fs)))
       else seq_component_spec fs (negb is_set && forallb (fun f => is_req (fst f)) fs) idx) = Some sp
      /\ consumes (rec sp [] None false false) (sbytes it) (DV ft (sval it)) /\ (0 < length (sbytes it))%nat
      /\ (negb is_set && Nat.leb (length fs) idx)%bool = false
      /\ seq_position lf fs is_set (negb is_set && forallb (fun f => is_req (fst f)) fs) idx ft (sval it) = Ok (sidx it)
      /\ (sidx it < length fs)%nat.

  Fixpoint steps_ok fs (is_set: bool) (idx: nat) (items: list sitem) : Prop :=
    match items with
    | [] => True
    | it :: r => step_ok fs is_set idx it /\ steps_ok fs is_set (S (sidx it)) r
    end.

  Lemma record_loop_items T fs is_set : (match fs with [] => true | _ => false end) = false ->
    forall items idx, steps_ok fs is_set idx items ->
    forall vs n start total s tl,
      (length items < n)%nat ->
      avail s = concat (map sbytes items) ++ tl ->
      (start <= pos s)%nat ->
      (pos s - start + length (concat (map sbytes items)) = total)%nat ->
      required_seen fs (place items vs) = true ->
      exists s', resume (record_loop rec lf T fs is_set (Some (N.of_nat total)) start n idx vs 0%nat) s
                 = inr (Ok (DV T (VRec (place items vs))), s')
        /\ pos s' = (pos s + length (concat (map sbytes items)))%nat /\ arrived s' = arrived s /\ closed s' = closed s.
  Proof.
    intros Hne. induction items as [|it items IH]; intros idx Hsteps vs n start total s tl Hn Hav Hst Htot Hseen;
      (destruct n as [|n]; [cbn [length] in Hn; lia|]); cbn [map concat length place fold_left] in *.
    - rewrite record_loop_end; [|exact Hne|lia|exact Hseen]. exists s. repeat split. lia.
    - destruct Hsteps as [(sp & ft & Hsp & Hdec & Hpl & Hidx & Hposn & Hlt) Hsteps].
      rewrite app_length in Htot. rewrite <- app_assoc in Hav.
      destruct (record_loop_next T fs is_set total start n idx vs s sp (sbytes it) _ ft (sval it) (sidx it)
                  Hne ltac:(lia) Hsp Hdec Hav Hidx Hposn Hlt) as (s1 & -> & Hav1 & Hp1 & Ha1 & Hc1).
      destruct (IH (S (sidx it)) Hsteps _ n start total s1 tl ltac:(lia) Hav1 ltac:(lia) ltac:(lia) Hseen)
        as (s2 & -> & Hp2 & Ha2 & Hc2).
      exists s2. rewrite app_length. split; [reflexivity|]. split; [lia|]. split; congruence.
  Qed.

  (* the SEQUENCE whose components are all mandatory, directly (stage 2 needs no positions) *)
  Lemma record_loop_run T fs :
    forallb (fun f => is_req (fst f)) fs = true ->
    (match fs with [] => true | _ => false end) = false ->
    forall todo parts xs', fields_ok todo parts xs' ->
    forall done vdone n start total s tl,
      fs = done ++ todo -> length vdone = length done ->
      (length todo < n)%nat ->
      avail s = concat parts ++ tl ->
      (start <= pos s)%nat ->
      (pos s - start + length (concat parts) = total)%nat ->
      exists s', resume (record_loop rec lf T fs false (Some (N.of_nat total)) start n (length done)
                                     (map Some vdone ++ map (fun _ => None) todo) 0%nat) s
                 = inr (Ok (DV T (VRec (map Some (vdone ++ xs')))), s')
        /\ pos s' = (pos s + length (concat parts))%nat /\ arrived s' = arrived s /\ closed s' = closed s.
  Proof.
    intros Hreq Hne todo parts xs' HF.
    induction HF as [|f p x' todo parts xs' [Hp Hpl] HF IH]; intros done vdone n start total s tl Hfs Hvd Hn Hav Hst Htot;
      (destruct n as [|n]; [cbn [length] in Hn; lia|]); cbn [concat length map] in *.
    - rewrite !app_nil_r. rewrite record_loop_end; [|exact Hne|lia|apply required_seen_all_some].
      exists s. repeat split. lia.
    - rewrite app_length in Htot. rewrite <- app_assoc in Hav.
      assert (Hlt: (length done < length fs)%nat) by (rewrite Hfs, app_length; cbn [length]; lia).
      destruct (record_loop_next T fs false total start n (length done) (map Some vdone ++ None :: map (fun _ => None) todo)
                  s (STy (snd f)) p (concat parts ++ tl) (snd f) x' (length done) Hne ltac:(lia)) as (s1 & -> & Hav1 & Hp1 & Ha1 & Hc1);
        [| exact Hp | exact Hav | apply Nat.leb_gt; exact Hlt | cbn [negb andb]; rewrite Hreq; reflexivity | exact Hlt |].
      { unfold seq_component_spec. rewrite Hfs, nth_error_app_exact. destruct f as [pr ft]. cbn [negb andb]. rewrite <- Hfs, Hreq. reflexivity. }
      rewrite <- Hvd, <- (map_length Some vdone), set_nth_app.
      destruct (IH (done ++ [f]) (vdone ++ [x']) n start total s1 tl) as (s2 & Hrun2 & Hp2 & Ha2 & Hc2);
        [rewrite <- app_assoc; exact Hfs|rewrite !app_length; cbn [length]; lia|lia|exact Hav1|lia|lia|].
      rewrite app_length, !map_app, <- !app_assoc in Hrun2. cbn [length map app] in Hrun2. rewrite Nat.add_1_r, <- Hvd in Hrun2.
      exists s2. rewrite map_length, Hrun2, map_app, app_length. split; [reflexivity|]. split; [lia|]. split; congruence.
  Qed.
End RecordLoop.

Lemma dec_record_consumes rec lf T fs parts xs' :
  forallb (fun f => is_req (fst f)) fs = true -> fields_ok rec fs parts xs' -> (length fs < lf)%nat ->
  consumes (dec_record rec lf T fs false (Some (N.of_nat (length (concat parts))))) (concat parts) (DV T (VRec (map Some xs'))).
Proof.
  intros Hreq HF Hlf s tl Hav. unfold dec_record. rewrite resume_tell.
  destruct fs as [|f0 fs0].
  - inversion HF; subst. destruct lf as [|n]; [cbn [length] in Hlf; lia|].
    cbn [record_loop]. cbv zeta. rewrite resume_tell. cbn [concat length]. rewrite Nat.sub_diag.
    cbn [N.of_nat N.ltb N.compare negb map resume]. exists s. repeat split. lia.
  - destruct (record_loop_run rec lf T (f0 :: fs0) Hreq eq_refl (f0 :: fs0) parts xs' HF [] [] lf (pos s)
                (length (concat parts)) s tl eq_refl eq_refl Hlf Hav ltac:(lia) ltac:(lia))
      as (s' & Hrun & Hpos & Harr & Hcl).
    exists s'. split; [exact Hrun|]. repeat split; assumption.
Qed.

(* a fuel that suffices to decode the encoding b of a value of T: one unit per octet and per level of the type *)
Definition fuel_ok (T: ty) (b: bytes) (f: nat) : Prop := (length b + ty_depth T <= f)%nat.

(* what the induction over the type establishes of v: T: its encoding is not empty and is read back, whatever
   follows, as a value with the same abstract contents, for every sufficient fuel *)
Definition item_ok (T: ty) (v: val) : Prop :=
  forall b, enc_with BER (enc_content BER) T def_opts v = Ok b -> N.of_nat (length b) <= index_max ->
  (0 < length b)%nat /\
  exists v', abs T v' = abs T v /\
    forall f, fuel_ok T b f -> consumes (dec_call BER f (STy T) [] None false false) b (DV T v').

Lemma enc_with_inv_c ce T v b : fix_opts ce def_opts = def_opts -> enc_with ce (enc_content ce) T def_opts v = Ok b ->
  exists ec fl ts content cns, concrete_encoder ce T = Ok (ec, fl) /\ tagset_of T = Ok ts
    /\ enc_content ce T ec fl def_opts v = Ok (content, cns) /\ frame ts content cns def_opts (ef_indef fl) = Ok b.
Proof.
  unfold enc_with. intros -> H.
  destruct (concrete_encoder ce T) as [[ec fl]|e] eqn:E1; cbn [bind] in H; [|discriminate].
  destruct (tagset_of T) as [ts|e] eqn:E2; cbn [bind] in H; [|discriminate].
  change (mkOpts (o_def def_opts) (o_chunk def_opts) false) with def_opts in H.
  destruct (enc_content ce T ec fl def_opts v) as [[content cns]|e] eqn:E3; cbn [bind] in H; [|discriminate].
  exists ec, fl, ts, content, cns. split; [reflexivity|]. split; [reflexivity|]. split; [exact E3|exact H].
Qed.

Lemma enc_with_inv T v b : enc_with BER (enc_content BER) T def_opts v = Ok b ->
  exists ec fl ts content cns, concrete_encoder BER T = Ok (ec, fl) /\ tagset_of T = Ok ts
    /\ enc_content BER T ec fl def_opts v = Ok (content, cns) /\ frame ts content cns def_opts (ef_indef fl) = Ok b.
Proof. exact (enc_with_inv_c BER T v b eq_refl). Qed.

Definition constructed_base (T: ty) : bool :=
  match base_of T with TSeq _ | TSet _ | TSeqOf _ | TSetOf _ => true | _ => false end.

Lemma constructed_encoding ce T v b : fix_opts ce def_opts = def_opts -> wf_tags T = true -> constructed_base T = true ->
  enc_with ce (enc_content ce) T def_opts v = Ok b ->
  exists t0 r ec fl content cns,
    tagset_of T = Ok (t0 :: r) /\ tcon t0 = true /\ Forall explicit_like r /\ (length r + ty_depth (base_of T) <= ty_depth T)%nat
    /\ concrete_encoder ce (base_of T) = Ok (ec, fl) /\ enc_content ce (base_of T) ec fl def_opts v = Ok (content, cns)
    /\ frame (t0 :: r) content cns def_opts (ef_indef fl) = Ok b.
Proof.
  intros Hdef Hw Hcb He. unfold constructed_base in Hcb.
  assert (Htb: tagged_base T = true) by (unfold tagged_base; destruct (base_of T); try discriminate Hcb; reflexivity).
  destruct (tagset_shape T Htb Hw) as (t0 & r & b0 & Hb0 & Hts & Hc0 & Hex & Hd).
  destruct (enc_with_inv_c ce T v b Hdef He) as (ec & fl & ts & content & cns & Hce & Hts' & Hcont & Hfr).
  rewrite Hts in Hts'. inversion Hts'; subst ts. rewrite concrete_encoder_base in Hce. rewrite enc_content_base in Hcont.
  exists t0, r, ec, fl, content, cns. repeat (split; [assumption|]). split; [|repeat split; assumption].
  rewrite Hc0. destruct (base_of T); try discriminate Hcb; inversion Hb0; reflexivity.
Qed.

Lemma frame_nonempty t0 r content cns si b : frame (t0 :: r) content cns def_opts si = Ok b ->
  (length content + 2 <= length b)%nat.
Proof. intros H. pose proof (frame_len_r _ _ _ _ _ _ H). lia. Qed.

Lemma enc_nonempty T v b t0 r : tagset_of T = Ok (t0 :: r) ->
  enc_with BER (enc_content BER) T def_opts v = Ok b -> (2 <= length b)%nat.
Proof.
  intros Hts He. destruct (enc_with_inv T v b He) as (ec & fl & ts & content & cns & _ & Hts' & _ & Hfr).
  rewrite Hts in Hts'. inversion Hts'; subst ts. pose proof (frame_nonempty _ _ _ _ _ _ Hfr). lia.
Qed.

Lemma prim_item T v : prim_base T = true -> wf_tags T = true -> stage1_val BER BER T v = true -> item_ok T v.
Proof.
  intros Hp Hw Hs b He Hmax.
  assert (He': encode BER true 0 T v = Ok b) by exact He.
  destruct (stage1_leaf BER BER T v b (or_introl eq_refl) Hs He') as (content & vdec & Hleaf & Habs).
  pose proof (content_le_encoding BER BER T v content vdec b def_codec_ber Hp Hw Hleaf He') as Hcl.
  destruct (tagset_prim_shape T Hp Hw) as (t0 & r & Hts & _ & _ & Hd).
  split.
  - pose proof (enc_nonempty T v b t0 r Hts He). lia.
  - exists vdec. split; [exact Habs|]. intros f Hf. unfold fuel_ok in Hf.
    pose proof (stage1_generic BER BER T v content vdec b (f - 1 - length r) def_codec_ber Hp Hw Hleaf He') as Hg.
    rewrite (tagset_of'_ok T _ Hts) in Hg. cbn [length] in Hg.
    replace (S (f - 1 - length r) + (S (length r) - 1))%nat with f in Hg by lia.
    apply Hg; [split; lia|lia].
Qed.

Lemma enc_elems_cons t o x r :
  enc_elems t o (x :: r) = (do p <- enc_with BER (enc_content BER) t o x; do ps <- enc_elems t o r; Ok (p :: ps)).
Proof. reflexivity. Qed.

Lemma elems_item t : (forall x, stage2_val t x = true -> item_ok t x) ->
  forall xs parts, enc_elems t def_opts xs = Ok parts -> forallb (stage2_val t) xs = true ->
  N.of_nat (length (concat parts)) <= index_max ->
  exists xs', map (abs t) xs' = map (abs t) xs /\
    forall f, (length (concat parts) + ty_depth t <= f)%nat -> Forall2 (elem_ok (dec_call BER f) t) parts xs'.
Proof.
  intros IHt. induction xs as [|x xs IH]; intros parts He Hs Hmax.
  - inversion He; subst. exists []. split; [reflexivity|]. intros f _. constructor.
  - rewrite enc_elems_cons in He.
    destruct (enc_with BER (enc_content BER) t def_opts x) as [p|e] eqn:Ep; cbn [bind] in He; [|discriminate].
    destruct (enc_elems t def_opts xs) as [ps|e] eqn:Eps; cbn [bind] in He; [|discriminate].
    inversion He; subst parts; clear He.
    cbn [forallb] in Hs. apply Bool.andb_true_iff in Hs. destruct Hs as [Hx Hxs].
    cbn [concat] in Hmax. rewrite app_length in Hmax.
    destruct (IHt x Hx p Ep ltac:(lia)) as (Hpl & x' & Hax & Hcx).
    destruct (IH ps eq_refl Hxs ltac:(lia)) as (xs' & Haxs & Hcxs).
    exists (x' :: xs'). split; [cbn [map]; rewrite Hax, Haxs; reflexivity|].
    intros f Hf. cbn [concat] in Hf. rewrite app_length in Hf. constructor.
    + split; [|exact Hpl]. apply Hcx. unfold fuel_ok. lia.
    + apply Hcxs. lia.
Qed.

Lemma Forall2_elem_count rec t parts xs' : Forall2 (elem_ok rec t) parts xs' -> (length parts <= length (concat parts))%nat.
Proof.
  induction 1 as [|p x' parts xs' [_ Hpl] _ IH]; [cbn; lia|]. cbn [length concat]. rewrite app_length. lia.
Qed.

(* One item of a constructed base type under any tagging, from what the encoder and the value decoder
   of the base type do with the contents. *)
Lemma item_ok_constructed T' v : wf_tags T' = true -> constructed_base T' = true ->
  (forall ec fl content cns, concrete_encoder BER (base_of T') = Ok (ec, fl) ->
     enc_content BER (base_of T') ec fl def_opts v = Ok (content, cns) -> N.of_nat (length content) <= index_max ->
     cns = true /\ exists v', abs (base_of T') v' = abs (base_of T') v /\
       exists dcd dfl, by_type BER (base_of T') = Some (dcd, dfl) /\
         forall t0 r f, tcon t0 = true -> (length content + ty_depth (base_of T') < f)%nat ->
           consumes (dec_value (dec_call BER f) f dcd dfl (Some T') (t0 :: r) (Some (N.of_nat (length content))) false)
                    content (DV T' v')) ->
  item_ok T' v.
Proof.
  intros Hw Hcb Hbase b He Hmax.
  destruct (constructed_encoding BER T' v b eq_refl Hw Hcb He) as (t0 & r & ec & fl & content & cns & Hts & Hcon & Hex & Hd & Hce & Hcont & Hfr).
  pose proof (frame_len_r _ _ _ _ _ _ Hfr) as Hlen.
  destruct (Hbase ec fl content cns Hce Hcont ltac:(lia)) as (-> & v' & Habs & dcd & dfl & Hby & Hdec).
  split; [lia|]. exists v'. split; [rewrite (abs_wrappers T' v'), (abs_wrappers T' v); exact Habs|].
  intros f Hf. unfold fuel_ok in Hf.
  assert (Hpm: plain_map T').
  { apply plain_map_tagged. unfold constructed_base in Hcb. destruct T'; try exact I; discriminate Hcb. }
  replace f with (S (f - 1 - length r) + length r)%nat by lia.
  apply (framed_consumes BER T' t0 r true (ef_indef fl) content b (f - 1 - length r) dcd dfl _ Hts Hcon Hex Hpm);
    [rewrite by_type_base; exact Hby|exact Hfr|lia|].
  apply Hdec; [exact Hcon|lia].
Qed.

Lemma listof_item T' t : (base_of T' = TSeqOf t \/ base_of T' = TSetOf t) -> wf_tags T' = true ->
  (forall x, stage2_val t x = true -> item_ok t x) ->
  forall xs, forallb (stage2_val t) xs = true -> item_ok T' (VList xs).
Proof.
  intros Hb Hw IHt xs Hs.
  apply item_ok_constructed; [exact Hw|unfold constructed_base; destruct Hb as [-> | ->]; reflexivity|].
  intros ec fl content cns Hce Hcont Hmax.
  assert (Hdep: ty_depth (base_of T') = S (ty_depth t)) by (destruct Hb as [-> | ->]; reflexivity).
  assert (Hparts: exists parts, enc_elems t def_opts xs = Ok parts /\ content = concat parts /\ cns = true).
  { destruct Hb as [Hb|Hb]; rewrite Hb in Hce, Hcont; vm_compute in Hce; inversion Hce; subst ec fl; clear Hce.
    - rewrite enc_content_seqof in Hcont. destruct (enc_elems t def_opts xs) as [parts|e]; cbn [bind] in Hcont; [|discriminate].
      inversion Hcont; subst. exists parts. repeat split.
    - rewrite enc_content_setof in Hcont. destruct (enc_elems t def_opts xs) as [parts|e]; cbn [bind] in Hcont; [|discriminate].
      inversion Hcont; subst. exists parts. repeat split. }
  destruct Hparts as (parts & Hel & -> & ->). split; [reflexivity|].
  destruct (elems_item t IHt xs parts Hel Hs Hmax) as (xs' & Habs & Helems).
  exists (VList xs'). split; [destruct Hb as [-> | ->]; cbn [abs]; rewrite Habs; reflexivity|].
  assert (Hby: exists dcd dfl, by_type BER (base_of T') = Some (dcd, dfl) /\ (dcd = DcSeqOf \/ dcd = DcSetOf)).
  { destruct Hb as [-> | ->]; eexists; eexists; (split; [vm_compute; reflexivity|]); [left|right]; reflexivity. }
  destruct Hby as (dcd & dfl & Hby & Hdcd). exists dcd, dfl. split; [exact Hby|]. intros t0 r f Hcon Hf.
  assert (Hdv: dec_value (dec_call BER f) f dcd dfl (Some T') (t0 :: r) (Some (N.of_nat (length (concat parts)))) false
               = dec_listof (dec_call BER f) f T' t (Some (N.of_nat (length (concat parts))))).
  { destruct Hdcd as [-> | ->]; cbn [dec_value tag0_cons]; rewrite Hcon; cbn [negb]; destruct Hb as [-> | ->]; reflexivity. }
  rewrite Hdv.
  assert (HF: Forall2 (elem_ok (dec_call BER f) t) parts xs') by (apply Helems; lia).
  apply dec_listof_consumes; [exact HF|].
  pose proof (Forall2_elem_count _ _ _ _ HF). lia.
Qed.

Definition sv_fields : list (presence * ty) -> list (option val) -> bool :=
  fix go (fs: list (presence * ty)) (vs: list (option val)) : bool :=
    match fs, vs with
    | [], [] => true
    | f :: fs', Some x :: vs' => stage2_val (snd f) x && go fs' vs'
    | _, _ => false
    end.

Lemma stage2_val_seq fs vs : stage2_val (TSeq fs) (VRec vs) = sv_fields fs vs.
Proof. reflexivity. Qed.

Definition abs_fields : list (presence * ty) -> list (option val) -> list (option aval) :=
  fix go (fs: list (presence * ty)) (vs: list (option val)) : list (option aval) :=
    match fs, vs with
    | (p, ft) :: fs', ov :: vs' =>
        (match ov, p with
         | Some x, _ => Some (abs ft x)
         | None, Def d => Some (abs ft d)
         | None, _ => None
         end) :: go fs' vs'
    | (p, ft) :: fs', [] =>
        (match p with Def d => Some (abs ft d) | _ => None end) :: go fs' []
    | [], _ => []
    end.

Lemma abs_seq fs vs : abs (TSeq fs) (VRec vs) = ARec (abs_fields fs vs).
Proof. reflexivity. Qed.

Definition enc_rec_fields (cd: enc_codec) (omit: bool) (o: eopts) : list (presence * ty) -> list (option val) -> res (list (tagset * bytes)) :=
  enc_rec_fields_g BER cd omit o.

Lemma enc_content_seq fs cd fl o vs :
  enc_content BER (TSeq fs) cd fl o (VRec vs) =
  (do parts <- enc_rec_fields cd (match cd with EcSeq => ef_omit_empty fl | EcSetCer | EcSetDer => true | _ => false end) o fs vs;
   match cd with
   | EcSeq => Ok (concat (map snd parts), true)
   | EcSetCer | EcSetDer => Ok (concat (map snd (sort_by tagset_ltb fst parts)), true)
   | _ => Err EMalformed
   end).
Proof. reflexivity. Qed.

Lemma enc_rec_fields_req o ft fs' x vs' :
  enc_rec_fields EcSeq false o ((Req, ft) :: fs') (Some x :: vs') =
  (do b <- enc_with BER (enc_content BER) ft o x; do rest <- enc_rec_fields EcSeq false o fs' vs';
   Ok ((set_sort_key false ft x, b) :: rest)).
Proof. reflexivity. Qed.

Definition max_depth (fs: list (presence * ty)) : nat :=
  fold_right (fun f acc => Nat.max (ty_depth (snd f)) acc) O fs.

Lemma fields_item : forall fs,
  Forall (fun f => forall x, stage2_val (snd f) x = true -> item_ok (snd f) x) fs ->
  forallb (fun f => is_req (fst f)) fs = true ->
  forall vs parts, sv_fields fs vs = true -> enc_rec_fields EcSeq false def_opts fs vs = Ok parts ->
  N.of_nat (length (concat (map snd parts))) <= index_max ->
  exists xs', abs_fields fs (map Some xs') = abs_fields fs vs /\
    forall f, (length (concat (map snd parts)) + max_depth fs <= f)%nat ->
              fields_ok (dec_call BER f) fs (map snd parts) xs'.
Proof.
  intros fs HF. induction HF as [|[p ft] fs IHf HF IH]; intros Hreq vs parts Hs He Hmax.
  - destruct vs; [|discriminate Hs]. inversion He; subst. exists []. split; [reflexivity|]. intros f _. constructor.
  - cbn [forallb fst] in Hreq. apply Bool.andb_true_iff in Hreq. destruct Hreq as [Hp Hreq].
    destruct p; try discriminate Hp. cbn [snd] in IHf.
    destruct vs as [|[x|] vs']; try discriminate Hs.
    change (sv_fields ((Req, ft) :: fs) (Some x :: vs')) with (stage2_val ft x && sv_fields fs vs')%bool in Hs.
    apply Bool.andb_true_iff in Hs. destruct Hs as [Hx Hxs].
    rewrite enc_rec_fields_req in He.
    destruct (enc_with BER (enc_content BER) ft def_opts x) as [pb|e] eqn:Ep; cbn [bind] in He; [|discriminate].
    destruct (enc_rec_fields EcSeq false def_opts fs vs') as [ps|e] eqn:Eps; cbn [bind] in He; [|discriminate].
    inversion He; subst parts; clear He.
    cbn [map snd concat] in Hmax. rewrite app_length in Hmax.
    destruct (IHf x Hx pb Ep ltac:(lia)) as (Hpl & x' & Hax & Hcx).
    destruct (IH Hreq vs' ps Hxs Eps ltac:(lia)) as (xs' & Haxs & Hcxs).
    exists (x' :: xs'). split.
    { change (abs_fields ((Req, ft) :: fs) (map Some (x' :: xs'))) with (Some (abs ft x') :: abs_fields fs (map Some xs')).
      change (abs_fields ((Req, ft) :: fs) (Some x :: vs')) with (Some (abs ft x) :: abs_fields fs vs').
      rewrite Hax, Haxs. reflexivity. }
    intros f Hf. cbn [map snd concat max_depth fold_right] in Hf. rewrite app_length in Hf.
    cbn [map snd]. constructor.
    + cbn [snd]. split; [|exact Hpl]. apply Hcx. unfold fuel_ok. lia.
    + apply Hcxs. unfold max_depth. lia.
Qed.

Lemma fields_ok_count rec fs parts xs' : fields_ok rec fs parts xs' ->
  (length fs <= length (concat parts))%nat.
Proof.
  induction 1 as [|f p x' fs ps xs [_ Hpl] _ IH]; [cbn; lia|]. cbn [length concat]. rewrite app_length. lia.
Qed.

Lemma record_item T' fs : base_of T' = TSeq fs -> wf_tags T' = true ->
  forallb (fun f => is_req (fst f)) fs = true ->
  Forall (fun f => forall x, stage2_val (snd f) x = true -> item_ok (snd f) x) fs ->
  forall vs, sv_fields fs vs = true -> item_ok T' (VRec vs).
Proof.
  intros Hb Hw Hreq IHfs vs Hs.
  apply item_ok_constructed; [exact Hw|unfold constructed_base; rewrite Hb; reflexivity|].
  rewrite Hb. intros ec fl content cns Hce Hcont Hmax.
  vm_compute in Hce. inversion Hce; subst ec fl; clear Hce.
  rewrite enc_content_seq in Hcont. cbn [ef_omit_empty] in Hcont.
  destruct (enc_rec_fields EcSeq false def_opts fs vs) as [parts|e] eqn:Eparts; cbn [bind] in Hcont; [|discriminate].
  inversion Hcont; subst content cns; clear Hcont. split; [reflexivity|].
  destruct (fields_item fs IHfs Hreq vs parts Hs Eparts Hmax) as (xs' & Habs & Hfields).
  exists (VRec (map Some xs')). split; [rewrite !abs_seq, Habs; reflexivity|].
  exists DcSeq, (mkDecFlags true (Some KSeq)). split; [vm_compute; reflexivity|].
  intros t0 r f Hcon Hf. cbn [dec_value tag0_cons]. rewrite Hcon. cbn [negb]. rewrite Hb.
  cbn [ty_depth] in Hf. fold (max_depth fs) in Hf.
  assert (HF: fields_ok (dec_call BER f) fs (map snd parts) xs') by (apply Hfields; lia).
  apply dec_record_consumes; [exact Hreq|exact HF|].
  pose proof (fields_ok_count _ _ _ _ HF). lia.
Qed.

Theorem stage2_item : forall T T', base_of T' = base_of T -> stage2_ty T' = true ->
  forall v, stage2_val T' v = true -> item_ok T' v.
Proof.
  induction T as [| | | | | | | | n|fs IH|fs IH|t IH|t IH|alts IH| |tg x IH|tg x IH] using ty_ind';
    intros T' Hb Hty v Hv; cbn [base_of] in Hb;
    destruct (stage2_ty_base T' Hty) as [Hw Htb];
    try (assert (Hp: prim_base T' = true) by (unfold prim_base; rewrite Hb; reflexivity);
         rewrite (stage2_val_prim T' v Hp) in Hv; exact (prim_item T' v Hp Hw Hv));
    try (rewrite Hb in Htb; discriminate Htb).
  - (* SEQUENCE *)
    rewrite Hb in Htb. cbn [stage2_ty] in Htb.
    rewrite stage2_val_base, Hb in Hv. destruct v; try discriminate Hv. rewrite stage2_val_seq in Hv.
    assert (Hreq: forallb (fun f => is_req (fst f)) fs = true).
    { apply forallb_forall. intros f Hin. rewrite forallb_forall in Htb. specialize (Htb f Hin).
      apply Bool.andb_true_iff in Htb. exact (proj1 Htb). }
    apply (record_item T' fs Hb Hw Hreq); [|exact Hv].
    apply Forall_forall. intros f Hin x Hx. rewrite Forall_forall in IH.
    rewrite forallb_forall in Htb. specialize (Htb f Hin). apply Bool.andb_true_iff in Htb.
    exact (IH f Hin (snd f) eq_refl (proj2 Htb) x Hx).
  - (* SEQUENCE OF *)
    rewrite Hb in Htb. cbn [stage2_ty] in Htb.
    rewrite stage2_val_base, Hb in Hv. destruct v; try discriminate Hv. cbn [stage2_val] in Hv.
    apply (listof_item T' t (or_introl Hb) Hw); [|exact Hv].
    intros x Hx. exact (IH t eq_refl Htb x Hx).
  - (* SET OF *)
    rewrite Hb in Htb. cbn [stage2_ty] in Htb.
    rewrite stage2_val_base, Hb in Hv. destruct v; try discriminate Hv. cbn [stage2_val] in Hv.
    apply (listof_item T' t (or_intror Hb) Hw); [|exact Hv].
    intros x Hx. exact (IH t eq_refl Htb x Hx).
  - exact (IH T' Hb Hty v Hv).
  - exact (IH T' Hb Hty v Hv).
Qed.

(* Round trip, stage 2, for any fuel the caller chooses above (length of the encoding + depth of the type) *)
Theorem roundtrip_stage2_fuel : forall T v b tl fuel,
  stage2_ty T = true -> stage2_val T v = true ->
  encode BER true 0 T v = Ok b -> N.of_nat (length b) <= index_max ->
  (length b + ty_depth T <= fuel)%nat ->
  exists v', decode_with BER fuel (Some T) (b ++ tl) = Ok (DV T v', tl) /\ abs T v' = abs T v.
Proof.
  intros T v b tl fuel Hty Hv He Hmax Hf.
  destruct (stage2_item T T eq_refl Hty v Hv b He Hmax) as (_ & v' & Habs & Hc).
  exists v'. split; [|exact Habs].
  exact (consumes_decode_with BER fuel (Some T) b tl (DV T v') (Hc fuel Hf)).
Qed.

Print Assumptions roundtrip_stage2_fuel.

(* Round trip, stage 2: every type built to any nesting depth from the stage-1 simple types,
   SEQUENCE OF, SET OF, SEQUENCE with mandatory components, and IMPLICIT / EXPLICIT tagging (with
   non-UNIVERSAL tags) of any of these.  The fuel [decode] gives itself (dec_fuel = 2 * input length +
   2 * depth + 6) is one that suffices. *)
Theorem roundtrip_stage2 : forall T v b tl,
  stage2_ty T = true -> stage2_val T v = true ->
  encode BER true 0 T v = Ok b -> N.of_nat (length b) <= index_max ->
  exists v', decode BER (Some T) (b ++ tl) = Ok (DV T v', tl) /\ abs T v' = abs T v.
Proof.
  intros T v b tl Hty Hv He Hmax.
  apply (roundtrip_stage2_fuel T v b tl (dec_fuel (Some T) (b ++ tl)) Hty Hv He Hmax).
  unfold dec_fuel. rewrite app_length. lia.
Qed.

Print Assumptions roundtrip_stage2.

(* the hypotheses are met by a nested case:
   [APPLICATION 7] EXPLICIT SEQUENCE { [0] EXPLICIT SEQUENCE OF INTEGER,
                                       [1] IMPLICIT SET OF SEQUENCE { BOOLEAN, OCTET STRING },
                                       [PRIVATE 1000] IMPLICIT [2] EXPLICIT SEQUENCE OF SEQUENCE OF NULL,
                                       SEQUENCE {} } *)
Definition stage2_example_ty : ty :=
  TExp (mkTag Appl false 7)
   (TSeq [ (Req, TExp (mkTag Ctx false 0) (TSeqOf TInt));
           (Req, TImp (mkTag Ctx false 1) (TSetOf (TSeq [(Req, TBool); (Req, TOcts)])));
           (Req, TImp (mkTag Priv false 1000) (TExp (mkTag Ctx false 2) (TSeqOf (TSeqOf TNull))));
           (Req, TSeq []) ]).
Definition stage2_example_val : val :=
  VRec [ Some (VList [VInt 5; VInt (-129)]);
         Some (VList [VRec [Some (VBool true); Some (VOcts [1;2;3])]; VRec [Some (VBool false); Some (VOcts [])]]);
         Some (VList [VList [VNull; VNull]; VList []]);
         Some (VRec []) ].

Example roundtrip_stage2_nonvacuous :
  stage2_ty stage2_example_ty = true /\ stage2_val stage2_example_ty stage2_example_val = true
  /\ encode BER true 0 stage2_example_ty stage2_example_val
     = Ok [103; 48; 48; 46; 160; 9; 48; 7; 2; 1; 5; 2; 2; 255; 127; 161; 17;
           48; 8; 1; 1; 1; 4; 3; 1; 2; 3; 48; 5; 1; 1; 0; 4; 0; 255; 135;
           104; 10; 48; 8; 48; 4; 5; 0; 5; 0; 48; 0; 48; 0]
  /\ N.of_nat 50 <= index_max.
Proof. vm_compute. repeat split; try reflexivity; discriminate. Qed.
