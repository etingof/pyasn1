(* C03, the model's side for the reader theorems: what the encoders of all three codecs write for
   the simple types, in every mode (defMode, maxChunkSize), and that the independent reader reads
   it back as the same abstract value. *)
From Coq Require Import Lia.
From PV Require Import Base.Bytes Model.Tag Model.TableTypes Model.Types Model.Enc Gen.Tables Spec.X690
     Proofs.Bits Proofs.SpecOctets Proofs.LeafInt Proofs.LeafOidBits Proofs.LeafReal Proofs.TagAlgebra
     Proofs.EncUnfold Proofs.DerReference Proofs.ReaderParse Proofs.ReaderInterp Proofs.ReaderLeafOidBits
     Proofs.ReaderLeafReal Proofs.ReaderSound Proofs.ReaderFrame Proofs.ReaderCerSegments.
From PV Require Proofs.TagsetShape.
Local Open Scope N_scope.

(* a finite fact about the dispatch tables: every entry for a character or useful string type is one of
   three encoders with the indefinite form; a type without an entry falls back to OCTET STRING's *)
Definition str_entry_ok (e: tkey * enc_codec * enc_flags) : bool :=
  match e with
  | (KStr _, cd, fl) => match cd with EcOcts | EcUtcTime | EcGenTime => ef_indef fl | _ => false end
  | _ => true
  end.

Lemma str_entries c : forallb str_entry_ok (enc_type_map c) = true /\
  lookup3 KOcts (enc_tag_map c) = Some (EcOcts, mkEncFlags true false false None 0 0).
Proof. destruct c; split; reflexivity. Qed.

Lemma string_encoder c n cd fl : concrete_encoder c (TStr n) = Ok (cd, fl) ->
  (cd = EcOcts \/ cd = EcUtcTime \/ cd = EcGenTime) /\ ef_indef fl = true.
Proof.
  unfold concrete_encoder. cbn [key_of base_of tag_fallback_key]. destruct (str_entries c) as [Htab Hoct].
  destruct (lookup3 (KStr n) (enc_type_map c)) as [[cd' fl']|] eqn:E.
  - intros H. injection H as <- <-. destruct (lookup3_in_key _ _ _ _ E) as (k' & Hk & Hin).
    rewrite forallb_forall in Htab. specialize (Htab _ Hin). destruct k'; try discriminate Hk.
    cbn [str_entry_ok] in Htab. destruct cd'; try discriminate Htab; auto.
  - rewrite Hoct. intros H. injection H as <- <-. auto.
Qed.

Lemma chunks_in_len {A} : forall f k (b p: list A), In p (chunks f k b) -> (length p <= k)%nat /\ (length p <= length b)%nat.
Proof.
  induction f as [|f IH]; intros k b p H; [contradiction|].
  cbn [chunks] in H. destruct b as [|x b']; [contradiction|].
  destruct H as [<-|H].
  - split; [apply firstn_le_length|]. rewrite firstn_length. lia.
  - destruct (IH k _ p H) as [H1 H2]. split; [exact H1|]. rewrite skipn_length in H2. lia.
Qed.

Lemma segs_in_len f k (b p: bytes) : In p (segs f k b) -> (length p <= k)%nat /\ (length p <= length b)%nat.
Proof. rewrite <- chunks_is_segs. apply chunks_in_len. Qed.

Lemma concat_segs : forall f k (b: bytes), (0 < k)%nat -> (length b < f)%nat -> concat (segs f k b) = b.
Proof.
  induction f as [|f IH]; intros k b Hk Hf; [lia|].
  cbn [segs]. destruct b as [|x b']; [reflexivity|].
  cbn [concat]. rewrite IH; [apply firstn_skipn|exact Hk|].
  rewrite skipn_length. cbn [length] in *. lia.
Qed.

Lemma bit_piece_prim p :
  bit_piece (enc_bits_prim p) = Some (p ++ repeat false (pad_of (length p)), N.of_nat (pad_of (length p))).
Proof.
  unfold enc_bits_prim, bit_piece. pose proof (pad_of_lt (length p)) as Hp.
  destruct (N.ltb_spec 7 (N.of_nat (pad_of (length p)))) as [Hc|_]; [lia|].
  rewrite bits_of_octets_spec_bits_octets. reflexivity.
Qed.

Lemma join_single p : join_bit_segments [(p ++ repeat false (pad_of (length p)), N.of_nat (pad_of (length p)))] = Some p.
Proof.
  cbn [join_bit_segments]. rewrite Nat2N.id, app_length, repeat_length.
  destruct (Nat.ltb_spec (length p + pad_of (length p)) (pad_of (length p))) as [Hc|_]; [lia|].
  replace (length p + pad_of (length p) - pad_of (length p))%nat with (length p) by lia.
  rewrite firstn_app, Nat.sub_diag, firstn_all, firstn_O, app_nil_r. reflexivity.
Qed.

Lemma join_cons_aligned p x l : join_bit_segments ((p, 0) :: x :: l) = opt_bind (join_bit_segments (x :: l)) (fun y => Some (p ++ y)).
Proof. destruct x as [q u]. reflexivity. Qed.

Lemma bit_pieces_join k : (0 < k)%nat -> (k mod 8 = 0)%nat -> forall f bs, (length bs < f)%nat -> bs <> [] ->
  exists x l, opt_all (map bit_piece (map enc_bits_prim (chunks f k bs))) = Some (x :: l) /\
              join_bit_segments (x :: l) = Some bs.
Proof.
  intros Hk H8. induction f as [|f IH]; intros bs Hf Hne; [lia|].
  rewrite (chunks_cons f k bs Hne). cbn [map opt_all]. rewrite bit_piece_prim.
  destruct (skipn k bs) as [|y rest] eqn:Es.
  - (* the last piece *)
    rewrite chunks_nil. cbn [map opt_all opt_bind].
    assert (Hall: firstn k bs = bs).
    { rewrite <- (firstn_skipn k bs) at 2. rewrite Es, app_nil_r. reflexivity. }
    rewrite Hall. eexists. exists []. split; [reflexivity|]. apply join_single.
  - (* a full piece, more to come *)
    assert (Hlen: (k < length bs)%nat).
    { destruct (Nat.lt_ge_cases k (length bs)) as [H|H]; [exact H|].
      rewrite skipn_all2 in Es by exact H. discriminate Es. }
    assert (Hfl: length (firstn k bs) = k) by (rewrite firstn_length; lia).
    destruct (IH (y :: rest)) as (x & l & Ho & Hj).
    { rewrite <- Es, skipn_length. lia. }
    { discriminate. }
    rewrite Ho. cbn [opt_bind]. rewrite Hfl, (pad_of_0 k H8). cbn [repeat]. rewrite app_nil_r.
    eexists. eexists. split; [reflexivity|].
    change (N.of_nat 0) with 0. rewrite join_cons_aligned, Hj. cbn [opt_bind].
    rewrite <- Es, firstn_skipn. reflexivity.
Qed.

(* the encoders of these types support the indefinite form (the others do not: finding F01) *)
Definition indef_base (B: ty) : bool :=
  match B with TBool | TInt | TEnum | TNull | TOid | TReal => false | _ => true end.

(* identifier with the base tag, then what follows it: definite or indefinite *)
Definition base_enc (B: ty) (ic indef: bool) (content: bytes) : bytes :=
  ident Univ ic (tnum (base_tag B)) ++
  (if ic && indef then [128] ++ content ++ [0; 0] else length_octets (N.of_nat (length content)) ++ content).

Lemma base_enc_prim B content indef : base_enc B false indef content = tlv Univ false (tnum (base_tag B)) content.
Proof. reflexivity. Qed.
Lemma base_enc_cons B content indef : base_enc B true indef content = ctlv indef Univ (tnum (base_tag B)) content.
Proof. destruct indef; reflexivity. Qed.

Lemma pieces_bound (n: N) (ps: list bytes) :
  N.of_nat (length (concat (map (tlv Univ false n) ps))) < max_len ->
  Forall (fun p => N.of_nat (length p) < max_len) ps.
Proof.
  intros H. apply Forall_forall. intros p Hp.
  assert (Hin: In (tlv Univ false n p) (map (tlv Univ false n) ps)) by (apply in_map; exact Hp).
  apply concat_in_length in Hin. pose proof (tlv_length Univ false n p). lia.
Qed.

Lemma octets_like_reads (B: ty) (u: N) o v b content ic : octs_type B u ->
  octets_of v = Some b -> enc_octets_like o v = Ok (content, ic) ->
  N.of_nat (length content) < max_len ->
  reads_as B (AOcts b) (base_enc B ic (negb (o_def o)) content).
Proof.
  intros HB Ho He Hl.
  assert (Hu: tnum (base_tag B) = u) by (destruct HB as [[-> ->]| ->]; reflexivity).
  destruct (enc_octets_like_shape o v b content ic Ho He) as [(-> & -> & _)|(-> & Hk & -> & _)].
  - rewrite base_enc_prim, Hu. apply reads_octs_prim; assumption.
  - rewrite base_enc_cons, Hu.
    assert (Hc: concat (segs (S (length b)) (N.to_nat (o_chunk o)) b) = b) by (apply concat_segs; lia).
    rewrite <- Hc at 1. apply reads_octs_cons; [exact HB|apply (pieces_bound 4); exact Hl|intros _; exact Hl].
Qed.

(* outside the decimal forms, what encodeValue writes for a REAL is the reference's contents *)
Lemma real_contents_of_enc r c1 : der_ref_base TReal (VReal r) = true -> enc_real r = Ok c1 ->
  real_contents r = Some c1.
Proof.
  intros Hd Er. destruct r as [| |m e|m e|].
  - cbn [enc_real] in Er. injection Er as <-. reflexivity.
  - cbn [enc_real] in Er. injection Er as <-. reflexivity.
  - assert (Hfit: real_exp_fits m e = true) by (apply enc_real_bin_ok_iff; exists c1; exact Er).
    rewrite (real_contents_is_enc_real_partial m e Hfit), Er. reflexivity.
  - cbn [der_ref_base] in Hd. cbn [enc_real real_contents] in *. rewrite Hd in *. injection Er as <-. reflexivity.
  - discriminate Er.
Qed.

(* the character and useful string types: plain octets, the two time types after their guard *)
Lemma string_reads c n oc v0 b0 cd fl content ic : octets_of v0 = Some b0 ->
  concrete_encoder c (TStr n) = Ok (cd, fl) -> enc_content c (TStr n) cd fl oc v0 = Ok (content, ic) ->
  ef_indef fl = true /\
  (N.of_nat (length content) < max_len ->
   reads_as (TStr n) (AOcts b0) (base_enc (TStr n) ic (negb (o_def oc)) content)).
Proof.
  intros Ho Hce He.
  destruct (string_encoder c n cd fl Hce) as [Hcd Hfl]. split; [exact Hfl|]. intros Hl.
  assert (Hx: exists o', o_def o' = o_def oc /\ enc_octets_like o' v0 = Ok (content, ic)).
  { destruct Hcd as [->|[->| ->]]; cbn [enc_content] in He; [exists oc; auto| |]; rewrite Ho in He;
      (destruct (time_guard fl b0) as [[]|]; cbn [bind] in He; [|discriminate He]); (eexists; split; [|exact He]); reflexivity. }
  destruct Hx as (o' & Hdo & Hx). rewrite <- Hdo.
  apply (octets_like_reads (TStr n) n o' v0 b0 content ic); [right; reflexivity|assumption..].
Qed.

Theorem leaf_reads c B v cd fl oc content ic :
  der_ref_base B v = true -> concrete_encoder c B = Ok (cd, fl) ->
  enc_content c B cd fl oc v = Ok (content, ic) ->
  ef_indef fl = indef_base B /\ (ic = true -> indef_base B = true) /\
  (N.of_nat (length content) < max_len ->
   reads_as B (abs B v) (base_enc B ic (negb (o_def oc)) content)).
Proof.
  intros Hd Hce He.
  destruct B; try discriminate Hd; destruct v as [bb|z|bs|bo|cs| |arcs|r|vfs|xs|i x|ab]; try discriminate Hd.
  - (* BOOLEAN *)
    destruct c; encoder_is Hce; cbn [enc_content] in He; injection He as <- <-;
      (split; [reflexivity|split; [discriminate|]]); intros _; rewrite base_enc_prim; cbn [abs base_tag tnum utag];
      destruct bb; first [exact (reads_bool 1)|exact (reads_bool 0)|exact (reads_bool 255)].
  - (* INTEGER *)
    destruct c; encoder_is Hce; cbn [enc_content ef_compact_zero] in He; injection He as <- <-;
      (split; [reflexivity|split; [discriminate|]]); intros Hl; rewrite base_enc_prim;
      rewrite <- int_contents_is_enc_integer in *; exact (proj1 (reads_int_contents z Hl)).
  - (* ENUMERATED *)
    destruct c; encoder_is Hce; cbn [enc_content ef_compact_zero] in He; injection He as <- <-;
      (split; [reflexivity|split; [discriminate|]]); intros Hl; rewrite base_enc_prim;
      rewrite <- int_contents_is_enc_integer in *; exact (proj2 (reads_int_contents z Hl)).
  - (* BIT STRING *)
    assert (Hb: ef_indef fl = true /\ exists o', o_def o' = o_def oc /\ enc_bits o' bs = Ok (content, ic)).
    { destruct c; encoder_is Hce; cbn [enc_content] in He; (split; [reflexivity|]);
        (eexists; split; [|exact He]); try reflexivity; destruct (N.ltb 1 (o_chunk oc)); reflexivity. }
    destruct Hb as (Hfl & o' & Hdo & Hb). split; [exact Hfl|split; [reflexivity|]]. intros Hl.
    rewrite <- Hdo. cbn [abs].
    destruct (enc_bits_shape o' bs content ic Hb) as [(-> & -> & _)|(-> & Hk & -> & Hgt)].
    + rewrite base_enc_prim. cbn [base_tag tnum utag].
      rewrite <- bitstring_contents_is_enc_bits_prim in *.
      destruct (bits_join_single bs) as (u & c1 & E & Hu & Hj). rewrite E in *.
      apply reads_bits_prim; assumption.
    + rewrite base_enc_cons. cbn [base_tag tnum utag].
      destruct bs as [|b0 bs']; [exfalso; exact (Nat.nlt_0_r _ Hgt)|].
      destruct (bit_pieces_join (N.to_nat (o_chunk o') * 8)%nat) with (f := S (length (b0 :: bs'))) (bs := b0 :: bs')
        as (x & l & Ho & Hj); [lia|apply Nat.mod_mul; lia|lia|discriminate|].
      apply (reads_bits_cons _ _ (x :: l)); [exact Ho|exact Hj|apply (pieces_bound 3); exact Hl|intros _; exact Hl].
  - (* OCTET STRING *)
    assert (Hfl: ef_indef fl = true /\ cd = EcOcts) by (destruct c; encoder_is Hce; split; reflexivity).
    destruct Hfl as [Hfl ->]. split; [exact Hfl|split; [reflexivity|]]. intros Hl.
    cbn [enc_content] in He. cbn [abs].
    apply (octets_like_reads TOcts 4 oc (VOcts bo) bo content ic); [left; auto|reflexivity|assumption..].
  - (* NULL *)
    destruct c; encoder_is Hce; cbn [enc_content] in He; injection He as <- <-;
      (split; [reflexivity|split; [discriminate|]]); intros _; exact reads_null.
  - (* OBJECT IDENTIFIER *)
    assert (Hfl: ef_indef fl = false /\ cd = EcOid) by (destruct c; encoder_is Hce; split; reflexivity).
    destruct Hfl as [Hfl ->]. cbn [enc_content] in He.
    pose proof (oid_contents_is_enc_oid arcs) as Ho.
    destruct (enc_oid arcs) as [c1|] eqn:Eo; cbn [bind] in He; [|discriminate He]. injection He as <- <-.
    split; [exact Hfl|split; [discriminate|]]. intros Hl. rewrite base_enc_prim. cbn [abs base_tag tnum utag].
    apply reads_oid; [apply oid_value_oid_contents; exact Ho|exact Hl].
  - (* REAL *)
    assert (Hfl: ef_indef fl = false /\ (cd = EcRealBer \/ cd = EcRealCer))
      by (destruct c; encoder_is Hce; split; auto).
    destruct Hfl as [Hfl Hcd].
    assert (He': (do b <- enc_real r; Ok (b, false)) = Ok (content, ic)) by (destruct Hcd as [-> | ->]; exact He).
    destruct (enc_real r) as [c1|] eqn:Er; cbn [bind] in He'; [|discriminate He']. injection He' as <- <-.
    split; [exact Hfl|split; [discriminate|]]. intros Hl. rewrite base_enc_prim. cbn [abs base_tag tnum utag].
    apply reads_real; [|exact Hl]. apply real_value_real_contents, (real_contents_of_enc r c1 Hd Er).
  - (* strings as octets *)
    destruct (string_reads c n oc (VOcts bo) bo cd fl content ic eq_refl Hce He) as [H1 H2]. auto.
  - (* strings as characters *)
    destruct (string_reads c n oc (VChars cs) (concat cs) cd fl content ic eq_refl Hce He) as [H1 H2]. auto.
Qed.

Fixpoint no_exp (T: ty) : bool :=
  match T with TExp _ _ => false | TImp _ x => no_exp x | _ => true end.

(* outside finding F01: an EXPLICIT tag over a type whose encoder has no indefinite form *)
Definition no_f01 (T: ty) : bool := indef_base (base_of T) || no_exp T.

(* The tag set of a type over a base with one tag: the base tag, its form bit kept and its class and
   number replaced by IMPLICIT tags before the first EXPLICIT one; then one constructed tag for every
   EXPLICIT tag, its class and number replaced by IMPLICIT tags after it. *)
Lemma tagset_shape : forall T tb, tagset_of (base_of T) = Ok [tb] -> forall ts, tagset_of T = Ok ts ->
  exists t0 r, ts = t0 :: r /\ tcon t0 = tcon tb /\ Forall (fun t => tcon t = true) r /\
    (no_exp T = true -> r = []) /\
    (TagsetShape.wf_tags T = true -> (t0 = tb \/ tcls t0 <> Univ) /\ Forall (fun t => tcls t <> Univ) r).
Proof.
  induction T as [| | | | | | | | n|fs IH|fs IH|t IH|t IH|alts IH| |tg x IH|tg x IH] using ty_ind';
    intros tb Hb ts Hts;
    try (cbn [base_of] in Hb; rewrite Hb in Hts; injection Hts as <-; exists tb, [];
         split; [reflexivity|split; [reflexivity|split; [constructor|split; [reflexivity|split; [left; reflexivity|constructor]]]]]).
  - (* IMPLICIT: the outermost tag is replaced *)
    destruct (tagset_of_imp _ _ _ Hts) as (ts' & Ex & ->). destruct (IH tb Hb ts' Ex) as (t0 & r & -> & Hc0 & Hall & Hne & Hwf).
    assert (Hnu: TagsetShape.wf_tags (TImp tg x) = true -> tcls tg <> Univ /\ TagsetShape.wf_tags x = true).
    { cbn [TagsetShape.wf_tags]. intros Hw. apply andb_true_iff in Hw. destruct Hw as [Hcl Hw].
      split; [destruct (tcls tg); try discriminate; cbn in Hcl; congruence|exact Hw]. }
    destruct r as [|r1 r'].
    + exists (mkTag (tcls tg) (tcon t0) (tnum tg)), [].
      split; [reflexivity|split; [exact Hc0|split; [constructor|split; [reflexivity|]]]].
      intros Hw. split; [right; apply (Hnu Hw)|constructor].
    + destruct (@exists_last _ (r1 :: r')) as (r0 & last & E); [discriminate|]. rewrite E in *.
      rewrite app_comm_cons, tag_implicitly_spec. cbn [app].
      apply Forall_app in Hall. destruct Hall as [H0 Hl]. inversion Hl as [|? ? Hlast _]; subst.
      exists t0, (r0 ++ [mkTag (tcls tg) (tcon last) (tnum tg)]).
      split; [reflexivity|split; [exact Hc0|split; [apply Forall_app; split; [exact H0|constructor; [exact Hlast|constructor]]|split]]].
      * intros Hn. apply Hne in Hn. destruct r0; discriminate Hn.
      * intros Hw. destruct (Hnu Hw) as [Hcl Hw']. destruct (Hwf Hw') as [Ht0 Hr]. split; [exact Ht0|].
        apply Forall_app in Hr. apply Forall_app. split; [apply Hr|constructor; [exact Hcl|constructor]].
  - (* EXPLICIT: one more constructed tag *)
    destruct (tagset_of_exp _ _ _ Hts) as (ts' & Ex & Hnu & ->).
    destruct (IH tb Hb ts' Ex) as (t0 & r & -> & Hc0 & Hall & _ & Hwf).
    exists t0, (r ++ [mkTag (tcls tg) true (tnum tg)]).
    split; [reflexivity|split; [exact Hc0|split; [apply Forall_app; split; [exact Hall|constructor; [reflexivity|constructor]]|split]]].
    + intros Hn. discriminate Hn.
    + cbn [TagsetShape.wf_tags]. intros Hw. apply andb_true_iff in Hw. destruct (Hwf (proj2 Hw)) as [Ht0 Hr].
      split; [exact Ht0|]. apply Forall_app. split; [exact Hr|constructor; [exact Hnu|constructor]].
Qed.

(* outside finding F01 every encoder that meets an EXPLICIT tag has the indefinite form *)
Lemma no_f01_indef T tb t0 r : no_f01 T = true -> tagset_of (base_of T) = Ok [tb] ->
  tagset_of T = Ok (t0 :: r) -> r <> [] -> indef_base (base_of T) = true.
Proof.
  intros Hf Htb Hts Hne. unfold no_f01 in Hf. apply Bool.orb_true_iff in Hf. destruct Hf as [Hf|Hf]; [exact Hf|].
  destruct (tagset_shape T tb Htb _ Hts) as (t0' & r' & E & _ & _ & Hr & _). injection E as _ <-.
  exfalso. exact (Hne (Hr Hf)).
Qed.

(* the innermost encoding under an indefinite wrapper does not carry the identifier 00 *)
Definition eoc_safe (T: ty) : bool :=
  match tagset_of T with
  | Ok (t0 :: _ :: _) => negb (cls_eqb (tcls t0) Univ && N.eqb (tnum t0) 0)
  | _ => true
  end.

Lemma eoc_safe_free T ts pc : eoc_safe T = true -> tagset_of T = Ok ts -> eoc_free ts pc.
Proof.
  unfold eoc_safe. intros H Hts. rewrite Hts in H. destruct ts as [|t0 [|t1 r]]; cbn [eoc_free]; auto.
  right. destruct (tcls t0) eqn:Ec; try (left; discriminate). right.
  cbn [cls_eqb andb] in H. destruct (N.eqb_spec (tnum t0) 0) as [E|E]; [discriminate H|exact E].
Qed.

Lemma wrap_step_length indef acc t : (length acc <= length (wrap_step indef acc t))%nat.
Proof.
  unfold wrap_step, ctlv. destruct indef.
  - rewrite !app_length. lia.
  - pose proof (tlv_length (tcls t) true (tnum t) acc). lia.
Qed.

Lemma fold_wrap_length indef : forall r inner, (length inner <= length (fold_left (wrap_step indef) r inner))%nat.
Proof.
  induction r as [|t r IH]; intros inner; [cbn; lia|].
  cbn [fold_left]. pose proof (IH (wrap_step indef inner t)). pose proof (wrap_step_length indef inner t). lia.
Qed.

Lemma base_enc_length B ic indef content : (length content <= length (base_enc B ic indef content))%nat.
Proof. unfold base_enc. destruct (ic && indef)%bool; rewrite !app_length; lia. Qed.

Lemma base_tag_univ B : tcls (base_tag B) = Univ.
Proof. destruct B; reflexivity. Qed.

Print Assumptions string_encoder.
Print Assumptions leaf_reads.
