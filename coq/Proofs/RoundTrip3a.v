(* Stage 3 of the round trip, tag maps: what the tag map of a CHOICE, of a SET and of a run of
   OPTIONAL/DEFAULT components of a SEQUENCE answers for the tag sets met on the wire, under the
   condition the decoder genuinely needs: no key (complete tag set of a sibling, or of an
   alternative of an untagged CHOICE sibling) is a suffix of (or equal to) another key. *)
From Coq Require Import Lia.
From PV Require Import Base.Bytes Model.Tag Model.TableTypes Model.Types Model.Dec Proofs.Basics Proofs.TagReject.
Local Open Scope N_scope.

Lemma tm_mem_app k a b : tm_mem k (a ++ b) = (tm_mem k a || tm_mem k b)%bool.
Proof. unfold tm_mem. apply existsb_app. Qed.

Lemma tm_mem_eqb k k' l : tagset_eqb k k' = true -> tm_mem k l = tm_mem k' l.
Proof.
  intros H. unfold tm_mem. induction l as [|x l IH]; [reflexivity|]. cbn [existsb]. rewrite IH. f_equal.
  exact (tagset_eqb_left k k' x H).
Qed.

Lemma tm_mem_in k l : In k l -> tm_mem k l = true.
Proof.
  intros H. unfold tm_mem. apply existsb_exists. exists k. split; [exact H|apply tagset_eqb_refl].
Qed.

Lemma tm_mem_true k l : tm_mem k l = true -> exists k', In k' l /\ tagset_eqb k k' = true.
Proof. unfold tm_mem. intros H. apply existsb_exists in H. exact H. Qed.

Definition is_some {A} (o: option A) : bool := match o with Some _ => true | None => false end.

Lemma find_mem {B} k (p: list (tagset * B)) : is_some (assoc tagset_eqb k p) = tm_mem k (map fst p).
Proof.
  induction p as [|[a x] p IH]; [reflexivity|]. cbn [assoc map fst]. unfold tm_mem in *. cbn [existsb].
  destruct (tagset_eqb k a); [reflexivity|exact IH].
Qed.

Lemma find_app {B} k (a b: list (tagset * B)) :
  assoc tagset_eqb k (a ++ b) = match assoc tagset_eqb k a with Some x => Some x | None => assoc tagset_eqb k b end.
Proof.
  induction a as [|[c x] a IH]; [reflexivity|]. cbn [app assoc]. destruct (tagset_eqb k c); [reflexivity|exact IH].
Qed.

Lemma find_filter {B} k k1 (p: list (tagset * B)) :
  assoc tagset_eqb k (filter (fun e => negb (tagset_eqb (fst e) k1)) p) =
  if tagset_eqb k k1 then None else assoc tagset_eqb k p.
Proof.
  induction p as [|[a x] p IH]; [destruct (tagset_eqb k k1); reflexivity|].
  cbn [filter fst]. destruct (tagset_eqb a k1) eqn:Ea; cbn [negb].
  - rewrite IH. destruct (tagset_eqb k k1) eqn:Ek; [reflexivity|].
    cbn [assoc]. rewrite (tagset_eqb_sym a k1) in Ea.
    assert (Hka: tagset_eqb k a = false).
    { destruct (tagset_eqb k a) eqn:E; [|reflexivity]. rewrite tagset_eqb_sym in Ea.
      rewrite (tagset_eqb_trans _ _ _ E Ea) in Ek. discriminate. }
    rewrite Hka. reflexivity.
  - cbn [assoc]. rewrite IH. destruct (tagset_eqb k k1) eqn:Ek.
    + assert (Hka: tagset_eqb k a = false).
      { destruct (tagset_eqb k a) eqn:E; [|reflexivity]. rewrite tagset_eqb_sym in E.
        rewrite (tagset_eqb_trans _ _ _ E Ek) in Ea. discriminate. }
      rewrite Hka. reflexivity.
    + reflexivity.
Qed.

Lemma fold_override k T kts : forall p0,
  tm_find k (fold_left (fun p (kt: tagset * ty) => filter (fun e => negb (tagset_eqb (fst e) (fst kt))) p ++ [(fst kt, T)]) kts p0)
  = if tm_mem k (map fst kts) then Some T else tm_find k p0.
Proof.
  induction kts as [|[k1 x] kts IH]; intros p0; [reflexivity|].
  cbn [fold_left map fst]. rewrite IH. unfold tm_mem. cbn [existsb].
  fold (tm_mem k (map fst kts)). destruct (tm_mem k (map fst kts)); [rewrite Bool.orb_true_r; reflexivity|].
  rewrite Bool.orb_false_r. unfold tm_find. rewrite find_app, find_filter. cbn [assoc].
  destruct (tagset_eqb k k1); [reflexivity|]. destruct (assoc tagset_eqb k p0); reflexivity.
Qed.

Definition mkeys (m: tmap) : list tagset := map fst (tm_present m).

Fixpoint cm_find (k: tagset) (l: list (tmap * ty)) (d: option ty) : option ty :=
  match l with
  | [] => d
  | (m, T) :: r => cm_find k r (if tm_mem k (mkeys m) then Some T else d)
  end.

Lemma combine_find u k : forall l acc,
  tm_find k (tm_present (combine_maps u l acc)) = cm_find k l (tm_find k (tm_present acc)).
Proof.
  induction l as [|[m T] l IH]; intros acc; [reflexivity|].
  cbn [combine_maps cm_find]. rewrite IH. cbn [tm_present]. rewrite fold_override. reflexivity.
Qed.

Lemma combine_default u : forall l acc, Forall (fun mt => tm_default (fst mt) = None) l ->
  tm_default (combine_maps u l acc) = tm_default acc.
Proof.
  induction l as [|[m T] l IH]; intros acc HF; [reflexivity|].
  inversion HF as [|? ? Hm HF']; subst. cbn [fst] in Hm.
  cbn [combine_maps]. rewrite (IH _ HF'). cbn [tm_default]. rewrite Hm. destruct (tm_default acc); reflexivity.
Qed.

Lemma cm_find_absent k : forall l d, Forall (fun mt => tm_mem k (mkeys (fst mt)) = false) l -> cm_find k l d = d.
Proof.
  induction l as [|[m T] l IH]; intros d HF; [reflexivity|].
  inversion HF as [|? ? Hm HF']; subst. cbn [fst] in Hm. cbn [cm_find]. rewrite Hm. apply IH. exact HF'.
Qed.

Lemma cm_find_is_some k : forall l d, is_some (cm_find k l d) = (is_some d || existsb (fun mt => tm_mem k (mkeys (fst mt))) l)%bool.
Proof.
  induction l as [|[m T] l IH]; intros d; [cbn; rewrite Bool.orb_false_r; reflexivity|].
  cbn [cm_find existsb fst]. rewrite IH. destruct (tm_mem k (mkeys m)); cbn [is_some orb].
  - rewrite Bool.orb_true_r. reflexivity.
  - reflexivity.
Qed.

(* siblings whose key sets are pairwise disjoint (up to tag set equality) *)
Inductive maps_disj : list (tmap * ty) -> Prop :=
| maps_disj_nil : maps_disj []
| maps_disj_cons m T r :
    Forall (fun mt => forall k, tm_mem k (mkeys m) = true -> tm_mem k (mkeys (fst mt)) = false) r ->
    maps_disj r -> maps_disj ((m, T) :: r).

Lemma combine_postponed u : forall l acc,
  tm_postponed acc = false -> tm_default acc = None ->
  Forall (fun mt => tm_postponed (fst mt) = false /\ tm_default (fst mt) = None) l ->
  Forall (fun mt => forall k, tm_mem k (mkeys acc) = true -> tm_mem k (mkeys (fst mt)) = false) l ->
  maps_disj l ->
  tm_postponed (combine_maps u l acc) = false.
Proof.
  induction l as [|[m T] l IH]; intros acc Hp Hd HF Hacc Hdisj; [exact Hp|].
  inversion HF as [|? ? [Hmp Hmd] HF']; subst. cbn [fst] in Hmp, Hmd.
  inversion Hacc as [|? ? Ham Hacc']; subst. cbn [fst] in Ham.
  inversion Hdisj as [|? ? ? Hmr Hdisj']; subst.
  cbn [combine_maps]. apply IH; cbn [tm_postponed tm_default tm_present].
  - rewrite Hp, Hmp, Hd. cbn [orb]. rewrite Bool.orb_false_r, Bool.andb_false_iff. right.
    destruct (existsb _ (tm_present m)) eqn:E; [|reflexivity]. exfalso.
    apply existsb_exists in E. destruct E as ([k x] & Hin & Hf). cbn [fst] in Hf.
    assert (Hk: tm_mem k (mkeys acc) = true).
    { unfold mkeys. rewrite <- find_mem. unfold tm_find in Hf. destruct (assoc tagset_eqb k (tm_present acc)); [reflexivity|discriminate]. }
    specialize (Ham k Hk). rewrite tm_mem_in in Ham; [discriminate|]. unfold mkeys. apply in_map_iff. exists (k, x). split; [reflexivity|exact Hin].
  - rewrite Hd. exact Hmd.
  - exact HF'.
  - (* keys of the new accumulator: those of acc and those of m *)
    rewrite Forall_forall in *. intros mt Hin k Hk.
    assert (Hor: tm_mem k (mkeys acc) = true \/ tm_mem k (mkeys m) = true).
    { unfold mkeys in Hk. cbn [tm_present] in Hk. rewrite <- find_mem in Hk.
      change (assoc tagset_eqb k) with (tm_find k) in Hk. rewrite fold_override in Hk.
      destruct (tm_mem k (map fst (tm_present m))) eqn:E; [right; exact E|left].
      unfold mkeys. rewrite <- find_mem. exact Hk. }
    destruct Hor as [H1|H1]; [exact (Hacc' mt Hin k H1)|exact (Hmr mt Hin k H1)].
  - exact Hdisj'.
Qed.

(* the keys under which the tag map of T holds T: its tag set; for an untagged CHOICE the keys of the
   alternatives; for the untagged ANY the empty key (the catch-all entry, refused by [keys_ok]) *)
Fixpoint ckeys (T: ty) : list tagset :=
  match T with
  | TChoice alts => (fix go (l: list ty) : list tagset := match l with [] => [] | a :: r => ckeys a ++ go r end) alts
  | TAny => [[]]
  | _ => [tagset_of' T]
  end.

Lemma ckeys_choice alts : ckeys (TChoice alts) = flat_map ckeys alts.
Proof. cbn [ckeys]. induction alts as [|a r IH]; [reflexivity|]. cbn [flat_map]. rewrite <- IH. reflexivity. Qed.

(* neither is a non-empty suffix of the other, nor are they equal *)
Definition no_clash (a b: tagset) : bool := suffix_free a b && suffix_free b a.

Fixpoint keys_ok (K: list tagset) : bool :=
  match K with
  | [] => true
  | k :: r => negb (match k with [] => true | _ => false end) && forallb (no_clash k) r && keys_ok r
  end.

Lemma no_clash_sym a b : no_clash a b = no_clash b a.
Proof. unfold no_clash. apply Bool.andb_comm. Qed.

Lemma keys_ok_app a b : keys_ok (a ++ b) = true ->
  keys_ok a = true /\ keys_ok b = true /\ forall x y, In x a -> In y b -> no_clash x y = true.
Proof.
  induction a as [|k a IH]; intros H.
  - split; [reflexivity|]. split; [exact H|]. intros x y [].
  - cbn [app keys_ok] in H. apply Bool.andb_true_iff in H. destruct H as [H H3].
    apply Bool.andb_true_iff in H. destruct H as [H1 H2].
    rewrite forallb_app in H2. apply Bool.andb_true_iff in H2. destruct H2 as [H2a H2b].
    destruct (IH H3) as (Ia & Ib & Iab). split.
    + cbn [keys_ok]. rewrite H1, H2a, Ia. reflexivity.
    + split; [exact Ib|]. intros x y [<-|Hx] Hy.
      * rewrite forallb_forall in H2b. exact (H2b y Hy).
      * exact (Iab x y Hx Hy).
Qed.

Lemma keys_ok_nonempty K k : keys_ok K = true -> In k K -> k <> [].
Proof.
  induction K as [|k0 K IH]; intros H Hin; [destruct Hin|]. destruct Hin as [<-|Hin].
  - cbn [keys_ok] in H. destruct k0; [discriminate H|discriminate].
  - cbn [keys_ok] in H. apply Bool.andb_true_iff in H. destruct H as [_ H]. exact (IH H Hin).
Qed.

Lemma keys_ok_pair K : keys_ok K = true -> forall k k2, In k K -> In k2 K -> k2 = k \/ no_clash k k2 = true.
Proof.
  induction K as [|k0 K IH]; intros H k k2 Hk Hk2; [destruct Hk|].
  cbn [keys_ok] in H. apply Bool.andb_true_iff in H. destruct H as [H H3].
  apply Bool.andb_true_iff in H. destruct H as [_ H2]. rewrite forallb_forall in H2.
  destruct Hk as [<-|Hk]; destruct Hk2 as [<-|Hk2].
  - left; reflexivity.
  - right. exact (H2 k2 Hk2).
  - right. rewrite no_clash_sym. exact (H2 k Hk).
  - exact (IH H3 k k2 Hk Hk2).
Qed.

Lemma no_clash_neq a b : a <> [] -> no_clash a b = true -> tagset_eqb a b = false.
Proof.
  intros Hne H. unfold no_clash in H. apply Bool.andb_true_iff in H. destruct H as [H _].
  exact (tags_differ_neq a b Hne H).
Qed.

(* a non-empty proper suffix of a key is (up to equality) no key *)
Lemma suffix_not_key K k p s : keys_ok K = true -> In k K -> k = p ++ s -> p <> [] -> s <> [] -> tm_mem s K = false.
Proof.
  intros HK Hk Hps Hp Hs. destruct (tm_mem s K) eqn:E; [|reflexivity]. exfalso.
  destruct (tm_mem_true _ _ E) as (k2 & Hk2 & Heq).
  destruct (keys_ok_pair K HK k k2 Hk Hk2) as [->|Hnc].
  - apply tagset_eqb_length in Heq. rewrite Hps, app_length in Heq. destruct p; [congruence|cbn [length] in Heq; lia].
  - unfold no_clash in Hnc. apply Bool.andb_true_iff in Hnc. destruct Hnc as [H1 _].
    rewrite (suffix_free_spec k k2 H1 p s Hps Hs) in Heq. discriminate.
Qed.

Lemma keys_disjoint a b : keys_ok (a ++ b) = true -> forall k, tm_mem k a = true -> tm_mem k b = false.
Proof.
  intros H k Ha. destruct (keys_ok_app a b H) as (Ka & Kb & Kab).
  destruct (tm_mem k b) eqn:Eb; [|reflexivity]. exfalso.
  destruct (tm_mem_true _ _ Ha) as (x & Hx & Ex). destruct (tm_mem_true _ _ Eb) as (y & Hy & Ey).
  pose proof (no_clash_neq x y (keys_ok_nonempty a x Ka Hx) (Kab x y Hx Hy)) as Hxy.
  rewrite tagset_eqb_sym in Ex. rewrite (tagset_eqb_trans _ _ _ Ex Ey) in Hxy. discriminate.
Qed.

Definition tmaps (l: list ty) : list (tmap * ty) := map (fun t => (tagmap_of t, t)) l.

Lemma tagmap_choice alts : tagmap_of (TChoice alts) = combine_maps true (tmaps alts) empty_tmap.
Proof.
  reflexivity.
Qed.

(* what is needed of each sibling's own tag map *)
Definition map_good (T: ty) : Prop :=
  tm_postponed (tagmap_of T) = false /\ tm_default (tagmap_of T) = None /\
  forall k, tm_mem k (mkeys (tagmap_of T)) = tm_mem k (ckeys T).

Lemma maps_disj_of_keys : forall l, Forall map_good l -> keys_ok (flat_map ckeys l) = true -> maps_disj (tmaps l).
Proof.
  induction l as [|t l IH]; intros HF HK; [constructor|].
  inversion HF as [|? ? Ht HF']; subst. cbn [flat_map] in HK.
  destruct (keys_ok_app _ _ HK) as (_ & Kl & _).
  cbn [tmaps map]. constructor; [|exact (IH HF' Kl)].
  apply Forall_forall. intros mt Hin k Hk. apply in_map_iff in Hin. destruct Hin as (B & <- & HB). cbn [fst].
  destruct Ht as (_ & _ & Htm). rewrite Htm in Hk.
  rewrite Forall_forall in HF'. destruct (HF' B HB) as (_ & _ & HBm). rewrite HBm.
  pose proof (keys_disjoint _ _ HK k Hk) as Hd.
  destruct (tm_mem k (ckeys B)) eqn:E; [|reflexivity].
  assert (Hm: tm_mem k (flat_map ckeys l) = true).
  { destruct (tm_mem_true _ _ E) as (k' & Hk' & Ek'). unfold tm_mem. apply existsb_exists. exists k'. split; [|exact Ek'].
    apply in_flat_map. exists B. split; assumption. }
  congruence.
Qed.

Lemma existsb_tmaps_mem k l : Forall map_good l ->
  existsb (fun mt => tm_mem k (mkeys (fst mt))) (tmaps l) = tm_mem k (flat_map ckeys l).
Proof.
  induction 1 as [|t l (_ & _ & Hm) _ IH]; [reflexivity|].
  cbn [tmaps map existsb fst flat_map]. rewrite tm_mem_app, Hm. f_equal. exact IH.
Qed.

Lemma Forall_tmaps_good l : Forall map_good l ->
  Forall (fun mt => tm_postponed (fst mt) = false /\ tm_default (fst mt) = None) (tmaps l).
Proof. induction 1 as [|t l (H1 & H2 & _) _ IH]; cbn [tmaps map]; constructor; [split; assumption|exact IH]. Qed.

Lemma Forall_tmaps_nodefault l : Forall map_good l -> Forall (fun mt => tm_default (fst mt) = None) (tmaps l).
Proof. induction 1 as [|t l (H1 & H2 & _) _ IH]; cbn [tmaps map]; constructor; [assumption|exact IH]. Qed.

Lemma sibling_map u l : Forall map_good l -> keys_ok (flat_map ckeys l) = true ->
  let m := combine_maps u (tmaps l) empty_tmap in
  tm_postponed m = false /\ tm_default m = None /\ forall k, tm_mem k (mkeys m) = tm_mem k (flat_map ckeys l).
Proof.
  intros HF HK m. split; [|split].
  - apply combine_postponed; try reflexivity.
    + apply Forall_tmaps_good; exact HF.
    + apply Forall_forall. intros mt _ k Hk. discriminate Hk.
    + apply maps_disj_of_keys; assumption.
  - subst m. rewrite combine_default; [reflexivity|apply Forall_tmaps_nodefault; exact HF].
  - intros k. unfold mkeys. rewrite <- find_mem. change (assoc tagset_eqb k) with (tm_find k). subst m.
    rewrite combine_find. cbn [empty_tmap tm_present tm_find assoc]. rewrite cm_find_is_some. cbn [is_some orb].
    apply existsb_tmaps_mem. exact HF.
Qed.

Theorem tagmap_good : forall T, keys_ok (ckeys T) = true -> map_good T.
Proof.
  induction T as [| | | | | | | | n|fs IH|fs IH|t IH|t IH|alts IH| |tg x IH|tg x IH] using ty_ind'; intros HK;
    try (split; [reflexivity|split; [reflexivity|intros k; reflexivity]]).
  - (* CHOICE *)
    rewrite ckeys_choice in HK.
    assert (HF: Forall map_good alts).
    { clear - IH HK. induction alts as [|a r IHr]; [constructor|].
      inversion IH as [|? ? Ha Hr]; subst. cbn [flat_map] in HK. destruct (keys_ok_app _ _ HK) as (Ka & Kr & _).
      constructor; [exact (Ha Ka)|exact (IHr Hr Kr)]. }
    unfold map_good. rewrite tagmap_choice, ckeys_choice. exact (sibling_map true alts HF HK).
  - (* ANY: the empty key *)
    discriminate HK.
Qed.

Lemma Forall_map_good l : keys_ok (flat_map ckeys l) = true -> Forall map_good l.
Proof.
  induction l as [|t l IH]; intros HK; [constructor|]. cbn [flat_map] in HK.
  destruct (keys_ok_app _ _ HK) as (Kt & Kl & _). constructor; [exact (tagmap_good t Kt)|exact (IH Kl)].
Qed.

Lemma cm_find_app k a b d : cm_find k (a ++ b) d = cm_find k b (cm_find k a d).
Proof. revert d. induction a as [|[m T] a IH]; intros d; [reflexivity|]. cbn [app cm_find]. apply IH. Qed.

Lemma tmaps_app a b : tmaps (a ++ b) = tmaps a ++ tmaps b.
Proof. unfold tmaps. apply map_app. Qed.

Lemma mem_flat k B l : In B l -> tm_mem k (ckeys B) = true -> tm_mem k (flat_map ckeys l) = true.
Proof.
  intros HB E. destruct (tm_mem_true _ _ E) as (k' & Hk' & Ek'). unfold tm_mem. apply existsb_exists.
  exists k'. split; [|exact Ek']. apply in_flat_map. exists B. split; assumption.
Qed.

Lemma sib_disjoint l1 A l2 k : keys_ok (flat_map ckeys (l1 ++ A :: l2)) = true -> tm_mem k (ckeys A) = true ->
  forall B, In B l1 \/ In B l2 -> tm_mem k (ckeys B) = false.
Proof.
  intros HK HA B HB. rewrite flat_map_app in HK. cbn [flat_map] in HK.
  destruct (tm_mem k (ckeys B)) eqn:E; [|reflexivity]. exfalso. destruct HB as [HB|HB].
  - pose proof (keys_disjoint _ _ HK k (mem_flat k B l1 HB E)) as Hd. rewrite tm_mem_app, HA in Hd. discriminate.
  - destruct (keys_ok_app _ _ HK) as (_ & K2 & _).
    pose proof (keys_disjoint _ _ K2 k HA) as Hd. rewrite (mem_flat k B l2 HB E) in Hd. discriminate.
Qed.

Fixpoint pos_find (k: tagset) (l: list ty) (i0: nat) : option nat :=
  match l with
  | [] => None
  | t :: r => if tm_mem k (mkeys (tagmap_of t)) then Some i0 else pos_find k r (S i0)
  end.

Lemma assoc_keys_const k (keys: list tagset) (i0: nat) :
  assoc tagset_eqb k (map (fun k0 => (k0, i0)) keys) = if tm_mem k keys then Some i0 else None.
Proof.
  induction keys as [|a keys IH]; [reflexivity|]. cbn [map assoc]. unfold tm_mem in *. cbn [existsb].
  destruct (tagset_eqb k a); [reflexivity|exact IH].
Qed.

Lemma tag_to_pos_spec : forall l i0 acc, Forall map_good l -> maps_disj (tmaps l) ->
  Forall (fun t => forall k, tm_mem k (map fst acc) = true -> tm_mem k (mkeys (tagmap_of t)) = false) l ->
  exists mp, tag_to_pos l i0 acc = Some mp /\
    forall k, assoc tagset_eqb k mp = match assoc tagset_eqb k acc with Some j => Some j | None => pos_find k l i0 end.
Proof.
  induction l as [|t r IH]; intros i0 acc HF Hdisj Hacc.
  - exists acc. split; [reflexivity|]. intros k. cbn [pos_find]. destruct (assoc tagset_eqb k acc); reflexivity.
  - inversion HF as [|? ? (Hp & Hd & Hm) HF']; subst.
    inversion Hacc as [|? ? Hat Hacc']; subst.
    cbn [tmaps map] in Hdisj. inversion Hdisj as [|? ? ? Hmr Hdisj']; subst.
    cbn [tag_to_pos]. rewrite Hp.
    assert (Hno: existsb (fun k => match assoc tagset_eqb k acc with Some _ => true | None => false end)
                   (map fst (tm_present (tagmap_of t))) = false).
    { destruct (existsb _ _) eqn:E; [|reflexivity]. exfalso. apply existsb_exists in E. destruct E as (k & Hin & Hf).
      assert (Hk: tm_mem k (map fst acc) = true).
      { rewrite <- find_mem. destruct (assoc tagset_eqb k acc); [reflexivity|discriminate]. }
      specialize (Hat k Hk). unfold mkeys in Hat. rewrite (tm_mem_in _ _ Hin) in Hat. discriminate. }
    rewrite Hno.
    destruct (IH (S i0) (acc ++ map (fun k => (k, i0)) (map fst (tm_present (tagmap_of t)))) HF' Hdisj') as (mp & Hmp & Hfind).
    { rewrite Forall_forall in *. intros B HB k Hk. rewrite map_app, map_map in Hk. cbn [fst] in Hk. rewrite map_id in Hk.
      rewrite tm_mem_app in Hk. apply Bool.orb_true_iff in Hk. destruct Hk as [Hk|Hk].
      - exact (Hacc' B HB k Hk).
      - apply (Hmr (tagmap_of B, B)); [apply in_map_iff; exists B; split; [reflexivity|exact HB]|exact Hk]. }
    exists mp. split; [exact Hmp|]. intros k. rewrite Hfind, find_app, assoc_keys_const. cbn [pos_find]. unfold mkeys.
    destruct (assoc tagset_eqb k acc); [reflexivity|].
    destruct (tm_mem k (map fst (tm_present (tagmap_of t)))); reflexivity.
Qed.

Lemma pos_find_app k a b i0 : Forall (fun t => tm_mem k (mkeys (tagmap_of t)) = false) a ->
  pos_find k (a ++ b) i0 = pos_find k b (i0 + length a).
Proof.
  revert i0. induction a as [|t a IH]; intros i0 HF; [cbn [app length]; rewrite Nat.add_0_r; reflexivity|].
  inversion HF as [|? ? Ht HF']; subst. cbn [app pos_find length]. rewrite Ht, (IH (S i0) HF'). f_equal. lia.
Qed.

Section Siblings.
  Variable u : bool.
  Variable l : list ty.
  Hypothesis HK : keys_ok (flat_map ckeys l) = true.

  Lemma sib_get k : tm_get (fields_tagmap u l) k = Ok (tm_find k (tm_present (fields_tagmap u l))).
  Proof.
    destruct (sibling_map u l (Forall_map_good l HK) HK) as (Hp & Hd & _).
    unfold tm_get, fields_tagmap. fold (tmaps l). rewrite Hp, Hd. destruct (tm_find k _); reflexivity.
  Qed.

  Lemma sib_miss s : tm_mem s (flat_map ckeys l) = false -> tm_get (fields_tagmap u l) s = Ok None.
  Proof.
    intros Hs. rewrite sib_get.
    destruct (sibling_map u l (Forall_map_good l HK) HK) as (_ & _ & Hm).
    specialize (Hm s). unfold mkeys in Hm. rewrite <- find_mem in Hm. unfold fields_tagmap. fold (tmaps l).
    unfold tm_find. destruct (assoc tagset_eqb s _); [cbn [is_some] in Hm; congruence|reflexivity].
  Qed.

  Lemma sib_hit i A k : nth_error l i = Some A -> tm_mem k (ckeys A) = true -> tm_get (fields_tagmap u l) k = Ok (Some A).
  Proof.
    intros Hn HA. rewrite sib_get. f_equal. unfold fields_tagmap. fold (tmaps l).
    rewrite combine_find. cbn [empty_tmap tm_present tm_find assoc].
    destruct (nth_error_split l i Hn) as (l1 & l2 & Hl & _).
    pose proof (Forall_map_good l HK) as HF. rewrite Hl in HF |- *.
    apply Forall_app in HF. destruct HF as [HF1 HF2]. inversion HF2 as [|? ? (_ & _ & HAm) HF2']; subst.
    rewrite tmaps_app, cm_find_app. cbn [tmaps map cm_find]. rewrite HAm, HA.
    apply cm_find_absent. apply Forall_forall. intros mt Hin. apply in_map_iff in Hin. destruct Hin as (B & <- & HB). cbn [fst].
    rewrite Forall_forall in HF2'. destruct (HF2' B HB) as (_ & _ & HBm). rewrite HBm.
    apply (sib_disjoint l1 A l2 k HK HA). right. exact HB.
  Qed.

  Lemma sib_pos i A k : nth_error l i = Some A -> tm_mem k (ckeys A) = true -> position_by_type l k = Ok i.
  Proof.
    intros Hn HA. unfold position_by_type.
    pose proof (Forall_map_good l HK) as HF.
    destruct (tag_to_pos_spec l 0 [] HF (maps_disj_of_keys l HF HK)) as (mp & Hmp & Hfind).
    { apply Forall_forall. intros t _ k0 Hk0. discriminate Hk0. }
    rewrite Hmp, Hfind. cbn [assoc].
    destruct (nth_error_split l i Hn) as (l1 & l2 & Hl & Hlen).
    rewrite Hl in HF, HK |- *. apply Forall_app in HF. destruct HF as [HF1 HF2]. inversion HF2 as [|? ? (_ & _ & HAm) HF2']; subst.
    rewrite pos_find_app.
    - cbn [pos_find]. rewrite HAm, HA. reflexivity.
    - apply Forall_forall. intros B HB. rewrite Forall_forall in HF1. destruct (HF1 B HB) as (_ & _ & HBm). rewrite HBm.
      apply (sib_disjoint l1 A l2 k HK HA). left. exact HB.
  Qed.

  (* a non-empty proper suffix of a key resolves to nothing *)
  Lemma sib_suffix_miss A key p s : In A l -> In key (ckeys A) -> key = p ++ s -> p <> [] -> s <> [] ->
    tm_get (fields_tagmap u l) s = Ok None.
  Proof.
    intros HA Hk Hps Hp Hs. apply sib_miss.
    apply (suffix_not_key _ key p s HK); try assumption. apply in_flat_map. exists A. split; assumption.
  Qed.
End Siblings.

Lemma keys_ok_sub a l : In a l -> keys_ok (flat_map ckeys l) = true -> keys_ok (ckeys a) = true.
Proof.
  induction l as [|y l IH]; intros [] HK.
  - subst. cbn [flat_map] in HK. exact (proj1 (keys_ok_app _ _ HK)).
  - cbn [flat_map] in HK. apply IH; [assumption|]. exact (proj1 (proj2 (keys_ok_app _ _ HK))).
Qed.
