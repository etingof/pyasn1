(* What a run of a decoder can end with, whatever the stream held (C08, C10, C15): postconditions of procs,
   the rules for stepping through Model/Dec.v with them, and what the scalar payload decoders and the
   loop of a SEQUENCE / SET return. *)
From PV Require Import Base.Bytes Model.Types Model.Proc Model.Enc Model.Dec Proofs.ProcBind.
From PV Require Export Proofs.DecShape.
Local Open Scope N_scope.

(* every value a run of p ends with satisfies Q; nothing is said about the stream, so what the
   stream primitives answer is never looked at *)
Definition post {A} (Q: A -> Prop) (p: proc A) : Prop :=
  forall s a s', resume p s = inr (Ok a, s') -> Q a.

Section Rules.
  Context {A B: Type}.

  Lemma post_ret (Q: A -> Prop) a : Q a -> post Q (Ret a).
  Proof. intros H s a' s' E. injection E as <- _. exact H. Qed.

  Lemma post_raise (Q: A -> Prop) e : post Q (Raise e).
  Proof. intros s a s' E. discriminate E. Qed.

  Lemma post_mono (Q R: A -> Prop) p : (forall a, Q a -> R a) -> post Q p -> post R p.
  Proof. intros HQ Hp s a s' E. exact (HQ _ (Hp _ _ _ E)). Qed.

  Lemma post_bind (Q: A -> Prop) (R: B -> Prop) p f :
    post Q p -> (forall a, Q a -> post R (f a)) -> post R (pbind p f).
  Proof.
    intros Hp Hf s b s' E. apply resume_pbind_inv in E. destruct E as (a & s1 & Ea & E).
    exact (Hf a (Hp _ _ _ Ea) _ _ _ E).
  Qed.

  Lemma post_bind_any (R: B -> Prop) (p: proc A) f : (forall a, post R (f a)) -> post R (pbind p f).
  Proof. intros Hf. apply (post_bind (fun _ => True)); [exact (fun _ _ _ _ => I)|exact (fun a _ => Hf a)]. Qed.

  Lemma post_bind_lift (R: B -> Prop) (r: res A) f :
    (forall a, r = Ok a -> post R (f a)) -> post R (pbind (lift r) f).
  Proof. destruct r as [a|e]; intros Hf; [exact (Hf a eq_refl)|intros s b s' E; discriminate E]. Qed.

  Lemma post_mark (Q: A -> Prop) k : post Q k -> post Q (Mark k).
  Proof. intros H s. exact (H _). Qed.

  Lemma post_seekback (Q: A -> Prop) d k : post Q k -> post Q (SeekBack d k).
  Proof. intros H s. exact (H _). Qed.
End Rules.

(* the end of a SEQUENCE / SET, which record_loop of Model/Dec.v writes in place twice *)
Definition record_end (T: ty) (fs: list (presence * ty)) (vs: list (option val)) : proc dval :=
  if match fs with [] => true | _ => false end then Ret (DV T (VRec []))
  else if required_seen fs vs then Ret (DV T (VRec vs)) else Raise EMalformed.

Lemma run_value_post (Q: dval -> Prop) len k : post Q k -> post Q (run_value len k).
Proof.
  intros Hk. destruct len as [l|]; [|exact Hk]. apply post_bind_any. intros p0.
  apply (post_bind Q); [exact Hk|]. intros v Hv. apply post_bind_any. intros p1.
  destruct (N.eqb _ l); [apply post_ret, Hv|apply post_raise].
Qed.

(* a definite-length element is accepted only if its value decoder consumed exactly that length *)
Lemma run_value_exact : forall (k: proc dval) (l: N) s v s',
  resume (run_value (Some l) k) s = inr (Ok v, s') ->
  exists s1, resume k s = inr (Ok v, s1) /\ N.of_nat (pos s1 - pos s) = l /\ s' = s1.
Proof.
  intros k l s v s' H. cbn [run_value pbind tell resume] in H.
  apply resume_pbind_inv in H. destruct H as (v0 & s1 & Hk & H).
  cbn [pbind tell resume] in H.
  destruct (N.eqb_spec (N.of_nat (pos s1 - pos s)) l) as [E|E]; cbn [resume] in H; [|discriminate].
  inversion H; subst. exists s'. auto.
Qed.

(* the test for the end-of-octets marker in dec_body *)
Lemma match_eoo {X} (P: X -> Prop) (b: bytes) (x y: X) :
  (b = [0; 0] -> P x) -> (b <> [0; 0] -> P y) -> P (match b with [0; 0] => x | _ => y end).
Proof. intros Hx Hy. destruct b as [|[|?] [|[|?] [|? ?]]]; try (apply Hy; discriminate). apply Hx. reflexivity. Qed.

(* the value a scalar payload decoder hands to [create] *)
Definition payload (cd: dec_codec) (v: val) : Prop :=
  match cd, v with
  | (DcInt | DcBoolBer | DcBoolCer), VInt _ | DcBits, VBits _ | (DcOcts | DcStr), VOcts _
  | DcNull, VNull | DcAny, VAny _ => True
  | DcOid, VOid a => exists b, dec_oid b = Ok a
  | DcReal, VReal r => exists b, dec_real b = Ok r
  | _, _ => False
  end.

Definition constructed (cd: dec_codec) : bool :=
  match cd with DcSeqOrSeqOf | DcSetOrSetOf | DcSeq | DcSeqOf | DcSet | DcSetOf | DcChoice => true | _ => false end.

(* the scalar payload decoders: whatever they return, [create] returned it for a value of theirs
   (or it is raw octets for the collector); what the fragments of a constructed string are decoded
   as plays no part *)
Section Scalars.
  Variable rec : spec -> tagset -> option (option N) -> bool -> bool -> proc dval.
  Variable lf : nat.
  Variables (sp: option ty) (ts: tagset) (Q: dval -> Prop).

  Lemma collector_post len : (forall b, Q (DRaw b)) -> post Q (collector lf len).
  Proof. intros Hraw. destruct len; apply post_bind_any; intros b; apply post_ret, Hraw. Qed.

  Lemma octets_loop_post proto len start : (forall b, post Q (create sp proto ts (VOcts b))) ->
    forall k acc, post Q (octets_loop rec proto sp ts len start k acc).
  Proof.
    intros Hc. induction k as [|k IH]; intros acc; cbn [octets_loop]; [apply post_raise|].
    apply post_bind_any. intros p. destruct (N.ltb _ len); [|apply Hc].
    apply post_bind_any. intros [T0 v0| |b0| |]; try apply post_raise; [|apply IH].
    destruct v0; try apply post_raise. apply IH.
  Qed.

  Lemma octets_indef_loop_post proto : (forall b, post Q (create sp proto ts (VOcts b))) ->
    forall k acc, post Q (octets_indef_loop rec proto sp ts k acc).
  Proof.
    intros Hc. induction k as [|k IH]; intros acc; cbn [octets_indef_loop]; [apply post_raise|].
    apply post_bind_any. intros [T0 v0| |b0| |]; try apply post_raise; [|apply Hc|apply IH].
    destruct v0; try apply post_raise. apply IH.
  Qed.

  Lemma bits_loop_post len start : (forall b, post Q (create sp TBits ts (VBits b))) ->
    forall k acc, post Q (bits_loop rec sp ts len start k acc).
  Proof.
    intros Hc. induction k as [|k IH]; intros acc; cbn [bits_loop]; [apply post_raise|].
    apply post_bind_any. intros p. destruct (N.ltb _ len); [|apply Hc].
    apply post_bind_any. intros f. apply post_bind_any. intros acc'. apply IH.
  Qed.

  Lemma bits_indef_loop_post : (forall b, post Q (create sp TBits ts (VBits b))) ->
    forall k acc, post Q (bits_indef_loop rec sp ts k acc).
  Proof.
    intros Hc. induction k as [|k IH]; intros acc; cbn [bits_indef_loop]; [apply post_raise|].
    apply post_bind_any. intros f. destruct f; try (apply post_bind_any; intros acc'; apply IH). apply Hc.
  Qed.

  Lemma any_indef_loop_post sfun tagged : (sfun = true -> forall b, Q (DRaw b)) ->
    (forall b, post Q (create sp TAny ts (VAny b))) ->
    forall k acc, post Q (any_indef_loop rec sp ts sfun tagged k acc).
  Proof.
    intros Hraw Hc. induction k as [|k IH]; intros acc; cbn [any_indef_loop]; [apply post_raise|].
    apply post_bind_any. intros [T0 v0| |b0| |]; try apply post_raise; [| |apply IH].
    - destruct v0; try apply post_raise. apply IH.
    - cbv zeta. destruct sfun; [apply post_ret, Hraw; reflexivity|apply Hc].
  Qed.

  (* [255] and [0] are deep patterns on binary numbers: the octet is taken apart bit by bit *)
  Lemma bool_cer_post l : (forall z, post Q (create sp TBool ts (VInt z))) -> post Q (dec_bool_cer lf sp ts l).
  Proof.
    intros Hc. unfold dec_bool_cer. destruct (negb _); [apply post_raise|].
    apply post_bind_any. intros [|[|p] r]; [apply post_raise| |do 8 (destruct p as [p|p|]; try apply post_raise)];
      (destruct r; [apply Hc|apply post_raise]).
  Qed.

  Lemma integer_post proto l : (forall z, post Q (create sp proto ts (VInt z))) -> post Q (dec_integer lf sp proto ts l).
  Proof. intros Hc. unfold dec_integer. destruct (negb _); [apply post_raise|]. apply post_bind_any. intros b. apply Hc. Qed.

  Lemma octets_post proto fl l sfun : (forall b, post Q (create sp proto ts (VOcts b))) ->
    post Q (dec_octets rec lf proto fl sp ts l sfun).
  Proof.
    intros Hc. unfold dec_octets. destruct (tag0_simple ts); [apply post_bind_any; intros b; apply Hc|].
    destruct (negb _); [apply post_raise|]. apply post_bind_any. intros start. apply octets_loop_post, Hc.
  Qed.

  Lemma scalar_value_post cd fl len sfun : constructed cd = false ->
    (sfun = true -> forall b, Q (DRaw b)) ->
    (forall proto v, payload cd v -> post Q (create sp proto ts v)) ->
    post Q (dec_value rec lf cd fl sp ts len sfun).
  Proof.
    intros Hcd Hraw Hc. unfold dec_value. cbv zeta.
    destruct cd; try discriminate Hcd; destruct len as [l|]; try apply post_raise.
    - apply integer_post. intros z. apply Hc. exact I.
    - apply integer_post. intros z. apply Hc. exact I.
    - apply bool_cer_post. intros z. apply Hc. exact I.
    - unfold dec_bits. destruct sfun; [apply collector_post, Hraw; reflexivity|]. destruct (tag0_simple ts).
      + destruct (N.eqb l 0); [apply post_raise|]. apply post_bind_any. intros tb. destruct (N.ltb 7 tb); [apply post_raise|].
        apply post_bind_any. intros b. apply post_bind_any. intros bs. apply Hc. exact I.
      + destruct (negb _); [apply post_raise|]. apply post_bind_any. intros start.
        apply bits_loop_post. intros b. apply Hc. exact I.
    - unfold dec_bits_indef. destruct sfun; [apply collector_post, Hraw; reflexivity|].
      apply bits_indef_loop_post. intros b. apply Hc. exact I.
    - apply octets_post. intros b. apply Hc. exact I.
    - apply octets_indef_loop_post. intros b. apply Hc. exact I.
    - unfold dec_null. destruct (negb _); [apply post_raise|].
      apply post_bind_any. intros [|? ?]; [apply Hc; exact I|apply post_raise].
    - unfold dec_oid_v. destruct (negb _); [apply post_raise|]. apply post_bind_any. intros b.
      apply post_bind_lift. intros a Ha. apply Hc. exists b. exact Ha.
    - unfold dec_real_v. destruct (negb _); [apply post_raise|]. apply post_bind_any. intros b.
      apply post_bind_lift. intros r Hr. apply Hc. exists b. exact Hr.
    - unfold dec_any. cbv zeta. apply post_bind_any. intros len'. apply post_bind_any. intros b.
      destruct sfun; [apply post_ret, Hraw; reflexivity|apply Hc; exact I].
    - unfold dec_any_indef. cbv zeta. apply post_bind_any. intros header.
      apply (any_indef_loop_post _ _ Hraw). intros b. apply Hc. exact I.
    - apply octets_post. intros b. apply Hc. exact I.
    - apply octets_indef_loop_post. intros b. apply Hc. exact I.
  Qed.
End Scalars.

Lemma same_branches {A B} (o: option A) (x: B) : match o with Some _ => x | None => x end = x.
Proof. destruct o; reflexivity. Qed.

(* the loop of a SEQUENCE / SET decoder keeps an invariant I of its component slots if storing a
   decoded component keeps it, given what a component call returns (R) *)
Section RecordLoop.
  Variable rec : spec -> tagset -> option (option N) -> bool -> bool -> proc dval.
  Variable lf : nat.
  Variable R : spec -> bool -> dval -> Prop.
  Hypothesis Hrec : forall sp ts rs ae, post (R sp ae) (rec sp ts rs ae false).
  Variables (T: ty) (fs: list (presence * ty)) (is_set: bool) (Q: dval -> Prop) (I: list (option val) -> Prop).
  Hypothesis Hend : forall vs, I vs -> post Q (record_end T fs vs).
  Hypothesis Hput : forall idx vs sp' ae' Tc vc i, I vs ->
    (if is_set then Some (SMap (fields_tagmap true (map snd fs)))
     else seq_component_spec fs (negb is_set && forallb (fun f => is_req (fst f)) fs) idx) = Some sp' ->
    R sp' ae' (DV Tc vc) ->
    seq_position lf fs is_set (negb is_set && forallb (fun f => is_req (fst f)) fs) idx Tc vc = Ok i ->
    I (set_nth i (Some vc) vs).
  Hypothesis Hany : forall idx vs b p0 ft, I vs -> nth_error fs idx = Some (p0, ft) -> is_any ft = true ->
    I (set_nth idx (Some (VAny b)) vs).

  Lemma record_loop_post len start : forall k idx vs extra, I vs ->
    post Q (record_loop rec lf T fs is_set len start k idx vs extra).
  Proof.
    induction k as [|k IH]; intros idx vs extra Hs; cbn [record_loop]; [apply post_raise|].
    cbv zeta. apply post_bind_any. intros p.
    pose proof (Hend vs Hs) as Hfin. unfold record_end in Hfin.
    destruct (negb match len with Some _ => _ | None => true end); [exact Hfin|].
    destruct fs as [|f fs'].
    { (* no members: whatever comes is refused, the end is the end *)
      destruct len; (apply post_bind_any; intros d; destruct d; try apply post_raise; exact Hfin). }
    destruct (negb is_set && Nat.leb (length (f :: fs')) idx)%bool eqn:Eex.
    { (* past the last member of a SEQUENCE: only the end-of-octets marker is taken *)
      assert (Hnth: nth_error (f :: fs') idx = None).
      { apply nth_error_None. apply andb_prop in Eex. apply Nat.leb_le, Eex. }
      destruct is_set; [discriminate Eex|]. unfold seq_component_spec. rewrite Hnth.
      destruct len; [apply post_raise|]. apply post_bind_any. intros d.
      destruct d; try apply post_raise; [exact Hfin|]. destruct (_ || _)%bool; apply post_raise. }
    (* a declared member; its spec is the same under either form of length *)
    rewrite same_branches.
    destruct (if is_set then Some _ else _) as [sp'|] eqn:Esp; [|apply post_raise].
    eapply post_bind; [apply Hrec|]. intros d Hg.
    destruct d as [Tc vc| |b| |]; try apply post_raise; [|exact Hfin|].
    - apply post_bind_lift. intros i Hi. destruct (Nat.leb _ i); [apply post_raise|].
      apply IH. apply (Hput _ _ _ _ _ _ _ Hs Esp Hg Hi).
    - destruct (_ || _)%bool; [|apply post_raise].
      destruct (nth_error (f :: fs') idx) as [[p0 ft]|] eqn:En; [|apply post_raise].
      destruct (is_any ft) eqn:Ea; [|apply post_raise]. apply IH. apply (Hany _ _ _ _ _ Hs En Ea).
  Qed.
End RecordLoop.

Section Sound.
  Variable rec : spec -> tagset -> option (option N) -> bool -> bool -> proc dval.
  Variable fuel : nat.

  Definition complete_record (T: ty) (fs: list (presence * ty)) (d: dval) : Prop :=
    exists vs, d = DV T (VRec vs) /\ (fs = [] \/ required_seen fs vs = true).

  Lemma record_end_complete T fs vs : post (complete_record T fs) (record_end T fs vs).
  Proof.
    unfold record_end. destruct fs as [|f fs']; [apply post_ret; exists []; auto|].
    destruct (required_seen (f :: fs') vs) eqn:E; [apply post_ret; exists vs; auto|apply post_raise].
  Qed.

  (* whatever a SEQUENCE/SET decoder returns has every mandatory member filled in, however its
     members are decoded *)
  Lemma record_loop_complete T fs is_set len start : forall n idx vs extra,
    post (complete_record T fs) (record_loop rec fuel T fs is_set len start n idx vs extra).
  Proof.
    intros n idx vs extra.
    apply (record_loop_post rec fuel (fun _ _ _ => True) (fun _ _ _ _ _ _ _ _ => Logic.I) T fs is_set _ (fun _ => True));
      try exact Logic.I; auto. intros vs' _. apply record_end_complete.
  Qed.

  Theorem dec_record_complete T fs is_set len :
    post (complete_record T fs) (dec_record rec fuel T fs is_set len).
  Proof. unfold dec_record. apply post_bind_any. intros start. apply record_loop_complete. Qed.
End Sound.
