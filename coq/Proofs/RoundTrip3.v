(* Stage 3 of the round trip (C01/C02), the framework:
   - framing under any guiding specification (a type, or the tag map of a run of OPTIONAL components,
     of a SET, of a CHOICE), provided the specification resolves the wire tags to the type;
   - the invariant [val_ok] at the level of the value decoders, generic in the encoder codec (BER, DER),
     the decoder codec (BER, CER, DER) and in the relation between abstract contents (equality, or
     equality up to the order of SET OF elements), for the simple types and for SEQUENCE OF / SET OF.
   Tag maps are in RoundTrip3a.v; SEQUENCE and the domain [stage3_ty] / [stage3_val] in 3b; CHOICE and the
   induction over the type in 3c; SET in 3d; ANY and the theorems in 3e. *)
From Coq Require Import Lia Permutation.
From PV Require Import Base.Bytes Model.Tag Model.TableTypes Model.Types Model.Proc Model.Enc Model.Dec Gen.Tables Proofs.ProcBind Proofs.RunLemmas Proofs.DecFrame Proofs.TagsetShape Proofs.RoundTrip1 Proofs.RoundTrip2 Proofs.ContainerCodecSort Proofs.DecShape.
Local Open Scope N_scope.

(* the dispatch takes the "try as explicit tag" branch *)
Definition sp_miss (sp: spec) (ts: tagset) : Prop :=
  match sp with
  | SNone => False
  | STy T => tagset_eqb ts (tagset_of' T) = false /\ tm_contains (tagmap_of T) ts = false
  | SMap m => tm_get m ts = Ok None
  end.

(* the dispatch runs the value decoder of T *)
Definition sp_hit (sp: spec) (ts: tagset) (T: ty) : Prop :=
  match sp with
  | SNone => False
  | STy T' => T' = T /\ (tagset_eqb ts (tagset_of' T) || tm_contains (tagmap_of T) ts)%bool = true
              /\ tm_postponed (tagmap_of T) = false
  | SMap m => tm_get m ts = Ok (Some T)
  end.

(* the header of one frame the encoder wrote: the decoder arrives at the dispatch with the tag
   accumulated and the contents ahead *)
Lemma frame_one_header c f sp acc sfun t cns si body b s tl :
  frame_one t cns true si body = Ok b -> avail s = b ++ tl -> (length (enc_tag t cns) <= S f)%nat ->
  exists s1, resume (dec_call c (S f) sp acc None false sfun) s
             = resume (dispatch c (dec_call c f) f sp (wire t cns :: acc) (Some (N.of_nat (length body))) sfun) s1
    /\ avail s1 = body ++ tl /\ (pos s1 + length body = pos s + length b)%nat
    /\ arrived s1 = arrived s /\ closed s1 = closed s.
Proof.
  intros (l & El & ->)%frame_one_def_inv Hav Hlen. rewrite <- !app_assoc in Hav.
  exists (adv (setmark s (pos s)) (length (enc_tag t cns) + length l)).
  split; [exact (dec_call_header c f sp acc sfun t cns _ l (body ++ tl) s El Hav Hlen)|].
  split; [|rewrite !app_length; repeat split; cbn [pos adv setpos setmark]; lia].
  rewrite avail_adv, avail_setmark, Hav, app_assoc, <- app_length. apply skipn_app_exact.
Qed.

Lemma consumes_run_value k bs v : consumes k bs v -> consumes (run_value (Some (N.of_nat (length bs))) k) bs v.
Proof.
  intros H s tl Hav. destruct (H s tl Hav) as (s2 & Hrun & Hpos & Hrest). exists s2. split; [|split; assumption].
  cbn [run_value]. rewrite resume_tell, (resume_pbind_done _ _ _ _ _ Hrun), resume_tell.
  rewrite Hpos, (Nat.add_comm (pos s)), Nat.add_sub, N.eqb_refl. reflexivity.
Qed.

Lemma dispatch_hit c rec f sp ts T cd fl n : sp_hit sp ts T -> by_type c T = Some (cd, fl) ->
  dispatch c rec f sp ts (Some n) false = run_value (Some n) (dec_value rec f cd fl (Some T) ts (Some n) false).
Proof.
  intros Hhit Hby. unfold dispatch. destruct sp as [|T'|m]; [contradiction| |].
  - destruct Hhit as (-> & -> & ->). rewrite Hby. reflexivity.
  - cbn [sp_hit] in Hhit. rewrite Hhit. cbn [lift pbind]. rewrite Hby. reflexivity.
Qed.

(* on a miss the tag just read is taken for an EXPLICIT wrapper if it can be one *)
Lemma dispatch_miss c rec f sp t acc len : sp_miss sp (t :: acc) ->
  dispatch c rec f sp (t :: acc) len false =
  if tcon t && negb (cls_eqb (tcls t) Univ) then
    match len with
    | None => dec_raw rec f sp (t :: acc) None false
    | Some l => run_value (Some l) (rec sp (t :: acc) None false false)
    end
  else Raise EMalformed.
Proof.
  intros Hmiss. unfold dispatch. destruct sp as [|T|m]; [contradiction| |].
  - destruct Hmiss as [-> ->]. destruct (tcon t && negb (cls_eqb (tcls t) Univ)); destruct len; reflexivity.
  - cbn [sp_miss] in Hmiss. rewrite Hmiss. destruct (tcon t && negb (cls_eqb (tcls t) Univ)); destruct len; reflexivity.
Qed.

Lemma explicit_level_sp : forall c f sp acc0 t si inner b v,
  frame_one t false true si inner = Ok b ->
  tcon t = true -> tcls t <> Univ ->
  sp_miss sp (t :: acc0) ->
  (length (enc_tag t false) <= S f)%nat ->
  consumes (dec_call c f sp (t :: acc0) None false false) inner v ->
  consumes (dec_call c (S f) sp acc0 None false false) b v.
Proof.
  intros c f sp acc0 t si inner b v Hfr Hcon Hcls Hmiss Hlen Hin s tl Hav.
  destruct (frame_one_header c f sp acc0 false t false si inner b s tl Hfr Hav Hlen) as (s1 & -> & Hav1 & Hp1 & Ha1 & Hc1).
  rewrite wire_false, (dispatch_miss _ _ _ _ _ _ _ Hmiss), Hcon.
  destruct (tcls t); [congruence| | |]; cbn [cls_eqb negb andb];
    (destruct (consumes_run_value _ _ _ Hin s1 tl Hav1) as (s2 & -> & Hp2 & Ha2 & Hc2);
     exists s2; split; [reflexivity|]; split; [lia|]; split; congruence).
Qed.

Lemma match_level_sp : forall c f sp T acc0 t0 cns si content b v cd fl,
  frame_one t0 cns true si content = Ok b ->
  sp_hit sp (wire t0 cns :: acc0) T ->
  by_type c T = Some (cd, fl) ->
  (length (enc_tag t0 cns) <= S f)%nat ->
  consumes (dec_value (dec_call c f) f cd fl (Some T) (wire t0 cns :: acc0) (Some (N.of_nat (length content))) false) content v ->
  consumes (dec_call c (S f) sp acc0 None false false) b v.
Proof.
  intros c f sp T acc0 t0 cns si content b v cd fl Hfr Hhit Hby Hlen Hin s tl Hav.
  destruct (frame_one_header c f sp acc0 false t0 cns si content b s tl Hfr Hav Hlen) as (s1 & -> & Hav1 & Hp1 & Ha1 & Hc1).
  rewrite (dispatch_hit _ _ _ _ _ _ _ _ _ Hhit Hby).
  destruct (consumes_run_value _ _ _ Hin s1 tl Hav1) as (s2 & -> & Hp2 & Ha2 & Hc2).
  exists s2. split; [reflexivity|]. split; [lia|]. split; congruence.
Qed.

(* all the EXPLICIT levels: the specification must miss every non-empty proper suffix *)
Lemma peel_all_sp : forall c sp f si r acc0 sub b v,
  frame_outer r false true si sub = Ok b ->
  Forall explicit_like r ->
  Forall (fun t => (length (enc_tag t false) <= S f)%nat) r ->
  (forall r1 r2, r = r1 ++ r2 -> r2 <> [] -> sp_miss sp (r2 ++ acc0)) ->
  consumes (dec_call c f sp (r ++ acc0) None false false) sub v ->
  consumes (dec_call c (f + length r) sp acc0 None false false) b v.
Proof.
  intros c sp f si r. induction r as [|tn r' IH] using rev_ind; intros acc0 sub b v Hfr Hex Hlen Hmiss Hin.
  - cbn [frame_outer] in Hfr. inversion Hfr; subst. cbn [length app] in *. rewrite Nat.add_0_r. exact Hin.
  - rewrite frame_outer_snoc in Hfr.
    destruct (frame_outer r' false true si sub) as [inner|e] eqn:Ein; cbn [bind] in Hfr; [|discriminate].
    apply Forall_app in Hex. destruct Hex as [Hex' Hexn]. inversion Hexn as [|? ? [Hcon Hcls] _]; subst.
    apply Forall_app in Hlen. destruct Hlen as [Hlen' Hlenn]. inversion Hlenn as [|? ? Hl _]; subst.
    rewrite app_length in *. cbn [length] in *.
    replace (f + (length r' + 1))%nat with (S (f + length r')) by lia.
    apply (explicit_level_sp c (f + length r') sp acc0 tn si inner b v Hfr Hcon Hcls); [|lia|].
    + apply (Hmiss r' [tn] eq_refl). discriminate.
    + apply (IH (tn :: acc0) sub inner v Ein Hex' Hlen').
      * intros r1 r2 Hr Hne. replace (r2 ++ tn :: acc0) with ((r2 ++ [tn]) ++ acc0) by (rewrite <- app_assoc; reflexivity).
        apply (Hmiss r1 (r2 ++ [tn])); [rewrite Hr, app_assoc; reflexivity|]. destruct r2; discriminate.
      * rewrite <- app_assoc in Hin. exact Hin.
Qed.

(* every level of the framing the encoder wrote, under any specification that resolves it *)
Theorem framed_consumes_sp : forall c sp T t0 r si content b f0 dcd dfl v,
  Forall explicit_like r ->
  sp_hit sp (t0 :: r) T ->
  (forall r1 r2, r = r1 ++ r2 -> r2 <> [] -> sp_miss sp r2) ->
  by_type c T = Some (dcd, dfl) ->
  frame (t0 :: r) content (tcon t0) def_opts si = Ok b ->
  (length b <= S f0)%nat ->
  consumes (dec_value (dec_call c f0) f0 dcd dfl (Some T) (t0 :: r) (Some (N.of_nat (length content))) false) content v ->
  consumes (dec_call c (S f0 + length r) sp [] None false false) b v.
Proof.
  intros c sp T t0 r si content b f0 dcd dfl v Hex Hhit Hmiss Hby He Hb Hval.
  destruct (frame_def_inv _ _ _ _ _ _ He) as (s0 & E0 & He'). clear He. rename He' into He.
  rewrite (frame_outer_con r (tcon t0) true si s0 Hex) in He.
  pose proof (frame_outer_length _ _ _ _ _ He) as Hlen0.
  pose proof (frame_outer_taglens _ _ _ _ _ (S (S f0)) He ltac:(lia)) as Htl.
  assert (Hw: wire t0 (tcon t0) = t0).
  { destruct t0 as [cl fm n]. unfold wire. cbn [tcls tcon tnum]. rewrite Bool.orb_diag. reflexivity. }
  apply (peel_all_sp c sp (S f0) si r [] s0 b v He Hex Htl).
  - intros r1 r2 Hr Hne. rewrite app_nil_r. exact (Hmiss r1 r2 Hr Hne).
  - rewrite app_nil_r.
    apply (match_level_sp c f0 sp T r t0 (tcon t0) si content s0 v dcd dfl E0).
    + rewrite Hw. exact Hhit.
    + exact Hby.
    + destruct (frame_one_length _ _ _ _ _ E0) as (l & -> & _). rewrite !app_length in Hlen0. lia.
    + rewrite Hw. exact Hval.
Qed.

Inductive opt_rel {A} (R: A -> A -> Prop) : option A -> option A -> Prop :=
| opt_rel_none : opt_rel R None None
| opt_rel_some a b : R a b -> opt_rel R (Some a) (Some b).

(* the tags an encoding of v: T carries on the wire (innermost first): the type's own tag set, or,
   for an untagged CHOICE, those of the alternative chosen *)
Fixpoint wire_tags (T: ty) (v: val) {struct T} : tagset :=
  match T, v with
  | TChoice alts, VChoice i x =>
      (fix go (l: list ty) (k: nat) : tagset :=
         match l, k with
         | a :: _, O => wire_tags a x
         | _ :: r, S k' => go r k'
         | [], _ => []
         end) alts i
  | _, _ => tagset_of' T
  end.

Lemma wire_tags_plain T v : (match T with TChoice _ => False | _ => True end) -> wire_tags T v = tagset_of' T.
Proof. destruct T; intros H; try reflexivity; contradiction. Qed.

(* the specification leads the decoder to T when all the wire tags of v are read, and to nothing (so the
   decoder goes one EXPLICIT level in) at every group of outer tags before that *)
Definition resolves (sp: spec) (T: ty) (v: val) : Prop :=
  sp_hit sp (wire_tags T v) T /\
  forall r1 r2, tl (wire_tags T v) = r1 ++ r2 -> r2 <> [] -> sp_miss sp r2.

Lemma resolves_sty_plain T v : plain_map T -> wire_tags T v = tagset_of' T -> resolves (STy T) T v.
Proof.
  intros Hpm Hw. split.
  - cbn [sp_hit]. split; [reflexivity|]. rewrite Hw, tagset_eqb_refl. split; [reflexivity|]. rewrite Hpm. reflexivity.
  - intros r1 r2 Hr Hne. cbn [sp_miss].
    assert (Hl: tagset_eqb r2 (tagset_of' T) = false).
    { destruct (tagset_eqb r2 (tagset_of' T)) eqn:E; [|reflexivity]. apply tagset_eqb_length in E.
      rewrite <- Hw in E. destruct (wire_tags T v) as [|t0 r]; cbn [tl] in Hr.
      - destruct r1; destruct r2; try discriminate. congruence.
      - cbn [length] in E. rewrite Hr, app_length in E. lia. }
    split; [exact Hl|]. apply plain_map_contains; assumption.
Qed.

(* what the induction needs of the relation between abstract contents *)
Record rel_ok (R: aval -> aval -> Prop) (srt: bool) : Prop := {
  r_refl : forall a, R a a;
  r_list : forall xs ys, Forall2 R xs ys -> R (AList xs) (AList ys);
  r_bag : forall xs ys, Forall2 R xs ys -> R (ABag xs) (ABag ys);
  r_rec : forall xs ys, Forall2 (opt_rel R) xs ys -> R (ARec xs) (ARec ys);
  r_choice : forall i a b, R a b -> R (AChoice i a) (AChoice i b);
  r_perm : srt = true -> forall xs ys zs, Permutation xs zs -> Forall2 R zs ys -> R (ABag xs) (ABag ys)
}.

Section Stage3.
  Variables ce cd : codec.
  Hypothesis Hce : enc_ok ce.
  Variable R : aval -> aval -> Prop.
  (* whether R identifies SET OF contents that differ in the order of the elements *)
  Variable srt : bool.
  Hypothesis HR : rel_ok R srt.

  Lemma enc_ok_def_opts : fix_opts ce def_opts = def_opts.
  Proof. destruct Hce as [-> | ->]; reflexivity. Qed.

  Definition encw (T: ty) (o: eopts) (v: val) : res bytes := enc_with ce (enc_content ce) T o v.

  (* the invariant established by induction over the type, at the level of the value decoder *)
  Definition val_ok (T: ty) (v: val) : Prop :=
    forall b, encw T def_opts v = Ok b -> N.of_nat (length b) <= index_max ->
    exists t0 r content si v',
      wire_tags T v = t0 :: r /\ Forall explicit_like r /\ (length r < ty_depth T)%nat /\
      frame (t0 :: r) content (tcon t0) def_opts si = Ok b /\
      wire_tags T v' = t0 :: r /\ R (abs T v') (abs T v) /\
      exists dcd dfl, by_type cd T = Some (dcd, dfl) /\
        forall f, (length b + ty_depth T <= S f + length r)%nat ->
          consumes (dec_value (dec_call cd f) f dcd dfl (Some T) (t0 :: r) (Some (N.of_nat (length content))) false)
                   content (DV T v').

  (* the decoder guided by sp reads exactly b as v', for every fuel above length + depth *)
  Definition item_dec (sp: spec) (T: ty) (b: bytes) (v': val) : Prop :=
    (0 < length b)%nat /\ forall f, fuel_ok T b f -> consumes (dec_call cd f sp [] None false false) b (DV T v').

  Lemma item_dec_decode T b v' tl : item_dec (STy T) T b v' -> decode cd (Some T) (b ++ tl) = Ok (DV T v', tl).
  Proof.
    intros [_ Hc]. apply (consumes_decode_with cd _ (Some T) b tl (DV T v')). apply Hc.
    unfold fuel_ok, dec_fuel. rewrite app_length. lia.
  Qed.

  Lemma item_of_val T v b : val_ok T v -> encw T def_opts v = Ok b -> N.of_nat (length b) <= index_max ->
    exists v', R (abs T v') (abs T v) /\ wire_tags T v' = wire_tags T v /\ wire_tags T v <> [] /\
      forall sp, resolves sp T v -> item_dec sp T b v'.
  Proof.
    intros Hv He Hmax. destruct (Hv b He Hmax) as (t0 & r & content & si & v' & Hw & Hex & Hrd & Hfr & Hw' & HRv & dcd & dfl & Hby & Hc).
    exists v'. split; [exact HRv|]. split; [congruence|]. split; [congruence|].
    intros sp [Hhit Hmiss]. rewrite Hw in Hhit, Hmiss. cbn [tl] in Hmiss. split.
    - pose proof (frame_nonempty _ _ _ _ _ _ Hfr). lia.
    - intros f Hf. unfold fuel_ok in Hf.
      pose proof (frame_len_r _ _ _ _ _ _ Hfr) as Hlr.
      replace f with (S (f - 1 - length r) + length r)%nat by lia.
      apply (framed_consumes_sp cd sp T t0 r si content b (f - 1 - length r) dcd dfl _ Hex Hhit Hmiss Hby Hfr); [lia|].
      apply Hc. lia.
  Qed.

  (* one complete item guided directly by its type: what the containers need of an element or of a
     mandatory component (the untagged ANY has this, though not [val_ok]) *)
  Definition item_sty (T: ty) (v: val) : Prop :=
    forall p, encw T def_opts v = Ok p -> N.of_nat (length p) <= index_max ->
    exists v', R (abs T v') (abs T v) /\ item_dec (STy T) T p v'.

  Lemma item_sty_of_val T v : val_ok T v -> resolves (STy T) T v -> item_sty T v.
  Proof.
    intros Hv Hres p Ep Hmax. destruct (item_of_val T v p Hv Ep Hmax) as (v' & HRv & _ & _ & Hit).
    exists v'. split; [exact HRv|exact (Hit _ Hres)].
  Qed.

  Lemma enc_with_inv_g T v b : encw T def_opts v = Ok b ->
    exists ec fl ts content cns, concrete_encoder ce T = Ok (ec, fl) /\ tagset_of T = Ok ts
      /\ enc_content ce T ec fl def_opts v = Ok (content, cns) /\ frame ts content cns def_opts (ef_indef fl) = Ok b.
  Proof. exact (enc_with_inv_c ce T v b enc_ok_def_opts). Qed.

  Lemma prim_val T v : prim_base T = true -> wf_tags T = true -> stage1_val ce cd T v = true -> val_ok T v.
  Proof.
    intros Hp Hw Hs b He Hmax.
    assert (He': encode ce true 0 T v = Ok b) by exact He.
    destruct (stage1_leaf ce cd T v b Hce Hs He') as (content & vdec & Hleaf & Habs).
    assert (Hdc: def_codec ce) by exact enc_ok_def_opts.
    pose proof (content_le_encoding ce cd T v content vdec b Hdc Hp Hw Hleaf He') as Hcl.
    destruct (tagset_prim_shape T Hp Hw) as (t0 & r & Hts & Hc0 & Hex & Hd).
    assert (Hnc: match T with TChoice _ => False | _ => True end).
    { destruct T; try exact I. discriminate Hp. }
    destruct Hleaf as [(ec & fl & Hcenc & Hcont) (dcd & dfl & Hby & Hval)].
    exists t0, r, content, (ef_indef fl), vdec.
    split; [rewrite (wire_tags_plain T v Hnc); apply tagset_of'_ok; exact Hts|].
    split; [exact Hex|]. split; [exact Hd|]. split.
    { destruct (enc_with_inv_g T v b He) as (ec' & fl' & ts & content' & cns & Hce' & Hts' & Hcont' & Hfr).
      rewrite Hcenc in Hce'. inversion Hce'; subst ec' fl'. rewrite Hts in Hts'. inversion Hts'; subst ts.
      rewrite Hcont in Hcont'. inversion Hcont'; subst content' cns. rewrite Hc0. exact Hfr. }
    split; [rewrite (wire_tags_plain T vdec Hnc); apply tagset_of'_ok; exact Hts|].
    split; [rewrite Habs; apply (r_refl _ _ HR)|].
    exists dcd, dfl. split; [exact Hby|]. intros f Hf.
    apply Hval; [unfold tag0_simple; rewrite Hc0; reflexivity|]. split; lia.
  Qed.

  Lemma enc_content_listof T t ec fl o xs : T = TSeqOf t \/ T = TSetOf t ->
    enc_content ce T ec fl o (VList xs) =
    (do parts <- enc_elems_g ce t o xs;
     match ec with
     | EcSeqOfBer | EcSeqOfCer => Ok (concat parts, true)
     | EcSetOfCer => Ok (concat (sort_setof parts), true)
     | _ => Err EMalformed
     end).
  Proof. intros [-> | ->]; reflexivity. Qed.

  Definition elem_dec (rec: spec -> tagset -> option (option N) -> bool -> bool -> proc dval) (t: ty) (p: bytes) (x': val) : Prop :=
    consumes (rec (STy t) [] None false false) p (DV t x') /\ (0 < length p)%nat.

  Lemma elem_dec_elem_ok rec t p x' : elem_dec rec t p x' -> elem_ok rec t p x'.
  Proof. exact (fun H => H). Qed.

  Lemma elems_val t xs : Forall (item_sty t) xs ->
    forall parts, enc_elems_g ce t def_opts xs = Ok parts ->
    N.of_nat (length (concat parts)) <= index_max ->
    exists xs', Forall2 (fun x' x => R (abs t x') (abs t x)) xs' xs /\ Forall2 (item_dec (STy t) t) parts xs'.
  Proof.
    induction 1 as [|x xs Hix HF IH]; intros parts He Hmax.
    - inversion He; subst. exists []. split; constructor.
    - rewrite enc_elems_g_cons in He.
      destruct (enc ce t def_opts x) as [p|e] eqn:Ep; cbn [bind] in He; [|discriminate].
      destruct (enc_elems_g ce t def_opts xs) as [ps|e] eqn:Eps; cbn [bind] in He; [|discriminate].
      inversion He; subst parts; clear He.
      cbn [concat] in Hmax. rewrite app_length in Hmax.
      destruct (Hix p Ep ltac:(lia)) as (x' & Hax & Hdec).
      destruct (IH ps eq_refl ltac:(lia)) as (xs' & Haxs & Hdecs).
      exists (x' :: xs'). split; constructor; assumption.
  Qed.

  Lemma items_elem_ok t parts xs' f : Forall2 (item_dec (STy t) t) parts xs' ->
    (length (concat parts) + ty_depth t <= f)%nat -> Forall2 (elem_ok (dec_call cd f) t) parts xs'.
  Proof.
    induction 1 as [|p x' parts xs' [Hpl Hc] _ IH]; intros Hf; constructor; cbn [concat] in Hf; rewrite app_length in Hf.
    - split; [apply Hc; unfold fuel_ok; lia|exact Hpl].
    - apply IH. lia.
  Qed.

  Lemma sort_setof_perm_self parts : Permutation parts (sort_setof parts).
  Proof.
    unfold sort_setof. destruct parts as [|a [|b r]]; try apply Permutation_refl.
    apply sort_by_perm_self.
  Qed.

  Lemma Forall2_map_abs t xs' xs : Forall2 (fun x' x => R (abs t x') (abs t x)) xs' xs ->
    Forall2 R (map (abs t) xs') (map (abs t) xs).
  Proof. induction 1; cbn [map]; constructor; assumption. Qed.

  Lemma Forall2_length' {A B} (P: A -> B -> Prop) l1 l2 : Forall2 P l1 l2 -> length l1 = length l2.
  Proof. apply Forall2_length. Qed.

  (* the encoder sorts the elements of SET OF: every encoder but BER's *)
  Definition sorts_setof : bool := match ce with BER => false | _ => true end.

  (* The invariant for a constructed base type under any tagging, from what the encoder and the value
     decoder of the base type do with the contents. *)
  Lemma val_ok_constructed T' v : wf_tags T' = true -> constructed_base T' = true ->
    (forall ec fl content cns, concrete_encoder ce (base_of T') = Ok (ec, fl) ->
       enc_content ce (base_of T') ec fl def_opts v = Ok (content, cns) -> N.of_nat (length content) <= index_max ->
       cns = true /\ exists v', R (abs (base_of T') v') (abs (base_of T') v) /\
         exists dcd dfl, by_type cd (base_of T') = Some (dcd, dfl) /\
           forall t0 r f, tcon t0 = true -> (length content + ty_depth (base_of T') < f)%nat ->
             consumes (dec_value (dec_call cd f) f dcd dfl (Some T') (t0 :: r) (Some (N.of_nat (length content))) false)
                      content (DV T' v')) ->
    val_ok T' v.
  Proof.
    clear HR srt. (* lia would take the unused [srt] into the proof, and so into the closed statement *)
    intros Hw Hcb Hbase b He Hmax.
    destruct (constructed_encoding ce T' v b enc_ok_def_opts Hw Hcb He) as (t0 & r & ec & fl & content & cns & Hts & Hcon & Hex & Hd & Hcenc & Hcont & Hfr).
    pose proof (frame_len_r _ _ _ _ _ _ Hfr) as Hlen.
    destruct (Hbase ec fl content cns Hcenc Hcont ltac:(lia)) as (-> & v' & HRv & dcd & dfl & Hby & Hdec).
    unfold constructed_base in Hcb.
    assert (Hwt: forall x, wire_tags T' x = t0 :: r).
    { intros x. rewrite wire_tags_plain; [apply tagset_of'_ok; exact Hts|]. destruct T'; try exact I. discriminate Hcb. }
    exists t0, r, content, (ef_indef fl), v'.
    split; [apply Hwt|]. split; [exact Hex|].
    split; [destruct (base_of T'); try discriminate Hcb; cbn [ty_depth] in Hd; lia|].
    split; [rewrite Hcon; exact Hfr|]. split; [apply Hwt|].
    split; [rewrite (abs_wrappers T' v'), (abs_wrappers T' v); exact HRv|].
    exists dcd, dfl. split; [rewrite by_type_base; exact Hby|]. intros f Hf. apply Hdec; [exact Hcon|lia].
  Qed.

  Lemma listof_val T' t : (base_of T' = TSeqOf t \/ base_of T' = TSetOf t) -> wf_tags T' = true ->
    (base_of T' = TSetOf t -> sorts_setof = true -> srt = true) ->
    forall xs, Forall (item_sty t) xs -> val_ok T' (VList xs).
  Proof.
    intros Hb Hw Hsrt xs HFx.
    apply val_ok_constructed; [exact Hw|unfold constructed_base; destruct Hb as [-> | ->]; reflexivity|].
    intros ec fl content cns Hcenc Hcont Hmax.
    assert (Hdep: ty_depth (base_of T') = S (ty_depth t)) by (destruct Hb as [-> | ->]; reflexivity).
    rewrite (enc_content_listof (base_of T') t ec fl def_opts xs Hb) in Hcont.
    destruct (enc_elems_g ce t def_opts xs) as [parts|e] eqn:Eparts; cbn [bind] in Hcont; [|discriminate].
    assert (Hwire: exists wparts, content = concat wparts /\ cns = true /\ Permutation parts wparts
                     /\ (wparts = parts \/ (base_of T' = TSetOf t /\ sorts_setof = true))).
    { unfold sorts_setof. destruct Hce as [E|E]; rewrite E in Hcenc |- *; destruct Hb as [Hb|Hb]; rewrite Hb in Hcenc; vm_compute in Hcenc;
        inversion Hcenc; subst ec fl; clear Hcenc; inversion Hcont; subst content cns.
      1-3: exists parts; repeat split; try apply Permutation_refl; left; reflexivity.
      exists (sort_setof parts). repeat split; [apply sort_setof_perm_self|]. right. split; [exact Hb|reflexivity]. }
    destruct Hwire as (wparts & -> & -> & Hperm & Hwhich). split; [reflexivity|].
    pose proof (concat_perm_length _ _ Hperm) as Hcl.
    destruct (elems_val t xs HFx parts Eparts ltac:(lia)) as (xs' & Habs & Hitems).
    (* the decoded list, in wire order: a permutation of the decoded elements when the encoder sorted *)
    assert (Hw': exists ws', R (abs (base_of T') (VList ws')) (abs (base_of T') (VList xs)) /\ Forall2 (item_dec (STy t) t) wparts ws').
    { destruct Hwhich as [-> | [Hset Hsorts]].
      - exists xs'. split; [|exact Hitems].
        destruct Hb as [-> | ->]; cbn [abs]; [apply (r_list _ _ HR)|apply (r_bag _ _ HR)]; apply Forall2_map_abs; exact Habs.
      - destruct (Forall2_perm_l _ _ _ Hperm xs' Hitems) as (ws' & Hpw & HFw). exists ws'. split; [|exact HFw].
        rewrite Hset. cbn [abs].
        apply (r_perm _ _ HR (Hsrt Hset Hsorts) _ _ (map (abs t) xs')); [apply Permutation_map, Permutation_sym; exact Hpw|].
        apply Forall2_map_abs; exact Habs. }
    destruct Hw' as (ws' & HRw & Hwitems). exists (VList ws'). split; [exact HRw|].
    assert (Hby: exists dcd dfl, by_type cd (base_of T') = Some (dcd, dfl) /\ (dcd = DcSeqOf \/ dcd = DcSetOf)).
    { destruct cd; destruct Hb as [-> | ->]; eexists; eexists; (split; [vm_compute; reflexivity|]);
        solve [left; reflexivity | right; reflexivity]. }
    destruct Hby as (dcd & dfl & Hby & Hdcd).
    exists dcd, dfl. split; [exact Hby|]. intros t0 r f Hcon Hf.
    assert (Hdv: dec_value (dec_call cd f) f dcd dfl (Some T') (t0 :: r) (Some (N.of_nat (length (concat wparts)))) false
                 = dec_listof (dec_call cd f) f T' t (Some (N.of_nat (length (concat wparts))))).
    { destruct Hdcd as [-> | ->]; cbn [dec_value tag0_cons]; rewrite Hcon; cbn [negb]; destruct Hb as [-> | ->]; reflexivity. }
    rewrite Hdv.
    assert (HF: Forall2 (elem_ok (dec_call cd f) t) wparts ws') by (apply items_elem_ok; [exact Hwitems|lia]).
    apply dec_listof_consumes; [exact HF|].
    pose proof (Forall2_elem_count _ _ _ _ HF). lia.
  Qed.

End Stage3.
