(* Decoding what the encoder's framing wrote: one explicit-tag level at a time. *)
From Coq Require Import Lia.
From PV Require Import Base.Bytes Model.Tag Model.Types Model.Proc Model.Enc Model.Dec
     Proofs.ProcBind Proofs.RunLemmas Proofs.TagOctets Proofs.DecHeader Proofs.Spine.
Local Open Scope N_scope.

(* running p on a stream that starts with bs yields v and consumes exactly bs, whatever follows *)
Definition consumes (p: proc dval) (bs: bytes) (v: dval) : Prop :=
  forall s tl, avail s = bs ++ tl ->
  exists s', resume p s = inr (Ok v, s') /\ pos s' = (pos s + length bs)%nat
             /\ arrived s' = arrived s /\ closed s' = closed s.

Lemma consumes_avail (bs: bytes) s tl s' : avail s = bs ++ tl ->
  pos s' = (pos s + length bs)%nat -> arrived s' = arrived s -> avail s' = tl.
Proof.
  intros Hav Hp Ha. unfold avail in *. rewrite Hp, Ha.
  rewrite skipn_add, Hav. apply skipn_app_exact.
Qed.

(* the tag as it stands in the identifier octets; [Spine.wire_tag] with the arguments swapped *)
Definition wire (t: tag) (cns: bool) : tag := mkTag (tcls t) (tcon t || cns) (tnum t).

Lemma avail_setmark s m : avail (setmark s m) = avail s. Proof. reflexivity. Qed.

(* one header: the decoder entry point reads the identifier and (definite) length octets the encoder
   wrote and arrives at the dispatch with the tag prepended and the announced length *)
Lemma dec_call_header : forall c f sp acc sfun t cns n l body s,
  enc_len n false = Ok l ->
  avail s = enc_tag t cns ++ l ++ body ->
  (length (enc_tag t cns) <= S f)%nat ->
  resume (dec_call c (S f) sp acc None false sfun) s =
  resume (dispatch c (dec_call c f) f sp (wire t cns :: acc) (Some n) sfun)
         (adv (setmark s (pos s)) (length (enc_tag t cns) + length l)).
Proof.
  intros c f sp acc sfun t cns n l body s Hl Hav Hlen.
  cbn [dec_call]. unfold dec_body. cbn [andb]. cbn [resume].
  set (s0 := setmark s (pos s)).
  assert (Hav0: avail s0 = enc_tag t cns ++ l ++ body) by exact Hav.
  pose proof (dec_enc_tag t cns (l ++ body)) as Hid.
  assert (Hcons: (length (enc_tag t cns ++ l ++ body) - length (l ++ body))%nat = length (enc_tag t cns)).
  { rewrite app_length. lia. }
  rewrite (resume_read_tag f (enc_tag t cns ++ l ++ body) (wire t cns) (l ++ body) s0 _ Hid Hav0) by (rewrite Hcons; exact Hlen).
  rewrite Hcons.
  pose proof (dec_enc_len n l body Hl) as Hdl.
  assert (Hav1: avail (adv s0 (length (enc_tag t cns))) = l ++ body) by (apply (avail_app_adv _ _ _ Hav0)).
  rewrite (resume_read_length c (l ++ body) (Some n) body _ _ Hdl Hav1) by discriminate.
  rewrite adv_adv. f_equal. f_equal. rewrite app_length. lia.
Qed.

Lemma wire_false t : wire t false = t.
Proof. destruct t as [c f n]. unfold wire. cbn. rewrite Bool.orb_false_r. reflexivity. Qed.

(* one EXPLICIT tag level in definite-length form: the decoder does not know the tag set yet, takes
   the constructed non-universal tag for an explicit wrapper, re-enters with the tag accumulated and
   finally checks that exactly the announced number of octets was consumed *)
Lemma explicit_level : forall c f T acc0 t si inner b v,
  frame_one t false true si inner = Ok b ->
  tcon t = true -> tcls t <> Univ ->
  tagset_eqb (t :: acc0) (tagset_of' T) = false ->
  tm_contains (tagmap_of T) (t :: acc0) = false ->
  (length (enc_tag t false) <= S f)%nat ->
  consumes (dec_call c f (STy T) (t :: acc0) None false false) inner v ->
  consumes (dec_call c (S f) (STy T) acc0 None false false) b v.
Proof.
  intros c f T acc0 t si inner b v Hfr Hcon Hcls Hne Hnm Hlen Hin s tl Hav.
  destruct (frame_one_def_inv _ _ _ _ _ Hfr) as (l & El & ->). rewrite <- !app_assoc in Hav.
  rewrite (dec_call_header c f (STy T) acc0 false t false _ l (inner ++ tl) s El Hav Hlen).
  rewrite wire_false.
  set (s1 := adv (setmark s (pos s)) (length (enc_tag t false) + length l)).
  assert (Hav1: avail s1 = inner ++ tl).
  { subst s1. rewrite avail_adv, avail_setmark, Hav. rewrite app_assoc.
    rewrite <- app_length. apply skipn_app_exact. }
  assert (Hp1: pos s1 = (pos s + (length (enc_tag t false) + length l))%nat) by reflexivity.
  assert (Ha1: arrived s1 = arrived s) by reflexivity.
  assert (Hc1: closed s1 = closed s) by reflexivity.
  clearbody s1.
  unfold dispatch. rewrite Hne, Hnm. cbn [orb]. rewrite Hcon. cbn [andb].
  assert (Hnu: negb (cls_eqb (tcls t) Univ) = true) by (destruct (tcls t); [congruence|reflexivity|reflexivity|reflexivity]).
  rewrite Hnu. rewrite resume_tell.
  unfold dec_raw.
  destruct (Hin s1 tl Hav1) as (s2 & Hrun & Hpos & Harr & Hcl).
  rewrite (resume_pbind_done _ _ _ _ _ Hrun). rewrite resume_tell.
  rewrite Hpos. rewrite (Nat.add_comm (pos s1)), Nat.add_sub.
  rewrite N.eqb_refl. cbn [resume].
  exists s2. split; [reflexivity|].
  rewrite !app_length. cbn [length]. repeat split; [lia|congruence|congruence].
Qed.

(* the level at which the accumulated tags are the type's tag set: the value decoder chosen by type
   is run on exactly the contents octets *)
Lemma match_level : forall c f T acc0 t0 cns si content b v cd fl,
  frame_one t0 cns true si content = Ok b ->
  tagset_eqb (wire t0 cns :: acc0) (tagset_of' T) = true ->
  tm_postponed (tagmap_of T) = false ->
  by_type c T = Some (cd, fl) ->
  (length (enc_tag t0 cns) <= S f)%nat ->
  consumes (dec_value (dec_call c f) f cd fl (Some T) (wire t0 cns :: acc0) (Some (N.of_nat (length content))) false) content v ->
  consumes (dec_call c (S f) (STy T) acc0 None false false) b v.
Proof.
  intros c f T acc0 t0 cns si content b v cd fl Hfr Heq Hpp Hby Hlen Hin s tl Hav.
  destruct (frame_one_def_inv _ _ _ _ _ Hfr) as (l & El & ->). rewrite <- !app_assoc in Hav.
  rewrite (dec_call_header c f (STy T) acc0 false t0 cns _ l (content ++ tl) s El Hav Hlen).
  set (s1 := adv (setmark s (pos s)) (length (enc_tag t0 cns) + length l)).
  assert (Hav1: avail s1 = content ++ tl).
  { subst s1. rewrite avail_adv, avail_setmark, Hav. rewrite app_assoc.
    rewrite <- app_length. apply skipn_app_exact. }
  assert (Hp1: pos s1 = (pos s + (length (enc_tag t0 cns) + length l))%nat) by reflexivity.
  assert (Ha1: arrived s1 = arrived s) by reflexivity.
  assert (Hc1: closed s1 = closed s) by reflexivity.
  clearbody s1.
  unfold dispatch. rewrite Heq. cbn [orb]. rewrite Hpp, Hby. rewrite resume_tell.
  destruct (Hin s1 tl Hav1) as (s2 & Hrun & Hpos & Harr & Hcl).
  rewrite (resume_pbind_done _ _ _ _ _ Hrun). rewrite resume_tell.
  rewrite Hpos. rewrite (Nat.add_comm (pos s1)), Nat.add_sub.
  rewrite N.eqb_refl. cbn [resume].
  exists s2. split; [reflexivity|].
  rewrite !app_length. cbn [length]. repeat split; [lia|congruence|congruence].
Qed.

(* the tag map of every type but the untagged CHOICE and ANY has the type's own tag set as only key *)
Definition plain_map (T: ty) : Prop := tagmap_of T = mkTmap [(tagset_of' T, T)] [] None false.

Lemma plain_map_contains T ts : plain_map T -> tagset_eqb ts (tagset_of' T) = false -> tm_contains (tagmap_of T) ts = false.
Proof.
  intros Hp Hne. rewrite Hp. unfold tm_contains, tm_find. cbn [tm_present tm_default assoc].
  rewrite Hne. reflexivity.
Qed.

Lemma frame_outer_snoc : forall r t c d si sub,
  frame_outer (r ++ [t]) c d si sub = (do s' <- frame_outer r c d si sub; frame_one t c d si s').
Proof.
  induction r as [|x r IH]; intros t c d si sub; cbn [app frame_outer].
  - cbn [bind]. destruct (frame_one t c d si sub); reflexivity.
  - destruct (frame_one x c d si sub) as [s1|e]; cbn [bind]; [apply IH|reflexivity].
Qed.

Definition explicit_like (t: tag) : Prop := tcon t = true /\ tcls t <> Univ.

(* all the EXPLICIT levels of a definite-length encoding, from the outermost inwards *)
Lemma peel_all : forall c T f si r acc0 sub b v,
  frame_outer r false true si sub = Ok b ->
  Forall explicit_like r ->
  Forall (fun t => (length (enc_tag t false) <= S f)%nat) r ->
  plain_map T ->
  length (tagset_of' T) = S (length r + length acc0) ->
  consumes (dec_call c f (STy T) (r ++ acc0) None false false) sub v ->
  consumes (dec_call c (f + length r) (STy T) acc0 None false false) b v.
Proof.
  intros c T f si r. induction r as [|tn r' IH] using rev_ind; intros acc0 sub b v Hfr Hex Hlen Hpm Hts Hin.
  - cbn [frame_outer] in Hfr. inversion Hfr; subst. cbn [length app] in *. rewrite Nat.add_0_r. exact Hin.
  - rewrite frame_outer_snoc in Hfr.
    destruct (frame_outer r' false true si sub) as [inner|e] eqn:Ein; cbn [bind] in Hfr; [|discriminate].
    apply Forall_app in Hex. destruct Hex as [Hex' Hexn]. inversion Hexn as [|? ? [Hcon Hcls] _]; subst.
    apply Forall_app in Hlen. destruct Hlen as [Hlen' Hlenn]. inversion Hlenn as [|? ? Hl _]; subst.
    rewrite app_length in *. cbn [length] in *.
    replace (f + (length r' + 1))%nat with (S (f + length r')) by lia.
    assert (Hmis: tagset_eqb (tn :: acc0) (tagset_of' T) = false).
    { destruct (tagset_eqb (tn :: acc0) (tagset_of' T)) eqn:E; [|reflexivity].
      apply tagset_eqb_length in E. cbn [length] in E. lia. }
    apply (explicit_level c (f + length r') T acc0 tn si inner b v Hfr Hcon Hcls Hmis (plain_map_contains T _ Hpm Hmis)); [lia|].
    apply (IH (tn :: acc0) sub inner v Ein Hex' Hlen' Hpm).
    + cbn [length]. lia.
    + rewrite <- app_assoc in Hin. exact Hin.
Qed.
