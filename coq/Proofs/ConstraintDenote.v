(* C14, constraints mean what set theory says: on every well-formed constraint expression applied to a value it is
   applicable to, the evaluator as coded decides membership in the set-theoretic denotation
   (and never raises a built-in exception).  Structural induction, any depth. *)
From Coq Require Import Lia Morphisms.
From PV Require Import Model.Constraint Spec.SetTheory Proofs.Basics Proofs.ConstraintInd.
Local Open Scope Z_scope.

Lemma nlist_eqb_eq a b : nlist_eqb a b = true <-> a = b.
Proof.
  split; [apply (list_eqb_eq N.eqb); intros x y; apply N.eqb_eq|].
  intros ->. apply list_eqb_refl. intros x _. apply N.eqb_refl.
Qed.

Lemma sval_eqb_eq a b : nonbits a = true -> nonbits b = true -> (sval_eqb a b = true <-> a = b).
Proof.
  destruct a, b; cbn [nonbits sval_eqb]; intros Ha Hb; try discriminate; try (split; discriminate).
  all: rewrite ?Z.eqb_eq, ?nlist_eqb_eq; split; congruence.
Qed.

Lemma sval_eqb_refl a : sval_eqb a a = true.
Proof.
  destruct a; cbn [sval_eqb]; try apply Z.eqb_refl; apply nlist_eqb_eq; reflexivity.
Qed.

Lemma sval_mem_in s vs :
  nonbits s = true -> forallb nonbits vs = true -> (sval_mem s vs = true <-> In s vs).
Proof.
  intros Hs Hvs. unfold sval_mem. rewrite existsb_exists. rewrite forallb_forall in Hvs. split.
  - intros [y [Hy E]]. apply sval_eqb_eq in E; [subst; exact Hy|exact Hs|apply Hvs; exact Hy].
  - intros H. exists s. split; [exact H|apply sval_eqb_refl].
Qed.

Lemma eq_dec_eqb i k :
  nonbits i = true -> nonbits k = true ->
  (if sval_eq_dec i k then true else false) = sval_eqb i k.
Proof.
  intros Hi Hk. destruct (sval_eq_dec i k) as [E|E].
  - subst. symmetry. apply sval_eqb_refl.
  - destruct (sval_eqb i k) eqn:Eb; [|reflexivity].
    apply sval_eqb_eq in Eb; [contradiction|assumption|assumption].
Qed.

Lemma map_get_component m f :
  nonbits f = true -> forallb (fun kv => nonbits (fst kv)) m = true -> map_get m f = component m f.
Proof.
  intros Hf Hm. unfold map_get, component.
  replace (find (fun kv => sval_eqb f (fst kv)) m)
    with (find (fun kv => if sval_eq_dec f (fst kv) then true else false) m); [reflexivity|].
  induction m as [|kv m IH]; [reflexivity|].
  cbn [forallb] in Hm. apply Bool.andb_true_iff in Hm as [Hk Hm].
  cbn [find]. rewrite (eq_dec_eqb f (fst kv) Hf Hk), (IH Hm). reflexivity.
Qed.

Lemma component_cases m f : component m f = VNone \/ exists s, component m f = VS s.
Proof. unfold component. destruct (find _ m); [right; eexists; reflexivity|left; reflexivity]. Qed.

(* the verdict is a decision of [P]: accepted and [P], or rejected with ValueConstraintError
   and not [P]; never a built-in exception *)
Definition agrees (v: verdict) (P: Prop) : Prop := (v = Pass /\ P) \/ (v = Fail /\ ~ P).

Definition decides (c: constr) (idx: option sval) (x: cval) : Prop :=
  agrees (ceval c idx x) (denote c idx x).

Lemma agrees_iff v P Q : (P <-> Q) -> agrees v P -> agrees v Q.
Proof. unfold agrees. tauto. Qed.

Global Instance agrees_proper v : Proper (iff ==> iff) (agrees v).
Proof. intros P Q H. split; apply agrees_iff; tauto. Qed.

Lemma agrees_bool (b: bool) P : (b = true <-> P) -> agrees (if b then Pass else Fail) P.
Proof.
  intros H. destruct b; [left|right]; (split; [reflexivity|]).
  - apply H. reflexivity.
  - intros HP. apply H in HP. discriminate.
Qed.

Lemma agrees_between lo hi n :
  agrees (if (n <? lo) || (n >? hi) then Fail else Pass) (lo <= n <= hi).
Proof.
  destruct (Z.ltb_spec n lo), (Z.gtb_spec n hi); cbn [orb]; [right|right|right|left];
    (split; [reflexivity|lia]).
Qed.

Lemma and_v_decides {A} (f: A -> verdict) (D: A -> Prop) (l: list A) :
  Forall (fun a => agrees (f a) (D a)) l -> agrees (and_v f Pass l) (Forall D l).
Proof.
  induction 1 as [|a l Ha _ IH]; cbn [and_v]; [left; split; [reflexivity|constructor]|].
  destruct Ha as [[-> Da]|[-> Da]].
  - apply (agrees_iff _ (Forall D l)); [rewrite Forall_cons_iff; tauto|exact IH].
  - right. split; [reflexivity|]. rewrite Forall_cons_iff. tauto.
Qed.

Lemma or_v_decides {A} (f: A -> verdict) (D: A -> Prop) (l: list A) :
  Forall (fun a => agrees (f a) (D a)) l -> agrees (or_v f l) (Exists D l).
Proof.
  induction 1 as [|a l Ha _ IH]; cbn [or_v].
  { right. split; [reflexivity|]. rewrite Exists_nil. tauto. }
  destruct Ha as [[-> Da]|[-> Da]].
  - left. split; [reflexivity|]. left. exact Da.
  - apply (agrees_iff _ (Exists D l)); [rewrite Exists_cons; tauto|exact IH].
Qed.

Lemma excl_v_decides {A} (f: A -> verdict) (D: A -> Prop) (l: list A) :
  Forall (fun a => agrees (f a) (D a)) l -> agrees (excl_v f l) (Forall (fun a => ~ D a) l).
Proof.
  induction 1 as [|a l Ha _ IH]; cbn [excl_v]; [left; split; [reflexivity|constructor]|].
  destruct Ha as [[-> Da]|[-> Da]].
  - right. split; [reflexivity|]. rewrite Forall_cons_iff. tauto.
  - apply (agrees_iff _ (Forall (fun a => ~ D a) l)); [rewrite Forall_cons_iff; tauto|exact IH].
Qed.

Lemma operands_decide (cs: list constr) idx x :
  Forall (fun c => forall idx x, wf c = true -> typed c idx x = true -> decides c idx x) cs ->
  forallb wf cs = true -> forallb (fun c => typed c idx x) cs = true ->
  Forall (fun c => decides c idx x) cs.
Proof.
  rewrite !Forall_forall, !forallb_forall. intros IH Hw Ht c Hc.
  exact (IH c Hc idx x (Hw c Hc) (Ht c Hc)).
Qed.

Lemma wf_truthy c : wf c = true -> truthy c = true.
Proof.
  destruct c; cbn [wf truthy]; intros H; try reflexivity;
    repeat (apply Bool.andb_true_iff in H; destruct H as [H ?]); assumption.
Qed.

(* The denotations of the constraints on one value read "the value has a payload (a size, a list
   of elements) such that ..."; it has exactly one. *)
Lemma ex_unique {A} (P Q: A -> Prop) a : (forall b, P b <-> b = a) -> ((exists b, P b /\ Q b) <-> Q a).
Proof.
  intros H. split; [intros [b [->%H HQ]]; exact HQ|].
  intros HQ. exists a. split; [apply H; reflexivity|exact HQ].
Qed.

Lemma in_set_decides vs x :
  forallb nonbits vs = true -> typed (CSingle vs) None x = true ->
  agrees (in_set x vs) (exists s, x = VS s /\ In s vs).
Proof.
  intros Hb Hty. destruct x as [s| |m]; [|right; split; [reflexivity|intros [s [[=] _]]]|discriminate].
  assert (Hs: nonbits s = true) by (destruct s; [reflexivity..|discriminate]).
  apply agrees_bool. rewrite (sval_mem_in s vs Hs Hb). symmetry.
  apply (ex_unique _ (fun s' => In s' vs)). intros s'. split; congruence.
Qed.

Lemma range_test_decides lo hi x :
  typed (CRange lo hi) None x = true ->
  agrees (range_test lo hi x) (exists z, x = VS (SInt z) /\ lo <= z <= hi).
Proof.
  intros Hty. destruct x as [[z| | | |]| |]; try discriminate.
  apply (agrees_iff _ (lo <= z <= hi)); [|apply agrees_between].
  symmetry. apply (ex_unique _ (fun z => lo <= z <= hi)). intros z'. split; congruence.
Qed.

Lemma has_size_of x n : has_size x n <-> size_of x = Some n.
Proof.
  split; [destruct 1; reflexivity|].
  destruct x as [[z|b|s|a|k z]| |m]; cbn [size_of]; intros [= <-]; constructor.
Qed.

Lemma size_test_decides lo hi x :
  typed (CSize lo hi) None x = true ->
  agrees (size_test lo hi x) (exists n, has_size x n /\ lo <= n <= hi).
Proof.
  intros Hty. unfold size_test. destruct (size_of x) as [n|] eqn:E.
  - apply (agrees_iff _ (lo <= n <= hi)); [|apply agrees_between].
    symmetry. apply (ex_unique _ (fun n => lo <= n <= hi)). intros n'. rewrite has_size_of, E. split; congruence.
  - destruct x as [[z|b|s|a|k z]| |m]; discriminate.
Qed.

Lemma alpha_test_decides vs x :
  forallb nonbits vs = true -> typed (CAlpha vs) None x = true ->
  agrees (alpha_test vs x) (exists es, made_of x es /\ forall e, In e es -> In e vs).
Proof.
  intros Hb Hty. unfold alpha_test.
  assert (Hs: exists es, elements x = Some es /\ (forall es', made_of x es' <-> es' = es)
                         /\ forallb nonbits es = true).
  { destruct x as [[z|b|s|a|n z]| |m]; try discriminate; cbn [elements];
      eexists; (split; [reflexivity|split;
        [intros es'; split; [intros He; inversion He; reflexivity|intros ->; constructor]|]]);
      apply forallb_forall; intros e He; apply in_map_iff in He; destruct He as [? [<- _]];
      reflexivity. }
  destruct Hs as [es [-> [Hm Hnb]]]. rewrite forallb_forall in Hnb.
  apply agrees_bool. rewrite (ex_unique _ _ es Hm), forallb_forall.
  split; intros H e He; apply (sval_mem_in e vs (Hnb e He) Hb), H, He.
Qed.

(* InnerTypeConstraint: the folds of the evaluator and of the denotation, named, and a relation
   between their accumulators that every step keeps *)

Definition tagged {A} (a: option (sval * sval) * A) : bool :=
  match fst a with Some _ => true | None => false end.

Definition single_v (x: cval) :=
  fix go (l: list (option (sval * sval) * constr)) (acc: option (bool * verdict)) :=
    match l with
    | [] => acc
    | (None, c') :: r => go r (Some (truthy c', ceval c' None x))
    | (Some _, _) :: r => go r acc
    end.
Definition single_P (x: cval) :=
  fix go (l: list (option (sval * sval) * constr)) (acc: option Prop) :=
    match l with
    | [] => acc
    | (None, c') :: r => go r (Some (denote c' None x))
    | (Some _, _) :: r => go r acc
    end.
Definition lookup_v (x: cval) (i: sval) :=
  fix go (l: list (option (sval * sval) * constr)) (acc: option verdict) :=
    match l with
    | [] => acc
    | (Some (k, st), c') :: r =>
        go r (if sval_eqb i k
              then Some (if sval_eqb st ABSENT then Fail else ceval c' None x) else acc)
    | (None, _) :: r => go r acc
    end.
Definition lookup_P (x: cval) (i: sval) :=
  fix go (l: list (option (sval * sval) * constr)) (acc: Prop) : Prop :=
    match l with
    | [] => acc
    | (Some (k, st), c') :: r =>
        go r (if sval_eq_dec i k then st <> status_absent /\ denote c' None x else acc)
    | (None, _) :: r => go r acc
    end.

Lemma ceval_inner a0 args idx x :
  ceval (CInner (a0 :: args)) idx x =
    match single_v x (a0 :: args) None with
    | Some (true, v) => v
    | _ => if existsb tagged (a0 :: args)
           then match idx with
                | None => Fail
                | Some i => match lookup_v x i (a0 :: args) None with Some v => v | None => Fail end
                end
           else Pass
    end.
Proof. reflexivity. Qed.

Lemma denote_inner args idx x :
  denote (CInner args) idx x =
    match single_P x args None with
    | Some P => P
    | None => match idx with None => False | Some i => lookup_P x i args False end
    end.
Proof. reflexivity. Qed.

(* what the induction hypothesis, [wf] and [typed] say of one argument of an InnerTypeConstraint *)
Definition arg_decides (x: cval) (a: option (sval * sval) * constr) : Prop :=
  match fst a with Some (k, _) => nonbits k = true | None => True end
  /\ wf (snd a) = true /\ decides (snd a) None x.

Definition rel_single (a: option (bool * verdict)) (p: option Prop) : Prop :=
  match a, p with
  | None, None => True
  | Some (true, v), Some P => agrees v P
  | _, _ => False
  end.

Lemma single_related l x :
  Forall (arg_decides x) l ->
  forall acc accP, rel_single acc accP -> rel_single (single_v x l acc) (single_P x l accP).
Proof.
  induction 1 as [|[[t|] c] l [_ [Hw Hd]] _ IH]; intros acc accP Hr; cbn [single_v single_P].
  - exact Hr.
  - apply IH. exact Hr.
  - apply IH. cbn [snd] in *. cbn [rel_single]. rewrite (wf_truthy _ Hw). exact Hd.
Qed.

(* no bare constraint was met: every argument is a tuple *)
Lemma single_v_none l x acc : single_v x l acc = None -> acc = None /\ forallb tagged l = true.
Proof.
  revert acc. induction l as [|[[t|] c] l IH]; intros acc H; cbn [single_v] in H.
  - split; [exact H|reflexivity].
  - exact (IH _ H).
  - apply IH in H as [[=] _].
Qed.

Definition rel_lookup (a: option verdict) (P: Prop) : Prop :=
  match a with
  | None => ~ P
  | Some v => agrees v P
  end.

Lemma absent_eq st : sval_eqb st ABSENT = true <-> st = status_absent.
Proof.
  unfold status_absent. destruct st; cbn [sval_eqb ABSENT]; try (split; discriminate).
  rewrite nlist_eqb_eq. split; congruence.
Qed.

Lemma lookup_related l i x :
  nonbits i = true -> Forall (arg_decides x) l ->
  forall acc accP, rel_lookup acc accP -> rel_lookup (lookup_v x i l acc) (lookup_P x i l accP).
Proof.
  intros Hi. induction 1 as [|[[[k st]|] c] l [Hk [_ Hd]] _ IH]; intros acc accP Hr;
    cbn [lookup_v lookup_P].
  - exact Hr.
  - apply IH. cbn [fst snd] in *.
    rewrite <- (eq_dec_eqb i k Hi Hk). destruct (sval_eq_dec i k) as [E|E]; [|exact Hr].
    cbn [rel_lookup]. destruct (sval_eqb st ABSENT) eqn:Ea.
    + right. split; [reflexivity|]. apply absent_eq in Ea. tauto.
    + apply (agrees_iff _ (denote c None x)); [|exact Hd].
      rewrite <- absent_eq, Ea. intuition discriminate.
  - apply IH. exact Hr.
Qed.

Lemma inner_decides a0 args idx x :
  opt_nonbits idx = true -> Forall (arg_decides x) (a0 :: args) -> decides (CInner (a0 :: args)) idx x.
Proof.
  intros Hi Hall. unfold decides. rewrite ceval_inner, denote_inner.
  pose proof (single_related _ x Hall None None I) as Hs.
  destruct (single_v x (a0 :: args) None) as [[[|] v]|] eqn:Esv;
    destruct (single_P x (a0 :: args) None) as [P|]; try contradiction Hs; [exact Hs|].
  (* no single-type entry: the first argument is a tuple, and the position decides *)
  apply single_v_none in Esv as [_ Htag]. cbn [forallb] in Htag.
  apply Bool.andb_true_iff in Htag as [Htag _]. cbn [existsb]. rewrite Htag. cbn [orb].
  destruct idx as [i|]; [|right; split; [reflexivity|tauto]].
  pose proof (lookup_related _ i x Hi Hall None False (fun F => F)) as Hl.
  destruct (lookup_v x i (a0 :: args) None) as [v|]; [exact Hl|right; split; [reflexivity|exact Hl]].
Qed.

Theorem ceval_decides : forall c idx x, wf c = true -> typed c idx x = true -> decides c idx x.
Proof.
  induction c as [c IH] using constr_operands_ind. intros idx x Hwf Hty.
  destruct c; cbn [operands] in IH.
  - (* SingleValueConstraint *)
    cbn [wf] in Hwf. apply Bool.andb_true_iff in Hwf as [Hn Hb].
    destruct vs as [|v0 vs]; [discriminate|]. exact (in_set_decides _ x Hb Hty).
  - (* ContainedSubtypeConstraint: applicable without plain values only, and then [post] is empty *)
    rewrite wf_ops_contained, !Bool.andb_true_iff in Hwf. destruct Hwf as [[[[Hn _] Hp] Hw] _].
    rewrite typed_ops_contained, !Bool.andb_true_iff in Hty. destruct Hty as [[Hpl Ht] _].
    destruct plain; [|discriminate]. destruct post; [|discriminate]. rewrite app_nil_r in IH.
    unfold decides. rewrite (ceval_contained _ _ _ _ _ Hn), denote_contained.
    apply (agrees_iff _ (Forall (fun c => denote c idx x) pre)); [intuition constructor|].
    exact (and_v_decides _ _ _ (operands_decide pre idx x IH Hw Ht)).
  - (* ValueRangeConstraint *)
    exact (range_test_decides lo hi x Hty).
  - (* ValueSizeConstraint *)
    exact (size_test_decides lo hi x Hty).
  - (* PermittedAlphabetConstraint *)
    cbn [wf] in Hwf. apply Bool.andb_true_iff in Hwf as [Hn Hb].
    destruct vs as [|v0 vs]; [discriminate|]. exact (alpha_test_decides _ x Hb Hty).
  - (* ComponentPresentConstraint *)
    destruct x; [left|right|left]; (split; [reflexivity|cbn [denote]; congruence]).
  - (* ComponentAbsentConstraint *)
    destruct x as [[]| |]; try discriminate; [right|right|right|right|left|right];
      (split; [reflexivity|cbn [denote]; congruence]).
  - (* WithComponentsConstraint *)
    destruct x as [s| |m]; try discriminate.
    rewrite wf_ops_with in Hwf. apply Bool.andb_true_iff in Hwf as [_ Hw].
    rewrite typed_ops_with in Hty. apply Bool.andb_true_iff in Hty as [Hk Ht].
    unfold decides. rewrite ceval_with, denote_with.
    rewrite (ex_unique _ _ m) by (intros m'; split; congruence).
    apply and_v_decides.
    rewrite Forall_map, Forall_forall in IH. rewrite forallb_forall in Hw, Ht.
    apply Forall_forall. intros fc Hin.
    apply Hw in Hin as Hwc. apply Bool.andb_true_iff in Hwc as [Hf Hwc].
    rewrite (map_get_component m _ Hf Hk). exact (IH fc Hin None _ Hwc (Ht fc Hin)).
  - (* InnerTypeConstraint *)
    rewrite wf_ops_inner in Hwf. apply Bool.andb_true_iff in Hwf as [Hn Hw].
    destruct args as [|a0 args]; [discriminate|].
    rewrite typed_ops_inner in Hty. apply Bool.andb_true_iff in Hty as [Hi Ht].
    apply (inner_decides _ _ _ _ Hi).
    rewrite Forall_map, Forall_forall in IH. rewrite forallb_forall in Hw, Ht.
    apply Forall_forall. intros a Hin.
    apply Hw in Hin as Hwa. apply Bool.andb_true_iff in Hwa as [Hk Hwa].
    split; [destruct (fst a) as [[k st]|]; [exact Hk|exact I]|].
    split; [exact Hwa|exact (IH a Hin None x Hwa (Ht a Hin))].
  - (* ConstraintsIntersection *)
    rewrite wf_ops_and in Hwf. apply Bool.andb_true_iff in Hwf as [_ Hw]. rewrite typed_ops_and in Hty.
    unfold decides. rewrite ceval_and, denote_and.
    exact (and_v_decides _ _ _ (operands_decide _ idx x IH Hw Hty)).
  - (* ConstraintsUnion *)
    rewrite wf_ops_or in Hwf. apply Bool.andb_true_iff in Hwf as [Hn Hw].
    destruct cs as [|c0 cs]; [discriminate|]. rewrite typed_ops_or in Hty.
    unfold decides. rewrite ceval_or, denote_or.
    exact (or_v_decides _ _ _ (operands_decide _ idx x IH Hw Hty)).
  - (* ConstraintsExclusion *)
    rewrite wf_ops_excl in Hwf. apply Bool.andb_true_iff in Hwf as [_ Hw]. rewrite typed_ops_excl in Hty.
    unfold decides. rewrite ceval_excl, denote_excl.
    exact (excl_v_decides _ _ _ (operands_decide _ idx x IH Hw Hty)).
Qed.

(* accepted exactly when in the denotation *)
Theorem ceval_iff_denote c idx x :
  wf c = true -> typed c idx x = true -> (ceval c idx x = Pass <-> denote c idx x).
Proof.
  intros Hw Ht. destruct (ceval_decides c idx x Hw Ht) as [[-> D]|[-> D]]; intuition discriminate.
Qed.

(* and rejected by ValueConstraintError, never by a built-in exception, otherwise *)
Theorem ceval_rejects_cleanly c idx x :
  wf c = true -> typed c idx x = true -> ~ denote c idx x -> ceval c idx x = Fail.
Proof.
  intros Hw Ht Hn. destruct (ceval_decides c idx x Hw Ht) as [[E D]|[E D]]; [contradiction|exact E].
Qed.

Theorem ceval_no_crash c idx x k :
  wf c = true -> typed c idx x = true -> ceval c idx x <> Crash k.
Proof.
  intros Hw Ht. destruct (ceval_decides c idx x Hw Ht) as [[-> D]|[-> D]]; discriminate.
Qed.
