(* Round trip under every encoder mode (C01/C02), part B: the decoder's component loops on what the
   encoder wrote - indefinite-length SEQUENCE OF / SET OF (closed by 00 00), and segmented
   OCTET STRING / character string / BIT STRING contents in definite and indefinite form. *)
From Coq Require Import Lia.
From PV Require Import Base.Bytes Model.Tag Model.TableTypes Model.Types Model.Proc Model.Enc Model.Dec Gen.Tables
     Proofs.ProcBind Proofs.RunLemmas Proofs.TagOctets Proofs.TagAlgebra Proofs.DecHeader Proofs.DecFrame Proofs.DecPrim
     Proofs.TagsetShape Proofs.Schemaless Proofs.RoundTrip1 Proofs.RoundTrip2 Proofs.RoundTripModesA.
Local Open Scope N_scope.

Section LoopsModes.
  Variable rec : spec -> tagset -> option (option N) -> bool -> bool -> proc dval.

  (* an element decodes wherever end-of-octets is or is not allowed *)
  Definition elem_ok_ae (t: ty) (p: bytes) (x': val) : Prop :=
    (forall ae, consumes (rec (STy t) [] None ae false) p (DV t x')) /\ (0 < length p)%nat.

  Lemma elem_ok_of_ae t p x' : elem_ok_ae t p x' -> elem_ok rec t p x'.
  Proof. intros [H Hl]. split; [exact (H false)|exact Hl]. Qed.

  Lemma Forall2_elem_ok_of_ae t parts xs' : Forall2 (elem_ok_ae t) parts xs' -> Forall2 (elem_ok rec t) parts xs'.
  Proof. induction 1; constructor; [apply elem_ok_of_ae; assumption|assumption]. Qed.

  (* 00 00 where end-of-octets is allowed *)
  Definition eoo_ok : Prop :=
    forall sp sfun s tl, avail s = [0; 0] ++ tl -> resume (rec sp [] None true sfun) s = inr (Ok DEoo, adv s 2).

  Hypothesis Heoo : eoo_ok.
  Lemma listof_indef_run T t : forall parts xs',
    Forall2 (elem_ok_ae t) parts xs' ->
    forall n acc start s tl,
      (length parts < n)%nat ->
      avail s = concat parts ++ [0; 0] ++ tl ->
      exists s', resume (listof_loop rec T t None start n acc) s = inr (Ok (DV T (VList (acc ++ xs'))), s')
        /\ pos s' = (pos s + length (concat parts) + 2)%nat /\ arrived s' = arrived s /\ closed s' = closed s.
  Proof.
    intros parts xs' HF. induction HF as [|p x' parts xs' [Hp Hpl] HF IH]; intros n acc start s tl Hn Hav.
    - destruct n as [|n']; [cbn [length] in Hn; lia|].
      cbn [listof_loop]. cbv zeta. rewrite resume_tell. cbn [negb].
      cbn [concat app] in Hav.
      rewrite (resume_pbind_done _ _ _ _ _ (Heoo (STy t) false s tl Hav)). cbn [resume].
      exists (adv s 2). rewrite app_nil_r. cbn [concat length]. rewrite pos_adv. repeat split. lia.
    - destruct n as [|n']; [cbn [length] in Hn; lia|].
      cbn [listof_loop]. cbv zeta. rewrite resume_tell. cbn [negb].
      cbn [concat] in Hav. rewrite <- app_assoc in Hav.
      destruct (Hp true s _ Hav) as (s1 & Hrun & Hpos & Harr & Hcl).
      rewrite (resume_pbind_done _ _ _ _ _ Hrun).
      pose proof (consumes_avail p s _ s1 Hav Hpos Harr) as Hav1.
      cbn [length] in Hn.
      destruct (IH n' (acc ++ [x']) start s1 tl ltac:(lia) Hav1) as (s2 & Hrun2 & Hpos2 & Harr2 & Hcl2).
      exists s2. rewrite Hrun2. rewrite <- app_assoc. cbn [app concat]. rewrite app_length.
      split; [reflexivity|]. split; [lia|]. split; congruence.
  Qed.

  Lemma dec_listof_indef_consumes lf T t parts xs' :
    Forall2 (elem_ok_ae t) parts xs' -> (length parts < lf)%nat ->
    consumes (dec_listof rec lf T t None) (concat parts ++ [0; 0]) (DV T (VList xs')).
  Proof.
    intros HF Hlf s tl Hav. unfold dec_listof. rewrite resume_tell. rewrite <- app_assoc in Hav.
    destruct (listof_indef_run T t parts xs' HF lf [] (pos s) s tl Hlf Hav) as (s' & Hrun & Hpos & Harr & Hcl).
    exists s'. rewrite Hrun. cbn [app]. rewrite app_length. cbn [length]. repeat split; try assumption. lia.
  Qed.

  (* p is one segment of a constructed OCTET STRING holding [piece]: read with the fragment collector in force
     (substrateFun, as octets_loop does), where end-of-octets is allowed (ae) or not *)
  Definition frag_o (ae: bool) (piece p: bytes) : Prop :=
    consumes (rec (STy TOcts) [] None ae true) p (DV TOcts (VOcts piece)) /\ (0 < length p)%nat.

  Lemma octets_loop_run proto sp ts : forall pieces ps,
    Forall2 (frag_o false) pieces ps ->
    forall n acc start total s tl,
      (length pieces < n)%nat ->
      avail s = concat ps ++ tl ->
      (start <= pos s)%nat ->
      (pos s - start + length (concat ps) = total)%nat ->
      exists s', resume (octets_loop rec proto sp ts (N.of_nat total) start n acc) s
                 = resume (create sp proto ts (VOcts (acc ++ concat pieces))) s'
        /\ pos s' = (pos s + length (concat ps))%nat /\ arrived s' = arrived s /\ closed s' = closed s.
  Proof.
    intros pieces ps HF. induction HF as [|piece p pieces ps [Hp Hpl] HF IH]; intros n acc start total s tl Hn Hav Hst Htot.
    - destruct n as [|n']; [cbn [length] in Hn; lia|].
      cbn [octets_loop]. rewrite resume_tell.
      cbn [concat length] in Htot.
      destruct (N.ltb_spec (N.of_nat (pos s - start)) (N.of_nat total)) as [Hlt|_]; [lia|].
      exists s. cbn [concat length]. rewrite app_nil_r. repeat split. lia.
    - destruct n as [|n']; [cbn [length] in Hn; lia|].
      cbn [octets_loop]. rewrite resume_tell.
      cbn [concat] in Htot, Hav. rewrite app_length in Htot.
      destruct (N.ltb_spec (N.of_nat (pos s - start)) (N.of_nat total)) as [_|Hge]; [|lia].
      unfold fragment. rewrite <- app_assoc in Hav.
      destruct (Hp s _ Hav) as (s1 & Hrun & Hpos & Harr & Hcl).
      rewrite (resume_pbind_done _ _ _ _ _ Hrun).
      pose proof (consumes_avail p s _ s1 Hav Hpos Harr) as Hav1.
      cbn [length] in Hn.
      destruct (IH n' (acc ++ piece) start total s1 tl ltac:(lia) Hav1 ltac:(lia) ltac:(lia)) as (s2 & Hrun2 & Hpos2 & Harr2 & Hcl2).
      exists s2. rewrite Hrun2. rewrite <- app_assoc. cbn [concat]. rewrite app_length.
      split; [reflexivity|]. split; [lia|]. split; congruence.
  Qed.

  Lemma octets_indef_run proto sp ts : forall pieces ps,
    Forall2 (frag_o true) pieces ps ->
    forall n acc s tl,
      (length pieces < n)%nat ->
      avail s = concat ps ++ [0; 0] ++ tl ->
      exists s', resume (octets_indef_loop rec proto sp ts n acc) s
                 = resume (create sp proto ts (VOcts (acc ++ concat pieces))) s'
        /\ pos s' = (pos s + length (concat ps) + 2)%nat /\ arrived s' = arrived s /\ closed s' = closed s.
  Proof.
    intros pieces ps HF. induction HF as [|piece p pieces ps [Hp Hpl] HF IH]; intros n acc s tl Hn Hav.
    - destruct n as [|n']; [cbn [length] in Hn; lia|].
      cbn [octets_indef_loop]. unfold fragment. cbn [concat app] in Hav.
      rewrite (resume_pbind_done _ _ _ _ _ (Heoo (STy TOcts) true s tl Hav)).
      exists (adv s 2). cbn [concat length]. rewrite app_nil_r, pos_adv. repeat split. lia.
    - destruct n as [|n']; [cbn [length] in Hn; lia|].
      cbn [octets_indef_loop]. unfold fragment.
      cbn [concat] in Hav. rewrite <- app_assoc in Hav.
      destruct (Hp s _ Hav) as (s1 & Hrun & Hpos & Harr & Hcl).
      rewrite (resume_pbind_done _ _ _ _ _ Hrun).
      pose proof (consumes_avail p s _ s1 Hav Hpos Harr) as Hav1.
      cbn [length] in Hn.
      destruct (IH n' (acc ++ piece) s1 tl ltac:(lia) Hav1) as (s2 & Hrun2 & Hpos2 & Harr2 & Hcl2).
      exists s2. rewrite Hrun2. rewrite <- app_assoc. cbn [concat]. rewrite app_length.
      split; [reflexivity|]. split; [lia|]. split; congruence.
  Qed.

  (* the same for BIT STRING, whose segments are decoded as values (no collector, as bits_loop does) *)
  Definition frag_b (ae: bool) (piece: list bool) (p: bytes) : Prop :=
    consumes (rec (STy TBits) [] None ae false) p (DV TBits (VBits piece)) /\ (0 < length p)%nat.

  Lemma bits_loop_run sp ts : forall pieces ps,
    Forall2 (frag_b false) pieces ps ->
    forall n acc start total s tl,
      (length pieces < n)%nat ->
      avail s = concat ps ++ tl ->
      (start <= pos s)%nat ->
      (pos s - start + length (concat ps) = total)%nat ->
      exists s', resume (bits_loop rec sp ts (N.of_nat total) start n acc) s
                 = resume (create sp TBits ts (VBits (acc ++ concat pieces))) s'
        /\ pos s' = (pos s + length (concat ps))%nat /\ arrived s' = arrived s /\ closed s' = closed s.
  Proof.
    intros pieces ps HF. induction HF as [|piece p pieces ps [Hp Hpl] HF IH]; intros n acc start total s tl Hn Hav Hst Htot.
    - destruct n as [|n']; [cbn [length] in Hn; lia|].
      cbn [bits_loop]. rewrite resume_tell.
      cbn [concat length] in Htot.
      destruct (N.ltb_spec (N.of_nat (pos s - start)) (N.of_nat total)) as [Hlt|_]; [lia|].
      exists s. cbn [concat length]. rewrite app_nil_r. repeat split. lia.
    - destruct n as [|n']; [cbn [length] in Hn; lia|].
      cbn [bits_loop]. rewrite resume_tell.
      cbn [concat] in Htot, Hav. rewrite app_length in Htot.
      destruct (N.ltb_spec (N.of_nat (pos s - start)) (N.of_nat total)) as [_|Hge]; [|lia].
      unfold bits_fragment. rewrite <- app_assoc in Hav.
      destruct (Hp s _ Hav) as (s1 & Hrun & Hpos & Harr & Hcl).
      rewrite (resume_pbind_done _ _ _ _ _ Hrun). cbn [add_bits_fragment pbind].
      pose proof (consumes_avail p s _ s1 Hav Hpos Harr) as Hav1.
      cbn [length] in Hn.
      destruct (IH n' (acc ++ piece) start total s1 tl ltac:(lia) Hav1 ltac:(lia) ltac:(lia)) as (s2 & Hrun2 & Hpos2 & Harr2 & Hcl2).
      exists s2. rewrite Hrun2. rewrite <- app_assoc. cbn [concat]. rewrite app_length.
      split; [reflexivity|]. split; [lia|]. split; congruence.
  Qed.

  Lemma bits_indef_run sp ts : forall pieces ps,
    Forall2 (frag_b true) pieces ps ->
    forall n acc s tl,
      (length pieces < n)%nat ->
      avail s = concat ps ++ [0; 0] ++ tl ->
      exists s', resume (bits_indef_loop rec sp ts n acc) s
                 = resume (create sp TBits ts (VBits (acc ++ concat pieces))) s'
        /\ pos s' = (pos s + length (concat ps) + 2)%nat /\ arrived s' = arrived s /\ closed s' = closed s.
  Proof.
    intros pieces ps HF. induction HF as [|piece p pieces ps [Hp Hpl] HF IH]; intros n acc s tl Hn Hav.
    - destruct n as [|n']; [cbn [length] in Hn; lia|].
      cbn [bits_indef_loop]. unfold bits_fragment. cbn [concat app] in Hav.
      rewrite (resume_pbind_done _ _ _ _ _ (Heoo (STy TBits) false s tl Hav)).
      exists (adv s 2). cbn [concat length]. rewrite app_nil_r, pos_adv. repeat split. lia.
    - destruct n as [|n']; [cbn [length] in Hn; lia|].
      cbn [bits_indef_loop]. unfold bits_fragment.
      cbn [concat] in Hav. rewrite <- app_assoc in Hav.
      destruct (Hp s _ Hav) as (s1 & Hrun & Hpos & Harr & Hcl).
      rewrite (resume_pbind_done _ _ _ _ _ Hrun). cbn [add_bits_fragment pbind].
      pose proof (consumes_avail p s _ s1 Hav Hpos Harr) as Hav1.
      cbn [length] in Hn.
      destruct (IH n' (acc ++ piece) s1 tl ltac:(lia) Hav1) as (s2 & Hrun2 & Hpos2 & Harr2 & Hcl2).
      exists s2. rewrite Hrun2. rewrite <- app_assoc. cbn [concat]. rewrite app_length.
      split; [reflexivity|]. split; [lia|]. split; congruence.
  Qed.

End LoopsModes.
