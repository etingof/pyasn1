(* INTEGER content octets.
   - [be_bytes] / [be_num]: k big-endian octets of n read back as n;
   - [twos_bytes] (the model of int.to_bytes(..., signed=True) with pyasn1's length computation)
     followed by [from_bytes_signed] (int.from_bytes(..., signed=True)) is the identity on Z;
   - the octets are the minimal two's complement form of X.690 8.3.2;
   - the independent reference [Spec.X690.int_contents] coincides with [enc_integer false], and
     [Spec.X690.signed_value] with [from_bytes_signed] on octet strings. *)
From Coq Require Import Lia.
From PV Require Import Base.Bytes Model.Tag Model.Enc Model.Dec Spec.X690 Proofs.Bits Proofs.TagOctets.
Local Open Scope N_scope.

Lemma pow256_succ k : 256 ^ N.of_nat (S k) = 256 * 256 ^ N.of_nat k.
Proof. rewrite Nat2N.inj_succ, N.pow_succ_r'. reflexivity. Qed.

Lemma pow256_pos k : 0 < 256 ^ N.of_nat k.
Proof. apply N.neq_0_lt_0. apply N.pow_nonzero. discriminate. Qed.

Theorem be_bytes_length : forall k n, length (be_bytes k n) = k.
Proof.
  induction k as [|k IH]; intros n; cbn [be_bytes]; [reflexivity|].
  rewrite app_length, IH. cbn [length]. lia.
Qed.

Theorem be_bytes_bound : forall k n, Forall (fun x => x < 256) (be_bytes k n).
Proof.
  induction k as [|k IH]; intros n; cbn [be_bytes]; [constructor|].
  apply Forall_app. split; [apply IH|].
  constructor; [apply N.mod_lt; discriminate|constructor].
Qed.

Theorem be_bytes_bound_b : forall k n, forallb (fun x => N.ltb x 256) (be_bytes k n) = true.
Proof.
  intros k n. apply forallb_forall. intros x Hx.
  pose proof (be_bytes_bound k n) as H. rewrite Forall_forall in H.
  apply N.ltb_lt. apply H. assumption.
Qed.

Theorem be_num_be_bytes : forall k n, n < 256 ^ N.of_nat k -> be_num 0 (be_bytes k n) = n.
Proof.
  induction k as [|k IH]; intros n H.
  - change (256 ^ N.of_nat 0) with 1 in H. cbn [be_bytes be_num]. lia.
  - rewrite pow256_succ in H. cbn [be_bytes]. rewrite be_num_app.
    rewrite IH by (apply N.div_lt_upper_bound; [discriminate|assumption]).
    cbn [be_num]. rewrite lor_shl8 by (apply N.mod_lt; discriminate).
    pose proof (N.div_mod n 256). lia.
Qed.

(* The same octets by shifts.  [be_bytes] divides the whole number once per octet, which is quadratic on
   a number of thousands of bits, and the kernel's own reduction (all the independent checker has) then
   takes minutes; witnesses with contents that large rewrite to this form before they evaluate. *)
Fixpoint be_bytes_sh (k: nat) (n: N) : bytes :=
  match k with O => [] | S k' => be_bytes_sh k' (N.shiftr n 8) ++ [N.land n 255] end.

Lemma be_bytes_shift : forall k n, be_bytes k n = be_bytes_sh k n.
Proof.
  induction k as [|k IH]; intros n; cbn [be_bytes be_bytes_sh]; [reflexivity|].
  rewrite shiftr8, land255, IH. reflexivity.
Qed.

Lemma be_bytes_cons : forall k n,
  be_bytes (S k) n = (n / 256 ^ N.of_nat k) mod 256 :: be_bytes k (n mod 256 ^ N.of_nat k).
Proof.
  induction k as [|k IH]; intros n.
  - change (256 ^ N.of_nat 0) with 1. cbn [be_bytes app]. rewrite N.div_1_r. reflexivity.
  - change (be_bytes (S (S k)) n) with (be_bytes (S k) (n / 256) ++ [n mod 256]).
    rewrite IH. rewrite pow256_succ.
    set (P := 256 ^ N.of_nat k). assert (HP: P <> 0) by (apply N.pow_nonzero; discriminate).
    assert (H256: 256 <> 0) by discriminate.
    assert (E1: (n mod (256 * P)) / 256 = (n / 256) mod P).
    { rewrite N.mod_mul_r by assumption. rewrite N.mul_comm, N.div_add by assumption.
      rewrite (N.div_small (n mod 256)) by (apply N.mod_lt; assumption). reflexivity. }
    assert (E2: (n mod (256 * P)) mod 256 = n mod 256).
    { rewrite N.mod_mul_r by assumption. rewrite N.mul_comm, N.mod_add by assumption.
      apply N.mod_mod. assumption. }
    cbn [be_bytes app]. rewrite N.div_div by assumption. rewrite E1, E2. reflexivity.
Qed.

(* a (k+1)-octet string splits as leading octet * 256^k + the rest *)
Lemma be_bytes_split k n o r : n < 256 ^ N.of_nat (S k) -> be_bytes (S k) n = o :: r ->
  exists n', n = o * 256 ^ N.of_nat k + n' /\ n' < 256 ^ N.of_nat k /\ o < 256 /\ r = be_bytes k n'.
Proof.
  intros Hn E. rewrite be_bytes_cons in E. injection E as Ho Hr.
  rewrite pow256_succ in Hn.
  set (P := 256 ^ N.of_nat k) in *. assert (HP: P <> 0) by (apply N.pow_nonzero; discriminate).
  assert (Hq: n / P < 256) by (apply N.div_lt_upper_bound; [assumption|lia]).
  rewrite N.mod_small in Ho by assumption.
  exists (n mod P). repeat split.
  - subst o. pose proof (N.div_mod n P HP). lia.
  - apply N.mod_lt. assumption.
  - subst o. assumption.
  - symmetry. assumption.
Qed.

Lemma pow256_Z j : Z.of_N (256 ^ N.of_nat j) = (2 ^ (8 * Z.of_nat j))%Z.
Proof.
  rewrite N2Z.inj_pow, nat_N_Z. change (Z.of_N 256) with (2 ^ 8)%Z.
  rewrite <- Z.pow_mul_r by lia. reflexivity.
Qed.

Lemma pow2_8succ j : (2 ^ (8 * Z.of_nat (S j)) = 256 * 2 ^ (8 * Z.of_nat j))%Z.
Proof.
  replace (8 * Z.of_nat (S j))%Z with (8 + 8 * Z.of_nat j)%Z by lia.
  rewrite Z.pow_add_r by lia. reflexivity.
Qed.

Lemma pow2_8pred j : (2 ^ (8 * Z.of_nat (S j) - 1) = 128 * 2 ^ (8 * Z.of_nat j))%Z.
Proof.
  replace (8 * Z.of_nat (S j) - 1)%Z with (7 + 8 * Z.of_nat j)%Z by lia.
  rewrite Z.pow_add_r by lia. reflexivity.
Qed.

Lemma from_bytes_signed_be_bytes j n : n < 256 ^ N.of_nat (S j) ->
  from_bytes_signed (be_bytes (S j) n) =
  if N.ltb n (128 * 256 ^ N.of_nat j) then Z.of_N n
  else (Z.of_N n - 2 ^ (8 * Z.of_nat (S j)))%Z.
Proof.
  intros Hn.
  remember (be_bytes (S j) n) as b eqn:Hb.
  destruct b as [|o r].
  { rewrite be_bytes_cons in Hb. discriminate. }
  symmetry in Hb. destruct (be_bytes_split j n o r Hn Hb) as (n' & En & Hn' & Ho & _).
  unfold from_bytes_signed. cbv zeta. rewrite <- Hb.
  rewrite be_num_be_bytes by assumption. rewrite be_bytes_length.
  set (P := 256 ^ N.of_nat j) in *.
  assert (Hlt: N.ltb o 128 = N.ltb n (128 * P)).
  { destruct (N.ltb_spec o 128) as [H|H]; destruct (N.ltb_spec n (128 * P)) as [H'|H'];
      try reflexivity; exfalso.
    - assert (o * P <= 127 * P) by (apply N.mul_le_mono_r; lia). lia.
    - assert (128 * P <= o * P) by (apply N.mul_le_mono_r; lia). lia. }
  rewrite Hlt. reflexivity.
Qed.

(* the magnitude whose bit length decides the number of octets (-z-1 for a negative z), and that
   number as twos_bytes computes it *)
Definition mag (z: Z) : Z := if Z.ltb z 0 then (- z - 1)%Z else z.
Definition nbytes (z: Z) : Z := (bit_length (mag z) / 8 + 1)%Z.

Lemma mag_nonneg z : (0 <= mag z)%Z.
Proof. unfold mag. destruct (Z.ltb_spec z 0); lia. Qed.

Lemma nb_simpl bits :
  (let len := if Z.eqb (bits mod 8) 0 then (bits + 1)%Z else bits in
   len / 8 + (if Z.eqb (len mod 8) 0 then 0 else 1))%Z = (bits / 8 + 1)%Z.
Proof.
  cbv zeta. destruct (Z.eqb_spec (bits mod 8) 0) as [E|E].
  - assert (((bits + 1) mod 8 = 1)%Z /\ ((bits + 1) / 8 = bits / 8)%Z) as [E1 E2].
    { pose proof (Z.div_mod bits 8). pose proof (Z.div_mod (bits + 1) 8).
      pose proof (Z.mod_pos_bound (bits + 1) 8). lia. }
    rewrite E1, E2. reflexivity.
  - destruct (Z.eqb_spec (bits mod 8) 0); [contradiction|]. reflexivity.
Qed.

Lemma twos_bytes_eq z :
  twos_bytes z = be_bytes (Z.to_nat (nbytes z)) (Z.to_N (z mod 2 ^ (8 * nbytes z))).
Proof.
  unfold twos_bytes, nbytes, mag. cbv zeta.
  destruct (Z.ltb z 0).
  - pose proof (nb_simpl (bit_length (- z - 1))) as E. cbv zeta in E. rewrite E. reflexivity.
  - pose proof (nb_simpl (bit_length z)) as E. cbv zeta in E. rewrite E. reflexivity.
Qed.

Lemma bit_length_spec m : (0 <= m)%Z ->
  (0 <= bit_length m)%Z /\ (m < 2 ^ bit_length m)%Z /\
  (0 < bit_length m -> 2 ^ (bit_length m - 1) <= m)%Z.
Proof.
  intros Hm. unfold bit_length. destruct (Z.eqb_spec m 0) as [->|Hz].
  - repeat split; try lia; try reflexivity.
  - assert (Hp: (0 < m)%Z) by lia.
    pose proof (Z.log2_spec m Hp) as [H1 H2]. pose proof (Z.log2_nonneg m).
    repeat split; try lia.
    intros _. replace (Z.log2 m + 1 - 1)%Z with (Z.log2 m) by lia. assumption.
Qed.

(* nbytes z is the least k >= 1 with mag z < 2^(8k-1) *)
Lemma nbytes_spec z :
  (1 <= nbytes z)%Z /\ (mag z < 2 ^ (8 * nbytes z - 1))%Z /\
  (2 <= nbytes z -> 2 ^ (8 * nbytes z - 9) <= mag z)%Z.
Proof.
  pose proof (bit_length_spec (mag z) (mag_nonneg z)) as (Hb0 & Hb1 & Hb2).
  unfold nbytes. set (b := bit_length (mag z)) in *.
  pose proof (Z.div_mod b 8). pose proof (Z.mod_pos_bound b 8).
  assert (0 <= b / 8)%Z by (apply Z.div_pos; lia).
  repeat split.
  - lia.
  - apply Z.lt_le_trans with (2 ^ b)%Z; [assumption|].
    apply Z.pow_le_mono_r; lia.
  - intros Hk. apply Z.le_trans with (2 ^ (b - 1))%Z; [|apply Hb2; lia].
    apply Z.pow_le_mono_r; lia.
Qed.

Lemma twos_bytes_shift z :
  twos_bytes z = be_bytes_sh (Z.to_nat (nbytes z)) (Z.to_N (Z.land z (Z.ones (8 * nbytes z)))).
Proof.
  rewrite twos_bytes_eq, be_bytes_shift, Z.land_ones; [reflexivity|].
  pose proof (nbytes_spec z). lia.
Qed.

(* the shape of twos_bytes z: j+1 octets of z (or z + 256^(j+1) when negative), j least *)
Lemma twos_shape z : exists j,
  twos_bytes z = be_bytes (S j) (Z.to_N (if Z.ltb z 0 then z + 256 * 2 ^ (8 * Z.of_nat j) else z)%Z) /\
  (mag z < 128 * 2 ^ (8 * Z.of_nat j))%Z /\
  (forall i, j = S i -> 128 * 2 ^ (8 * Z.of_nat i) <= mag z)%Z /\
  nbytes z = Z.of_nat (S j).
Proof.
  pose proof (nbytes_spec z) as (H1 & H2 & H3).
  exists (Z.to_nat (nbytes z - 1)).
  set (j := Z.to_nat (nbytes z - 1)).
  assert (Ek: nbytes z = Z.of_nat (S j)) by (unfold j; lia).
  rewrite twos_bytes_eq. rewrite Ek in *. rewrite Nat2Z.id.
  rewrite pow2_8pred in H2. rewrite pow2_8succ.
  set (Q := (2 ^ (8 * Z.of_nat j))%Z) in *.
  assert (HQ: (0 < Q)%Z) by (apply Z.pow_pos_nonneg; lia).
  repeat split; try assumption.
  - f_equal. f_equal. unfold mag in H2. destruct (Z.ltb_spec z 0) as [Hz|Hz].
    + symmetry. apply Z.mod_unique_pos with (q := (-1)%Z); lia.
    + apply Z.mod_small. lia.
  - intros i Ei. rewrite Ei in H3.
    replace (8 * Z.of_nat (S (S i)) - 9)%Z with (8 * Z.of_nat (S i) - 1)%Z in H3 by lia.
    rewrite pow2_8pred in H3. apply H3. lia.
Qed.

Theorem twos_roundtrip : forall z, from_bytes_signed (twos_bytes z) = z.
Proof.
  intros z. destruct (twos_shape z) as (j & E & Hm & _ & _). rewrite E.
  pose proof (pow256_Z j) as HP.
  set (Q := (2 ^ (8 * Z.of_nat j))%Z) in *.
  assert (HQ: (0 < Q)%Z) by (apply Z.pow_pos_nonneg; lia).
  set (n := Z.to_N (if Z.ltb z 0 then z + 256 * Q else z)%Z).
  assert (Hn: n < 256 ^ N.of_nat (S j)).
  { rewrite pow256_succ. unfold n, mag in *. destruct (Z.ltb_spec z 0); lia. }
  rewrite from_bytes_signed_be_bytes by assumption.
  rewrite pow2_8succ. fold Q.
  unfold n, mag in *.
  destruct (Z.ltb_spec z 0) as [Hz|Hz];
    match goal with |- context [N.ltb ?a ?b] => destruct (N.ltb_spec a b) end; lia.
Qed.

Theorem twos_nonempty : forall z, twos_bytes z <> [].
Proof.
  intros z. destruct (twos_shape z) as (j & E & _). rewrite E, be_bytes_cons. discriminate.
Qed.

Lemma twos_bytes_0 : twos_bytes 0 = [0].
Proof. reflexivity. Qed.

Theorem enc_integer_roundtrip : forall cz z, (cz = false \/ z <> 0%Z) ->
  from_bytes_signed (enc_integer cz z) = z.
Proof.
  intros cz z H. unfold enc_integer. destruct (Z.eqb_spec z 0) as [->|Hz].
  - destruct H as [->|H]; [reflexivity|contradiction].
  - apply twos_roundtrip.
Qed.

Theorem enc_integer_roundtrip_compact : from_bytes_signed (enc_integer true 0) = 0%Z.
Proof. reflexivity. Qed.

(* so the round trip holds for every flag and every z *)
Corollary enc_integer_roundtrip_all : forall cz z, from_bytes_signed (enc_integer cz z) = z.
Proof.
  intros cz z. destruct (Z.eq_dec z 0) as [->|Hz].
  - destruct cz; reflexivity.
  - apply enc_integer_roundtrip. right. assumption.
Qed.

Lemma enc_integer_false z : enc_integer false z = twos_bytes z.
Proof. unfold enc_integer. destruct (Z.eqb_spec z 0) as [->|_]; reflexivity. Qed.

(* X.690 8.3.2: the first nine bits are neither all zero nor all one *)
Theorem twos_minimal : forall z o1 o2 r, twos_bytes z = o1 :: o2 :: r ->
  ~ (o1 = 0 /\ o2 < 128)%N /\ ~ (o1 = 255 /\ 128 <= o2)%N.
Proof.
  intros z o1 o2 r Ht. destruct (twos_shape z) as (j & E & Hm & Hmin & _).
  rewrite Ht in E. symmetry in E.
  assert (Hl: length (o1 :: o2 :: r) = S j) by (rewrite <- E; apply be_bytes_length).
  cbn [length] in Hl. destruct j as [|i]; [discriminate|].
  specialize (Hmin i eq_refl).
  rewrite pow2_8succ in *.
  pose proof (pow256_Z i) as HP.
  set (Q := (2 ^ (8 * Z.of_nat i))%Z) in *.
  assert (HQ: (0 < Q)%Z) by (apply Z.pow_pos_nonneg; lia).
  set (n := Z.to_N (if Z.ltb z 0 then z + 256 * (256 * Q) else z)%Z) in *.
  assert (Hn: n < 256 ^ N.of_nat (S (S i))).
  { rewrite !pow256_succ. unfold n, mag in *. destruct (Z.ltb_spec z 0); lia. }
  destruct (be_bytes_split _ _ _ _ Hn E) as (n1 & En & Hn1 & Ho1 & E1).
  symmetry in E1.
  destruct (be_bytes_split _ _ _ _ Hn1 E1) as (n2 & En1 & Hn2 & Ho2 & _).
  rewrite pow256_succ in *.
  set (P := 256 ^ N.of_nat i) in *.
  split; intros [H1 H2].
  - subst o1. assert (o2 * P <= 127 * P) by (apply N.mul_le_mono_r; lia).
    unfold n, mag in *. destruct (Z.ltb_spec z 0); lia.
  - subst o1. assert (128 * P <= o2 * P) by (apply N.mul_le_mono_r; lia).
    unfold n, mag in *. destruct (Z.ltb_spec z 0); lia.
Qed.

Lemma octets_of_N_is_be_bytes : forall k n, octets_of_N k n = be_bytes k n.
Proof.
  induction k as [|k IH]; intros n; [reflexivity|].
  cbn [octets_of_N be_bytes]. rewrite IH. reflexivity.
Qed.

(* z fits k octets of two's complement: the test Spec.X690.int_octets_count searches with *)
Definition fits (k: nat) (z: Z) : bool :=
  (Z.leb (- 2 ^ (8 * Z.of_nat k - 1)) z && Z.ltb z (2 ^ (8 * Z.of_nat k - 1)))%bool.

Lemma fits_mag k z : fits k z = Z.ltb (mag z) (2 ^ (8 * Z.of_nat k - 1)).
Proof.
  unfold fits, mag. set (h := (2 ^ (8 * Z.of_nat k - 1))%Z).
  assert (0 <= h)%Z by (apply Z.pow_nonneg; lia).
  apply eq_true_iff_eq. rewrite andb_true_iff, Z.leb_le, !Z.ltb_lt.
  destruct (Z.ltb_spec z 0); lia.
Qed.

Lemma count_least z nb : (forall j, (1 <= j < nb)%nat -> fits j z = false) -> fits nb z = true ->
  forall fuel k, (1 <= k <= nb)%nat -> (nb - k < fuel)%nat -> int_octets_count fuel k z = nb.
Proof.
  intros Hlo Hnb. induction fuel as [|f IH]; intros k Hk Hf; [lia|].
  cbn [int_octets_count]. cbv zeta. change ((if fits k z then k else int_octets_count f (S k) z) = nb).
  destruct (Nat.eq_dec k nb) as [->|Hne].
  - rewrite Hnb. reflexivity.
  - rewrite Hlo by lia. apply IH; lia.
Qed.

Lemma int_octets_count_nbytes z :
  int_octets_count (S (Z.to_nat (Z.log2 (Z.abs z + 1)))) 1 z = Z.to_nat (nbytes z).
Proof.
  pose proof (nbytes_spec z) as (H1 & H2 & H3).
  apply count_least.
  - intros j Hj. rewrite fits_mag. apply Z.ltb_ge.
    apply Z.le_trans with (2 ^ (8 * nbytes z - 9))%Z; [|apply H3; lia].
    apply Z.pow_le_mono_r; lia.
  - rewrite fits_mag. apply Z.ltb_lt. rewrite Z2Nat.id by lia. assumption.
  - lia.
  - (* fuel *)
    assert (nbytes z - 1 <= Z.log2 (Z.abs z + 1))%Z; [|pose proof (Z.log2_nonneg (Z.abs z + 1)); lia].
    unfold nbytes, bit_length. destruct (Z.eqb_spec (mag z) 0) as [E|E].
    + pose proof (Z.log2_nonneg (Z.abs z + 1)). change (0 / 8)%Z with 0%Z. lia.
    + pose proof (mag_nonneg z).
      assert (Z.log2 (mag z) <= Z.log2 (Z.abs z + 1))%Z.
      { apply Z.log2_le_mono. unfold mag. destruct (Z.ltb_spec z 0); lia. }
      pose proof (Z.log2_nonneg (mag z)).
      pose proof (Z.div_mod (Z.log2 (mag z) + 1) 8).
      pose proof (Z.mod_pos_bound (Z.log2 (mag z) + 1) 8). lia.
Qed.

Theorem int_contents_is_enc_integer : forall z, int_contents z = enc_integer false z.
Proof.
  intros z. rewrite enc_integer_false, twos_bytes_eq. unfold int_contents. cbv zeta.
  rewrite int_octets_count_nbytes, octets_of_N_is_be_bytes.
  pose proof (nbytes_spec z) as (H1 & _). rewrite Z2Nat.id by lia. reflexivity.
Qed.

Lemma octets_value_is_be_num : forall b acc, forallb (fun x => N.ltb x 256) b = true ->
  octets_value acc b = be_num acc b.
Proof.
  induction b as [|o r IH]; intros acc H; [reflexivity|].
  cbn [forallb] in H. apply andb_true_iff in H. destruct H as [Ho Hr]. apply N.ltb_lt in Ho.
  cbn [octets_value be_num]. rewrite lor_shl8 by assumption. apply IH. assumption.
Qed.

Theorem signed_value_is_from_bytes : forall b, forallb (fun x => N.ltb x 256) b = true ->
  signed_value b = from_bytes_signed b.
Proof.
  intros b H. unfold signed_value, from_bytes_signed. destruct b as [|o r]; [reflexivity|].
  cbv zeta. rewrite octets_value_is_be_num by assumption. reflexivity.
Qed.

(* the reference's reading inverts the reference's writing, and the model's *)
Corollary signed_value_int_contents : forall z, signed_value (int_contents z) = z.
Proof.
  intros z. rewrite int_contents_is_enc_integer, enc_integer_false.
  rewrite signed_value_is_from_bytes.
  - apply twos_roundtrip.
  - rewrite twos_bytes_eq. apply be_bytes_bound_b.
Qed.

Print Assumptions be_bytes_length.
Print Assumptions be_bytes_bound.
Print Assumptions be_num_be_bytes.
Print Assumptions twos_roundtrip.
Print Assumptions twos_nonempty.
Print Assumptions enc_integer_roundtrip.
Print Assumptions enc_integer_roundtrip_compact.
Print Assumptions twos_minimal.
Print Assumptions int_contents_is_enc_integer.
Print Assumptions signed_value_is_from_bytes.
Print Assumptions signed_value_int_contents.
