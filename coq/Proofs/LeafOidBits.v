(* Leaf content octets, OBJECT IDENTIFIER and BIT STRING:
   - the decoder's reading inverts the encoder's writing (for every arc list the encoder
     accepts, for every bit list of every length);
   - the independent reference of Spec/X690.v (8.19, 8.6) coincides with the model. *)
From Coq Require Import Lia NArith ZArith ZifyNat ZifyN.
From PV Require Import Base.Bytes Model.Tag Model.Enc Model.Dec Spec.X690
                       Proofs.Bits Proofs.TagOctets Proofs.SpecOctets Proofs.LeafInt.
Local Open Scope N_scope.

(* lia in this file meets / and mod by numerals *)
Local Ltac Zify.zify_post_hook ::= Z.div_mod_to_equations.

(* the inner loop of [oid_subids], with its continuation made a parameter *)
Definition more_gen (k: bytes -> res (list N)) :=
  fix more (fuel2: nat) (acc: N) (next: N) (r: bytes) : res (list N) :=
    match fuel2 with
    | O => Err EOutOfFuel
    | S f2 =>
        if N.leb 128 next then
          match r with
          | [] => Err EUnderrun
          | n' :: r' => more f2 (N.shiftl acc 7 + N.land next 127) n' r'
          end
        else do rest <- k r; Ok ((N.shiftl acc 7 + next) :: rest)
    end.

Lemma more_gen_S k f2 acc next r :
  more_gen k (S f2) acc next r =
  if N.leb 128 next then
    match r with
    | [] => Err EUnderrun
    | n' :: r' => more_gen k f2 (N.shiftl acc 7 + N.land next 127) n' r'
    end
  else do rest <- k r; Ok ((N.shiftl acc 7 + next) :: rest).
Proof. reflexivity. Qed.

Lemma oid_subids_S f s r :
  oid_subids (S f) (s :: r) =
  if N.ltb s 128 then do rest <- oid_subids f r; Ok (s :: rest)
  else if N.eqb s 128 then Err EMalformed
  else more_gen (oid_subids f) (S (length r)) 0 s r.
Proof. reflexivity. Qed.

(* whenever the first octet is not 0x80 the decoder's three-way test is the inner loop *)
Lemma oid_subids_head f s r : s <> 128 ->
  oid_subids (S f) (s :: r) = more_gen (oid_subids f) (S (length r)) 0 s r.
Proof.
  intros Hne. rewrite oid_subids_S, more_gen_S.
  destruct (N.ltb_spec s 128) as [Hlt|Hge].
  - destruct (N.leb_spec 128 s); [lia|]. rewrite N.shiftl_0_l, N.add_0_l. reflexivity.
  - destruct (N.eqb_spec s 128); [congruence|].
    destruct (N.leb_spec 128 s); [|lia]. reflexivity.
Qed.

(* on a well-shaped group (continuation octets then a last octet) the inner loop computes
   what [dec_b128] computes *)
Lemma more_gen_dec : forall r next, cont_then_last (next :: r) = true ->
  forall k fuel acc tail, (length (next :: r) <= fuel)%nat ->
  more_gen k fuel acc next (r ++ tail) =
  match dec_b128 acc ((next :: r) ++ tail) with
  | Some (v, t) => do rest <- k t; Ok (v :: rest)
  | None => Err EUnderrun
  end.
Proof.
  induction r as [|o2 r' IH]; intros next Hs k fuel acc tail Hf;
    (destruct fuel as [|f2]; [cbn [length] in Hf; lia|]); rewrite more_gen_S; cbn [app].
  - cbn [cont_then_last] in Hs. apply N.ltb_lt in Hs.
    destruct (N.leb_spec 128 next); [lia|].
    rewrite (dec_b128_last _ _ _ Hs), shiftl_mul. reflexivity.
  - change (cont_then_last (next :: o2 :: r'))
      with (N.leb 128 next && N.ltb next 256 && cont_then_last (o2 :: r')) in Hs.
    apply andb_prop in Hs as [[H1%N.leb_le H2%N.ltb_lt]%andb_prop Hr].
    destruct (N.leb_spec 128 next); [|lia].
    rewrite (IH o2 Hr) by (cbn [length] in Hf |- *; lia).
    replace next with (128 + (next - 128)) by lia.
    rewrite dec_b128_more, land127_hi, shiftl_mul by lia. reflexivity.
Qed.

Lemma b128_hi_0 fuel acc : b128_hi fuel 0 acc = acc.
Proof. destruct fuel; reflexivity. Qed.

Lemma b128_small n : n < 128 -> b128 n = [n].
Proof.
  intros H. unfold b128. rewrite shiftr7, land127, N.div_small, N.mod_small by assumption.
  apply b128_hi_0.
Qed.

Lemma b128_nonempty n : b128 n <> [].
Proof. intros H. pose proof (b128_shape n) as Hs. rewrite H in Hs. discriminate. Qed.

(* a sub-identifier never starts with 0x80 *)
Lemma b128_head n : exists s r, b128 n = s :: r /\ s <> 128.
Proof.
  destruct (N.lt_ge_cases n 128) as [Hlt|Hge].
  - exists n, []. split; [apply b128_small; assumption|lia].
  - apply b128_minimal; assumption.
Qed.

(* reading one sub-identifier followed by anything *)
Lemma oid_subids_b128_one n tail f :
  oid_subids (S f) (b128 n ++ tail) = do rest <- oid_subids f tail; Ok (n :: rest).
Proof.
  pose proof (b128_shape n) as Hs. pose proof (dec_b128_b128 n tail) as Hd.
  destruct (b128_head n) as (s & r & E & Hne). rewrite E in Hs, Hd |- *.
  rewrite <- app_comm_cons. rewrite oid_subids_head by assumption.
  rewrite (more_gen_dec r s Hs) by (cbn [length]; rewrite app_length; lia).
  rewrite Hd. reflexivity.
Qed.

Theorem oid_subids_b128 : forall subs fuel, (length subs < fuel)%nat ->
  oid_subids fuel (concat (map b128 subs)) = Ok subs.
Proof.
  induction subs as [|n subs IH]; intros fuel Hf.
  - destruct fuel; [lia|]. reflexivity.
  - destruct fuel as [|f]; [lia|]. cbn [map concat].
    rewrite oid_subids_b128_one. rewrite IH by (cbn [length] in Hf; lia). reflexivity.
Qed.

Lemma length_concat_b128 subs : (length subs <= length (concat (map b128 subs)))%nat.
Proof.
  induction subs as [|n subs IH]; [apply Nat.le_refl|].
  cbn [map concat length]. rewrite app_length.
  pose proof (b128_nonempty n). destruct (b128 n); [congruence|]. cbn [length]. lia.
Qed.

Lemma dec_oid_nonempty b : b <> [] ->
  dec_oid b = do subs <- oid_subids (S (length b)) b;
              match subs with
              | [] => Err (ECrash IndexError)
              | x :: r => if N.leb x 39 then Ok (0 :: x :: r)
                          else if N.leb x 79 then Ok (1 :: (x - 40) :: r)
                          else Ok (2 :: (x - 80) :: r)
              end.
Proof. destruct b; [congruence|reflexivity]. Qed.

(* the decoder on what the encoder writes for a non-empty list of sub-identifiers *)
Lemma dec_oid_subs x rest :
  dec_oid (concat (map b128 (x :: rest))) =
  if N.leb x 39 then Ok (0 :: x :: rest)
  else if N.leb x 79 then Ok (1 :: (x - 40) :: rest)
  else Ok (2 :: (x - 80) :: rest).
Proof.
  rewrite dec_oid_nonempty.
  - rewrite oid_subids_b128; [reflexivity|].
    pose proof (length_concat_b128 (x :: rest)). lia.
  - cbn [map concat]. intros H. apply app_eq_nil in H. destruct H as [H _].
    exact (b128_nonempty x H).
Qed.

Lemma oid_first_inv arcs subs : oid_first arcs = Ok subs ->
  exists first second rest x, arcs = first :: second :: rest /\ subs = x :: rest /\
    ((first = 0 /\ second <= 39 /\ x = second) \/
     (first = 1 /\ second <= 39 /\ x = second + 40) \/
     (first = 2 /\ x = second + 80)).
Proof.
  destruct arcs as [|first [|second rest]]; try discriminate.
  unfold oid_first. intros H.
  destruct (N.leb_spec second 39) as [H39|H39].
  - destruct (N.eqb_spec first 1) as [->|N1].
    { injection H as <-. exists 1, second, rest, (second + 40). repeat split; auto. }
    destruct (N.eqb_spec first 0) as [->|N0].
    { injection H as <-. exists 0, second, rest, second. repeat split; auto. }
    destruct (N.eqb_spec first 2) as [->|N2]; [|discriminate].
    injection H as <-. exists 2, second, rest, (second + 80). repeat split; auto.
  - destruct (N.eqb_spec first 2) as [->|N2]; [|discriminate].
    injection H as <-. exists 2, second, rest, (second + 80). repeat split; auto.
Qed.

Theorem oid_roundtrip : forall arcs b, enc_oid arcs = Ok b -> dec_oid b = Ok arcs.
Proof.
  intros arcs b. unfold enc_oid.
  destruct (oid_first arcs) as [subs|e] eqn:E; cbn [bind]; [|discriminate].
  intros H. injection H as <-.
  destruct (oid_first_inv _ _ E) as (first & second & rest & x & -> & -> & Hc).
  rewrite dec_oid_subs.
  destruct Hc as [(-> & H39 & ->)|[(-> & H39 & ->)|(-> & ->)]].
  - destruct (N.leb_spec second 39); [reflexivity|lia].
  - destruct (N.leb_spec (second + 40) 39); [lia|].
    destruct (N.leb_spec (second + 40) 79); [|lia].
    replace (second + 40 - 40) with second by lia. reflexivity.
  - destruct (N.leb_spec (second + 80) 39); [lia|].
    destruct (N.leb_spec (second + 80) 79); [lia|].
    replace (second + 80 - 80) with second by lia. reflexivity.
Qed.

Lemma subid_octets_is_b128 n : subid_octets n = b128 n.
Proof. unfold subid_octets. apply digits_of_128_is_b128. Qed.

Theorem oid_contents_is_enc_oid : forall arcs,
  oid_contents arcs = match enc_oid arcs with Ok b => Some b | Err _ => None end.
Proof.
  intros arcs.
  assert (Hm: forall l, map subid_octets l = map b128 l)
    by (intros l; apply map_ext; intros; apply subid_octets_is_b128).
  destruct arcs as [|a1 [|a2 rest]]; try reflexivity.
  unfold oid_contents, enc_oid, oid_first. rewrite Hm.
  destruct (N.leb_spec a2 39) as [H39|H39];
    destruct (N.eqb_spec a1 1) as [E1|E1]; destruct (N.eqb_spec a1 0) as [E0|E0];
    destruct (N.eqb_spec a1 2) as [E2|E2]; destruct (N.leb_spec a1 2) as [L2|L2];
    try lia; cbn [andb orb bind]; try reflexivity; subst a1.
  all: try (replace (40 * 1 + a2) with (a2 + 40) by lia; reflexivity).
  all: try (replace (40 * 0 + a2) with a2 by lia; reflexivity).
  all: try (replace (40 * 2 + a2) with (a2 + 80) by lia; reflexivity).
Qed.

Lemma N_to_bits_length k : forall n, length (N_to_bits k n) = k.
Proof.
  induction k as [|k IH]; intros n; cbn [N_to_bits]; [reflexivity|].
  rewrite app_length, IH. cbn [length]. lia.
Qed.

Lemma pow2_nz k : 2 ^ k <> 0.
Proof. apply N.pow_nonzero. discriminate. Qed.

(* only the low k bits matter *)
Lemma N_to_bits_mod k : forall n, N_to_bits k (n mod 2 ^ N.of_nat k) = N_to_bits k n.
Proof.
  induction k as [|k IH]; intros n; [reflexivity|].
  cbn [N_to_bits]. f_equal.
  - rewrite <- (IH (n / 2)). f_equal.
    rewrite Nat2N.inj_succ, N.pow_succ_r'.
    rewrite N.mod_mul_r by (try apply pow2_nz; discriminate).
    rewrite N.add_comm, N.mul_comm, N.div_add_l by discriminate.
    rewrite (N.div_small (n mod 2)) by (apply N.mod_lt; discriminate).
    apply N.add_0_r.
  - f_equal. rewrite <- !N.bit0_odd. apply N.mod_pow2_bits_low. lia.
Qed.

Lemma N_to_bits_app a : forall b n,
  N_to_bits (a + b) n = N_to_bits a (n / 2 ^ N.of_nat b) ++ N_to_bits b n.
Proof.
  induction b as [|b IH]; intros n.
  - rewrite Nat.add_0_r. cbn [N_to_bits N.of_nat]. rewrite N.pow_0_r, N.div_1_r, app_nil_r. reflexivity.
  - rewrite Nat.add_succ_r. cbn [N_to_bits]. rewrite IH, app_assoc. f_equal. f_equal.
    rewrite Nat2N.inj_succ, N.pow_succ_r'.
    rewrite N.div_div by (try apply pow2_nz; discriminate). reflexivity.
Qed.

Lemma octets_to_bits_be_bytes k : forall n, octets_to_bits (be_bytes k n) = N_to_bits (8 * k) n.
Proof.
  induction k as [|k IH]; intros n; [reflexivity|].
  cbn [be_bytes]. unfold octets_to_bits in *. rewrite map_app, concat_app, IH.
  cbn [map concat]. rewrite app_nil_r.
  replace (8 * S k)%nat with (8 * k + 8)%nat by lia.
  rewrite N_to_bits_app. change (2 ^ N.of_nat 8) with 256. f_equal.
  apply (N_to_bits_mod 8 n).
Qed.

Lemma bits_to_N_snoc l : forall acc b,
  bits_to_N acc (l ++ [b]) = 2 * bits_to_N acc l + (if b then 1 else 0).
Proof. induction l as [|x l IH]; intros; cbn [app bits_to_N]; [reflexivity|apply IH]. Qed.

Lemma bits_to_N_app l : forall acc m, bits_to_N acc (l ++ m) = bits_to_N (bits_to_N acc l) m.
Proof. induction l as [|x l IH]; intros; cbn [app bits_to_N]; [reflexivity|apply IH]. Qed.

Lemma bits_to_N_repeat_false p : forall acc,
  bits_to_N acc (repeat false p) = acc * 2 ^ N.of_nat p.
Proof.
  induction p as [|p IH]; intros acc.
  - cbn [repeat bits_to_N N.of_nat]. rewrite N.pow_0_r. lia.
  - cbn [repeat bits_to_N]. rewrite IH, Nat2N.inj_succ, N.pow_succ_r'. lia.
Qed.

Lemma bits_to_N_pad bs p : bits_to_N 0 (bs ++ repeat false p) = bits_to_N 0 bs * 2 ^ N.of_nat p.
Proof. rewrite bits_to_N_app. apply bits_to_N_repeat_false. Qed.

Lemma N_to_bits_bits_to_N l : N_to_bits (length l) (bits_to_N 0 l) = l.
Proof.
  induction l as [|b l IH] using rev_ind; [reflexivity|].
  rewrite app_length, bits_to_N_snoc. cbn [length]. rewrite Nat.add_1_r. cbn [N_to_bits].
  f_equal.
  - replace ((2 * bits_to_N 0 l + (if b then 1 else 0)) / 2) with (bits_to_N 0 l); [exact IH|].
    destruct b; lia.
  - f_equal. rewrite N.add_comm, N.odd_add_mul_2. destruct b; reflexivity.
Qed.

Theorem pad_of_lt n : (pad_of n < 8)%nat.
Proof. unfold pad_of. lia. Qed.

Lemma pad_aligned n : ((n + pad_of n) mod 8 = 0)%nat.
Proof. unfold pad_of. lia. Qed.

Theorem bits_octets_length bs :
  length (bits_octets bs) = ((length bs + pad_of (length bs)) / 8)%nat.
Proof.
  unfold bits_octets. cbv zeta. rewrite be_bytes_length, app_length, repeat_length. reflexivity.
Qed.

(* [enc_bits] with the octets of every piece computed by shifts ([be_bytes_sh]): what a witness with
   thousands of bits evaluates instead of [enc_bits] *)
Definition enc_bits_prim_sh (bs: list bool) : bytes :=
  let padded := bs ++ repeat false (pad_of (length bs)) in
  N.of_nat (pad_of (length bs)) :: be_bytes_sh (length padded / 8) (bits_to_N 0 padded).

Definition enc_bits_sh (o: eopts) (bs: list bool) : res (bytes * bool) :=
  let aligned_len := (length bs + pad_of (length bs))%nat in
  if N.eqb (o_chunk o) 0 || Nat.leb aligned_len (N.to_nat (o_chunk o) * 8) then Ok (enc_bits_prim_sh bs, false)
  else
    do s <- fold_left (fun acc piece => do a <- acc; do p <- frame_piece 3 (enc_bits_prim_sh piece); Ok (a ++ p))
                      (chunks (S (length bs)) (N.to_nat (o_chunk o) * 8) bs) (Ok []);
    Ok (s, true).

Lemma enc_bits_prim_shift bs : enc_bits_prim bs = enc_bits_prim_sh bs.
Proof. unfold enc_bits_prim, bits_octets, enc_bits_prim_sh. cbv zeta. rewrite be_bytes_shift. reflexivity. Qed.

Lemma enc_bits_shift o bs : enc_bits o bs = enc_bits_sh o bs.
Proof.
  unfold enc_bits, enc_bits_sh. cbv zeta. rewrite enc_bits_prim_shift.
  destruct (_ || _); [reflexivity|]. f_equal.
  generalize (Ok [] : res bytes). induction (chunks _ _ bs) as [|x l IH]; intros a; cbn [fold_left]; [reflexivity|].
  rewrite enc_bits_prim_shift. apply IH.
Qed.

Theorem bits_roundtrip : forall bs,
  bits_of_octets (bits_octets bs) (N.of_nat (pad_of (length bs))) = Ok bs.
Proof.
  intros bs. unfold bits_of_octets, bits_octets. cbv zeta.
  set (p := pad_of (length bs)). set (padded := bs ++ repeat false p).
  rewrite be_bytes_length, Nat2N.id.
  assert (HL: length padded = (length bs + p)%nat)
    by (subst padded; rewrite app_length, repeat_length; reflexivity).
  assert (H8: (8 * (length padded / 8) = length padded)%nat).
  { rewrite HL. pose proof (pad_aligned (length bs)) as Ha. fold p in Ha. lia. }
  rewrite H8. destruct (Nat.ltb_spec (length padded) p) as [Hc|_]; [lia|].
  rewrite octets_to_bits_be_bytes, H8, N_to_bits_bits_to_N.
  replace (length padded - p)%nat with (length bs) by lia.
  subst padded. rewrite firstn_app_exact. reflexivity.
Qed.

Lemma bits_to_N_value l : forall acc,
  bits_to_N acc l = acc * 2 ^ N.of_nat (length l) + bits_value l.
Proof.
  induction l as [|b l IH]; intros acc.
  - cbn [bits_to_N length bits_value N.of_nat]. rewrite N.pow_0_r. lia.
  - cbn [bits_to_N length bits_value]. rewrite IH, Nat2N.inj_succ, N.pow_succ_r'.
    destruct b; lia.
Qed.

Lemma bits_to_N_is_bits_value l : bits_to_N 0 l = bits_value l.
Proof. rewrite bits_to_N_value. lia. Qed.

Theorem bitstring_contents_is_enc_bits_prim : forall bs, bitstring_contents bs = enc_bits_prim bs.
Proof.
  intros bs. unfold bitstring_contents, enc_bits_prim, bits_octets, pad_of. cbv zeta. f_equal.
  rewrite octets_of_N_is_be_bytes, app_length, repeat_length. f_equal.
  rewrite bits_to_N_pad, bits_to_N_is_bits_value. reflexivity.
Qed.

Print Assumptions oid_subids_b128.
Print Assumptions oid_roundtrip.
Print Assumptions oid_contents_is_enc_oid.
Print Assumptions bits_roundtrip.
Print Assumptions bits_octets_length.
Print Assumptions pad_of_lt.
Print Assumptions bitstring_contents_is_enc_bits_prim.
