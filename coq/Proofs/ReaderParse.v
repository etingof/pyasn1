(* C03, reading side: the independent reference's parser (Spec/X690.v [parse_one]) on well-formed
   TLVs.  A property of the specification alone - no model function occurs here.
   [parses e n]: the octets e are read as the node n, whatever follows, with fuel >= length e;
   shown of primitive TLVs and of definite and indefinite constructed TLVs over such members. *)
From Coq Require Import Lia.
From PV Require Import Base.Bytes Model.Tag Model.Types Spec.X690
     Proofs.Bits Proofs.TagOctets Proofs.SpecOctets Proofs.LeafInt Proofs.DerReference.
Local Open Scope N_scope.

Lemma octets_value_snoc l : forall acc d, octets_value acc (l ++ [d]) = octets_value acc l * 256 + d.
Proof. induction l as [|x l IH]; intros acc d; [reflexivity|]. cbn [app octets_value]. apply IH. Qed.

Lemma octets_value_digits256 : forall f n, octets_value 0 (digits f 256 n) = n.
Proof.
  induction f as [|f IH]; intros n; cbn [digits]; [cbn [octets_value]; lia|].
  destruct (N.ltb_spec n 256) as [Hs|Hl]; [cbn [octets_value]; lia|].
  rewrite octets_value_snoc, IH. pose proof (N.div_mod n 256). lia.
Qed.

Lemma digits_length_pos f b n : (1 <= length (digits f b n))%nat.
Proof.
  pose proof (digits_nonempty f b n) as H. destruct (digits f b n); [congruence|cbn [length]; lia].
Qed.

(* X.690 8.1.3 read back *)
Theorem split_length_length_octets (n: N) (rest: bytes) : n < max_len ->
  split_length (length_octets n ++ rest) = Some (Some n, rest).
Proof.
  intros Hn. unfold length_octets. destruct (N.ltb_spec n 128) as [Hs|Hl].
  - cbn [app split_length]. destruct (N.ltb_spec n 128) as [_|Hc]; [reflexivity|lia].
  - cbv zeta. set (ds := digits_of 256 n).
    assert (Hk1: (1 <= length ds)%nat) by apply digits_length_pos.
    assert (Hk2: (length ds <= 126)%nat).
    { apply (digits256_length (N.size_nat n) 126 n); [lia|exact Hn]. }
    cbn [app split_length].
    destruct (N.ltb_spec (128 + N.of_nat (length ds)) 128) as [Hc|_]; [lia|].
    destruct (N.eqb_spec (128 + N.of_nat (length ds)) 128) as [Hc|_]; [lia|].
    destruct (N.eqb_spec (128 + N.of_nat (length ds)) 255) as [Hc|_]; [lia|].
    replace (128 + N.of_nat (length ds) - 128) with (N.of_nat (length ds)) by lia.
    rewrite Nat2N.id.
    destruct (Nat.ltb_spec (length (ds ++ rest)) (length ds)) as [Hc|_]; [rewrite app_length in Hc; lia|].
    rewrite firstn_app, Nat.sub_diag, firstn_all, firstn_O, app_nil_r.
    rewrite skipn_app, Nat.sub_diag, skipn_all. cbn [skipn app].
    subst ds. unfold digits_of. rewrite octets_value_digits256. reflexivity.
Qed.

Definition many_def (f: nat) : nat -> bytes -> option (list node) :=
  fix many (k: nat) (cs: bytes) : option (list node) :=
    match k with
    | O => None
    | S k' => match cs with
              | [] => Some []
              | _ => match parse_one f cs with
                     | Some (nd, cs') => match many k' cs' with Some l => Some (nd :: l) | None => None end
                     | None => None
                     end
              end
    end.

Definition many_indef (f: nat) : nat -> bytes -> option (list node * bytes) :=
  fix many (k: nat) (cs: bytes) : option (list node * bytes) :=
    match k with
    | O => None
    | S k' => match cs with
              | 0 :: 0 :: cs' => Some ([], cs')
              | _ => match parse_one f cs with
                     | Some (nd, cs') => match many k' cs' with Some (l, r) => Some (nd :: l, r) | None => None end
                     | None => None
                     end
              end
    end.

Lemma parse_one_S f b :
  parse_one (S f) b =
  match split_ident b with
  | None => None
  | Some (c, pc, num, r1) =>
      match split_length r1 with
      | None => None
      | Some (Some n, r2) =>
          let n' := N.to_nat n in
          if Nat.ltb (length r2) n' then None else
          let contents := firstn n' r2 in
          let rest := skipn n' r2 in
          let raw := firstn (length b - length rest) b in
          if pc then
            match many_def f (S (length contents)) contents with
            | Some kids => Some (Cons c num false kids raw, rest)
            | None => None
            end
          else Some (Prim c num contents raw, rest)
      | Some (None, r2) =>
          if negb pc then None else
          match many_indef f (S (length r2)) r2 with
          | Some (kids, rest) => Some (Cons c num true kids (firstn (length b - length rest) b), rest)
          | None => None
          end
      end
  end.
Proof. reflexivity. Qed.

Definition starts_eoc (cs: bytes) : bool := match cs with 0 :: 0 :: _ => true | _ => false end.

Lemma many_indef_step f k cs : starts_eoc cs = false ->
  many_indef f (S k) cs =
  match parse_one f cs with
  | Some (nd, cs') => match many_indef f k cs' with Some (l, r) => Some (nd :: l, r) | None => None end
  | None => None
  end.
Proof.
  intros H. destruct cs as [|[|p] [|[|q] r]]; try reflexivity. discriminate H.
Qed.

Lemma many_indef_eoc f k rest : many_indef f (S k) (0 :: 0 :: rest) = Some ([], rest).
Proof. reflexivity. Qed.

Lemma many_def_step f k x cs :
  many_def f (S k) (x :: cs) =
  match parse_one f (x :: cs) with
  | Some (nd, cs') => match many_def f k cs' with Some l => Some (nd :: l) | None => None end
  | None => None
  end.
Proof. reflexivity. Qed.

Definition parses (e: bytes) (n: node) : Prop :=
  node_raw n = e /\ forall f rest, (length e <= f)%nat -> parse_one f (e ++ rest) = Some (n, rest).

Lemma parses_nonempty e n : parses e n -> e <> [].
Proof.
  intros [_ H] ->. specialize (H O [] (Nat.le_refl _)). discriminate H.
Qed.

Lemma firstn_app_exact_len {A} (e rest: list A) : firstn (length (e ++ rest) - length rest) (e ++ rest) = e.
Proof.
  rewrite app_length. replace (length e + length rest - length rest)%nat with (length e) by lia.
  rewrite firstn_app, Nat.sub_diag, firstn_all, firstn_O, app_nil_r. reflexivity.
Qed.

Lemma tlv_length c pc num contents : (2 + length contents <= length (tlv c pc num contents))%nat.
Proof.
  unfold tlv. rewrite !app_length.
  assert (1 <= length (ident c pc num))%nat.
  { unfold ident. destruct (N.ltb num 31); cbn [length]; lia. }
  assert (1 <= length (length_octets (N.of_nat (length contents))))%nat.
  { unfold length_octets. destruct (N.ltb _ 128); cbn [length]; lia. }
  lia.
Qed.

Lemma parse_one_definite f c pc num contents rest : N.of_nat (length contents) < max_len ->
  parse_one (S f) (tlv c pc num contents ++ rest) =
  if pc then match many_def f (S (length contents)) contents with
             | Some kids => Some (Cons c num false kids (tlv c pc num contents), rest)
             | None => None
             end
  else Some (Prim c num contents (tlv c pc num contents), rest).
Proof.
  intros Hlen. rewrite parse_one_S. set (b := tlv c pc num contents ++ rest).
  assert (Eb: b = ident c pc num ++ (length_octets (N.of_nat (length contents)) ++ (contents ++ rest))).
  { subst b. unfold tlv. rewrite <- !app_assoc. reflexivity. }
  rewrite Eb at 1. rewrite split_ident_ident, (split_length_length_octets _ _ Hlen). cbv zeta.
  rewrite Nat2N.id.
  destruct (Nat.ltb_spec (length (contents ++ rest)) (length contents)) as [Hc|_]; [rewrite app_length in Hc; lia|].
  rewrite firstn_app_exact, skipn_app_exact. subst b. rewrite firstn_app_exact_len. reflexivity.
Qed.

(* 8.1.1 primitive, definite *)
Theorem parses_prim c num contents : N.of_nat (length contents) < max_len ->
  parses (tlv c false num contents) (Prim c num contents (tlv c false num contents)).
Proof.
  intros Hlen. split; [reflexivity|]. intros f rest Hf.
  pose proof (tlv_length c false num contents) as Hl. destruct f as [|f]; [lia|].
  apply (parse_one_definite f c false num contents rest Hlen).
Qed.

Lemma many_def_concat f : forall es kids, Forall2 parses es kids ->
  (length (concat es) <= f)%nat -> forall k, (length (concat es) < k)%nat ->
  many_def f k (concat es) = Some kids.
Proof.
  induction 1 as [|e n es kids He Hes IH]; intros Hf k Hk.
  - destruct k as [|k]; [lia|]. reflexivity.
  - pose proof (parses_nonempty e n He) as Hne. destruct He as [_ Hp].
    cbn [concat] in *. rewrite app_length in Hf, Hk.
    destruct k as [|k]; [lia|].
    destruct e as [|x e']; [congruence|].
    change ((x :: e') ++ concat es) with (x :: (e' ++ concat es)). rewrite many_def_step.
    change (x :: (e' ++ concat es)) with ((x :: e') ++ concat es).
    rewrite (Hp f (concat es)) by lia.
    rewrite IH; [reflexivity|lia|cbn [length] in Hk; lia].
Qed.

(* 8.1.1 constructed, definite *)
Theorem parses_cons_def c num es kids : Forall2 parses es kids ->
  N.of_nat (length (concat es)) < max_len ->
  parses (tlv c true num (concat es)) (Cons c num false kids (tlv c true num (concat es))).
Proof.
  intros Hk Hlen. split; [reflexivity|]. intros f rest Hf.
  pose proof (tlv_length c true num (concat es)) as Hl. destruct f as [|f]; [lia|].
  rewrite (parse_one_definite f c true num _ rest Hlen), (many_def_concat f es kids Hk); [reflexivity|lia|lia].
Qed.

Definition itlv (c: tclass) (num: N) (contents: bytes) : bytes := ident c true num ++ [128] ++ contents ++ [0; 0].

Lemma ctlv_true c num contents : ctlv true c num contents = itlv c num contents.
Proof. reflexivity. Qed.
Lemma ctlv_false c num contents : ctlv false c num contents = tlv c true num contents.
Proof. reflexivity. Qed.

Definition nz_head (e: bytes) : Prop := hd 0 e <> 0.

Lemma nz_head_not_eoc e rest : e <> [] -> nz_head e -> starts_eoc (e ++ rest) = false.
Proof.
  intros Hne Hz. destruct e as [|x e']; [congruence|]. unfold nz_head in Hz. cbn [hd] in Hz.
  cbn [app starts_eoc]. destruct x as [|p]; [congruence|reflexivity].
Qed.

Lemma many_indef_concat f : forall es kids, Forall2 parses es kids -> Forall nz_head es ->
  (length (concat es) <= f)%nat -> forall k rest, (length (concat es) < k)%nat ->
  many_indef f k (concat es ++ 0 :: 0 :: rest) = Some (kids, rest).
Proof.
  induction 1 as [|e n es kids He Hes IH]; intros Hnz Hf k rest Hk.
  - destruct k as [|k]; [lia|]. reflexivity.
  - pose proof (parses_nonempty e n He) as Hne. destruct He as [_ Hp].
    inversion Hnz as [|? ? Hz Hnz']; subst.
    cbn [concat] in *. rewrite app_length in Hf, Hk.
    destruct k as [|k]; [lia|].
    rewrite <- app_assoc.
    rewrite many_indef_step by (apply nz_head_not_eoc; assumption).
    rewrite (Hp f (concat es ++ 0 :: 0 :: rest)) by lia.
    assert (1 <= length e)%nat by (destruct e; [congruence|cbn [length]; lia]).
    rewrite (IH Hnz'); [reflexivity|lia|lia].
Qed.

Lemma ident_length_pos c pc num : (1 <= length (ident c pc num))%nat.
Proof. unfold ident. destruct (N.ltb num 31); cbn [length]; lia. Qed.

(* 8.1.3.6 constructed, indefinite: members that do not begin with a zero octet *)
Theorem parses_cons_indef c num es kids : Forall2 parses es kids -> Forall nz_head es ->
  parses (itlv c num (concat es)) (Cons c num true kids (itlv c num (concat es))).
Proof.
  intros Hk Hnz. split; [reflexivity|]. intros f rest Hf.
  set (contents := concat es) in *.
  assert (Hl: (4 + length contents <= length (itlv c num contents))%nat).
  { unfold itlv. rewrite !app_length. pose proof (ident_length_pos c true num). cbn [length]. lia. }
  destruct f as [|f]; [lia|]. rewrite parse_one_S.
  set (b := itlv c num contents ++ rest).
  assert (Eb: b = ident c true num ++ (128 :: (contents ++ 0 :: 0 :: rest))).
  { subst b. unfold itlv. rewrite <- app_assoc. f_equal. cbn [app]. rewrite <- app_assoc. reflexivity. }
  rewrite Eb at 1. rewrite split_ident_ident. cbn [split_length N.ltb N.compare Pos.compare Pos.compare_cont N.eqb Pos.eqb negb].
  subst contents.
  rewrite (many_indef_concat f es kids Hk Hnz); [| lia | rewrite app_length; cbn [length]; lia].
  subst b. rewrite firstn_app_exact_len. reflexivity.
Qed.

(* the leading identifier octet is zero only for UNIVERSAL 0 in primitive form (end-of-contents) *)
Lemma ident_nz_head c pc num r : (c <> Univ \/ pc = true \/ num <> 0) -> nz_head (ident c pc num ++ r).
Proof.
  intros H. unfold nz_head, ident.
  destruct (N.ltb_spec num 31) as [Hs|Hl]; cbn [app hd].
  - destruct c, pc; cbn [class_no]; try lia. destruct H as [H|[H|H]]; [congruence|discriminate|lia].
  - destruct c, pc; cbn [class_no]; lia.
Qed.

Print Assumptions split_length_length_octets.
Print Assumptions parses_prim.
Print Assumptions parses_cons_def.
Print Assumptions parses_cons_indef.
