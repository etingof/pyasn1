(* C03, CER completeness: whenever the independent reference assigns a canonical CER encoding
   ([X690.cer T v = Some b], of a length that definite length octets can express at all), the model of
   the library's CER encoder succeeds with exactly these octets - the direction reference -> encoder of
   Proofs/CerReferenceDeep.v [cer_is_reference_all], over the same universe (SEQUENCE, SEQUENCE OF, SET,
   SET OF, CHOICE, ANY, the simple types, any tagging) and the same domain ([cer_all]: outside F01 and F24,
   simple DEFAULTs, distinct SET keys, SET OF members the padded comparison tells apart), plus the two
   refusals of the library at the leaves that DER completeness also excludes ([all_extra]: a REAL
   exponent of more than 255 octets, UTCTime / GeneralizedTime text the encoder vets) and DEFAULT
   comparisons the model can make. *)
From Coq Require Import Lia Sorting.Permutation.
From PV Require Import Proofs.Basics Base.Bytes Model.Tag Model.TableTypes Model.Types Model.Enc Gen.Tables Spec.X690
     Proofs.SpecOctets Proofs.TagAlgebra Proofs.ContainerCodecDefs Proofs.ContainerCodecSort
     Proofs.LeafInt Proofs.LeafOidBits Proofs.LeafReal
     Proofs.EncUnfold Proofs.DerAbsFunction Proofs.DerReference Proofs.DerReference2
     Proofs.ReaderParse Proofs.ReaderInterp Proofs.ReaderSound Proofs.ReaderFrame Proofs.ReaderCerSegments Proofs.ReaderModel Proofs.ReaderCer
     Proofs.ReaderBer Proofs.CerReferenceDeep.
Local Open Scope N_scope.

Lemma fold_pieces_total {A} n (g: A -> bytes) : forall l a0,
  Forall (fun p => N.of_nat (length (g p)) < max_len) l ->
  exists s, fold_left (piece_step n g) l (Ok a0) = Ok s.
Proof.
  induction l as [|x l IH]; intros a0 H; cbn [fold_left]; [eexists; reflexivity|].
  inversion H as [|? ? Hx Hl]; subst.
  unfold piece_step at 2. cbn [bind]. unfold frame_piece.
  rewrite (frame_one_total (utag false n) false true (g x) (form_agrees_prim _) Hx). cbn [bind]. apply IH. exact Hl.
Qed.

Lemma enc_octets_like_total v b : octets_of v = Some b -> exists cc, enc_octets_like cer_opts v = Ok cc.
Proof.
  intros Ho. unfold enc_octets_like. rewrite Ho. cbn [cer_opts o_chunk].
  change (N.eqb 1000 0) with false. cbn [orb].
  destruct (Nat.leb (length b) (N.to_nat 1000)); [eexists; reflexivity|].
  assert (Hs: exists s, enc_string_chunked v (N.to_nat 1000) = Ok s).
  { assert (G: forall b0 : bytes, exists s,
              fold_left (fun acc piece => do a <- acc; do p <- frame_piece 4 piece; Ok (a ++ p))
                        (chunks (S (length b0)) (N.to_nat 1000) b0) (Ok []) = Ok s).
    { intros b0. apply (fold_pieces_total 4 (fun x : bytes => x)).
      apply Forall_forall. intros p Hp. apply chunks_in_len in Hp. apply small_lt_max. exact (proj1 Hp). }
    destruct v; cbn [octets_of] in Ho; try discriminate Ho; cbn [enc_string_chunked]; apply G. }
  destruct Hs as (s & ->). cbn [bind]. eexists. reflexivity.
Qed.

Lemma enc_bits_total bs : exists cc, enc_bits (mkOpts false 999 false) bs = Ok cc.
Proof.
  unfold enc_bits. cbv zeta. cbn [o_chunk]. change (N.eqb 999 0) with false. cbn [orb]. change (N.to_nat 999) with 999%nat.
  destruct (Nat.leb (length bs + pad_of (length bs)) (999 * 8)); [eexists; reflexivity|].
  destruct (fold_pieces_total 3 enc_bits_prim (chunks (S (length bs)) (999 * 8) bs) []) as (s & Hs).
  { apply Forall_forall. intros p Hp. apply chunks_in_len in Hp. apply small_lt_max, (enc_bits_prim_le 999). exact (proj1 Hp). }
  unfold piece_step in Hs.
  match goal with |- context [bind ?F _] => replace F with (@Ok bytes s) by (symmetry; exact Hs) end.
  cbn [bind]. eexists. reflexivity.
Qed.

(* character and useful string types under CER: plain octets, except the two time types *)
Lemma cer_string_encoder n cd fl : concrete_encoder CER (TStr n) = Ok (cd, fl) ->
  cd = EcOcts \/ (n = 23 \/ n = 24).
Proof.
  unfold concrete_encoder. cbn [key_of base_of tag_fallback_key enc_type_map enc_tag_map].
  assert (Htab: forallb (fun e => match e with
                                  | (KStr m, EcOcts, _) => true
                                  | (KStr m, _, _) => N.eqb m 23 || N.eqb m 24
                                  | _ => true end) cer_enc_type_map = true) by reflexivity.
  destruct (lookup3 (KStr n) cer_enc_type_map) as [[cd' fl']|] eqn:E.
  - intros H. injection H as <- <-. destruct (lookup3_in_key _ _ _ _ E) as (k' & Hk & Hin).
    rewrite forallb_forall in Htab. specialize (Htab _ Hin). destruct k' as [| | | | | | | | | | | | | | |m]; try discriminate Hk.
    cbn [tkey_eqb] in Hk. apply N.eqb_eq in Hk. subst m.
    destruct cd'; auto; apply Bool.orb_true_iff in Htab; right; destruct Htab as [H|H]; apply N.eqb_eq in H; auto.
  - destruct (str_entries CER) as [_ Ek]. cbn [enc_tag_map] in Ek. rewrite Ek. intros H. injection H as <- <-. left; reflexivity.
Qed.

Lemma cer_encoder_total B : simple_base B = true -> exists cd fl, concrete_encoder CER B = Ok (cd, fl).
Proof.
  destruct B; intros H; try discriminate H; try (eexists; eexists; vm_compute; reflexivity).
  unfold concrete_encoder. cbn [key_of base_of tag_fallback_key enc_type_map enc_tag_map].
  destruct (lookup3 (KStr n) cer_enc_type_map) as [[cd' fl']|]; [eexists; eexists; reflexivity|].
  destruct (str_entries CER) as [_ Ek]. cbn [enc_tag_map] in Ek. rewrite Ek. eexists; eexists; reflexivity.
Qed.

Lemma cer_contents_total B v cd fl : der_ref_base B v = true -> exact_extra B v = true ->
  concrete_encoder CER B = Ok (cd, fl) -> canon true B v <> None ->
  exists cc, enc_content CER B cd fl cer_opts v = Ok cc.
Proof.
  intros Hd Hx Hce Hc.
  destruct B; try discriminate Hd; destruct v as [bb|z|bs|bo|cs| |arcs|r|vfs|xs|i x|ab]; try discriminate Hd.
  - encoder_is Hce. eexists. reflexivity.
  - encoder_is Hce. eexists. reflexivity.
  - encoder_is Hce. eexists. reflexivity.
  - encoder_is Hce. cbn [enc_content]. apply enc_bits_total.
  - encoder_is Hce. cbn [enc_content]. apply (enc_octets_like_total (VOcts bo) bo eq_refl).
  - encoder_is Hce. eexists. reflexivity.
  - encoder_is Hce. cbn [enc_content]. cbn [canon] in Hc. rewrite oid_contents_is_enc_oid in Hc.
    destruct (enc_oid arcs) as [c|]; [eexists; reflexivity|]. exfalso. apply Hc. reflexivity.
  - encoder_is Hce. cbn [enc_content].
    destruct r as [| |m e|m e|].
    + eexists. reflexivity.
    + eexists. reflexivity.
    + cbn [exact_extra] in Hx. apply enc_real_bin_ok_iff in Hx. destruct Hx as [c Hcc]. rewrite Hcc. eexists. reflexivity.
    + cbn [der_ref_base] in Hd. cbn [enc_real]. rewrite Hd. eexists. reflexivity.
    + exfalso. apply Hc. reflexivity.
  - destruct (cer_string_encoder n cd fl Hce) as [->|Hn].
    + cbn [enc_content]. apply (enc_octets_like_total (VOcts bo) bo eq_refl).
    + cbn [exact_extra] in Hx. destruct Hn as [-> | ->]; discriminate Hx.
  - destruct (cer_string_encoder n cd fl Hce) as [->|Hn].
    + cbn [enc_content]. apply (enc_octets_like_total (VChars cs) (concat cs) eq_refl).
    + cbn [exact_extra] in Hx. destruct Hn as [-> | ->]; discriminate Hx.
Qed.

Lemma all_extra_simple B v : simple_base B = true -> all_extra B v = exact_extra B v.
Proof. destruct B; intros H; try discriminate H; reflexivity. Qed.

(* of a whole encoding: where the reference answers b, the item written with the ifNotEmpty flag i is b *)
Definition Pcc (T: ty) : Prop := forall i v b,
  cer_all T v = true -> all_extra T v = true -> (i = false \/ f24c T v = false) ->
  cer T v = Some b -> N.of_nat (length b) < max_len -> enc CER T (mkOpts false 1000 i) v = Ok b.

Theorem Pcc_simple T : simple_base (base_of T) = true -> Pcc T.
Proof.
  intros Hs i v b Hd Hx _ Hr Hlen.
  destruct (cer_all_simple_val T v Hs Hd) as [Hv Hf].
  rewrite all_extra_base, (all_extra_simple _ _ Hs) in Hx.
  assert (Hi: enc CER T (mkOpts false 1000 i) v = enc CER T (mkOpts false 1000 false) v).
  { destruct i; [apply (cer_simple_ifne T v Hv)|reflexivity]. }
  rewrite Hi. clear Hi i. unfold der_ref_val in Hv. unfold cer in Hr.
  destruct (tagset_of T) as [ts|e0] eqn:Ets; [|rewrite (canon_tagset_err true T v e0 Ets) in Hr; discriminate Hr].
  destruct (canon true (base_of T) v) as [eb|] eqn:Eb; [|rewrite (canon_wrappers_none true T v Eb) in Hr; discriminate Hr].
  destruct (cer_encoder_total (base_of T) Hs) as (cd & fl & Hce).
  destruct (cer_contents_total (base_of T) v cd fl Hv Hx Hce) as ([content ic] & Hc); [rewrite Eb; discriminate|].
  destruct (canon_simple (base_of T) v Hs) as [Htb _].
  destruct (tagset_shape T _ Htb ts Ets) as (t0 & r & -> & Hc0 & Hall & _).
  destruct (leaf_reads CER (base_of T) v cd fl cer_opts content ic Hv Hce Hc) as (Hfl & Hic & _).
  assert (Hc0': tcon t0 = false) by (rewrite Hc0; destruct (base_of T); try discriminate Hs; reflexivity).
  (* the reference's encoding is the nested one over the contents the encoder computes; it bounds them *)
  assert (Hcan: canon true (base_of T) v =
                Some (ident (tcls (base_tag (base_of T))) ic (tnum (base_tag (base_of T))) ++
                      (if ic then [128] ++ content ++ [0; 0] else length_octets (N.of_nat (length content)) ++ content))).
  { rewrite (cer_contents (base_of T) v cd fl content ic Hv Hce Hc). unfold base_enc.
    rewrite base_tag_univ, Bool.andb_true_r. reflexivity. }
  rewrite (canon_wrappers_g T v true ic _ (base_tag (base_of T)) (simple_tagged T Hs) Htb Hcan _ Ets) in Hr.
  injection Hr as <-.
  rewrite enc_cer_unfold, concrete_encoder_base, Hce. cbn [bind fst snd]. rewrite Ets. cbn [bind].
  rewrite enc_content_base, Hc. cbn [bind fst snd].
  rewrite (frame_gframe_indef t0 r content ic (mkOpts false 1000 false) (ef_indef fl) eq_refl eq_refl Hall), Hc0'; [reflexivity| | |].
  - intros Hne. rewrite Hfl. exact (no_f01_indef T _ t0 r Hf Htb Ets Hne).
  - intros Hi. rewrite Hfl. exact (Hic Hi).
  - intros ->. cbv iota in Hlen.
    pose proof (fold_wrap_length true r (ident (tcls t0) false (tnum t0) ++ length_octets (N.of_nat (length content)) ++ content)) as Hg.
    rewrite !app_length in Hg. lia.
Qed.

(* of the contents: the reference's encoding of the base type is some contents c under the base type's
   tags, and the contents encoder answers c *)
Definition Qcc (B: ty) : Prop := container B /\ forall v e,
  cer_all B v = true -> all_extra B v = true -> canon true B v = Some e ->
  exists tsb c cd fl,
    tagset_of B = Ok tsb /\ e = cwrap true tsb c /\ concrete_encoder CER B = Ok (cd, fl) /\ ef_indef fl = true /\
    (N.of_nat (length c) < max_len -> enc_content CER B cd fl cer_opts v = Ok (c, true)) /\
    Forall (fun t => tcon t = true) tsb.

Theorem Pcc_of_Q T : Qcc (base_of T) -> Pcc T.
Proof.
  intros [HB HQ] i v b Hd Hx Hi Hr Hlen. unfold cer in Hr.
  rewrite cer_all_base in Hd. apply andb_true_iff in Hd. destruct Hd as [Hw Hdb]. rewrite all_extra_base in Hx.
  pose proof (cer_wrap_imp_ok T Hw) as Himp.
  destruct (tagset_of T) as [ts|e0] eqn:Ets; [|rewrite (canon_tagset_err true T v e0 Ets) in Hr; discriminate Hr].
  destruct (canon true (base_of T) v) as [e|] eqn:Eb; [|rewrite (canon_wrappers_none true T v Eb) in Hr; discriminate Hr].
  destruct (HQ v e Hdb Hx Eb) as (tsb & c & cd & fl & Htsb & -> & Hce & Hfl & Henc & Hcons).
  rewrite (canon_wrappers_c T v true c tsb Himp Htsb Eb ts Ets) in Hr. injection Hr as <-.
  pose proof (cwrap_length true ts c) as Hcl.
  rewrite enc_cer_unfold, concrete_encoder_base, Hce. cbn [bind fst snd]. rewrite Ets. cbn [bind].
  rewrite enc_content_base, Henc by lia. cbn [bind fst snd]. rewrite Hfl.
  destruct ts as [|t1 r1]; [reflexivity|].
  apply frame_cwrap_total.
  - apply (tagset_all_cons2 T tsb (t1 :: r1) Himp Htsb Hcons Ets).
  - exact (ifne_kept T v i t1 r1 tsb c Hi Ets HB Htsb Eb).
Qed.

Lemma celems_complete t : Pcc t ->
  forall xs es, forallb (cer_all t) xs = true -> forallb (all_extra t) xs = true ->
  opt_all (map (canon true t) xs) = Some es -> N.of_nat (length (concat es)) < max_len ->
  celems t xs = Ok es.
Proof.
  intros Ht xs es Hd Hx Hc Hlen. apply enc_elems_g_Forall2. rewrite forallb_forall in Hd, Hx.
  apply Forall2_impl_in with (2 := proj1 (opt_all_F2 _ xs es) Hc). intros x e Hin He E.
  apply (Ht false x e (Hd x Hin) (Hx x Hin) (or_introl eq_refl) E).
  pose proof (concat_in_length e es He). lia.
Qed.

Lemma cfields_complete : forall fs, Forall (fun f => Pcc (snd f)) fs ->
  forall vs es, cfields_ok fs vs = true -> xfields fs vs = true ->
  canon_fields true fs vs = Some es -> N.of_nat (length (concat es)) < max_len ->
  exists parts, cparts fs vs = Ok parts /\ map snd parts = es.
Proof.
  induction fs as [|[p ft] fs' IH]; intros Hall vs es Hd Hx Hc Hlen.
  - cbn in Hc. injection Hc as <-. exists []. split; reflexivity.
  - inversion Hall as [|? ? Hft Hall']; subst. cbn [snd] in Hft. specialize (IH Hall' (otl vs)).
    rewrite xfields_cons in Hx. apply andb_true_iff in Hx. destruct Hx as [Hx1 Hx2].
    destruct (cfields_step p ft fs' vs Hd)
      as [Hd2 [(E1 & E2 & _)|[(i & x & Ex & Hdx & Hi & E1 & E2 & _)|(d & x & -> & Ex & Eq & _)]]].
    + rewrite E1. rewrite E2 in Hc. apply IH; assumption.
    + rewrite E1. rewrite E2 in Hc. rewrite Ex in Hx1.
      assert (Hxx: all_extra ft x = true) by (destruct p; [exact Hx1|exact Hx1|apply andb_true_iff in Hx1; tauto]).
      destruct (canon true ft x) as [e0|] eqn:E0; cbn [opt_bind] in Hc; [|discriminate Hc].
      destruct (canon_fields true fs' (otl vs)) as [es'|] eqn:Er; cbn [opt_bind] in Hc; [|discriminate Hc].
      injection Hc as <-. destruct (concat_length_head e0 es') as [L1 L2].
      rewrite (Hft i x e0 Hdx Hxx Hi E0) by lia. cbn [bind].
      destruct (IH es' Hd2 Hx2 eq_refl) as (rest & Hrest & Hmap); [lia|].
      rewrite Hrest. cbn [bind]. eexists. split; [reflexivity|]. cbn [map snd]. rewrite Hmap. reflexivity.
    + rewrite Ex, Eq, Bool.andb_false_r in Hx1. discriminate Hx1.
Qed.

(* the SET loop of the reference carries the SEQUENCE loop's encodings *)
Lemma canon_set_fields_fields cer : forall fs vs kes,
  canon_set_fields cer fs vs = Some kes -> canon_fields cer fs vs = Some (map snd kes).
Proof.
  induction fs as [|[p ft] fs' IH]; intros vs kes H.
  - cbn in H. injection H as <-. reflexivity.
  - rewrite canon_set_fields_cons in H. rewrite canon_fields_cons. cbv zeta in H.
    assert (Hemit: forall x,
      opt_bind (canon cer ft x) (fun e => opt_bind (canon_set_fields cer fs' (otl vs))
         (fun r => Some (((if cer then min_first_tag ft else tag_key e), e) :: r))) = Some kes ->
      opt_bind (canon cer ft x) (fun e => opt_bind (canon_fields cer fs' (otl vs)) (fun r => Some (e :: r))) = Some (map snd kes)).
    { intros x Hx. destruct (canon cer ft x) as [e|]; cbn [opt_bind] in *; [|discriminate Hx].
      destruct (canon_set_fields cer fs' (otl vs)) as [r|] eqn:Er; cbn [opt_bind] in Hx; [|discriminate Hx].
      injection Hx as <-. rewrite (IH (otl vs) r Er). reflexivity. }
    destruct p as [| |d]; destruct (ohd vs) as [x|]; try (apply IH; exact H); try (apply Hemit; exact H); try discriminate H.
    destruct (is_default ft x d); [apply IH; exact H|apply Hemit; exact H].
Qed.

Definition Rcc (T: ty) : Prop := forall T', base_of T' = base_of T -> Pcc T'.

Theorem Rcc_all : forall T, Rcc T.
Proof.
  induction T as [| | | | | | | | n|fs IH|fs IH|t IH|t IH|alts IH| |tg x IH|tg x IH] using ty_ind'.
  16: { (* IMPLICIT: the same base *) exact IH. }
  16: { (* EXPLICIT *) exact IH. }
  1-9: (intros T' Hb; apply Pcc_simple; rewrite Hb; reflexivity).
  all: intros T' Hb; apply Pcc_of_Q; rewrite Hb; cbn [base_of]; split; [exact I|]; intros v e Hd Hx Hc.
  - (* SEQUENCE *)
    destruct v as [bb|z|bs|bo|cs| |arcs|r|vs|xs|i x|ab]; try discriminate Hd.
    rewrite cer_all_seq in Hd. rewrite all_extra_seq in Hx. rewrite canon_seq in Hc.
    destruct (canon_fields true fs vs) as [es|] eqn:Ef; cbn [opt_bind] in Hc; [|discriminate Hc]. injection Hc as <-.
    pose proof (Forall_impl (fun f => Pcc (snd f)) (fun f (Hf: Rcc (snd f)) => Hf _ eq_refl) IH) as HP.
    exists [utag true 16], (concat es), EcSeq, (mkEncFlags true false true None 0 0).
    split; [reflexivity|split; [reflexivity|split; [vm_compute; reflexivity|split; [reflexivity|split]]]].
    + intros Hlen. rewrite enc_content_seq_cer by reflexivity.
      destruct (cfields_complete fs HP vs es Hd Hx Ef Hlen) as (parts & Hp & Hm). rewrite Hp. cbn [bind]. rewrite Hm. reflexivity.
    + constructor; [reflexivity|constructor].
  - (* SET *)
    destruct v as [bb|z|bs|bo|cs| |arcs|r|vs|xs|i x|ab]; try discriminate Hd.
    rewrite cer_all_set in Hd. apply andb_true_iff in Hd. destruct Hd as [Hk Hd].
    unfold cset_keys_ok in Hk. apply andb_true_iff in Hk. destruct Hk as [Hk1 Hk2].
    rewrite all_extra_set in Hx. rewrite canon_set in Hc.
    destruct (canon_set_fields true fs vs) as [kes|] eqn:Ef; cbn [opt_bind] in Hc; [|discriminate Hc]. injection Hc as <-.
    pose proof (Forall_impl (fun f => Pcc (snd f)) (fun f (Hf: Rcc (snd f)) => Hf _ eq_refl) IH) as HP.
    assert (HS: Forall (fun f => Pcer (snd f)) fs).
    { apply Forall_forall. intros f _. apply (Pcer_of_R _ (Rcer_all (snd f))). }
    set (c := concat (map snd (sort_with (fun a b : N * N * bytes => key_ltb (fst a) (fst b)) kes))).
    assert (Hcl: length c = length (concat (map snd kes))).
    { subst c. apply concat_perm_length. apply Permutation_map. apply Permutation_sym.
      apply (sort_with_perm key_ltb (fun a : N * N * bytes => fst a)). }
    exists [utag true 17], c, EcSetCer, (mkEncFlags true false false None 0 0).
    split; [reflexivity|split; [reflexivity|split; [vm_compute; reflexivity|split; [reflexivity|split]]]].
    + intros Hlen. rewrite enc_content_set_cer.
      destruct (cfields_complete fs HP vs (map snd kes) Hd Hx (canon_set_fields_fields true fs vs kes Ef)) as (parts & Hp & Hm); [lia|].
      rewrite Hp. cbn [bind].
      destruct (cfields_sound fs HS vs parts Hd Hp) as [_ Hes]. specialize (Hes Hk1).
      rewrite Ef in Hes. injection Hes as Hkes.
      destruct (cparts_keys fs vs parts Hd Hp) as [Hq1 Hq2].
      pose proof (Hq1 single (keyable_singles _ Hk1)) as Hsing. pose proof (Hq2 Hk2) as Hord.
      subst c. rewrite Hkes, (set_sort_is_reference parts Hsing Hord). reflexivity.
    + constructor; [reflexivity|constructor].
  - (* SEQUENCE OF *)
    destruct v as [bb|z|bs|bo|cs| |arcs|r|vs|xs|i x|ab]; try discriminate Hd. cbn [cer_all all_extra] in Hd, Hx.
    rewrite canon_seqof in Hc.
    destruct (opt_all (map (canon true t) xs)) as [es|] eqn:Ef; cbn [opt_bind] in Hc; [|discriminate Hc]. injection Hc as <-.
    exists [utag true 16], (concat es), EcSeqOfCer, (mkEncFlags true false false None 0 0).
    split; [reflexivity|split; [reflexivity|split; [vm_compute; reflexivity|split; [reflexivity|split]]]].
    + intros Hlen. rewrite enc_content_seqof_g. cbn [listof_finish]. fold (celems t). rewrite (celems_complete t (IH t eq_refl) xs es Hd Hx Ef Hlen). reflexivity.
    + constructor; [reflexivity|constructor].
  - (* SET OF *)
    destruct v as [bb|z|bs|bo|cs| |arcs|r|vs|xs|i x|ab]; try discriminate Hd. cbn [cer_all all_extra] in Hd, Hx.
    apply andb_true_iff in Hd. destruct Hd as [Hd1 Hd2].
    rewrite canon_setof in Hc.
    destruct (opt_all (map (canon true t) xs)) as [es|] eqn:Ef; cbn [opt_bind] in Hc; [|discriminate Hc]. injection Hc as <-.
    unfold cer in Hd2. rewrite (opt_all_hd_map (canon true t) xs es Ef) in Hd2.
    assert (Hcl: length (concat (sort_with octets_ltb es)) = length (concat es)).
    { apply concat_perm_length. apply Permutation_sym. apply (sort_with_perm octets_ltb (fun a : bytes => a)). }
    exists [utag true 17], (concat (sort_with octets_ltb es)), EcSetOfCer, (mkEncFlags true false false None 0 0).
    split; [reflexivity|split; [reflexivity|split; [vm_compute; reflexivity|split; [reflexivity|split]]]].
    + intros Hlen. rewrite enc_content_setof_g. cbn [listof_finish]. fold (celems t).
      assert (Hp: celems t xs = Ok es) by (apply (celems_complete t (IH t eq_refl) xs es Hd1 Hx Ef); lia).
      rewrite Hp. cbn [bind].
      rewrite (sort_setof_is_reference es (ties_ok_pad_distinct es Hd2)). reflexivity.
    + constructor; [reflexivity|constructor].
  - (* CHOICE *)
    destruct v as [bb|z|bs|bo|cs| |arcs|r|vs|xs|i x|ab]; try discriminate Hd.
    rewrite cer_all_choice in Hd. rewrite all_extra_choice in Hx. rewrite canon_choice in Hc.
    destruct (nth_error alts i) as [a|] eqn:Ea; [|discriminate Hd].
    rewrite Forall_forall in IH. pose proof (IH a (nth_error_In _ _ Ea) a eq_refl) as Pa.
    exists [], e, EcChoice, (mkEncFlags true false false None 0 0).
    split; [reflexivity|split; [reflexivity|split; [vm_compute; reflexivity|split; [reflexivity|split]]]].
    + intros Hlen. rewrite enc_content_choice_g, Ea.
      assert (Ex: enc CER a cer_opts x = Ok e) by (apply (Pa false x e Hd Hx (or_introl eq_refl) Hc Hlen)).
      rewrite Ex. reflexivity.
    + constructor.
  - (* ANY *)
    destruct v as [bb|z|bs|bo|cs| |arcs|r|vs|xs|i x|ab]; try discriminate Hd.
    cbn [canon] in Hc. injection Hc as <-.
    exists [], ab, EcAny, (mkEncFlags true false false None 0 0).
    split; [reflexivity|split; [reflexivity|split; [vm_compute; reflexivity|split; [reflexivity|split]]]].
    + intros _. reflexivity.
    + constructor.
Qed.

Definition cer_exact_all (T: ty) (v: val) : bool := cer_all T v && all_extra T v.

(* Completeness: where the reference answers, the CER encoder - in whatever mode it is called -
   answers the same octets *)
Theorem cer_is_reference_all_complete : forall T v d k b,
  cer_exact_all T v = true -> X690.cer T v = Some b -> N.of_nat (length b) < max_len ->
  encode CER d k T v = Ok b.
Proof.
  intros T v d k b Hx Hr Hlen. unfold cer_exact_all in Hx. apply andb_true_iff in Hx. destruct Hx as [Hd Hx].
  rewrite encode_cer_fixed.
  exact (Rcc_all T T eq_refl false v b Hd Hx (or_introl eq_refl) Hr Hlen).
Qed.

(* both directions: the CER encoder and the reference are the same partial function *)
Corollary cer_encoder_is_reference_all : forall T v d k b,
  cer_exact_all T v = true -> N.of_nat (length b) < max_len ->
  (encode CER d k T v = Ok b <-> X690.cer T v = Some b).
Proof.
  intros T v d k b Hx Hlen. split.
  - apply cer_is_reference_all. unfold cer_exact_all in Hx. apply andb_true_iff in Hx. tauto.
  - intros Hr. apply cer_is_reference_all_complete; assumption.
Qed.

(* the contrapositive: when the CER encoder refuses, the reference has no encoding either (or only one
   whose length no definite form can express) *)
Corollary cer_refusal_is_reference_all : forall T v d k e,
  cer_exact_all T v = true -> encode CER d k T v = Err e ->
  X690.cer T v = None \/ exists b, X690.cer T v = Some b /\ max_len <= N.of_nat (length b).
Proof.
  intros T v d k e Hx He. destruct (cer T v) as [b|] eqn:Er; [|left; reflexivity].
  right. exists b. split; [reflexivity|].
  destruct (N.lt_ge_cases (N.of_nat (length b)) max_len) as [Hlt|Hge]; [|exact Hge].
  rewrite (cer_is_reference_all_complete T v d k b Hx Er Hlt) in He. discriminate He.
Qed.

Example cer_complete_witness :
  let T := TExp (mkTag Appl false 1) (TSet [
     (Req, TImp (mkTag Ctx false 1) TInt);
     (Req, TChoice [TOcts; TImp (mkTag Ctx false 0) TBool; TExp (mkTag Ctx false 5) (TChoice [TNull; TAny])]);
     (Opt, TSetOf (TChoice [TInt; TStr 12; TAny]));
     (Def (VInt 7), TInt);
     (Opt, TExp (mkTag Priv false 2) TAny);
     (Req, TSeq [(Opt, TSeqOf TBool); (Req, TSetOf TNull)])]) in
  let v := VRec [Some (VInt 1);
     Some (VChoice 2 (VChoice 1 (VAny [4;1;9])));
     Some (VList [VChoice 1 (VOcts [104;105]); VChoice 0 (VInt 300); VChoice 2 (VAny [1;1;0]); VChoice 0 (VInt 3)]);
     Some (VInt 8); Some (VAny [5;0]);
     Some (VRec [Some (VList [VBool true]); Some (VList [])])] in
  cer_exact_all T v = true /\
  exists b, cer T v = Some b /\ N.of_nat (length b) < max_len /\ encode CER true 7 T v = Ok b.
Proof.
  cbv zeta. split; [vm_compute; reflexivity|].
  eexists. split; [vm_compute; reflexivity|]. split; vm_compute; reflexivity.
Qed.

(* both sides refuse: arc 1.40 inside a SEQUENCE OF *)
Example cer_refusal_witness :
  let T := TSeqOf TOid in let v := VList [VOid [1;2;3]; VOid [1;40;3]] in
  cer_exact_all T v = true /\ encode CER true 0 T v = Err EMalformed /\ cer T v = None.
Proof. vm_compute. repeat split. Qed.

(* why all_extra: UTCTime text the CER encoder vets and refuses while the reference encodes the octets *)
Example cer_complete_excludes_time :
  let T := TSeq [(Req, TStr 23)] in let v := VRec [Some (VOcts [49; 50])] in
  cer_all T v = true /\ cer_exact_all T v = false /\
  encode CER true 0 T v = Err EMalformed /\ cer T v = Some [48; 128; 23; 2; 49; 50; 0; 0].
Proof. vm_compute. repeat split. Qed.

Print Assumptions Rcc_all.
Print Assumptions cer_is_reference_all_complete.
Print Assumptions cer_encoder_is_reference_all.
Print Assumptions cer_refusal_is_reference_all.
