(* Running a sequenced decoder: [resume] of [pbind p f] by what [resume p] does. *)
From PV Require Import Base.Bytes Model.Proc.

Lemma resume_pbind {A B} (p: proc A) (f: A -> proc B) : forall s,
  resume (pbind p f) s =
  match resume p s with
  | inl (p', s') => inl (pbind p' f, s')
  | inr (Ok a, s') => resume (f a) s'
  | inr (Err e, s') => inr (Err e, s')
  end.
Proof.
  induction p as [a0|e|n k IH|k IH|d k IH|k IH|k IH|k IH|k IH]; intros s; cbn [pbind resume];
    try reflexivity; try apply IH.
  - destruct (attempt s n) as [[c| |] sm]; [apply IH|reflexivity..].
  - destruct (Nat.eqb (length (avail s)) 0); [destruct (closed s); [apply IH|reflexivity]|apply IH].
  - destruct (Nat.eqb (length (avail s)) 0); [destruct (closed s); reflexivity|apply IH].
Qed.

Lemma resume_pbind_done {A B} (p: proc A) (f: A -> proc B) s a s1 :
  resume p s = inr (Ok a, s1) -> resume (pbind p f) s = resume (f a) s1.
Proof. intros H. rewrite resume_pbind, H. reflexivity. Qed.

Lemma resume_pbind_err {A B} (p: proc A) (f: A -> proc B) s e s1 :
  resume p s = inr (Err e, s1) -> resume (pbind p f) s = inr (Err e, s1).
Proof. intros H. rewrite resume_pbind, H. reflexivity. Qed.

Lemma resume_pbind_inv {A B} (p: proc A) (f: A -> proc B) s b s' :
  resume (pbind p f) s = inr (Ok b, s') ->
  exists a s1, resume p s = inr (Ok a, s1) /\ resume (f a) s1 = inr (Ok b, s').
Proof.
  rewrite resume_pbind. destruct (resume p s) as [[p' s1]|[[a|e] s1]]; [discriminate|eauto|discriminate].
Qed.

(* once p has answered, a bind around [pbind p f] goes on with [f a] *)
Lemma resume_pbind_assoc {A B C} (p: proc A) (f: A -> proc B) (g: B -> proc C) s a s1 :
  resume p s = inr (Ok a, s1) -> resume (pbind (pbind p f) g) s = resume (pbind (f a) g) s1.
Proof. intros H. rewrite (resume_pbind (pbind p f)), (resume_pbind p), H, <- resume_pbind. reflexivity. Qed.
