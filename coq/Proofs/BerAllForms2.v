(* C09: everything the independent reader of the basic encoding rules (Spec/X690.v: read = parse + interp)
   accepts is accepted by the model of the library's BER decoder, with the same abstract value and the
   same unread remainder (ber_all_forms_tree, ber_all_forms, ber_all_forms_unconditional).

   Reference and model agree on identifier and length octets in every form, so what parse returns is a TLV
   tree over the model's header functions (shape), and on the contents of primitive leaves.  Over such a
   tree the decoder is followed level by level: the header, EXPLICIT levels, the level that completes a
   tag set of the type T0 which the spec in force resolves to (sp_ok), the loops over the members of
   constructed values.  all_items is the induction over the types of the fragment (frag), one item_ lemma
   per type.

   Side conditions: real_mantissas_present, ascii_strings_ascii, any_without_tag_zero.
   Outside the fragment: character strings whose repertoire the model does not decide (UniversalString,
   BMPString), EXPLICIT UNIVERSAL tags, IMPLICIT tags on CHOICE / ANY (the reference refuses them), an
   untagged ANY as a SET member, CHOICE alternative or next to OPTIONAL components (told by no tag). *)
From Coq Require Import Lia.
From PV Require Import Base.Bytes Model.Tag Model.TableTypes Model.Types Model.Proc Model.Enc Model.Dec Gen.Tables Spec.X690
     Proofs.Bits Proofs.ProcBind Proofs.RunLemmas Proofs.TagOctets Proofs.TagAlgebra Proofs.DecHeader Proofs.DecFrame
     Proofs.DecPrim Proofs.TagsetShape Proofs.Schemaless Proofs.LeafInt.
From PV Require Proofs.RoundTrip1 Proofs.RoundTrip2 Proofs.BerForms Proofs.DecShape.
Local Open Scope N_scope.

Definition octs (b: bytes) : Prop := Forall (fun x => x < 256) b.

Lemma octs_forallb b : octs b -> forallb (fun x => N.ltb x 256) b = true.
Proof.
  intros H. apply forallb_forall. intros x Hx. apply N.ltb_lt.
  unfold octs in H. rewrite Forall_forall in H. apply H. exact Hx.
Qed.

Lemma wf_bytes_octs b : wf_bytes b = true -> octs b.
Proof.
  unfold wf_bytes, octs, wf_byte. intros H. apply Forall_forall. intros x Hx.
  rewrite forallb_forall in H. apply N.ltb_lt. apply H. exact Hx.
Qed.

Lemma octs_app a b : octs (a ++ b) <-> octs a /\ octs b.
Proof. unfold octs. apply Forall_app. Qed.

Lemma octs_cons o r : octs (o :: r) <-> o < 256 /\ octs r.
Proof. unfold octs. split; [intros H; inversion H; subst; split; assumption|intros [H1 H2]; constructor; assumption]. Qed.

Lemma octs_firstn k b : octs b -> octs (firstn k b).
Proof.
  unfold octs. revert b. induction k as [|k IH]; intros b H; [constructor|].
  destruct b as [|x b]; [constructor|]. inversion H; subst. cbn [firstn]. constructor; [assumption|apply IH; assumption].
Qed.

Lemma octs_skipn k b : octs b -> octs (skipn k b).
Proof.
  unfold octs. revert b. induction k as [|k IH]; intros b H; [exact H|].
  destruct b as [|x b]; [constructor|]. inversion H; subst. cbn [skipn]. apply IH; assumption.
Qed.

(* a fact about every octet, decided by running through the 256 of them *)
Lemma byte_cases (P: N -> bool) :
  forallb P (map N.of_nat (seq 0 256)) = true -> forall o, o < 256 -> P o = true.
Proof.
  intros H o Ho. rewrite forallb_forall in H. apply H.
  apply in_map_iff. exists (N.to_nat o). split; [apply N2Nat.id|]. apply in_seq. lia.
Qed.

Lemma first_octet_agree o : o < 256 ->
  class_of_no (o / 64) = cls_of_bits o
  /\ N.eqb ((o / 32) mod 2) 1 = negb (N.eqb (N.land o 32) 0)
  /\ o mod 32 = N.land o 31.
Proof.
  intros Ho.
  pose (P := fun o => (match class_of_no (o / 64), cls_of_bits o with
                       | Univ, Univ | Appl, Appl | Ctx, Ctx | Priv, Priv => true | _, _ => false end)
                      && Bool.eqb (N.eqb ((o / 32) mod 2) 1) (negb (N.eqb (N.land o 32) 0))
                      && N.eqb (o mod 32) (N.land o 31)).
  assert (H: P o = true) by (apply byte_cases; [vm_compute; reflexivity|exact Ho]).
  unfold P in H. apply andb_true_iff in H. destruct H as [H H3]. apply andb_true_iff in H. destruct H as [H1 H2].
  split; [|split].
  - destruct (class_of_no (o / 64)), (cls_of_bits o); try discriminate H1; reflexivity.
  - apply Bool.eqb_prop. exact H2.
  - apply N.eqb_eq. exact H3.
Qed.

Lemma cont_octet_agree o : o < 256 ->
  N.ltb o 128 = N.eqb (N.land o 128) 0
  /\ (o < 128 -> N.land o 127 = o) /\ (128 <= o -> N.land o 127 = o - 128).
Proof.
  intros Ho.
  pose (P := fun o => Bool.eqb (N.ltb o 128) (N.eqb (N.land o 128) 0)
                      && (if N.ltb o 128 then N.eqb (N.land o 127) o else N.eqb (N.land o 127) (o - 128))).
  assert (H: P o = true) by (apply byte_cases; [vm_compute; reflexivity|exact Ho]).
  unfold P in H. apply andb_true_iff in H. destruct H as [H1 H2].
  split; [apply Bool.eqb_prop; exact H1|].
  destruct (N.ltb_spec o 128) as [Hs|Hl]; apply N.eqb_eq in H2; split; intros; try lia; exact H2.
Qed.

(* long-form tag number, 8.1.2.4 *)
Lemma long_number_b128 : forall b fuel acc n r, octs b ->
  long_number fuel acc b = Some (n, r) -> dec_b128 acc b = Some (n, r).
Proof.
  induction b as [|o b IH]; intros fuel acc n r Hb H.
  - destruct fuel; discriminate H.
  - destruct fuel as [|f]; [discriminate H|].
    apply octs_cons in Hb. destruct Hb as [Ho Hb].
    cbn [long_number] in H. cbn [dec_b128]. cbv zeta.
    destruct (cont_octet_agree o Ho) as (E1 & E2 & E3). rewrite <- E1.
    destruct (N.ltb_spec o 128) as [Hs|Hl].
    + rewrite (E2 Hs). rewrite lor_shl7 by exact Hs. exact H.
    + rewrite (E3 Hl). rewrite lor_shl7 by lia. apply (IH f _ _ _ Hb H).
Qed.

Theorem split_ident_dec_ident : forall b c pc num r, octs b ->
  split_ident b = Some (c, pc, num, r) -> dec_ident b = Some (mkTag c pc num, r).
Proof.
  intros b c pc num r Hb H. destruct b as [|o b]; [discriminate H|].
  apply octs_cons in Hb. destruct Hb as [Ho Hb].
  cbn [split_ident] in H. cbv zeta in H. cbn [dec_ident]. cbv zeta.
  destruct (first_octet_agree o Ho) as (E1 & E2 & E3). rewrite <- E1, <- E2, <- E3.
  destruct (N.eqb (o mod 32) 31).
  - destruct (long_number (length b) 0 b) as [[n' r']|] eqn:El; [|discriminate H].
    rewrite (long_number_b128 b _ _ _ _ Hb El). inversion H; subst. reflexivity.
  - inversion H; subst. reflexivity.
Qed.

(* length octets in any form, 8.1.3: short, long with any number of leading zero octets, indefinite *)
Theorem split_length_dec_len : forall b ol r, octs b ->
  split_length b = Some (ol, r) -> dec_len b = Some (ol, r).
Proof.
  intros b ol r Hb H. destruct b as [|o b]; [discriminate H|].
  apply octs_cons in Hb. destruct Hb as [Ho Hb].
  cbn [split_length] in H. rewrite dec_len_cons.
  destruct (N.ltb_spec o 128) as [Hs|Hl]; [exact H|].
  destruct (N.eqb o 128); [exact H|].
  destruct (N.eqb o 255); [discriminate H|]. cbv zeta in H. cbv zeta.
  destruct (cont_octet_agree o Ho) as (_ & _ & E3). rewrite (E3 Hl).
  destruct (Nat.ltb (length b) (N.to_nat (o - 128))); [discriminate H|].
  rewrite <- (octets_value_is_be_num (firstn (N.to_nat (o - 128)) b) 0); [exact H|].
  apply octs_forallb. apply octs_firstn. exact Hb.
Qed.

(* the rest returned by the header functions is a suffix; the header does not depend on what follows *)
Definition ident_octets (hb: bytes) (t: tag) : Prop := forall tl, dec_ident (hb ++ tl) = Some (t, tl).
Definition len_octets (lb: bytes) (ol: option N) : Prop := forall tl, dec_len (lb ++ tl) = Some (ol, tl).

Lemma dec_b128_suffix : forall b acc n r, dec_b128 acc b = Some (n, r) ->
  exists hb, b = hb ++ r /\ hb <> [] /\ forall tl, dec_b128 acc (hb ++ tl) = Some (n, tl).
Proof.
  induction b as [|o b IH]; intros acc n r H; [discriminate H|].
  cbn [dec_b128] in H. cbv zeta in H.
  destruct (N.eqb (N.land o 128) 0) eqn:E.
  - inversion H; subst. exists [o]. split; [reflexivity|]. split; [discriminate|].
    intros tl. cbn [app dec_b128]. cbv zeta. rewrite E. reflexivity.
  - destruct (IH _ _ _ H) as (hb & -> & Hne & Hk). exists (o :: hb). split; [reflexivity|]. split; [discriminate|].
    intros tl. cbn [app dec_b128]. cbv zeta. rewrite E. apply Hk.
Qed.

Lemma dec_ident_suffix : forall b t r, dec_ident b = Some (t, r) ->
  exists hb, b = hb ++ r /\ hb <> [] /\ ident_octets hb t.
Proof.
  intros b t r H. destruct b as [|o b]; [discriminate H|].
  cbn [dec_ident] in H. cbv zeta in H.
  destruct (N.eqb (N.land o 31) 31) eqn:E.
  - destruct (dec_b128 0 b) as [[n r']|] eqn:Eb; [|discriminate H]. inversion H; subst.
    destruct (dec_b128_suffix _ _ _ _ Eb) as (hb & -> & _ & Hk).
    exists (o :: hb). split; [reflexivity|]. split; [discriminate|].
    intros tl. cbn [app dec_ident]. cbv zeta. rewrite E, Hk. reflexivity.
  - inversion H; subst. exists [o]. split; [reflexivity|]. split; [discriminate|].
    intros tl. cbn [app dec_ident]. cbv zeta. rewrite E. reflexivity.
Qed.

Lemma dec_len_suffix : forall b ol r, dec_len b = Some (ol, r) ->
  exists lb, b = lb ++ r /\ lb <> [] /\ len_octets lb ol.
Proof.
  intros b ol r H. destruct b as [|o b]; [discriminate H|].
  rewrite dec_len_cons in H.
  destruct (N.ltb o 128) eqn:E1.
  - inversion H; subst. exists [o]. split; [reflexivity|]. split; [discriminate|].
    intros tl. cbn [app]. rewrite dec_len_cons, E1. reflexivity.
  - destruct (N.eqb o 128) eqn:E2.
    + inversion H; subst. exists [o]. split; [reflexivity|]. split; [discriminate|].
      intros tl. cbn [app]. rewrite dec_len_cons, E1, E2. reflexivity.
    + cbv zeta in H. set (k := N.to_nat (N.land o 127)) in *.
      destruct (Nat.ltb_spec (length b) k) as [Hc|Hk]; [discriminate H|]. inversion H; subst.
      exists (o :: firstn k b). split; [cbn [app]; rewrite firstn_skipn; reflexivity|]. split; [discriminate|].
      intros tl. cbn [app]. rewrite dec_len_cons, E1, E2. cbv zeta. fold k.
      assert (Hl: length (firstn k b) = k) by (apply firstn_length_le; exact Hk).
      destruct (Nat.ltb_spec (length (firstn k b ++ tl)) k) as [Hc|_]; [rewrite app_length in Hc; lia|].
      rewrite <- Hl at 1 3. rewrite firstn_app_exact, skipn_app_exact. reflexivity.
Qed.

Example stage1_forms :
  split_ident [191; 129; 128; 5; 7] = Some (Ctx, true, 16389, [7])
  /\ dec_ident [191; 129; 128; 5; 7] = Some (mkTag Ctx true 16389, [7])
  /\ split_length [132; 0; 0; 1; 2; 9] = Some (Some 258, [9])
  /\ dec_len [132; 0; 0; 1; 2; 9] = Some (Some 258, [9]).
Proof. vm_compute. repeat split. Qed.

Section node_ind_strong.
  Variable P : node -> Prop.
  Hypothesis HPrim: forall c num contents raw, P (Prim c num contents raw).
  Hypothesis HCons: forall c num i kids raw, Forall P kids -> P (Cons c num i kids raw).
  Fixpoint node_ind' (n: node) : P n :=
    match n with
    | Prim c num contents raw => HPrim c num contents raw
    | Cons c num i kids raw =>
        HCons c num i kids raw ((fix go (l: list node) : Forall P l :=
                                   match l with [] => Forall_nil _ | k :: r => Forall_cons k (node_ind' k) (go r) end) kids)
    end.
End node_ind_strong.

Definition node_kids (n: node) : list node := match n with Cons _ _ _ kids _ => kids | Prim _ _ _ _ => [] end.

Lemma node_kids_ind (P: node -> Prop) : (forall n, Forall P (node_kids n) -> P n) -> forall n, P n.
Proof.
  intros H. apply node_ind'; [intros c num contents raw; apply H; constructor|intros c num i kids raw HF; apply H; exact HF].
Qed.

Definition kids_raw (kids: list node) : bytes := concat (map node_raw kids).
Definition eoc_start (b: bytes) : bool := match b with 0 :: 0 :: _ => true | _ => false end.

(* identifier octets, length octets in whatever form, contents; an indefinite-length node ends with
   00 00 and none of its members begins with 00 00 *)
Fixpoint shape (n: node) : Prop :=
  match n with
  | Prim c num contents raw =>
      exists ib lb, ident_octets ib (mkTag c false num) /\ len_octets lb (Some (N.of_nat (length contents)))
                    /\ raw = ib ++ lb ++ contents
  | Cons c num indef kids raw =>
      exists ib lb, ident_octets ib (mkTag c true num)
        /\ len_octets lb (if indef then None else Some (N.of_nat (length (kids_raw kids))))
        /\ raw = ib ++ lb ++ kids_raw kids ++ (if indef then [0; 0] else [])
        /\ (fix all (l: list node) : Prop :=
              match l with
              | [] => True
              | k :: r => (shape k /\ (indef = true -> eoc_start (node_raw k) = false)) /\ all r
              end) kids
  end.

Definition kid_ok (indef: bool) (k: node) : Prop := shape k /\ (indef = true -> eoc_start (node_raw k) = false).

Lemma shape_cons c num indef kids raw :
  shape (Cons c num indef kids raw) <->
  exists ib lb, ident_octets ib (mkTag c true num)
        /\ len_octets lb (if indef then None else Some (N.of_nat (length (kids_raw kids))))
        /\ raw = ib ++ lb ++ kids_raw kids ++ (if indef then [0; 0] else [])
        /\ Forall (kid_ok indef) kids.
Proof.
  cbn [shape].
  assert (E: forall l, (fix all (l: list node) : Prop :=
              match l with
              | [] => True
              | k :: r => (shape k /\ (indef = true -> eoc_start (node_raw k) = false)) /\ all r
              end) l <-> Forall (kid_ok indef) l).
  { induction l as [|k r IH]; [split; [constructor|trivial]|].
    split.
    - intros [Hk Hr]. constructor; [exact Hk|apply IH; exact Hr].
    - intros H. inversion H; subst. split; [assumption|apply IH; assumption]. }
  split; intros (ib & lb & H1 & H2 & H3 & H4); exists ib, lb; (split; [exact H1|split; [exact H2|split; [exact H3|apply E; exact H4]]]).
Qed.

Lemma ident_octets_nonempty hb t : ident_octets hb t -> hb <> [].
Proof. intros H E. subst hb. specialize (H []). discriminate H. Qed.
Lemma len_octets_nonempty lb ol : len_octets lb ol -> lb <> [].
Proof. intros H E. subst lb. specialize (H []). discriminate H. Qed.

(* the two sibling loops of parse_one, named *)
Definition many_def (f: nat) : nat -> bytes -> option (list node) :=
  fix many (k: nat) (cs: bytes) : option (list node) :=
    match k with
    | O => None
    | S k' => match cs with
              | [] => Some []
              | _ => match parse_one f cs with
                     | Some (nd, cs') => match many k' cs' with Some l => Some (nd :: l) | None => None end
                     | None => None
                     end
              end
    end.

Definition many_indef (f: nat) : nat -> bytes -> option (list node * bytes) :=
  fix many (k: nat) (cs: bytes) : option (list node * bytes) :=
    match k with
    | O => None
    | S k' => match cs with
              | 0 :: 0 :: cs' => Some ([], cs')
              | _ => match parse_one f cs with
                     | Some (nd, cs') => match many k' cs' with Some (l, r) => Some (nd :: l, r) | None => None end
                     | None => None
                     end
              end
    end.

Lemma parse_one_S f b :
  parse_one (S f) b =
  match split_ident b with
  | None => None
  | Some (c, pc, num, r1) =>
      match split_length r1 with
      | None => None
      | Some (Some n, r2) =>
          let n' := N.to_nat n in
          if Nat.ltb (length r2) n' then None else
          let contents := firstn n' r2 in
          let rest := skipn n' r2 in
          let raw := firstn (length b - length rest) b in
          if pc then
            match many_def f (S (length contents)) contents with
            | Some kids => Some (Cons c num false kids raw, rest)
            | None => None
            end
          else Some (Prim c num contents raw, rest)
      | Some (None, r2) =>
          if negb pc then None else
          match many_indef f (S (length r2)) r2 with
          | Some (kids, rest) => Some (Cons c num true kids (firstn (length b - length rest) b), rest)
          | None => None
          end
      end
  end.
Proof. reflexivity. Qed.

Definition parse_ok (f: nat) : Prop :=
  forall b n rest, octs b -> parse_one f b = Some (n, rest) -> shape n /\ b = node_raw n ++ rest.

Lemma shape_raw_len n : shape n -> (2 <= length (node_raw n))%nat.
Proof.
  destruct n as [c num contents raw|c num indef kids raw].
  - intros (ib & lb & Hi & Hl & -> & _) || intros (ib & lb & Hi & Hl & ->).
    pose proof (ident_octets_nonempty _ _ Hi). pose proof (len_octets_nonempty _ _ Hl).
    cbn [node_raw]. rewrite !app_length. destruct ib; [congruence|]. destruct lb; [congruence|]. cbn [length]. lia.
  - intros H. apply shape_cons in H. destruct H as (ib & lb & Hi & Hl & -> & _).
    pose proof (ident_octets_nonempty _ _ Hi). pose proof (len_octets_nonempty _ _ Hl).
    cbn [node_raw]. rewrite !app_length. destruct ib; [congruence|]. destruct lb; [congruence|]. cbn [length]. lia.
Qed.

Lemma many_def_shape f : parse_ok f -> forall k cs kids, octs cs ->
  many_def f k cs = Some kids -> cs = kids_raw kids /\ Forall (kid_ok false) kids.
Proof.
  intros IH. induction k as [|k IHk]; intros cs kids Hcs H; [discriminate H|].
  cbn [many_def] in H. destruct cs as [|x cs0].
  - inversion H; subst. split; [reflexivity|constructor].
  - remember (x :: cs0) as cs eqn:Ecs.
    destruct (parse_one f cs) as [[nd cs']|] eqn:Ep; [|discriminate H].
    fold (many_def f) in H.
    destruct (many_def f k cs') as [l|] eqn:Em; [|discriminate H]. inversion H; subst kids.
    destruct (IH cs nd cs' Hcs Ep) as [Hsh Hb].
    assert (Hcs': octs cs') by (rewrite Hb in Hcs; apply octs_app in Hcs; tauto).
    destruct (IHk cs' l Hcs' Em) as [Hr Hall].
    split.
    + unfold kids_raw. cbn [map concat]. fold (kids_raw l). rewrite <- Hr. exact Hb.
    + constructor; [split; [exact Hsh|discriminate]|exact Hall].
Qed.

Lemma eoc_start_app a b : (2 <= length a)%nat -> eoc_start (a ++ b) = eoc_start a.
Proof. intros H. destruct a as [|x [|y a]]; cbn [length] in H; try lia. reflexivity. Qed.

Lemma many_indef_shape f : parse_ok f -> forall k cs kids rest, octs cs ->
  many_indef f k cs = Some (kids, rest) ->
  cs = kids_raw kids ++ [0; 0] ++ rest /\ Forall (kid_ok true) kids.
Proof.
  intros IH. induction k as [|k IHk]; intros cs kids rest Hcs H; [discriminate H|].
  cbn [many_indef] in H. fold (many_indef f) in H.
  destruct (eoc_start cs) eqn:Ee.
  - destruct cs as [|x [|y cs0]]; [discriminate Ee| |].
    { destruct x; discriminate Ee. }
    destruct x; [|discriminate Ee]. destruct y; [|discriminate Ee].
    inversion H; subst. split; [reflexivity|constructor].
  - assert (H': match parse_one f cs with
                | Some (nd, cs') => match many_indef f k cs' with Some (l, r) => Some (nd :: l, r) | None => None end
                | None => None end = Some (kids, rest)).
    { destruct cs as [|x [|y cs0]]; [exact H| |].
      - destruct x; exact H.
      - destruct x; [|exact H]. destruct y; [discriminate Ee|exact H]. }
    clear H.
    destruct (parse_one f cs) as [[nd cs']|] eqn:Ep; [|discriminate H'].
    destruct (many_indef f k cs') as [[l r]|] eqn:Em; [|discriminate H']. inversion H'; subst kids rest.
    destruct (IH cs nd cs' Hcs Ep) as [Hsh Hb].
    assert (Hcs': octs cs') by (rewrite Hb in Hcs; apply octs_app in Hcs; tauto).
    destruct (IHk cs' l r Hcs' Em) as [Hr Hall].
    split.
    + unfold kids_raw. cbn [map concat]. fold (kids_raw l). rewrite <- app_assoc. rewrite <- Hr. exact Hb.
    + constructor; [|exact Hall]. split; [exact Hsh|]. intros _.
      rewrite Hb in Ee. rewrite eoc_start_app in Ee by (apply shape_raw_len; exact Hsh). exact Ee.
Qed.

Lemma firstn_len_sub {X} (a b: list X) : firstn (length (a ++ b) - length b) (a ++ b) = a.
Proof. rewrite app_length. replace (length a + length b - length b)%nat with (length a) by lia. apply firstn_app_exact. Qed.

Theorem parse_one_shape : forall f, parse_ok f.
Proof.
  induction f as [|f IH]; intros b n rest Hb H; [discriminate H|].
  rewrite parse_one_S in H.
  destruct (split_ident b) as [[[[c pc] num] r1]|] eqn:Ei; [|discriminate H].
  pose proof (split_ident_dec_ident b c pc num r1 Hb Ei) as Di.
  destruct (dec_ident_suffix _ _ _ Di) as (ib & Eb & _ & Hib).
  assert (Hr1: octs r1) by (rewrite Eb in Hb; apply octs_app in Hb; tauto).
  destruct (split_length r1) as [[ol r2]|] eqn:El; [|discriminate H].
  pose proof (split_length_dec_len r1 ol r2 Hr1 El) as Dl.
  destruct (dec_len_suffix _ _ _ Dl) as (lb & Er1 & _ & Hlb).
  assert (Hr2: octs r2) by (rewrite Er1 in Hr1; apply octs_app in Hr1; tauto).
  destruct ol as [n0|].
  - cbv zeta in H.
    destruct (Nat.ltb_spec (length r2) (N.to_nat n0)) as [Hc|Hge]; [discriminate H|].
    set (contents := firstn (N.to_nat n0) r2) in *. set (rst := skipn (N.to_nat n0) r2) in *.
    assert (Er2: r2 = contents ++ rst) by (symmetry; apply firstn_skipn).
    assert (Hlenc: N.of_nat (length contents) = n0) by (unfold contents; rewrite firstn_length_le by exact Hge; lia).
    assert (Eraw: firstn (length b - length rst) b = ib ++ lb ++ contents).
    { rewrite Eb, Er1, Er2. rewrite !app_assoc. rewrite firstn_len_sub. reflexivity. }
    assert (Hbb: b = (ib ++ lb ++ contents) ++ rst) by (rewrite Eb, Er1, Er2, <- !app_assoc; reflexivity).
    destruct pc.
    + destruct (many_def f (S (length contents)) contents) as [kids|] eqn:Em; [|discriminate H].
      inversion H; subst n rest. clear H.
      assert (Hcont: octs contents) by (apply octs_firstn; exact Hr2).
      destruct (many_def_shape f IH _ _ _ Hcont Em) as [Ek Hall].
      split.
      * apply shape_cons. exists ib, lb. split; [exact Hib|]. split; [rewrite <- Ek, Hlenc; exact Hlb|].
        split; [rewrite Eraw, Ek, app_nil_r; reflexivity|exact Hall].
      * cbn [node_raw]. rewrite Eraw. exact Hbb.
    + inversion H; subst n rest. clear H. split.
      * cbn [shape]. exists ib, lb. split; [exact Hib|]. split; [rewrite Hlenc; exact Hlb|exact Eraw].
      * cbn [node_raw]. rewrite Eraw. exact Hbb.
  - destruct pc; cbn [negb] in H; [|discriminate H].
    destruct (many_indef f (S (length r2)) r2) as [[kids rst]|] eqn:Em; [|discriminate H].
    inversion H; subst n rest. clear H.
    destruct (many_indef_shape f IH _ _ _ _ Hr2 Em) as [Ek Hall].
    assert (Eraw: firstn (length b - length rst) b = ib ++ lb ++ kids_raw kids ++ [0; 0]).
    { rewrite Eb, Er1, Ek. rewrite !app_assoc. rewrite firstn_len_sub. reflexivity. }
    split.
    + apply shape_cons. exists ib, lb. split; [exact Hib|]. split; [exact Hlb|]. split; [exact Eraw|exact Hall].
    + cbn [node_raw]. rewrite Eraw. rewrite Eb, Er1, Ek, <- !app_assoc. reflexivity.
Qed.

Corollary parse_shape b n rest : octs b -> parse b = Some (n, rest) -> shape n /\ b = node_raw n ++ rest.
Proof. intros Hb H. apply (parse_one_shape _ b n rest Hb H). Qed.

(* INTEGER / ENUMERATED: LeafInt.signed_value_is_from_bytes.  BOOLEAN: BerForms.any_nonzero_is_true *)

(* OBJECT IDENTIFIER, 8.19 *)
Definition more_gen (k: bytes -> res (list N)) :=
  fix more (fuel2: nat) (acc: N) (next: N) (r: bytes) : res (list N) :=
    match fuel2 with
    | O => Err EOutOfFuel
    | S f2 =>
        if N.leb 128 next then
          match r with
          | [] => Err EUnderrun
          | n' :: r' => more f2 (N.shiftl acc 7 + N.land next 127) n' r'
          end
        else do rest <- k r; Ok ((N.shiftl acc 7 + next) :: rest)
    end.

Lemma more_gen_S k f2 acc next r :
  more_gen k (S f2) acc next r =
  if N.leb 128 next then
    match r with
    | [] => Err EUnderrun
    | n' :: r' => more_gen k f2 (N.shiftl acc 7 + N.land next 127) n' r'
    end
  else do rest <- k r; Ok ((N.shiftl acc 7 + next) :: rest).
Proof. reflexivity. Qed.

Lemma oid_subids_S f s r :
  oid_subids (S f) (s :: r) =
  if N.ltb s 128 then do rest <- oid_subids f r; Ok (s :: rest)
  else if N.eqb s 128 then Err EMalformed
  else more_gen (oid_subids f) (S (length r)) 0 s r.
Proof. reflexivity. Qed.

Lemma subids_nil f acc fresh : subids f acc fresh [] = if fresh then Some [] else None.
Proof. destruct f; reflexivity. Qed.

Lemma subids_S f acc fresh o r :
  subids (S f) acc fresh (o :: r) =
  if (fresh && N.eqb o 128)%bool then None
  else if N.ltb o 128 then opt_bind (subids f 0 true r) (fun l => Some ((acc * 128 + o) :: l))
  else subids f (acc * 128 + (o - 128)) false r.
Proof. reflexivity. Qed.

Lemma oid_inner k : forall r f accm next acc l f2,
  octs r -> 128 <= next -> next < 256 -> acc = accm * 128 + (next - 128) ->
  subids f acc false r = Some l -> (length r < f2)%nat ->
  (forall r' f' l', (length r' < length r)%nat -> octs r' -> subids f' 0 true r' = Some l' -> k r' = Ok l') ->
  more_gen k f2 accm next r = Ok l.
Proof.
  induction r as [|o r IH]; intros f accm next acc l f2 Hr Hn1 Hn2 Eacc H Hf Hk.
  - rewrite subids_nil in H. discriminate H.
  - destruct f as [|f]; [discriminate H|]. rewrite subids_S in H. cbn [andb] in H.
    apply octs_cons in Hr. destruct Hr as [Ho Hr].
    destruct f2 as [|f2]; [lia|]. rewrite more_gen_S.
    destruct (N.leb_spec 128 next) as [_|Hc]; [|lia].
    destruct (cont_octet_agree next Hn2) as (_ & _ & E3). rewrite (E3 Hn1).
    assert (Eacc': N.shiftl accm 7 + (next - 128) = acc) by (rewrite shiftl_mul; change (2 ^ 7) with 128; lia).
    rewrite Eacc'.
    destruct (N.ltb_spec o 128) as [Hs|Hl].
    + destruct (subids f 0 true r) as [l0|] eqn:E0; [|discriminate H]. cbn [opt_bind] in H. inversion H; subst l.
      cbn [length] in Hf. destruct f2 as [|f2]; [lia|]. rewrite more_gen_S.
      destruct (N.leb_spec 128 o) as [Hc|_]; [lia|].
      rewrite (Hk r f l0); [|cbn [length]; lia|exact Hr|exact E0]. cbn [bind].
      rewrite shiftl_mul. change (2 ^ 7) with 128. reflexivity.
    + apply (IH f acc o (acc * 128 + (o - 128)) l f2 Hr Hl Ho eq_refl H); [cbn [length] in Hf; lia|].
      intros r' f' l' Hlen. apply Hk. cbn [length]. lia.
Qed.

Lemma oid_subids_ref : forall m b, (length b <= m)%nat -> octs b -> forall f l,
  subids f 0 true b = Some l -> forall g, (length b < g)%nat -> oid_subids g b = Ok l.
Proof.
  induction m as [|m IH]; intros b Hm Hb f l H g Hg.
  - destruct b; [|cbn [length] in Hm; lia]. rewrite subids_nil in H. inversion H; subst.
    destruct g; [cbn [length] in Hg; lia|]. reflexivity.
  - destruct b as [|s r].
    + rewrite subids_nil in H. inversion H; subst. destruct g; [cbn [length] in Hg; lia|]. reflexivity.
    + destruct f as [|f]; [discriminate H|]. rewrite subids_S in H. cbn [andb] in H.
      apply octs_cons in Hb. destruct Hb as [Hs Hr]. cbn [length] in Hm, Hg.
      destruct g as [|g]; [lia|]. rewrite oid_subids_S.
      destruct (N.eqb_spec s 128) as [E|Hne]; [discriminate H|].
      destruct (N.ltb_spec s 128) as [Hlt|Hge].
      * destruct (subids f 0 true r) as [l0|] eqn:E0; [|discriminate H]. cbn [opt_bind] in H. inversion H; subst l.
        rewrite (IH r ltac:(lia) Hr f l0 E0 g ltac:(lia)). cbn [bind]. reflexivity.
      * apply (oid_inner (oid_subids g) r f 0 s (0 * 128 + (s - 128)) l (S (length r)) Hr Hge Hs eq_refl H); [lia|].
        intros r' f' l' Hlen Hr' H'. apply (IH r' ltac:(lia) Hr' f' l' H'). lia.
Qed.

Theorem oid_leaf : forall c a, octs c -> oid_value c = Some a -> dec_oid c = Ok a.
Proof.
  intros c a Hc H. unfold oid_value in H.
  destruct (subids (S (length c)) 0 true c) as [l|] eqn:E; [|discriminate H].
  destruct l as [|x rest]; [discriminate H|].
  unfold dec_oid. destruct c as [|o c']; [rewrite subids_nil in E; discriminate E|].
  rewrite (oid_subids_ref _ _ (le_n _) Hc _ _ E (S (length (o :: c')))) by lia. cbn [bind].
  destruct (N.ltb_spec x 40) as [H1|H1].
  - destruct (N.leb_spec x 39) as [_|H2]; [|lia]. inversion H; reflexivity.
  - destruct (N.leb_spec x 39) as [H2|_]; [lia|].
    destruct (N.ltb_spec x 80) as [H3|H3].
    + destruct (N.leb_spec x 79) as [_|H4]; [|lia]. inversion H; reflexivity.
    + destruct (N.leb_spec x 79) as [H4|_]; [lia|]. inversion H; reflexivity.
Qed.

(* BIT STRING, 8.6: the bits of the octets *)
Lemma odd_mod2 n : N.odd n = N.eqb (n mod 2) 1.
Proof. rewrite <- N.bit0_odd. apply N.bit0_eqb. Qed.

Lemma N_to_bits_spec : forall k n, N_to_bits k n = bits_of_N k n.
Proof. induction k as [|k IH]; intros n; [reflexivity|]. cbn [N_to_bits bits_of_N]. rewrite IH, odd_mod2. reflexivity. Qed.

Lemma octets_to_bits_spec b : octets_to_bits b = bits_of_octets_spec b.
Proof.
  unfold octets_to_bits, bits_of_octets_spec. f_equal. apply map_ext. intros a. apply N_to_bits_spec.
Qed.

Lemma bits_of_N_length : forall k n, length (bits_of_N k n) = k.
Proof. induction k as [|k IH]; intros n; [reflexivity|]. cbn [bits_of_N]. rewrite app_length, IH. cbn [length]. lia. Qed.

Lemma bits_spec_length b : length (bits_of_octets_spec b) = (8 * length b)%nat.
Proof.
  unfold bits_of_octets_spec. induction b as [|o b IH]; [reflexivity|].
  cbn [map concat]. rewrite app_length, IH, bits_of_N_length. cbn [length]. lia.
Qed.

(* one primitive segment: the reference's (bits, unused) pair read as a whole value by the model *)
Theorem bits_leaf : forall c u bs,
  join_bit_segments [(bits_of_octets_spec c, u)] = Some bs -> bits_of_octets c u = Ok bs.
Proof.
  intros c u bs H. cbn [join_bit_segments] in H. unfold bits_of_octets. cbv zeta.
  rewrite bits_spec_length in H. rewrite octets_to_bits_spec.
  destruct (Nat.ltb (8 * length c) (N.to_nat u)); [discriminate H|]. inversion H. reflexivity.
Qed.

Lemma bits_leaf_full c : bits_of_octets c 0 = Ok (bits_of_octets_spec c).
Proof.
  unfold bits_of_octets. cbv zeta. change (N.to_nat 0) with 0%nat.
  destruct (Nat.ltb_spec (8 * length c) 0) as [Hc|_]; [lia|].
  rewrite Nat.sub_0_r, octets_to_bits_spec, <- bits_spec_length, firstn_all. reflexivity.
Qed.

(* REAL, 8.5: special values and every binary form (base 2/8/16, scaling factor, the four exponent-length
   forms).  Side condition: a binary encoding has at least one mantissa octet (the reference reads
   none as mantissa 0, the library refuses: 09 02 80 00) *)
Definition real_general (fo: N) (r: bytes) : option areal :=
  if N.ltb fo 128 then None else
  let neg := N.eqb ((fo / 64) mod 2) 1 in
  let base_bits := (fo / 16) mod 4 in
  let sf := (fo / 4) mod 4 in
  let ef := fo mod 4 in
  let '(elen, r1) := if N.eqb ef 3 then (match r with l :: _ => N.to_nat l | [] => O end, tl r) else (S (N.to_nat ef), r) in
  if (Nat.eqb elen 0 || Nat.ltb (length r1) elen)%bool then None else
  let e := signed_value (firstn elen r1) in
  let m := Z.of_N (octets_value 0 (skipn elen r1)) in
  if N.eqb base_bits 3 then None else
  let e2 := (if N.eqb base_bits 0 then e else if N.eqb base_bits 1 then 3 * e else 4 * e)%Z in
  let mant := ((if neg then -1 else 1) * m * 2 ^ Z.of_N sf)%Z in
  Some (abs_real (RBin mant e2)).

Lemma real_value_general fo r : fo <> 64 -> fo <> 65 -> real_value (fo :: r) = real_general fo r.
Proof.
  intros H1 H2. destruct fo as [|p]; [reflexivity|].
  do 7 (try (destruct p as [p|p|]; try reflexivity)); congruence.
Qed.

Definition real_mant_ok (c: bytes) : bool :=
  match c with
  | [] => true
  | fo :: r =>
      if N.ltb fo 128 then true else
      let ef := fo mod 4 in
      let '(elen, r1) := if N.eqb ef 3 then (match r with l :: _ => N.to_nat l | [] => O end, tl r) else (S (N.to_nat ef), r) in
      match skipn elen r1 with [] => false | _ => true end
  end.

Lemma real_first_octet fo : fo < 256 ->
  N.land fo 3 = fo mod 4 /\ N.land (N.shiftr fo 4) 3 = (fo / 16) mod 4 /\ N.land (N.shiftr fo 2) 3 = (fo / 4) mod 4
  /\ N.eqb (N.land fo 64) 0 = negb (N.eqb ((fo / 64) mod 2) 1) /\ N.eqb (N.land fo 128) 0 = N.ltb fo 128.
Proof.
  intros Ho.
  pose (P := fun fo => N.eqb (N.land fo 3) (fo mod 4) && N.eqb (N.land (N.shiftr fo 4) 3) ((fo / 16) mod 4)
                       && N.eqb (N.land (N.shiftr fo 2) 3) ((fo / 4) mod 4)
                       && Bool.eqb (N.eqb (N.land fo 64) 0) (negb (N.eqb ((fo / 64) mod 2) 1))
                       && Bool.eqb (N.eqb (N.land fo 128) 0) (N.ltb fo 128)).
  assert (H: P fo = true) by (apply byte_cases; [vm_compute; reflexivity|exact Ho]).
  unfold P in H. repeat (apply andb_true_iff in H; destruct H as [H ?]).
  repeat split; try (apply N.eqb_eq; assumption); apply Bool.eqb_prop; assumption.
Qed.

Lemma some_inj {A} (x y: A) : Some x = Some y -> x = y.
Proof. intros H. inversion H. reflexivity. Qed.

Definition dec_real_tail (fo: N) (eo mo: bytes) : res real :=
  match eo, mo with
  | [], _ | _, [] => Err EMalformed
  | _, _ =>
      let e := from_bytes_signed eo in
      let bb := N.land (N.shiftr fo 4) 3 in
      if N.ltb 2 bb then Err EMalformed else
      let e' := if N.eqb bb 1 then (e * 3)%Z else if N.eqb bb 2 then (e * 4)%Z else e in
      let p := Z.of_N (be_num 0 mo) in
      let p' := if negb (N.eqb (N.land fo 64) 0) then (- p)%Z else p in
      let sf := N.land (N.shiftr fo 2) 3 in
      Ok (RBin (p' * 2 ^ Z.of_N sf) e')
  end.

Definition real_ref_tail (fo: N) (elen: nat) (r1: bytes) : option areal :=
  if (Nat.eqb elen 0 || Nat.ltb (length r1) elen)%bool then None else
  let e := signed_value (firstn elen r1) in
  let m := Z.of_N (octets_value 0 (skipn elen r1)) in
  if N.eqb ((fo / 16) mod 4) 3 then None else
  let e2 := (if N.eqb ((fo / 16) mod 4) 0 then e else if N.eqb ((fo / 16) mod 4) 1 then 3 * e else 4 * e)%Z in
  let mant := ((if N.eqb ((fo / 64) mod 2) 1 then -1 else 1) * m * 2 ^ Z.of_N ((fo / 4) mod 4))%Z in
  Some (abs_real (RBin mant e2)).

Lemma real_tail fo elen r1 a : fo < 256 -> octs r1 ->
  real_ref_tail fo elen r1 = Some a -> skipn elen r1 <> [] ->
  exists r, dec_real_tail fo (firstn elen r1) (skipn elen r1) = Ok r /\ abs_real r = a.
Proof.
  intros Hfo Hr1 H Hm. unfold real_ref_tail in H.
  destruct (real_first_octet fo Hfo) as (F1 & F2 & F3 & F4 & F5).
  destruct (Nat.eqb_spec elen 0) as [E0|Hne0]; [discriminate H|].
  destruct (Nat.ltb_spec (length r1) elen) as [Hlt|Hge]; [discriminate H|]. cbn [orb] in H. cbv zeta in H.
  unfold dec_real_tail.
  destruct (firstn elen r1) as [|e0 eo'] eqn:Eeo.
  { exfalso. apply (f_equal (@length _)) in Eeo. rewrite firstn_length_le in Eeo by exact Hge. cbn in Eeo. lia. }
  destruct (skipn elen r1) as [|m0 mo'] eqn:Emo; [congruence|]. cbv zeta.
  rewrite F2, F3, F4.
  set (bb := (fo / 16) mod 4) in *.
  assert (Hbb: bb < 4) by (subst bb; apply N.mod_lt; lia).
  destruct (N.eqb_spec bb 3) as [E3|N3]; [discriminate H|].
  destruct (N.ltb_spec 2 bb) as [Hc|_]; [lia|].
  eexists. split; [reflexivity|]. apply some_inj in H. rewrite <- H. clear H.
  assert (He: signed_value (e0 :: eo') = from_bytes_signed (e0 :: eo')).
  { apply signed_value_is_from_bytes. apply octs_forallb. rewrite <- Eeo. apply octs_firstn. exact Hr1. }
  assert (Hmm: octets_value 0 (m0 :: mo') = be_num 0 (m0 :: mo')).
  { apply octets_value_is_be_num. apply octs_forallb. rewrite <- Emo. apply octs_skipn. exact Hr1. }
  rewrite He, Hmm. clearbody bb. clear -Hbb N3. f_equal. f_equal.
  + destruct (N.eqb ((fo / 64) mod 2) 1); cbn [negb]; lia.
  + destruct (N.eqb_spec bb 0) as [B0|NB0].
    * destruct (N.eqb_spec bb 1) as [B1|_]; [congruence|]. destruct (N.eqb_spec bb 2) as [B2|_]; [congruence|]. reflexivity.
    * destruct (N.eqb_spec bb 1) as [B1|NB1]; [apply Z.mul_comm|]. destruct (N.eqb_spec bb 2) as [B2|NB2]; [apply Z.mul_comm|lia].
Qed.

Theorem real_leaf : forall c a, octs c -> real_value c = Some a -> real_mant_ok c = true ->
  exists r, dec_real c = Ok r /\ abs_real r = a.
Proof.
  intros c a Hc H Hm. destruct c as [|fo r].
  - cbn in H. inversion H. exists (RDec 0 0). split; reflexivity.
  - apply octs_cons in Hc. destruct Hc as [Hfo Hr].
    destruct (N.eq_dec fo 64) as [->|N64].
    { destruct r as [|x r']; [cbn in H; inversion H; exists RPInf; split; reflexivity|].
      change (real_value (64 :: x :: r')) with (real_general 64 (x :: r')) in H. discriminate H. }
    destruct (N.eq_dec fo 65) as [->|N65].
    { destruct r as [|x r']; [cbn in H; inversion H; exists RNInf; split; reflexivity|].
      change (real_value (65 :: x :: r')) with (real_general 65 (x :: r')) in H. discriminate H. }
    rewrite (real_value_general fo r N64 N65) in H. unfold real_general in H. unfold real_mant_ok in Hm.
    destruct (N.ltb fo 128) eqn:E128; [discriminate H|]. cbv zeta in H, Hm.
    destruct (real_first_octet fo Hfo) as (F1 & F2 & F3 & F4 & F5).
    set (ef := fo mod 4) in *.
    assert (Hef: ef < 4) by (subst ef; apply N.mod_lt; lia).
    destruct r as [|c0 crest].
    { exfalso. destruct (N.eqb ef 3); cbn [tl length] in H; [discriminate H|].
      destruct (Nat.ltb_spec 0 (S (N.to_nat ef))) as [_|Hc]; [|lia]. rewrite orb_true_r in H. discriminate H. }
    destruct (N.eqb_spec ef 3) as [E3|N3].
    + cbn [tl] in H, Hm.
      assert (Hd: dec_real (fo :: c0 :: crest) = dec_real_tail fo (firstn (N.to_nat c0) crest) (skipn (N.to_nat c0) crest)).
      { unfold dec_real. rewrite F5, E128. cbn [negb]. cbv zeta. rewrite F1, E3. reflexivity. }
      rewrite Hd. apply octs_cons in Hr. destruct Hr as [_ Hr].
      apply (real_tail fo (N.to_nat c0) crest a Hfo Hr H). intros E. rewrite E in Hm. discriminate Hm.
    + assert (Hd: dec_real (fo :: c0 :: crest)
                  = dec_real_tail fo (firstn (S (N.to_nat ef)) (c0 :: crest)) (skipn (S (N.to_nat ef)) (c0 :: crest))).
      { unfold dec_real. rewrite F5, E128. cbn [negb]. cbv zeta. rewrite F1.
        destruct (N.eqb_spec (ef + 1) 4) as [E4|_]; [lia|].
        replace (N.to_nat (ef + 1)) with (S (N.to_nat ef)) by lia. reflexivity. }
      rewrite Hd.
      apply (real_tail fo (S (N.to_nat ef)) (c0 :: crest) a Hfo Hr H). intros E. rewrite E in Hm. discriminate Hm.
Qed.

Example stage2_leaves :
  oid_value [42; 134; 72; 128 + 6; 13] = Some [1; 2; 840; 781] /\ dec_oid [42; 134; 72; 128 + 6; 13] = Ok [1; 2; 840; 781]
  /\ signed_value [255; 0; 128] = (-65408)%Z /\ from_bytes_signed [255; 0; 128] = (-65408)%Z.
Proof. vm_compute. repeat split. Qed.

Lemma setpos_back s k : setpos (adv s k) (pos (adv s k) - k) = s.
Proof. destruct s as [a p c m]. unfold adv, setpos. cbn [pos arrived closed mark]. f_equal. lia. Qed.

(* the entry point reads any identifier and length octets and arrives at the dispatch; with allowEoo
   it first looks at two octets and steps back when they are not 00 00 *)
Lemma call_header : forall f sp acc allow sfun ib lb t ol rest s,
  ident_octets ib t -> len_octets lb ol -> avail s = ib ++ lb ++ rest -> (length ib <= S f)%nat ->
  (allow = true -> eoc_start (ib ++ lb) = false) ->
  resume (dec_call BER (S f) sp acc None allow sfun) s =
  resume (dispatch BER (dec_call BER f) f sp (t :: acc) ol sfun) (adv (setmark s (pos s)) (length ib + length lb)).
Proof.
  intros f sp acc allow sfun ib lb t ol rest s Hi Hl Hav Hlen Heoc.
  assert (Hmain: resume (Mark (let! t0 := read_tag f in let! len := read_length BER in
                               dispatch BER (dec_call BER f) f sp (t0 :: acc) len sfun)) s =
                 resume (dispatch BER (dec_call BER f) f sp (t :: acc) ol sfun)
                        (adv (setmark s (pos s)) (length ib + length lb))).
  { cbn [resume]. set (s0 := setmark s (pos s)).
    assert (Hav0: avail s0 = ib ++ lb ++ rest) by exact Hav.
    pose proof (Hi (lb ++ rest)) as Hid.
    assert (Hcons: (length (ib ++ lb ++ rest) - length (lb ++ rest))%nat = length ib) by (rewrite app_length; lia).
    rewrite (resume_read_tag f (ib ++ lb ++ rest) t (lb ++ rest) s0 _ Hid Hav0) by (rewrite Hcons; exact Hlen).
    rewrite Hcons.
    assert (Hav1: avail (adv s0 (length ib)) = lb ++ rest) by (apply (avail_app_adv _ _ _ Hav0)).
    rewrite (resume_read_length BER (lb ++ rest) ol rest _ _ (Hl rest) Hav1) by reflexivity.
    rewrite adv_adv. f_equal. f_equal. rewrite app_length. lia. }
  cbn [dec_call]. unfold dec_body. destruct allow; cbn [andb].
  - change (support_indef BER) with true. cbv iota.
    pose proof (ident_octets_nonempty _ _ Hi) as Hin. pose proof (len_octets_nonempty _ _ Hl) as Hln.
    destruct ib as [|x ib']; [congruence|].
    assert (E2: exists y r2, ib' ++ lb ++ rest = y :: r2 /\ eoc_start (x :: y :: r2) = false).
    { destruct ib' as [|y ib''].
      - destruct lb as [|y lb']; [congruence|]. exists y, (lb' ++ rest). split; [reflexivity|].
        specialize (Heoc eq_refl). cbn [app] in Heoc. destruct x; [|reflexivity]. destruct y; [discriminate Heoc|reflexivity].
      - exists y, (ib'' ++ lb ++ rest). split; [reflexivity|].
        specialize (Heoc eq_refl). cbn [app] in Heoc. destruct x; [|reflexivity]. destruct y; [discriminate Heoc|reflexivity]. }
    destruct E2 as (y & r2 & E2 & Hne).
    assert (Hav2: avail s = [x; y] ++ r2) by (rewrite Hav; cbn [app]; rewrite E2; reflexivity).
    rewrite (resume_readN s 2 [x; y] r2 _ Hav2 eq_refl).
    assert (Hbr: forall (A: Type) (k1 k2: A), match [x; y] with [0; 0] => k1 | _ => k2 end = k2).
    { intros A k1 k2. destruct x; [|reflexivity]. destruct y; [discriminate Hne|reflexivity]. }
    rewrite Hbr. cbn [resume]. rewrite setpos_back. exact Hmain.
  - exact Hmain.
Qed.

Lemma call_eoo : forall f sp acc sfun s tl, avail s = 0 :: 0 :: tl ->
  resume (dec_call BER (S f) sp acc None true sfun) s = inr (Ok DEoo, adv s 2).
Proof.
  intros f sp acc sfun s tl Hav. cbn [dec_call]. unfold dec_body. cbn [andb].
  change (support_indef BER) with true. cbv iota.
  rewrite (resume_readN s 2 [0; 0] tl _ Hav eq_refl). reflexivity.
Qed.

Definition len_ok (len: option N) (body: bytes) : Prop :=
  match len with Some l => l = N.of_nat (length body) | None => True end.

(* a definite length is checked against what the decoder of the contents consumed *)
Lemma run_value_consumes len (p: proc dval) body v : len_ok len body ->
  consumes p body v -> consumes (DecShape.run_value len p) body v.
Proof.
  destruct len as [l|]; [|intros _ H; exact H]. intros -> Hin s tl Hav. unfold DecShape.run_value. rewrite resume_tell.
  destruct (Hin s tl Hav) as (s2 & Hrun & Hpos & Harr & Hcl).
  rewrite (resume_pbind_done _ _ _ _ _ Hrun). rewrite resume_tell.
  rewrite Hpos. rewrite (Nat.add_comm (pos s)), Nat.add_sub. rewrite N.eqb_refl. cbn [resume].
  exists s2. split; [reflexivity|]. split; [lia|]. split; assumption.
Qed.

Lemma dispatch_match : forall rec f T ts len sfun cd fl,
  tagset_eqb ts (tagset_of' T) || tm_contains (tagmap_of T) ts = true -> tm_postponed (tagmap_of T) = false ->
  by_type BER T = Some (cd, fl) ->
  dispatch BER rec f (STy T) ts len sfun = DecShape.run_value len (dec_value rec f cd fl (Some T) ts len sfun).
Proof. intros rec f T ts len sfun cd fl H1 H2 H3. unfold dispatch. rewrite H1, H2, H3. destruct len; reflexivity. Qed.

Lemma dispatch_explicit : forall rec f T t acc len,
  tagset_eqb (t :: acc) (tagset_of' T) = false -> tm_contains (tagmap_of T) (t :: acc) = false ->
  tcon t = true -> tcls t <> Univ ->
  dispatch BER rec f (STy T) (t :: acc) len false = DecShape.run_value len (dec_raw rec f (STy T) (t :: acc) len false).
Proof.
  intros rec f T t acc len H1 H2 H3 H4. unfold dispatch. rewrite H1, H2, H3. cbn [orb andb].
  destruct (tcls t); try congruence; destruct len; reflexivity.
Qed.

Lemma after_header s (hb body tl: bytes) :
  avail s = hb ++ body ++ tl ->
  let s1 := adv (setmark s (pos s)) (length hb) in
  avail s1 = body ++ tl /\ pos s1 = (pos s + length hb)%nat /\ arrived s1 = arrived s /\ closed s1 = closed s.
Proof.
  intros Hav s1. split; [|repeat split].
  subst s1. rewrite avail_adv, avail_setmark, Hav. apply skipn_app_exact.
Qed.

Lemma consumes_after_header (p q: proc dval) (hb body: bytes) v :
  (forall s rest, avail s = hb ++ body ++ rest ->
     resume p s = resume q (adv (setmark s (pos s)) (length hb))) ->
  consumes q body v -> consumes p (hb ++ body) v.
Proof.
  intros Hhdr Hq s tl Hav. rewrite <- app_assoc in Hav. rewrite (Hhdr s tl Hav).
  destruct (after_header s hb body tl Hav) as (Hav1 & Hp1 & Ha1 & Hc1).
  destruct (Hq _ tl Hav1) as (s2 & Hrun & Hpos & Harr & Hcl).
  exists s2. split; [exact Hrun|]. rewrite app_length. repeat split; [lia|congruence|congruence].
Qed.

Lemma call_consumes : forall f sp acc allow sfun ib lb t ol body v,
  ident_octets ib t -> len_octets lb ol -> (length ib <= S f)%nat ->
  (allow = true -> eoc_start (ib ++ lb) = false) ->
  consumes (dispatch BER (dec_call BER f) f sp (t :: acc) ol sfun) body v ->
  consumes (dec_call BER (S f) sp acc None allow sfun) ((ib ++ lb) ++ body) v.
Proof.
  intros f sp acc allow sfun ib lb t ol body v Hi Hl Hlen Heoc Hq.
  apply (consumes_after_header _ (dispatch BER (dec_call BER f) f sp (t :: acc) ol sfun) (ib ++ lb) body v); [|exact Hq].
  intros s rest Hav. rewrite app_length.
  apply (call_header f sp acc allow sfun ib lb t ol (body ++ rest) s Hi Hl); [|exact Hlen|exact Heoc].
  rewrite Hav, <- app_assoc. reflexivity.
Qed.

Definition node_body (n: node) : bytes :=
  match n with
  | Prim _ _ c _ => c
  | Cons _ _ indef kids _ => kids_raw kids ++ (if indef then [0; 0] else [])
  end.
Definition node_len (n: node) : option N :=
  match n with
  | Prim _ _ c _ => Some (N.of_nat (length c))
  | Cons _ _ false kids _ => Some (N.of_nat (length (kids_raw kids)))
  | Cons _ _ true _ _ => None
  end.
Definition node_wire (n: node) : tag :=
  match n with Prim c num _ _ => mkTag c false num | Cons c num _ _ _ => mkTag c true num end.

Lemma shape_split n : shape n ->
  exists ib lb, ident_octets ib (node_wire n) /\ len_octets lb (node_len n) /\ node_raw n = (ib ++ lb) ++ node_body n.
Proof.
  destruct n as [c num contents raw|c num indef kids raw].
  - intros (ib & lb & Hi & Hl & E). exists ib, lb. cbn [node_wire node_len node_raw node_body].
    split; [exact Hi|]. split; [exact Hl|]. rewrite E, <- app_assoc. reflexivity.
  - intros H. apply shape_cons in H. destruct H as (ib & lb & Hi & Hl & E & _). exists ib, lb.
    cbn [node_wire node_raw node_body]. split; [exact Hi|]. split; [destruct indef; exact Hl|].
    rewrite E, <- app_assoc. reflexivity.
Qed.

(* size of a node against fuel and the largest read the library can ask for *)
Definition fitsn (f: nat) (n: node) : Prop :=
  N.of_nat (length (node_raw n)) <= index_max /\ (length (node_raw n) <= f)%nat.

Lemma eoc_start_prefix a b : (2 <= length a)%nat -> eoc_start (a ++ b) = false -> eoc_start a = false.
Proof. intros H E. rewrite eoc_start_app in E by exact H. exact E. Qed.

Lemma hdr_len2 ib lb t ol : ident_octets ib t -> len_octets lb ol -> (2 <= length (ib ++ lb))%nat.
Proof.
  intros Hi Hl. pose proof (ident_octets_nonempty _ _ Hi). pose proof (len_octets_nonempty _ _ Hl).
  rewrite app_length. destruct ib; [congruence|]. destruct lb; [congruence|]. cbn [length]. lia.
Qed.

(* the contents of an indefinite-length node with one member: the member, then the end-of-contents octets *)
Lemma consumes_then_eoo (p: proc dval) (k: dval -> proc dval) b v w :
  consumes p b v -> (forall s tl, avail s = 0 :: 0 :: tl -> resume (k v) s = inr (Ok w, adv s 2)) ->
  consumes (pbind p k) (b ++ [0; 0]) w.
Proof.
  intros Hp Hk s tl Hav. rewrite <- app_assoc in Hav.
  destruct (Hp s ([0; 0] ++ tl) Hav) as (s1 & Hrun & Hp1 & Ha1 & Hc1).
  rewrite (resume_pbind_done _ _ _ _ _ Hrun), (Hk s1 tl (consumes_avail b s _ s1 Hav Hp1 Ha1)).
  exists (adv s1 2). split; [reflexivity|]. rewrite app_length. cbn [length].
  rewrite pos_adv. split; [lia|]. split; [rewrite arrived_adv; exact Ha1|rewrite closed_adv; exact Hc1].
Qed.

Lemma node_len_ok n : len_ok (node_len n) (node_body n).
Proof. destruct n as [c num contents raw|c num [|] kids raw]; cbn [len_ok node_len node_body]; rewrite ?app_nil_r; trivial. Qed.

Lemma node_consumes f sp acc n allow sfun v :
  shape n -> fitsn f n -> (allow = true -> eoc_start (node_raw n) = false) ->
  consumes (dispatch BER (dec_call BER f) f sp (node_wire n :: acc) (node_len n) sfun) (node_body n) v ->
  consumes (dec_call BER (S f) sp acc None allow sfun) (node_raw n) v.
Proof.
  intros Hsh [Hmax Hf] Heoc Hd.
  destruct (shape_split n Hsh) as (ib & lb & Hi & Hl & Eraw). rewrite Eraw in *.
  apply (call_consumes f sp acc allow sfun ib lb (node_wire n) (node_len n) (node_body n) v Hi Hl).
  - rewrite !app_length in Hf. lia.
  - intros Ha. apply (eoc_start_prefix _ (node_body n)); [apply (hdr_len2 _ _ _ _ Hi Hl)|apply Heoc; exact Ha].
  - exact Hd.
Qed.

Lemma item_of_value : forall f T0 acc n allow sfun v cd fl,
  shape n -> fitsn f n -> (allow = true -> eoc_start (node_raw n) = false) ->
  tagset_eqb (node_wire n :: acc) (tagset_of' T0) = true -> tm_postponed (tagmap_of T0) = false ->
  by_type BER T0 = Some (cd, fl) ->
  consumes (dec_value (dec_call BER f) f cd fl (Some T0) (node_wire n :: acc) (node_len n) sfun) (node_body n) v ->
  consumes (dec_call BER (S f) (STy T0) acc None allow sfun) (node_raw n) v.
Proof.
  intros f T0 acc n allow sfun v cd fl Hsh Hfit Heoc Heq Hpp Hby Hval. apply (node_consumes f _ acc n allow sfun v Hsh Hfit Heoc).
  rewrite (dispatch_match _ _ _ _ _ _ cd fl ltac:(rewrite Heq; reflexivity) Hpp Hby). apply run_value_consumes; [apply node_len_ok|exact Hval].
Qed.

Definition is_dv (d: dval) : Prop := match d with DV _ _ => True | _ => False end.

(* one EXPLICIT level, definite or indefinite, under any spec whose dispatch goes one level down: the one
   member, then (indefinite form) the end-of-contents octets *)
Lemma explicit_level : forall f sp acc c num indef k raw allow v,
  shape (Cons c num indef [k] raw) -> fitsn (S f) (Cons c num indef [k] raw) ->
  (allow = true -> eoc_start raw = false) ->
  (forall len, dispatch BER (dec_call BER (S f)) (S f) sp (mkTag c true num :: acc) len false
               = DecShape.run_value len (dec_raw (dec_call BER (S f)) (S f) sp (mkTag c true num :: acc) len false)) ->
  is_dv v ->
  consumes (dec_call BER (S f) sp (mkTag c true num :: acc) None indef false) (node_raw k) v ->
  consumes (dec_call BER (S (S f)) sp acc None allow false) raw v.
Proof.
  intros f sp acc c num indef k raw allow v Hsh Hfit Heoc Hdisp Hdv Hin.
  apply (node_consumes (S f) sp acc (Cons c num indef [k] raw) allow false v Hsh Hfit Heoc).
  cbn [node_wire node_len node_body]. rewrite Hdisp. unfold dec_raw. cbv iota.
  assert (Ekr: kids_raw [k] = node_raw k) by (unfold kids_raw; cbn [map concat]; apply app_nil_r).
  rewrite Ekr. destruct indef.
  - cbn [raw_loop]. apply (consumes_then_eoo _ _ _ v v Hin). intros s1 tl Hav1.
    destruct v; try contradiction. destruct f as [|f'].
    { (* the node is longer than that *)
      exfalso. destruct Hfit as [_ Hf]. destruct (shape_split _ Hsh) as (ib & lb & Hi & Hl & Eraw).
      apply shape_cons in Hsh. destruct Hsh as (_ & _ & _ & _ & _ & Hall). inversion Hall as [|? ? [Hk _] _]; subst.
      pose proof (shape_raw_len k Hk). pose proof (hdr_len2 _ _ _ _ Hi Hl). cbn [node_raw node_body] in Eraw, Hf.
      rewrite Eraw, Ekr, !app_length in Hf. cbn [length] in Hf. lia. }
    cbn [raw_loop]. rewrite (resume_pbind_done _ _ _ _ _ (call_eoo (S f') _ _ _ s1 tl Hav1)). reflexivity.
  - rewrite app_nil_r. apply run_value_consumes; [reflexivity|exact Hin].
Qed.

Lemma item_of_explicit : forall f T0 acc c num indef k raw allow v,
  shape (Cons c num indef [k] raw) -> fitsn (S f) (Cons c num indef [k] raw) ->
  (allow = true -> eoc_start raw = false) ->
  tagset_eqb (mkTag c true num :: acc) (tagset_of' T0) = false ->
  tm_contains (tagmap_of T0) (mkTag c true num :: acc) = false -> c <> Univ -> is_dv v ->
  consumes (dec_call BER (S f) (STy T0) (mkTag c true num :: acc) None indef false) (node_raw k) v ->
  consumes (dec_call BER (S (S f)) (STy T0) acc None allow false) raw v.
Proof.
  intros f T0 acc c num indef k raw allow v Hsh Hfit Heoc Hne Hnm Hcls Hdv Hin.
  apply (explicit_level f (STy T0) acc c num indef k raw allow v Hsh Hfit Heoc); [|exact Hdv|exact Hin].
  intros len. apply (dispatch_explicit _ _ _ _ _ _ Hne Hnm eq_refl Hcls).
Qed.

Definition key (t: tag) : tclass * N := (tcls t, tnum t).
Definition keys (ts: tagset) : list (tclass * N) := map key ts.

Lemma tag_eqb_key a b : tag_eqb a b = true <-> key a = key b.
Proof.
  unfold tag_eqb, key. split.
  - intros H. apply andb_true_iff in H. destruct H as [H1 H2]. apply cls_eqb_eq in H1. apply N.eqb_eq in H2. congruence.
  - intros H. inversion H as [[H1 H2]]. rewrite H1, H2. apply andb_true_iff. split; [apply cls_eqb_eq; reflexivity|apply N.eqb_refl].
Qed.

Lemma tagset_eqb_keys : forall a b, tagset_eqb a b = true <-> keys a = keys b.
Proof.
  induction a as [|x a IH]; intros [|y b]; cbn; try (split; [reflexivity|reflexivity]); try (split; discriminate).
  split.
  - intros H. apply andb_true_iff in H. destruct H as [H1 H2]. apply tag_eqb_key in H1. apply IH in H2.
    unfold keys in H2. rewrite H1, H2. reflexivity.
  - intros H. assert (H1: key x = key y) by congruence. assert (H2: keys a = keys b) by (unfold keys; congruence).
    apply andb_true_iff. split; [apply tag_eqb_key; exact H1|apply IH; exact H2].
Qed.

Lemma tagset_eqb_keys_false a b : length a <> length b -> tagset_eqb a b = false.
Proof.
  intros H. destruct (tagset_eqb a b) eqn:E; [|reflexivity]. apply tagset_eqb_keys in E.
  apply (f_equal (@length _)) in E. unfold keys in E. rewrite !map_length in E. congruence.
Qed.

Lemma class_no_inj a b : class_no a = class_no b -> a = b.
Proof. destruct a, b; cbn; intros H; try reflexivity; discriminate H. Qed.

Lemma tag_pair_eqb_eq a b : tag_pair_eqb a b = true -> a = b.
Proof.
  unfold tag_pair_eqb. intros H. apply andb_true_iff in H. destruct H as [H1 H2].
  apply N.eqb_eq in H1, H2. apply class_no_inj in H1. destruct a, b. cbn in *. congruence.
Qed.

Lemma same_tag_key e n : same_tag e n = true -> key (node_wire n) = e.
Proof.
  unfold same_tag. intros H. apply tag_pair_eqb_eq in H. rewrite H. destruct n; reflexivity.
Qed.

Definition orkey (e: option (tclass * N)) (k: tclass * N) : tclass * N := match e with Some x => x | None => k end.

(* the (class, number) pairs an encoding of T shows from the base tag outwards, when the outermost
   one has been replaced by e *)
Fixpoint kets (T: ty) (e: option (tclass * N)) : list (tclass * N) :=
  match T with
  | TImp t x => kets x (Some (orkey e (key t)))
  | TExp t x => kets x None ++ [orkey e (key t)]
  | TChoice _ | TAny => match e with Some k => [k] | None => [] end     (* no tag of its own *)
  | _ => [orkey e (match tagset_of' T with [u] => key u | _ => (Univ, 0) end)]
  end.

(* a type with an outermost tag of its own (IMPLICIT tagging needs one to replace) *)
Fixpoint headed (T: ty) : bool :=
  match T with TChoice _ | TAny => false | TImp _ x => headed x | _ => true end.
Fixpoint impl_ok (T: ty) : bool :=
  match T with TImp _ x => headed x && impl_ok x | TExp _ x => impl_ok x | _ => true end.

Lemma tag_implicitly_keys ts t : ts <> [] ->
  exists ts' last, ts = ts' ++ [last] /\ tag_implicitly ts t = ts' ++ [mkTag (tcls t) (tcon last) (tnum t)].
Proof. intros H. destruct (exists_last H) as (ts' & last & ->). exists ts', last. split; [reflexivity|apply tag_implicitly_spec]. Qed.

Lemma keys_app a b : keys (a ++ b) = keys a ++ keys b. Proof. apply map_app. Qed.

Lemma keys_kets : forall T, wf_tags T = true -> impl_ok T = true ->
  exists ts, tagset_of T = Ok ts /\ keys ts = kets T None
             /\ (headed T = true -> ts <> [] /\ forall t, keys (tag_implicitly ts t) = kets T (Some (key t))).
Proof.
  induction T as [| | | | | | | | n|fs IH|fs IH|t IH|t IH|alts IH| |tg x IH|tg x IH] using ty_ind';
    intros Hw Hp;
    try (eexists; split; [reflexivity|split; [reflexivity|intros _; split; [discriminate|intros t0; reflexivity]]]);
    try (exists []; split; [reflexivity|split; [reflexivity|intros Hh; discriminate Hh]]).
  - cbn [wf_tags] in Hw. apply andb_true_iff in Hw. destruct Hw as [Hcl Hw].
    cbn [impl_ok] in Hp. apply andb_true_iff in Hp. destruct Hp as [Hh Hp].
    destruct (IH Hw Hp) as (ts & Hts & Hk & Hk2). destruct (Hk2 Hh) as [Hne Hk3].
    cbn [tagset_of]. rewrite Hts. cbn [bind]. exists (tag_implicitly ts tg).
    destruct (tag_implicitly_keys ts tg Hne) as (ts' & last & E1 & E2).
    split; [reflexivity|]. split; [cbn [kets orkey]; apply Hk3|]. intros _.
    split; [rewrite E2; destruct ts'; discriminate|].
    intros t0. cbn [kets orkey]. rewrite <- Hk3. rewrite E2, tag_implicitly_spec. rewrite E1, tag_implicitly_spec.
    rewrite !keys_app. reflexivity.
  - cbn [wf_tags] in Hw. apply andb_true_iff in Hw. destruct Hw as [Hcl Hw]. cbn [impl_ok] in Hp.
    destruct (IH Hw Hp) as (ts & Hts & Hk & _).
    cbn [tagset_of]. rewrite Hts. cbn [bind]. unfold tag_explicitly.
    assert (Hnu: tcls tg <> Univ) by (destruct (tcls tg); try discriminate; cbn in Hcl; congruence).
    exists (ts ++ [mkTag (tcls tg) true (tnum tg)]).
    split; [destruct (tcls tg); try reflexivity; congruence|].
    split; [rewrite keys_app, Hk; reflexivity|]. intros _.
    split; [destruct ts; discriminate|].
    intros t0. rewrite tag_implicitly_spec, keys_app, Hk. reflexivity.
Qed.

Lemma kets_nonempty : forall T e, headed T = true -> kets T e <> [].
Proof.
  induction T as [| | | | | | | | n|fs IH|fs IH|t IH|t IH|alts IH| |tg x IH|tg x IH] using ty_ind'; intros e Hh;
    try discriminate.
  - cbn [kets]. apply IH. exact Hh.
  - cbn [kets]. destruct (kets x None); discriminate.
Qed.

(* the tag sets an encoding of T can show: one, or those of the alternatives of an untagged CHOICE *)
Fixpoint leaves (T: ty) : list tagset :=
  match T with TChoice alts => flat_map leaves alts | _ => [tagset_of' T] end.

(* how many CHOICE levels the decoded value descends at its head *)
Fixpoint cdv (T: ty) (v: val) {struct v} : nat :=
  match T, v with TChoice alts, VChoice i x => S (cdv (nth i alts TNull) x) | _, _ => O end.

(* effectiveTagSet of the decoded value is one of the leaves *)
Definition ets_ok (T: ty) (v: val) : Prop := forall g, (cdv T v < g)%nat -> In (effective_tagset g T v) (leaves T).

Definition not_choice (T: ty) : Prop := match T with TChoice _ => False | _ => True end.

Lemma ets_plain T v : not_choice T -> ets_ok T v /\ cdv T v = 0%nat.
Proof.
  intros H. split.
  - intros g Hg. destruct g as [|g]; [lia|]. destruct T; try contradiction; cbn [effective_tagset leaves]; try (left; reflexivity);
      destruct v; left; reflexivity.
  - destruct T; try contradiction; destruct v; reflexivity.
Qed.

Lemma ets_choice alts j a v : nth_error alts j = Some a -> ets_ok a v -> ets_ok (TChoice alts) (VChoice j v).
Proof.
  intros Hn He g Hg. cbn [cdv] in Hg. rewrite (nth_error_nth alts j TNull Hn) in Hg.
  destruct g as [|g]; [lia|]. cbn [effective_tagset]. rewrite (nth_error_nth alts j TNull Hn).
  cbn [leaves]. apply in_flat_map. exists a. split; [apply (nth_error_In _ _ Hn)|apply He; lia].
Qed.

(* how the dispatch treats spec sp on the way to type T0: EXPLICIT levels while the tags read are a
   proper outer part of a tag set of T0; once they are all of it, T0's value decoder, run d levels of
   fuel lower (one for every untagged CHOICE the spec goes through), and its value wrapped by W into
   what the spec's own type returns *)
Record sp_ok (sp: spec) (T0: ty) (W: val -> dval) (d: nat) : Prop := {
  so_match : forall f ts len cd fl body v,
     In (keys ts) (map keys (leaves T0)) -> by_type BER T0 = Some (cd, fl) ->
     ets_ok T0 v -> (cdv T0 v <= f)%nat -> len_ok len body ->
     consumes (dec_value (dec_call BER f) f cd fl (Some T0) ts len false) body (DV T0 v) ->
     consumes (dispatch BER (dec_call BER (f + d)) (f + d) sp ts len false) body (W v);
  so_explicit : forall rec f t acc len ls pre, In ls (leaves T0) -> keys ls = pre ++ keys (t :: acc) -> pre <> [] ->
     tcon t = true -> tcls t <> Univ ->
     dispatch BER rec f sp (t :: acc) len false = DecShape.run_value len (dec_raw rec f sp (t :: acc) len false);
  so_dv : forall v, is_dv (W v);
  (* an untagged ANY is only ever met under its own type as the spec *)
  so_any : T0 = TAny -> sp = STy TAny /\ d = 0%nat /\ forall v, W v = DV TAny v
}.

Lemma item_of_value_sp : forall f sp T0 W d acc n allow v cd fl,
  shape n -> fitsn f n -> (allow = true -> eoc_start (node_raw n) = false) ->
  sp_ok sp T0 W d -> In (keys (node_wire n :: acc)) (map keys (leaves T0)) -> by_type BER T0 = Some (cd, fl) ->
  ets_ok T0 v -> (cdv T0 v <= f)%nat ->
  consumes (dec_value (dec_call BER f) f cd fl (Some T0) (node_wire n :: acc) (node_len n) false) (node_body n) (DV T0 v) ->
  consumes (dec_call BER (S (f + d)) sp acc None allow false) (node_raw n) (W v).
Proof.
  intros f sp T0 W d acc n allow v cd fl Hsh [Hmax Hf] Heoc Hsp Heq Hby Hets Hcd Hval.
  assert (Hfit: fitsn (f + d) n) by (split; [exact Hmax|lia]).
  apply (node_consumes (f + d) sp acc n allow false (W v) Hsh Hfit Heoc).
  apply (so_match sp T0 W d Hsp f _ _ cd fl _ v Heq Hby Hets Hcd (node_len_ok n) Hval).
Qed.

Lemma item_of_explicit_sp : forall f sp T0 W d acc c num indef k raw allow v ls pre,
  shape (Cons c num indef [k] raw) -> fitsn (S f) (Cons c num indef [k] raw) ->
  (allow = true -> eoc_start raw = false) ->
  sp_ok sp T0 W d -> In ls (leaves T0) -> keys ls = pre ++ keys (mkTag c true num :: acc) -> pre <> [] -> c <> Univ -> is_dv v ->
  consumes (dec_call BER (S f) sp (mkTag c true num :: acc) None indef false) (node_raw k) v ->
  consumes (dec_call BER (S (S f)) sp acc None allow false) raw v.
Proof.
  intros f sp T0 W d acc c num indef k raw allow v ls pre Hsh Hfit Heoc Hsp Hls Hk Hpre Hcls Hdv Hin.
  apply (explicit_level f sp acc c num indef k raw allow v Hsh Hfit Heoc); [|exact Hdv|exact Hin].
  intros len. apply (so_explicit sp T0 W d Hsp _ _ _ _ _ ls pre Hls Hk Hpre eq_refl Hcls).
Qed.

Definition member (rec : spec -> tagset -> option (option N) -> bool -> bool -> proc dval)
  (sp: spec) (allow sfun: bool) (p: bytes) (d: dval) : Prop :=
  consumes (rec sp [] None allow sfun) p d /\ (0 < length p)%nat.
(* OCTET STRING and character string segments; BIT STRING segments, each decoded as a BIT STRING value;
   elements of SEQUENCE OF / SET OF and components of SEQUENCE / SET *)
Definition oseg rec (allow: bool) (p: bytes) (bs: bytes) : Prop := member rec (STy TOcts) allow true p (DV TOcts (VOcts bs)).
Definition bseg rec (allow: bool) (p: bytes) (bs: list bool) : Prop := member rec (STy TBits) allow false p (DV TBits (VBits bs)).
Definition elem rec (t: ty) (allow: bool) (p: bytes) (x: val) : Prop := member rec (STy t) allow false p (DV t x).

(* where end-of-contents octets are allowed the recursive entry point reports them (call_eoo) *)
Definition reports_eoo (rec : spec -> tagset -> option (option N) -> bool -> bool -> proc dval) : Prop :=
  forall sp acc sfun s tl, avail s = 0 :: 0 :: tl -> resume (rec sp acc None true sfun) s = inr (Ok DEoo, adv s 2).

Section LoopsDef.
  Variable rec : spec -> tagset -> option (option N) -> bool -> bool -> proc dval.

  Lemma octets_loop_run proto sp ts : forall parts bss,
    Forall2 (oseg rec false) parts bss ->
    forall n acc start total s tl,
      (length parts < n)%nat -> avail s = concat parts ++ tl -> (start <= pos s)%nat ->
      (pos s - start + length (concat parts) = total)%nat ->
      exists s', resume (octets_loop rec proto sp ts (N.of_nat total) start n acc) s
                 = resume (create sp proto ts (VOcts (acc ++ concat bss))) s'
        /\ avail s' = tl /\ pos s' = (pos s + length (concat parts))%nat /\ arrived s' = arrived s /\ closed s' = closed s.
  Proof.
    intros parts bss HF. induction HF as [|p bs parts bss [Hp Hpl] HF IH]; intros n acc start total s tl Hn Hav Hst Htot.
    - destruct n as [|n']; [cbn [length] in Hn; lia|].
      cbn [octets_loop]. rewrite resume_tell. cbn [concat length] in Htot.
      destruct (N.ltb_spec (N.of_nat (pos s - start)) (N.of_nat total)) as [Hlt|_]; [lia|].
      exists s. cbn [concat length app] in Hav, Htot |- *. rewrite app_nil_r. repeat split; [exact Hav|lia].
    - destruct n as [|n']; [cbn [length] in Hn; lia|].
      cbn [octets_loop]. rewrite resume_tell.
      cbn [concat] in Htot, Hav. rewrite app_length in Htot.
      destruct (N.ltb_spec (N.of_nat (pos s - start)) (N.of_nat total)) as [_|Hge]; [|lia].
      rewrite <- app_assoc in Hav. unfold fragment.
      destruct (Hp s _ Hav) as (s1 & Hrun & Hpos & Harr & Hcl).
      rewrite (resume_pbind_done _ _ _ _ _ Hrun).
      pose proof (consumes_avail p s _ s1 Hav Hpos Harr) as Hav1.
      cbn [length] in Hn.
      destruct (IH n' (acc ++ bs) start total s1 tl ltac:(lia) Hav1 ltac:(lia) ltac:(lia)) as (s2 & Hrun2 & Hav2 & Hpos2 & Harr2 & Hcl2).
      exists s2. rewrite Hrun2. rewrite <- app_assoc. cbn [concat]. rewrite app_length.
      split; [reflexivity|]. split; [exact Hav2|]. split; [lia|]. split; congruence.
  Qed.

  Lemma bits_loop_run sp ts : forall parts bss,
    Forall2 (bseg rec false) parts bss ->
    forall n acc start total s tl,
      (length parts < n)%nat -> avail s = concat parts ++ tl -> (start <= pos s)%nat ->
      (pos s - start + length (concat parts) = total)%nat ->
      exists s', resume (bits_loop rec sp ts (N.of_nat total) start n acc) s
                 = resume (create sp TBits ts (VBits (acc ++ concat bss))) s'
        /\ avail s' = tl /\ pos s' = (pos s + length (concat parts))%nat /\ arrived s' = arrived s /\ closed s' = closed s.
  Proof.
    intros parts bss HF. induction HF as [|p bs parts bss [Hp Hpl] HF IH]; intros n acc start total s tl Hn Hav Hst Htot.
    - destruct n as [|n']; [cbn [length] in Hn; lia|].
      cbn [bits_loop]. rewrite resume_tell. cbn [concat length] in Htot.
      destruct (N.ltb_spec (N.of_nat (pos s - start)) (N.of_nat total)) as [Hlt|_]; [lia|].
      exists s. cbn [concat length app] in Hav, Htot |- *. rewrite app_nil_r. repeat split; [exact Hav|lia].
    - destruct n as [|n']; [cbn [length] in Hn; lia|].
      cbn [bits_loop]. rewrite resume_tell.
      cbn [concat] in Htot, Hav. rewrite app_length in Htot.
      destruct (N.ltb_spec (N.of_nat (pos s - start)) (N.of_nat total)) as [_|Hge]; [|lia].
      rewrite <- app_assoc in Hav. unfold bits_fragment.
      destruct (Hp s _ Hav) as (s1 & Hrun & Hpos & Harr & Hcl).
      rewrite (resume_pbind_done _ _ _ _ _ Hrun). cbn [add_bits_fragment pbind].
      pose proof (consumes_avail p s _ s1 Hav Hpos Harr) as Hav1.
      cbn [length] in Hn.
      destruct (IH n' (acc ++ bs) start total s1 tl ltac:(lia) Hav1 ltac:(lia) ltac:(lia)) as (s2 & Hrun2 & Hav2 & Hpos2 & Harr2 & Hcl2).
      exists s2. rewrite Hrun2. rewrite <- app_assoc. cbn [concat]. rewrite app_length.
      split; [reflexivity|]. split; [exact Hav2|]. split; [lia|]. split; congruence.
  Qed.

End LoopsDef.

Section LoopsIndef.
  Variable rec : spec -> tagset -> option (option N) -> bool -> bool -> proc dval.
  Hypothesis rec_eoo : reports_eoo rec.

  Lemma octets_indef_loop_run proto sp ts : forall parts bss,
    Forall2 (oseg rec true) parts bss ->
    forall n acc s tl,
      (length parts < n)%nat -> avail s = concat parts ++ [0; 0] ++ tl ->
      exists s', resume (octets_indef_loop rec proto sp ts n acc) s
                 = resume (create sp proto ts (VOcts (acc ++ concat bss))) s'
        /\ avail s' = tl /\ pos s' = (pos s + (length (concat parts) + 2))%nat /\ arrived s' = arrived s /\ closed s' = closed s.
  Proof.
    intros parts bss HF. induction HF as [|p bs parts bss [Hp Hpl] HF IH]; intros n acc s tl Hn Hav.
    - destruct n as [|n']; [cbn [length] in Hn; lia|].
      cbn [octets_indef_loop]. unfold fragment. cbn [concat app] in Hav.
      rewrite (resume_pbind_done _ _ _ _ _ (rec_eoo _ _ _ s tl Hav)).
      exists (adv s 2). cbn [concat app]. rewrite app_nil_r. split; [reflexivity|].
      split; [rewrite avail_adv, Hav; reflexivity|]. repeat split.
    - destruct n as [|n']; [cbn [length] in Hn; lia|].
      cbn [octets_indef_loop]. unfold fragment. cbn [concat] in Hav. rewrite <- app_assoc in Hav.
      destruct (Hp s _ Hav) as (s1 & Hrun & Hpos & Harr & Hcl).
      rewrite (resume_pbind_done _ _ _ _ _ Hrun).
      pose proof (consumes_avail p s _ s1 Hav Hpos Harr) as Hav1.
      cbn [length] in Hn.
      destruct (IH n' (acc ++ bs) s1 tl ltac:(lia) Hav1) as (s2 & Hrun2 & Hav2 & Hpos2 & Harr2 & Hcl2).
      exists s2. rewrite Hrun2. rewrite <- app_assoc. cbn [concat]. rewrite !app_length in *.
      split; [reflexivity|]. split; [exact Hav2|]. split; [lia|]. split; congruence.
  Qed.

  Lemma bits_indef_loop_run sp ts : forall parts bss,
    Forall2 (bseg rec true) parts bss ->
    forall n acc s tl,
      (length parts < n)%nat -> avail s = concat parts ++ [0; 0] ++ tl ->
      exists s', resume (bits_indef_loop rec sp ts n acc) s
                 = resume (create sp TBits ts (VBits (acc ++ concat bss))) s'
        /\ avail s' = tl /\ pos s' = (pos s + (length (concat parts) + 2))%nat /\ arrived s' = arrived s /\ closed s' = closed s.
  Proof.
    intros parts bss HF. induction HF as [|p bs parts bss [Hp Hpl] HF IH]; intros n acc s tl Hn Hav.
    - destruct n as [|n']; [cbn [length] in Hn; lia|].
      cbn [bits_indef_loop]. unfold bits_fragment. cbn [concat app] in Hav.
      rewrite (resume_pbind_done _ _ _ _ _ (rec_eoo _ _ _ s tl Hav)).
      exists (adv s 2). cbn [concat app]. rewrite app_nil_r. split; [reflexivity|].
      split; [rewrite avail_adv, Hav; reflexivity|]. repeat split.
    - destruct n as [|n']; [cbn [length] in Hn; lia|].
      cbn [bits_indef_loop]. unfold bits_fragment. cbn [concat] in Hav. rewrite <- app_assoc in Hav.
      destruct (Hp s _ Hav) as (s1 & Hrun & Hpos & Harr & Hcl).
      rewrite (resume_pbind_done _ _ _ _ _ Hrun). cbn [add_bits_fragment pbind].
      pose proof (consumes_avail p s _ s1 Hav Hpos Harr) as Hav1.
      cbn [length] in Hn.
      destruct (IH n' (acc ++ bs) s1 tl ltac:(lia) Hav1) as (s2 & Hrun2 & Hav2 & Hpos2 & Harr2 & Hcl2).
      exists s2. rewrite Hrun2. rewrite <- app_assoc. cbn [concat]. rewrite !app_length in *.
      split; [reflexivity|]. split; [exact Hav2|]. split; [lia|]. split; congruence.
  Qed.

  Lemma listof_indef_loop_run T t : forall parts xs,
    Forall2 (elem rec t true) parts xs ->
    forall n acc start s tl,
      (length parts < n)%nat -> avail s = concat parts ++ [0; 0] ++ tl ->
      exists s', resume (listof_loop rec T t None start n acc) s = inr (Ok (DV T (VList (acc ++ xs))), s')
        /\ pos s' = (pos s + (length (concat parts) + 2))%nat /\ arrived s' = arrived s /\ closed s' = closed s.
  Proof.
    intros parts xs HF. induction HF as [|p x parts xs [Hp Hpl] HF IH]; intros n acc start s tl Hn Hav.
    - destruct n as [|n']; [cbn [length] in Hn; lia|].
      cbn [listof_loop]. cbv zeta. rewrite resume_tell. cbn [negb]. cbn [concat app] in Hav.
      rewrite (resume_pbind_done _ _ _ _ _ (rec_eoo _ _ _ s tl Hav)). cbn [resume].
      exists (adv s 2). rewrite app_nil_r. cbn [concat app length]. repeat split.
    - destruct n as [|n']; [cbn [length] in Hn; lia|].
      cbn [listof_loop]. cbv zeta. rewrite resume_tell. cbn [negb]. cbn [concat] in Hav. rewrite <- app_assoc in Hav.
      destruct (Hp s _ Hav) as (s1 & Hrun & Hpos & Harr & Hcl).
      rewrite (resume_pbind_done _ _ _ _ _ Hrun).
      pose proof (consumes_avail p s _ s1 Hav Hpos Harr) as Hav1.
      cbn [length] in Hn.
      destruct (IH n' (acc ++ [x]) start s1 tl ltac:(lia) Hav1) as (s2 & Hrun2 & Hpos2 & Harr2 & Hcl2).
      exists s2. rewrite Hrun2. rewrite <- app_assoc. cbn [app concat]. rewrite !app_length in *.
      split; [reflexivity|]. split; [lia|]. split; congruence.
  Qed.
End LoopsIndef.

(* record_loop's [deterministic]: a SEQUENCE all of whose components are mandatory *)
Definition rec_det (is_set: bool) (fs: list (presence * ty)) : bool := negb is_set && forallb (fun f => is_req (fst f)) fs.

Section RecordLoop.
  Variable rec : spec -> tagset -> option (option N) -> bool -> bool -> proc dval.
  Variable lf : nat.
  Variable fs : list (presence * ty).
  Variable is_set : bool.
  Hypothesis Hne : (match fs with [] => true | _ => false end) = false.

  (* the spec under which the member at position idx is read: the tag map of all components (SET), the
     component's type, or the tag map of the run of OPTIONAL components starting there (SEQUENCE) *)
  Definition member_spec (idx: nat) : option spec :=
    if is_set then Some (SMap (fields_tagmap true (map snd fs))) else seq_component_spec fs (rec_det is_set fs) idx.

  (* the members as the decoder meets them: read at position idx under the spec of that position,
     placed at position j by type; a SEQUENCE member is not past the last component *)
  Inductive steps (allow: bool) : nat -> list bytes -> list (option val) -> list (option val) -> Prop :=
  | st_nil idx vs : steps allow idx [] vs vs
  | st_cons idx p parts sp ft v j vs vs' :
      member_spec idx = Some sp -> member rec sp allow false p (DV ft v) ->
      seq_position lf fs is_set (rec_det is_set fs) idx ft v = Ok j ->
      negb is_set && Nat.leb (length fs) idx = false -> (j < length fs)%nat ->
      steps allow (S j) parts (set_nth j (Some v) vs) vs' ->
      steps allow idx (p :: parts) vs vs'.

  Lemma record_loop_def T : forall idx parts vs vs', steps false idx parts vs vs' ->
    forall n start total s tl,
      (length parts < n)%nat -> avail s = concat parts ++ tl -> (start <= pos s)%nat ->
      (pos s - start + length (concat parts) = total)%nat -> required_seen fs vs' = true ->
      exists s', resume (record_loop rec lf T fs is_set (Some (N.of_nat total)) start n idx vs 0%nat) s
                 = inr (Ok (DV T (VRec vs')), s')
        /\ pos s' = (pos s + length (concat parts))%nat /\ arrived s' = arrived s /\ closed s' = closed s.
  Proof.
    intros idx parts vs vs' HS.
    induction HS as [idx vs|idx p parts sp ft v j vs vs' Hsp [Hp Hpl] Hpos Hidx Hj HS IH];
      intros n start total s tl Hn Hav Hst Htot Hreq.
    - destruct n as [|n']; [cbn [length] in Hn; lia|].
      cbn [record_loop]. cbv zeta. rewrite resume_tell. cbn [concat length] in Htot.
      destruct (N.ltb_spec (N.of_nat (pos s - start)) (N.of_nat total)) as [Hlt|_]; [lia|].
      cbn [negb]. rewrite Hne, Hreq. cbn [resume]. exists s. cbn [concat length]. repeat split. lia.
    - destruct n as [|n']; [cbn [length] in Hn; lia|].
      cbn [record_loop]. cbv zeta. rewrite resume_tell.
      cbn [concat] in Htot, Hav. rewrite app_length in Htot.
      destruct (N.ltb_spec (N.of_nat (pos s - start)) (N.of_nat total)) as [_|Hge]; [|lia].
      cbn [negb]. rewrite Hne. fold (rec_det is_set fs). fold (member_spec idx). rewrite Hsp.
      rewrite <- app_assoc in Hav.
      destruct (Hp s _ Hav) as (s1 & Hrun & Hps & Harr & Hcl).
      rewrite (resume_pbind_done _ _ _ _ _ Hrun).
      pose proof (consumes_avail p s _ s1 Hav Hps Harr) as Hav1.
      rewrite Hidx, Hpos. cbn [lift pbind].
      destruct (Nat.leb_spec (length fs) j) as [Hc|_]; [lia|].
      cbn [length] in Hn.
      destruct (IH n' start total s1 tl ltac:(lia) Hav1 ltac:(lia) ltac:(lia) Hreq) as (s2 & Hrun2 & Hpos2 & Harr2 & Hcl2).
      exists s2. rewrite Hrun2. cbn [concat]. rewrite app_length.
      split; [reflexivity|]. split; [lia|]. split; congruence.
  Qed.

  Hypothesis rec_eoo : reports_eoo rec.

  Lemma member_spec_some idx : exists sp,
    (if negb is_set && Nat.leb (length fs) idx then Some SNone else member_spec idx) = Some sp.
  Proof.
    unfold member_spec. destruct is_set; cbn [negb andb]; [eexists; reflexivity|].
    destruct (Nat.leb_spec (length fs) idx) as [Hc|Hlt]; [exists SNone; reflexivity|].
    unfold seq_component_spec. destruct (nth_error fs idx) as [[p t]|] eqn:E.
    - destruct (rec_det false fs || is_req p); eexists; reflexivity.
    - apply nth_error_None in E. lia.
  Qed.

  Lemma record_loop_indef T : forall idx parts vs vs', steps true idx parts vs vs' ->
    forall n start s tl,
      (length parts < n)%nat -> avail s = concat parts ++ [0; 0] ++ tl -> required_seen fs vs' = true ->
      exists s', resume (record_loop rec lf T fs is_set None start n idx vs 0%nat) s
                 = inr (Ok (DV T (VRec vs')), s')
        /\ pos s' = (pos s + (length (concat parts) + 2))%nat /\ arrived s' = arrived s /\ closed s' = closed s.
  Proof.
    intros idx parts vs vs' HS.
    induction HS as [idx vs|idx p parts sp ft v j vs vs' Hsp [Hp Hpl] Hpos Hidx Hj HS IH];
      intros n start s tl Hn Hav Hreq.
    - destruct n as [|n']; [cbn [length] in Hn; lia|].
      cbn [record_loop]. cbv zeta. rewrite resume_tell. cbn [negb]. rewrite Hne.
      fold (rec_det is_set fs). fold (member_spec idx).
      replace (if negb is_set && Nat.leb (length fs) idx then Some SNone
               else if is_set then Some (SMap (fields_tagmap true (map snd fs))) else member_spec idx)
        with (if negb is_set && Nat.leb (length fs) idx then Some SNone else member_spec idx)
        by (unfold member_spec; destruct is_set; reflexivity).
      destruct (member_spec_some idx) as (sp & ->).
      cbn [concat app] in Hav.
      rewrite (resume_pbind_done _ _ _ _ _ (rec_eoo _ _ _ s tl Hav)). rewrite Hreq. cbn [resume].
      exists (adv s 2). cbn [concat length]. repeat split.
    - destruct n as [|n']; [cbn [length] in Hn; lia|].
      cbn [record_loop]. cbv zeta. rewrite resume_tell. cbn [negb]. rewrite Hne, Hidx.
      fold (rec_det is_set fs). fold (member_spec idx).
      replace (if is_set then Some (SMap (fields_tagmap true (map snd fs))) else member_spec idx) with (member_spec idx)
        by (unfold member_spec; destruct is_set; reflexivity).
      rewrite Hsp.
      cbn [concat] in Hav. rewrite <- app_assoc in Hav.
      destruct (Hp s _ Hav) as (s1 & Hrun & Hps & Harr & Hcl).
      rewrite (resume_pbind_done _ _ _ _ _ Hrun).
      pose proof (consumes_avail p s _ s1 Hav Hps Harr) as Hav1.
      rewrite Hpos. cbn [lift pbind].
      destruct (Nat.leb_spec (length fs) j) as [Hc|_]; [lia|].
      cbn [length] in Hn.
      destruct (IH n' start s1 tl ltac:(lia) Hav1 Hreq) as (s2 & Hrun2 & Hpos2 & Harr2 & Hcl2).
      exists s2. rewrite Hrun2. cbn [concat]. rewrite app_length.
      split; [reflexivity|]. split; [lia|]. split; congruence.
  Qed.
End RecordLoop.

Lemma record_value f' T0 fs (is_set: bool) cd fl acc c num i kids raw vs' :
  (cd = DcSeq \/ cd = DcSet) -> base_of T0 = (if is_set then TSet fs else TSeq fs) ->
  (match fs with [] => true | _ => false end) = false ->
  steps (dec_call BER (S f')) (S f') fs is_set i 0%nat (map node_raw kids) (map (fun _ => None) fs) vs' ->
  required_seen fs vs' = true -> (length kids < S f')%nat ->
  consumes (dec_value (dec_call BER (S f')) (S f') cd fl (Some T0) (mkTag c true num :: acc)
                      (node_len (Cons c num i kids raw)) false)
           (node_body (Cons c num i kids raw)) (DV T0 (VRec vs')).
Proof.
  intros Hcd Hb Hne HS Hreq Hlen.
  assert (Hdv: forall len, dec_value (dec_call BER (S f')) (S f') cd fl (Some T0) (mkTag c true num :: acc) len false
                           = dec_record (dec_call BER (S f')) (S f') T0 fs is_set len).
  { intros len. destruct Hcd as [-> | ->]; cbn [dec_value tag0_cons tcon negb]; rewrite Hb; destruct is_set; reflexivity. }
  rewrite Hdv. clear Hdv. cbn [node_len node_body]. unfold kids_raw.
  rewrite <- (map_length node_raw kids) in Hlen.
  intros s tl Hav. unfold dec_record. rewrite resume_tell.
  destruct i.
  - rewrite <- app_assoc in Hav.
    destruct (record_loop_indef (dec_call BER (S f')) (S f') fs is_set Hne (call_eoo f') T0 _ _ _ _ HS (S f') (pos s) s tl Hlen Hav Hreq)
      as (s' & Hrun & Hpos & Harr & Hcl).
    exists s'. split; [exact Hrun|]. rewrite app_length. cbn [length]. repeat split; assumption.
  - rewrite app_nil_r in *.
    destruct (record_loop_def (dec_call BER (S f')) (S f') fs is_set Hne T0 _ _ _ _ HS (S f') (pos s) (length (concat (map node_raw kids))) s tl
                Hlen Hav ltac:(lia) ltac:(lia) Hreq) as (s' & Hrun & Hpos & Harr & Hcl).
    exists s'. split; [exact Hrun|]. repeat split; assumption.
Qed.

Lemma record_empty f' T0 (is_set: bool) cd fl acc c num i raw :
  (cd = DcSeq \/ cd = DcSet) -> base_of T0 = (if is_set then TSet [] else TSeq []) ->
  consumes (dec_value (dec_call BER (S f')) (S f') cd fl (Some T0) (mkTag c true num :: acc)
                      (node_len (Cons c num i [] raw)) false)
           (node_body (Cons c num i [] raw)) (DV T0 (VRec [])).
Proof.
  intros Hcd Hb.
  assert (Hdv: forall len, dec_value (dec_call BER (S f')) (S f') cd fl (Some T0) (mkTag c true num :: acc) len false
                           = dec_record (dec_call BER (S f')) (S f') T0 [] is_set len).
  { intros len. destruct Hcd as [-> | ->]; cbn [dec_value tag0_cons tcon negb]; rewrite Hb; destruct is_set; reflexivity. }
  rewrite Hdv. clear Hdv. cbn [node_len node_body kids_raw map concat length app].
  intros s tl Hav. unfold dec_record. rewrite resume_tell. cbn [record_loop]. cbv zeta. rewrite resume_tell.
  destruct i.
  - cbn [negb]. rewrite (resume_pbind_done _ _ _ _ _ (call_eoo f' _ _ _ s tl Hav)). cbn [resume map].
    exists (adv s 2). repeat split.
  - rewrite Nat.sub_diag. cbn [N.of_nat N.ltb N.compare negb resume map]. exists s. repeat split. cbn [length]. lia.
Qed.

(* a well-shaped node of octets within fuel f *)
Definition nok (f: nat) (n: node) : Prop := shape n /\ octs (node_raw n) /\ fitsn f n.

Lemma kids_raw_cons k r : kids_raw (k :: r) = node_raw k ++ kids_raw r. Proof. reflexivity. Qed.

Lemma kids_raw_count kids : Forall shape kids -> (2 * length kids <= length (kids_raw kids))%nat.
Proof.
  induction 1 as [|k r Hk _ IH]; [cbn; lia|].
  rewrite kids_raw_cons, app_length. pose proof (shape_raw_len k Hk). cbn [length]. lia.
Qed.

Lemma kid_raw_len k kids : In k kids -> (length (node_raw k) <= length (kids_raw kids))%nat.
Proof.
  induction kids as [|x r IH]; intros H; [contradiction|].
  rewrite kids_raw_cons, app_length. destruct H as [->|H]; [lia|]. specialize (IH H). lia.
Qed.

Lemma kid_raw_octs k kids : octs (kids_raw kids) -> In k kids -> octs (node_raw k).
Proof.
  induction kids as [|x r IH]; intros Ho H; [contradiction|].
  rewrite kids_raw_cons in Ho. apply octs_app in Ho. destruct Ho as [H1 H2].
  destruct H as [->|H]; [exact H1|apply IH; assumption].
Qed.

Lemma nok_kids f c num indef kids raw : nok f (Cons c num indef kids raw) ->
  exists f', f = S (S f') /\ (length kids <= f')%nat
    /\ Forall (fun k => nok f' k /\ (indef = true -> eoc_start (node_raw k) = false) /\ (0 < length (node_raw k))%nat) kids.
Proof.
  intros (Hsh & Ho & Hmax & Hf).
  pose proof Hsh as Hsh0. apply shape_cons in Hsh. destruct Hsh as (ib & lb & Hi & Hl & E & Hall).
  cbn [node_raw] in *. pose proof (hdr_len2 _ _ _ _ Hi Hl) as H2.
  assert (Hshk: Forall shape kids) by (apply Forall_forall; intros k Hk; rewrite Forall_forall in Hall; apply (Hall k Hk)).
  pose proof (kids_raw_count kids Hshk) as Hcnt.
  assert (Hlen: (length (ib ++ lb) + length (kids_raw kids) <= length raw)%nat).
  { rewrite E. rewrite !app_length. lia. }
  assert (Hok: octs (kids_raw kids)).
  { rewrite E in Ho. apply octs_app in Ho. destruct Ho as [_ Ho]. apply octs_app in Ho. destruct Ho as [_ Ho].
    apply octs_app in Ho. tauto. }
  destruct f as [|[|f']]; [lia|lia|]. exists f'. split; [reflexivity|]. split; [lia|].
  apply Forall_forall. intros k Hk. rewrite Forall_forall in Hall. destruct (Hall k Hk) as [Hks Hke].
  pose proof (kid_raw_len k kids Hk) as Hkl. pose proof (shape_raw_len k Hks) as Hk2.
  split; [|split; [exact Hke|lia]].
  split; [exact Hks|]. split; [apply (kid_raw_octs k kids Hok Hk)|]. split; lia.
Qed.

Lemma opt_all_Forall2 {A B} (g: A -> option B) : forall l r, opt_all (map g l) = Some r -> Forall2 (fun a b => g a = Some b) l r.
Proof.
  induction l as [|a l IH]; intros r H.
  - cbn in H. inversion H. constructor.
  - cbn [map opt_all] in H. destruct (g a) as [b|] eqn:Ea; [|discriminate H].
    destruct (opt_all (map g l)) as [r'|] eqn:Er; [|discriminate H]. cbn [opt_bind] in H. inversion H; subst.
    constructor; [exact Ea|apply IH; reflexivity].
Qed.

Lemma segments_inv fuel n bs : segments fuel n = Some bs ->
  (exists c raw, n = Prim Univ 4 c raw /\ bs = c)
  \/ (exists i kids raw l fuel', n = Cons Univ 4 i kids raw /\ fuel = S fuel'
        /\ opt_all (map (segments fuel') kids) = Some l /\ bs = concat l).
Proof.
  destruct fuel as [|fuel']; [discriminate|]. cbn [segments].
  destruct n as [c num contents raw|c num i kids raw]; destruct c; try discriminate;
    destruct num as [|[p|[p|[p|p|]|]|]]; try discriminate.
  - intros H. assert (E: contents = bs) by congruence. subst bs. left. exists contents, raw. split; reflexivity.
  - intros H. right. destruct (opt_all (map (segments fuel') kids)) as [l|] eqn:E; [|discriminate H].
    cbn [opt_bind] in H. assert (E2: concat l = bs) by congruence. subst bs.
    exists i, kids, raw, l, fuel'. split; [reflexivity|]. split; [reflexivity|]. split; [exact E|reflexivity].
Qed.

Lemma fits_of_body f n : fitsn f n -> shape n -> DecPrim.fits f (node_body n).
Proof.
  intros [Hmax Hf] Hsh. destruct (shape_split n Hsh) as (ib & lb & _ & _ & E). rewrite E in *.
  rewrite app_length in *. unfold DecPrim.fits. split; lia.
Qed.

Section OctetValue.
  Variables (f: nat) (T0 proto: ty) (fl: dec_flags) (ts: tagset) (sfun: bool).
  (* the type accepts the octets read (a character string type: they are of its repertoire) *)
  Definition creates (b: bytes) : Prop := create (Some T0) proto ts (VOcts b) = Ret (DV T0 (VOcts b)).
  Hypothesis Hfl : df_constructed fl = true.

  Lemma octets_prim_value content :
    tag0_simple ts = true -> DecPrim.fits f content -> creates content ->
    consumes (dec_octets (dec_call BER f) f proto fl (Some T0) ts (N.of_nat (length content)) sfun) content (DV T0 (VOcts content)).
  Proof. intros Hts Hfit Hb. unfold dec_octets. rewrite Hts. apply consumes_ret; [exact Hfit|exact Hb]. Qed.

  Lemma octets_def_value parts bss :
    tag0_simple ts = false -> Forall2 (oseg (dec_call BER f) false) parts bss -> (length parts < f)%nat ->
    creates (concat bss) ->
    consumes (dec_octets (dec_call BER f) f proto fl (Some T0) ts (N.of_nat (length (concat parts))) sfun) (concat parts)
             (DV T0 (VOcts (concat bss))).
  Proof.
    intros Hts HF Hlf Hb s tl Hav. unfold dec_octets. rewrite Hts, Hfl. cbn [negb]. rewrite resume_tell.
    destruct (octets_loop_run (dec_call BER f) proto (Some T0) ts parts bss HF f [] (pos s) (length (concat parts)) s tl Hlf Hav
                ltac:(lia) ltac:(lia)) as (s' & Hrun & _ & Hpos & Harr & Hcl).
    rewrite Hrun. cbn [app]. rewrite Hb. cbn [resume]. exists s'. repeat split; assumption.
  Qed.

  Lemma octets_indef_value f' parts bss :
    f = S f' -> Forall2 (oseg (dec_call BER f) true) parts bss -> (length parts < f)%nat ->
    creates (concat bss) ->
    consumes (dec_octets_indef (dec_call BER f) f proto (Some T0) ts) (concat parts ++ [0; 0]) (DV T0 (VOcts (concat bss))).
  Proof.
    intros Ef HF Hlf Hb s tl Hav. unfold dec_octets_indef. rewrite <- app_assoc in Hav.
    assert (Heoo: forall sp acc sfun0 s0 tl0, avail s0 = 0 :: 0 :: tl0 ->
                  resume (dec_call BER f sp acc None true sfun0) s0 = inr (Ok DEoo, adv s0 2)).
    { rewrite Ef. apply call_eoo. }
    destruct (octets_indef_loop_run (dec_call BER f) Heoo proto (Some T0) ts parts bss HF f [] s tl Hlf Hav)
      as (s' & Hrun & _ & Hpos & Harr & Hcl).
    rewrite Hrun. cbn [app]. rewrite Hb. cbn [resume]. exists s'. rewrite app_length. cbn [length].
    repeat split; assumption.
  Qed.
End OctetValue.

Lemma wire_univ_tagset n u acc T0 :
  key (node_wire n) = u -> keys (tagset_of' T0) = u :: keys acc ->
  tagset_eqb (node_wire n :: acc) (tagset_of' T0) = true.
Proof. intros H1 H2. apply tagset_eqb_keys. cbn [keys map]. fold (keys acc). rewrite H1, H2. reflexivity. Qed.

Lemma tag0_simple_wire n acc : tag0_simple (node_wire n :: acc) = match n with Prim _ _ _ _ => true | Cons _ _ _ _ _ => false end.
Proof. destruct n; reflexivity. Qed.

Lemma members_Forall2 {B} (P: node -> Prop) (g: node -> option B) (R: bytes -> B -> Prop) :
  forall kids l, Forall P kids -> Forall2 (fun k b => g k = Some b) kids l ->
  (forall k b, P k -> g k = Some b -> R (node_raw k) b) ->
  Forall2 R (map node_raw kids) l.
Proof.
  intros kids l HP HF Hstep. induction HF as [|k b kids l Hg HF IH]; [constructor|].
  inversion HP; subst. cbn [map]. constructor; [apply Hstep; assumption|apply IH; assumption].
Qed.

Lemma nok_mono f g n : nok f n -> (f <= g)%nat -> nok g n.
Proof. intros (H1 & H2 & H3 & H4) Hle. split; [exact H1|]. split; [exact H2|]. split; [exact H3|lia]. Qed.

(* dec_value's [proto_str]: the prototype a string value of T0 is created from *)
Definition proto_str (T0: ty) : ty := match base_of T0 with TStr n => TStr n | _ => TOcts end.

(* a node as the reference looks at it under an IMPLICIT tag: with the universal tag of its type *)
Definition as_univ (u: N) (n: node) : node :=
  match n with Prim _ _ c r => Prim Univ u c r | Cons _ _ i k r => Cons Univ u i k r end.

Lemma segments_univ fuel n bs : segments fuel n = Some bs -> as_univ 4 n = n.
Proof. intros H. destruct (segments_inv _ _ _ H) as [(c & raw & -> & _)|(i & kids & raw & l & fuel' & -> & _)]; reflexivity. Qed.

Definition octs_frag (k: node) : Prop := forall fuel b f i,
  nok f k -> (i = true -> eoc_start (node_raw k) = false) -> segments fuel k = Some b ->
  consumes (dec_call BER (S f) (STy TOcts) [] None i true) (node_raw k) (DV TOcts (VOcts b)).

(* the value decoder of an octet or character string type T0 over a node in any primitive / constructed /
   nested segmentation, given that each member is read as a fragment *)
Lemma string_value : forall f T0 cd fl acc sfun n fuel bs,
  (cd = DcOcts \/ cd = DcStr) ->
  (forall ts, create (Some T0) (proto_str T0) ts (VOcts bs) = Ret (DV T0 (VOcts bs))) -> df_constructed fl = true ->
  nok f n -> segments fuel (as_univ 4 n) = Some bs ->
  Forall octs_frag (node_kids n) ->
  consumes (dec_value (dec_call BER f) f cd fl (Some T0) (node_wire n :: acc) (node_len n) sfun) (node_body n) (DV T0 (VOcts bs)).
Proof.
  intros f T0 cd fl acc sfun n fuel bs Hcd Hcreate Hfl Hok Hseg IH.
  assert (Hdv: forall ts len, dec_value (dec_call BER f) f cd fl (Some T0) ts len sfun =
            match len with
            | Some l => dec_octets (dec_call BER f) f (proto_str T0) fl (Some T0) ts l sfun
            | None => dec_octets_indef (dec_call BER f) f (proto_str T0) (Some T0) ts
            end).
  { intros ts len. destruct Hcd as [-> | ->]; destruct len; reflexivity. }
  rewrite Hdv. clear Hdv.
  destruct n as [c num contents raw|c num indef kids raw]; cbn [as_univ] in Hseg.
  - destruct (segments_inv _ _ _ Hseg) as [(c0 & raw0 & E & ->)|(i & kids & raw0 & l & fuel' & E & _)]; [|discriminate E].
    inversion E; subst c0 raw0. destruct Hok as (Hsh & Ho & Hfit).
    cbn [node_len node_body node_wire].
    apply (octets_prim_value f T0 (proto_str T0) fl _ sfun); [reflexivity|apply (fits_of_body f _ Hfit Hsh)|apply Hcreate].
  - destruct (segments_inv _ _ _ Hseg) as [(c0 & raw0 & E & _)|(i & kids0 & raw0 & l & fuel' & E & _ & Hall & ->)]; [discriminate E|].
    inversion E; subst i kids0 raw0. clear E.
    destruct (nok_kids _ _ _ _ _ _ Hok) as (f' & -> & Hcnt & Hkids).
    assert (HF: Forall2 (oseg (dec_call BER (S (S f'))) indef) (map node_raw kids) l).
    { apply (members_Forall2 _ (segments fuel') _ kids l (Forall_and IH Hkids) (opt_all_Forall2 _ _ _ Hall)).
      intros k b [IHk (Hk & Hke & Hkl)] Hg. split; [|exact Hkl].
      apply (IHk fuel' b (S f') indef (nok_mono _ _ _ Hk (Nat.le_succ_diag_r f')) Hke Hg). }
    cbn [node_len node_body node_wire]. unfold kids_raw.
    rewrite <- (map_length node_raw kids) in Hcnt.
    destruct indef.
    + apply (octets_indef_value (S (S f')) T0 (proto_str T0) _ (S f') _ _ eq_refl HF); [lia|apply Hcreate].
    + rewrite app_nil_r.
      apply (octets_def_value (S (S f')) T0 (proto_str T0) fl (mkTag c true num :: acc) sfun Hfl _ _ eq_refl HF); [lia|apply Hcreate].
Qed.

(* an OCTET STRING in any primitive / constructed / nested segmentation, definite or indefinite at
   every level, is read by the decoder (as a fragment or as a value) to the octets the reference joins *)
Theorem octet_string_item : forall n fuel bs f allow sfun,
  nok f n -> (allow = true -> eoc_start (node_raw n) = false) -> segments fuel n = Some bs ->
  consumes (dec_call BER (S f) (STy TOcts) [] None allow sfun) (node_raw n) (DV TOcts (VOcts bs)).
Proof.
  induction n as [n IH] using node_kids_ind; intros fuel bs f allow sfun Hok Heoc Hseg.
  pose proof (segments_univ _ _ _ Hseg) as Eu. pose proof Hok as (Hsh & _ & Hfit).
  apply (item_of_value f TOcts [] n allow sfun _ DcOcts (mkDecFlags true (Some KOcts)) Hsh Hfit Heoc); try reflexivity.
  - apply (wire_univ_tagset n (Univ, 4) [] TOcts); [rewrite <- Eu; destruct n; reflexivity|reflexivity].
  - apply (string_value f TOcts DcOcts (mkDecFlags true (Some KOcts)) [] sfun n fuel bs (or_introl eq_refl) (fun ts => eq_refl) eq_refl Hok); [rewrite Eu; exact Hseg|].
    revert IH. apply Forall_impl. intros k IHk fuel' b f' i. apply (IHk fuel' b f' i true).
Qed.

Lemma all_octs_frag l : Forall octs_frag l.
Proof. apply Forall_forall. intros k _ fuel b f i Hk Hke Hg. apply (octet_string_item k fuel b f i true Hk Hke Hg). Qed.

Definition is_nil {A} (l: list A) : bool := match l with [] => true | _ => false end.
(* marked (class, number) pairs: KR = a REAL may be carried under it, KA = a character
   string whose repertoire the library checks (ASCII) *)
Inductive kind := KR | KA | KN.
Definition kind_eqb (a b: kind) : bool := match a, b with KR, KR | KA, KA | KN, KN => true | _, _ => false end.
Definition mkey : Type := (kind * (tclass * N))%type.
Definition mkey_eqb (a b: mkey) : bool := kind_eqb (fst a) (fst b) && tag_pair_eqb (snd a) (snd b).
Definition memk (k: mkey) (L: list mkey) : bool := existsb (mkey_eqb k) L.
Definition ascii (b: bytes) : bool := forallb (fun x => N.ltb x 128) b.
Fixpoint leaves_ascii (n: node) : bool :=
  match n with
  | Prim _ _ contents _ => ascii contents
  | Cons _ _ _ kids _ => forallb leaves_ascii kids
  end.
(* KN marks that an ANY occurs: then no node may carry the reserved tag UNIVERSAL 0 *)
Definition u0_ok (L: list mkey) (c: tclass) (num: N) : bool :=
  negb (memk (KN, (Univ, 0)) L && tag_pair_eqb (c, num) (Univ, 0)).
(* the side conditions of the final theorems as a predicate on the TLV tree, relative to a list L of
   marked (class, number) pairs *)
Fixpoint safe (L: list mkey) (n: node) : bool :=
  match n with
  | Prim c num contents _ =>
      (negb (memk (KR, (c, num)) L) || real_mant_ok contents) && (negb (memk (KA, (c, num)) L) || ascii contents)
      && u0_ok L c num
  | Cons c num indef kids _ =>
      (negb (memk (KA, (c, num)) L) || forallb leaves_ascii kids) && u0_ok L c num
      && forallb (safe L) kids
  end.

Lemma andb3 a b c : a && b && c = true -> a = true /\ b = true /\ c = true.
Proof. destruct a, b, c; intros H; try discriminate H; repeat split. Qed.

Lemma bit_segments_inv fuel n l : bit_segments fuel n = Some l ->
  (exists u c raw, n = Prim Univ 3 (u :: c) raw /\ N.ltb 7 u = false /\ l = [(bits_of_octets_spec c, u)])
  \/ (exists i kids raw ls fuel', n = Cons Univ 3 i kids raw /\ fuel = S fuel'
        /\ opt_all (map (bit_segments fuel') kids) = Some ls /\ l = concat ls).
Proof.
  destruct fuel as [|fuel']; [discriminate|]. cbn [bit_segments].
  destruct n as [c num contents raw|c num i kids raw]; destruct c; try discriminate;
    destruct num as [|[[p|p|]|p|]]; try discriminate.
  - destruct contents as [|u c]; [discriminate|]. destruct (N.ltb 7 u) eqn:E; [discriminate|].
    intros H. assert (E2: [(bits_of_octets_spec c, u)] = l) by congruence. subst l.
    left. exists u, c, raw. split; [reflexivity|]. split; [exact E|reflexivity].
  - intros H. right. destruct (opt_all (map (bit_segments fuel') kids)) as [ls|] eqn:E; [|discriminate H].
    cbn [opt_bind] in H. assert (E2: concat ls = l) by congruence. subst l.
    exists i, kids, raw, ls, fuel'. split; [reflexivity|]. split; [reflexivity|]. split; [exact E|reflexivity].
Qed.

Lemma join_cons2 bs u x r : join_bit_segments ((bs, u) :: x :: r) =
  if N.eqb u 0 then opt_bind (join_bit_segments (x :: r)) (fun y => Some (bs ++ y)) else None.
Proof. reflexivity. Qed.

Lemma join_app : forall l1 l2 bs, join_bit_segments (l1 ++ l2) = Some bs ->
  exists b1 b2, join_bit_segments l1 = Some b1 /\ join_bit_segments l2 = Some b2 /\ bs = b1 ++ b2.
Proof.
  induction l1 as [|[bits u] r IH]; intros l2 bs H.
  - exists [], bs. split; [reflexivity|]. split; [exact H|reflexivity].
  - destruct (r ++ l2) as [|x rest] eqn:Er.
    + apply app_eq_nil in Er. destruct Er as [-> ->]. rewrite app_nil_r in H.
      exists bs, []. split; [exact H|]. split; [reflexivity|rewrite app_nil_r; reflexivity].
    + cbn [app] in H. rewrite Er, join_cons2 in H.
      destruct (N.eqb_spec u 0) as [->|Hne]; [|discriminate H].
      rewrite <- Er in H.
      destruct (join_bit_segments (r ++ l2)) as [y|] eqn:Ey; [|discriminate H]. cbn [opt_bind] in H.
      destruct (IH l2 y Ey) as (b1 & b2 & H1 & H2 & ->).
      exists (bits ++ b1), b2. split; [|split; [exact H2|]].
      * destruct r as [|x' r'].
        -- cbn in H1. inversion H1; subst b1. cbn [join_bit_segments]. change (N.to_nat 0) with 0%nat.
           destruct (Nat.ltb_spec (length bits) 0) as [Hc|_]; [lia|]. rewrite Nat.sub_0_r, firstn_all, app_nil_r. reflexivity.
        -- rewrite join_cons2. cbn [N.eqb]. rewrite H1. reflexivity.
      * rewrite <- app_assoc. congruence.
Qed.

Lemma join_concat : forall ls bs, join_bit_segments (concat ls) = Some bs ->
  exists bss, Forall2 (fun l b => join_bit_segments l = Some b) ls bss /\ bs = concat bss.
Proof.
  induction ls as [|l ls IH]; intros bs H.
  - cbn in H. inversion H. exists []. split; [constructor|reflexivity].
  - cbn [concat] in H. destruct (join_app _ _ _ H) as (b1 & b2 & H1 & H2 & ->).
    destruct (IH b2 H2) as (bss & HF & ->). exists (b1 :: bss). split; [constructor; assumption|reflexivity].
Qed.

Lemma create_bits T0 ts x : create (Some T0) TBits ts (VBits x) = Ret (DV T0 (VBits x)).
Proof. unfold create. destruct (base_of T0); reflexivity. Qed.

Section BitsValue.
  Variables (f: nat) (T0: ty) (fl: dec_flags) (ts: tagset).
  Hypothesis Hfl : df_constructed fl = true.

  Lemma bits_def_value parts bss :
    tag0_simple ts = false -> Forall2 (bseg (dec_call BER f) false) parts bss -> (length parts < f)%nat ->
    consumes (dec_bits (dec_call BER f) f fl (Some T0) ts (N.of_nat (length (concat parts))) false) (concat parts)
             (DV T0 (VBits (concat bss))).
  Proof.
    intros Hts HF Hlf s tl Hav. unfold dec_bits.
    rewrite Hts, Hfl. cbn [negb]. rewrite resume_tell.
    destruct (bits_loop_run (dec_call BER f) (Some T0) ts parts bss HF f [] (pos s) (length (concat parts)) s tl Hlf Hav
                ltac:(lia) ltac:(lia)) as (s' & Hrun & _ & Hpos & Harr & Hcl).
    rewrite Hrun. cbn [app]. rewrite create_bits. cbn [resume]. exists s'. repeat split; assumption.
  Qed.

  Lemma bits_indef_value f' parts bss :
    f = S f' -> Forall2 (bseg (dec_call BER f) true) parts bss -> (length parts < f)%nat ->
    consumes (dec_bits_indef (dec_call BER f) f (Some T0) ts false) (concat parts ++ [0; 0]) (DV T0 (VBits (concat bss))).
  Proof.
    intros Ef HF Hlf s tl Hav. unfold dec_bits_indef. rewrite <- app_assoc in Hav.
    assert (Heoo: forall sp acc sfun0 s0 tl0, avail s0 = 0 :: 0 :: tl0 ->
                  resume (dec_call BER f sp acc None true sfun0) s0 = inr (Ok DEoo, adv s0 2)).
    { rewrite Ef. apply call_eoo. }
    destruct (bits_indef_loop_run (dec_call BER f) Heoo (Some T0) ts parts bss HF f [] s tl Hlf Hav)
      as (s' & Hrun & _ & Hpos & Harr & Hcl).
    rewrite Hrun. cbn [app]. rewrite create_bits. cbn [resume]. exists s'. rewrite app_length. cbn [length].
    repeat split; assumption.
  Qed.
End BitsValue.

Lemma bits_prim_value f T0 fl ts u c bs :
  tag0_simple ts = true -> DecPrim.fits f (u :: c) -> N.ltb 7 u = false ->
  join_bit_segments [(bits_of_octets_spec c, u)] = Some bs ->
  consumes (dec_bits (dec_call BER f) f fl (Some T0) ts (N.of_nat (length (u :: c))) false) (u :: c) (DV T0 (VBits bs)).
Proof.
  intros Hts [Hmax Hf] Hu Hj s tl Hav. unfold dec_bits.
  assert (Hz: N.eqb (N.of_nat (length (u :: c))) 0 = false) by (apply N.eqb_neq; cbn [length]; lia).
  rewrite ?Hz, Hts, ?Hz. rewrite (resume_read1 s u (c ++ tl) _ Hav). rewrite Hu.
  replace (N.of_nat (length (u :: c)) - 1) with (N.of_nat (length c)) by (cbn [length]; lia).
  assert (Hav1: avail (adv s 1) = c ++ tl) by (apply (avail_cons_adv _ _ _ Hav)).
  cbn [length] in Hmax, Hf.
  rewrite (resume_read_len f c tl (adv s 1) _ Hav1) by lia.
  rewrite (bits_leaf c u bs Hj). cbn [lift pbind]. rewrite create_bits. cbn [resume].
  exists (adv (adv s 1) (length c)). rewrite adv_adv. cbn [length]. split; [reflexivity|]. split; [rewrite pos_adv; lia|]. split; reflexivity.
Qed.

Lemma kids_raw_nonempty kids : Forall shape kids -> kids <> [] -> length (kids_raw kids) <> 0%nat.
Proof. intros H Hne. pose proof (kids_raw_count kids H). destruct kids; [congruence|]. cbn [length] in *. lia. Qed.

Lemma safe_kids L c num indef kids raw : safe L (Cons c num indef kids raw) = true -> Forall (fun k => safe L k = true) kids.
Proof.
  cbn [safe]. intros H. apply andb_true_iff in H. destruct H as [_ H]. apply Forall_forall. rewrite forallb_forall in H. exact H.
Qed.

Lemma bit_segments_univ fuel n l : bit_segments fuel n = Some l -> as_univ 3 n = n.
Proof. intros H. destruct (bit_segments_inv _ _ _ H) as [(u & c & raw & -> & _)|(i & kids & raw & ls & fuel' & -> & _)]; reflexivity. Qed.

Definition bits_frag (k: node) : Prop := forall fuel l b f i,
  nok f k -> (i = true -> eoc_start (node_raw k) = false) -> bit_segments fuel k = Some l -> join_bit_segments l = Some b ->
  consumes (dec_call BER (S f) (STy TBits) [] None i false) (node_raw k) (DV TBits (VBits b)).

(* the value decoder of a BIT STRING type T0 over a node in any segmentation, given that each member is
   read as a segment *)
Lemma bits_value : forall f T0 acc n fuel l bs,
  nok f n -> bit_segments fuel (as_univ 3 n) = Some l -> join_bit_segments l = Some bs -> Forall bits_frag (node_kids n) ->
  consumes (dec_value (dec_call BER f) f DcBits (mkDecFlags true (Some KBits)) (Some T0) (node_wire n :: acc) (node_len n) false)
           (node_body n) (DV T0 (VBits bs)).
Proof.
  intros f T0 acc n fuel l bs Hok Hseg Hjoin IH.
  destruct n as [c num contents raw|c num indef kids raw]; cbn [as_univ] in Hseg.
  - destruct (bit_segments_inv _ _ _ Hseg) as [(u & c0 & raw0 & E & Hu & ->)|(i & kids & raw0 & ls & fuel' & E & _)]; [|discriminate E].
    inversion E; subst contents raw0. destruct Hok as (Hsh & Ho & Hfit).
    cbn [node_len node_body node_wire dec_value].
    apply bits_prim_value; [reflexivity|apply (fits_of_body f _ Hfit Hsh)|exact Hu|exact Hjoin].
  - destruct (bit_segments_inv _ _ _ Hseg) as [(u & c0 & raw0 & E & _)|(i & kids0 & raw0 & ls & fuel' & E & _ & Hall & ->)]; [discriminate E|].
    inversion E; subst i kids0 raw0. clear E.
    destruct (nok_kids _ _ _ _ _ _ Hok) as (f' & -> & Hcnt & Hkids).
    destruct (join_concat _ _ Hjoin) as (bss & HJ & ->).
    assert (HF: Forall2 (bseg (dec_call BER (S (S f'))) indef) (map node_raw kids) bss).
    { pose proof (opt_all_Forall2 _ _ _ Hall) as H1. cbn [node_kids] in IH.
      clear Hseg Hall Hjoin Hok Hcnt.
      revert bss HJ. induction H1 as [|k lk kids ls Hk H1 IH1]; intros bss HJ.
      - inversion HJ. constructor.
      - inversion HJ as [|? bk ? bss' Hjk HJ']; subst.
        inversion IH as [|? ? IHk IHr]; subst. inversion Hkids as [|? ? (Hnk & Hke & Hkl) Hkr]; subst.
        cbn [map]. constructor; [|apply IH1; assumption].
        split; [|exact Hkl].
        apply (IHk fuel' lk bk (S f') indef (nok_mono _ _ _ Hnk (Nat.le_succ_diag_r f')) Hke Hk Hjk). }
    cbn [node_len node_body node_wire dec_value]. unfold kids_raw.
    rewrite <- (map_length node_raw kids) in Hcnt.
    destruct indef.
    + apply (bits_indef_value (S (S f')) T0 _ (S f') _ _ eq_refl HF). lia.
    + rewrite app_nil_r.
      apply (bits_def_value (S (S f')) T0 (mkDecFlags true (Some KBits)) (mkTag c true num :: acc) eq_refl _ _ eq_refl HF). lia.
Qed.

(* a BIT STRING in any segmentation is read to the bits the reference joins *)
Theorem bit_string_item : forall n fuel l bs f allow,
  nok f n -> (allow = true -> eoc_start (node_raw n) = false) ->
  bit_segments fuel n = Some l -> join_bit_segments l = Some bs ->
  consumes (dec_call BER (S f) (STy TBits) [] None allow false) (node_raw n) (DV TBits (VBits bs)).
Proof.
  induction n as [n IH] using node_kids_ind; intros fuel l bs f allow Hok Heoc Hseg Hjoin.
  pose proof (bit_segments_univ _ _ _ Hseg) as Eu. pose proof Hok as (Hsh & _ & Hfit).
  apply (item_of_value f TBits [] n allow false _ DcBits (mkDecFlags true (Some KBits)) Hsh Hfit Heoc); try reflexivity.
  - apply (wire_univ_tagset n (Univ, 3) [] TBits); [rewrite <- Eu; destruct n; reflexivity|reflexivity].
  - apply (bits_value f TBits [] n fuel l bs Hok); [rewrite Eu; exact Hseg|exact Hjoin|exact IH].
Qed.

Lemma all_bits_frag l : Forall bits_frag l.
Proof. apply Forall_forall. intros k _ fuel ls b f i Hk Hke Hg Hj. apply (bit_string_item k fuel ls b f i Hk Hke Hg Hj). Qed.

(* a constructed BIT STRING without segments, also nested, is the empty bit string, in the definite as in
   the indefinite form (finding F54: the library refused 23 00 until it was repaired) *)
Example bits_empty_constructed_bits :
  X690.read TBits [35; 0] = Some (ABits [], [])
  /\ decode BER (Some TBits) [35; 0] = Ok (DV TBits (VBits []), [])
  /\ decode BER (Some TBits) [35; 128; 0; 0] = Ok (DV TBits (VBits []), [])
  /\ X690.read TBits [35; 128; 35; 0; 3; 2; 1; 254; 0; 0] = Some (ABits [true; true; true; true; true; true; true], [])
  /\ decode BER (Some TBits) [35; 128; 35; 0; 3; 2; 1; 254; 0; 0]
     = Ok (DV TBits (VBits [true; true; true; true; true; true; true]), []).
Proof. vm_compute. repeat split. Qed.

Definition latin1 (n: N) : bool := existsb (N.eqb n) [20; 21; 25; 27; 7].
(* NumericString, PrintableString, IA5String, VisibleString, GeneralizedTime, UTCTime; UTF8String *)
Definition ascii_str (n: N) : bool := existsb (N.eqb n) [18; 19; 22; 26; 24; 23; 12].
Definition non_univ (t: tag) : bool := negb (cls_eqb (tcls t) Univ).

(* the outermost (class, number) pairs an encoding of T can begin with, as the reference's may_start sees them *)
Definition okeys (T: ty) : list (tclass * N) := match first_tags T with Some l => l | None => [] end.
Definition outer_key (T: ty) : tclass * N := match first_tags T with Some [k] => k | _ => (Univ, 0) end.
Fixpoint nodupb (l: list (tclass * N)) : bool :=
  match l with [] => true | x :: r => negb (existsb (tag_pair_eqb x) r) && nodupb r end.
(* an untagged ANY cannot be told by its tag *)
Definition mapable (T: ty) : bool := match T with TAny => false | _ => true end.

(* the fragment: every simple type (character strings: the latin-1 and the ASCII repertoires), SEQUENCE OF,
   SET OF, SEQUENCE (mandatory, OPTIONAL, DEFAULT components; in every run of OPTIONAL/DEFAULT components up
   to the next mandatory one the outermost tags are distinct; an untagged ANY only among mandatory
   components only), SET (components with distinct outermost tags, no untagged ANY), CHOICE (alternatives
   with distinct outermost tags, no untagged ANY), ANY, IMPLICIT tagging of anything that has a tag of its
   own, EXPLICIT tagging of anything, of any class but UNIVERSAL and any number, nested to any depth *)
Fixpoint frag (T: ty) : bool :=
  match T with
  | TBool | TInt | TEnum | TBits | TOcts | TNull | TOid | TReal | TAny => true
  | TStr n => latin1 n || ascii_str n
  | TSeqOf t | TSetOf t => frag t
  | TSeq fs => forallb (fun f => frag (snd f)) fs
                && (forallb (fun f => is_req (fst f)) fs || forallb (fun f => mapable (snd f)) fs)
                && forallb (fun idx => nodupb (flat_map okeys (ambiguous_run (skipn idx fs)))) (seq 0 (length fs))
  | TSet fs => forallb (fun f => frag (snd f) && mapable (snd f)) fs && nodupb (flat_map (fun f => okeys (snd f)) fs)
  | TChoice alts => forallb (fun a => frag a && mapable a) alts && nodupb (flat_map okeys alts)
  | TImp t x => non_univ t && headed x && frag x
  | TExp t x => non_univ t && frag x
  end.

(* the marked (class, number) pairs under which a REAL / an ASCII string can appear in an encoding of T;
   an ANY anywhere in T marks UNIVERSAL 0 *)
Fixpoint side_keys (T: ty) (e: option (tclass * N)) : list mkey :=
  match T with
  | TReal => [(KR, orkey e (Univ, 9))]
  | TAny => [(KN, (Univ, 0))]
  | TStr n => if ascii_str n then [(KA, orkey e (Univ, n))] else []
  | TImp t x => side_keys x (Some (orkey e (key t)))
  | TExp t x => side_keys x None
  | TSeqOf t | TSetOf t => side_keys t None
  | TSeq fs | TSet fs => flat_map (fun f => side_keys (snd f) None) fs
  | TChoice alts => flat_map (fun a => side_keys a None) alts
  | _ => []
  end.

Lemma frag_facts : forall T, frag T = true -> wf_tags T = true /\ impl_ok T = true.
Proof.
  induction T as [| | | | | | | | n|fs IH|fs IH|t IH|t IH|alts IH| |tg x IH|tg x IH] using ty_ind'; intros H;
    try (split; reflexivity).
  - cbn [frag] in H. apply andb_true_iff in H. destruct H as [Hn Hx]. apply andb_true_iff in Hn. destruct Hn as [Hn Hh].
    destruct (IH Hx) as [Hw Hb].
    cbn [wf_tags impl_ok]. unfold non_univ in Hn. rewrite Hn, Hw, Hh, Hb. split; reflexivity.
  - cbn [frag] in H. apply andb_true_iff in H. destruct H as [Hn Hx]. destruct (IH Hx) as [Hw Hb].
    cbn [wf_tags impl_ok]. unfold non_univ in Hn. rewrite Hn, Hw. split; [reflexivity|exact Hb].
Qed.

Lemma frag_headed T : frag T = true -> mapable T = true -> not_choice T -> headed T = true.
Proof.
  intros Hf Hm Hc. destruct T; try reflexivity; try contradiction; try discriminate Hm.
  cbn [frag] in Hf. apply andb_true_iff in Hf. destruct Hf as [Hf _]. apply andb_true_iff in Hf. destruct Hf as [_ Hh].
  exact Hh.
Qed.

Lemma frag_keys T : frag T = true -> keys (tagset_of' T) = kets T None.
Proof.
  intros Hf. destruct (frag_facts T Hf) as [Hw Hi]. destruct (keys_kets T Hw Hi) as (ts & Hts & Hk & _).
  rewrite (RoundTrip1.tagset_of'_ok T ts Hts). exact Hk.
Qed.

Lemma non_univ_cls t : non_univ t = true -> tcls t <> Univ.
Proof. unfold non_univ. destruct (tcls t); cbn; congruence. Qed.

(* the (class, number) an IMPLICIT tag puts in force is not UNIVERSAL *)
Definition e_ok (e: option (tclass * N)) : Prop := match e with Some k => fst k <> Univ | None => True end.

Lemma interp_bool e n a : interp TBool e n = Some a ->
  exists c num o raw, n = Prim c num [o] raw /\ same_tag (orkey e (Univ, 1)) n = true /\ a = ABool (negb (N.eqb o 0)).
Proof.
  cbn [interp]. cbv zeta. destruct n as [c num contents raw|]; [|discriminate].
  destruct contents as [|o [|]]; try discriminate.
  change (match e with Some e0 => e0 | None => (Univ, 1) end) with (orkey e (Univ, 1)).
  destruct (same_tag (orkey e (Univ, 1)) (Prim c num [o] raw)) eqn:E; [|discriminate].
  intros H. exists c, num, o, raw. split; [reflexivity|]. split; [reflexivity|congruence].
Qed.

Lemma interp_int e n a : interp TInt e n = Some a ->
  exists c num o cs raw, n = Prim c num (o :: cs) raw /\ same_tag (orkey e (Univ, 2)) n = true /\ a = AInt (signed_value (o :: cs)).
Proof.
  cbn [interp]. cbv zeta. destruct n as [c num contents raw|]; [|discriminate].
  destruct contents as [|o cs]; try discriminate.
  change (match e with Some e0 => e0 | None => (Univ, 2) end) with (orkey e (Univ, 2)).
  destruct (same_tag (orkey e (Univ, 2)) (Prim c num (o :: cs) raw)) eqn:E; [|discriminate].
  intros H. exists c, num, o, cs, raw. split; [reflexivity|]. split; [reflexivity|congruence].
Qed.

Lemma interp_enum e n a : interp TEnum e n = Some a ->
  exists c num o cs raw, n = Prim c num (o :: cs) raw /\ same_tag (orkey e (Univ, 10)) n = true /\ a = AInt (signed_value (o :: cs)).
Proof.
  cbn [interp]. cbv zeta. destruct n as [c num contents raw|]; [|discriminate].
  destruct contents as [|o cs]; try discriminate.
  change (match e with Some e0 => e0 | None => (Univ, 10) end) with (orkey e (Univ, 10)).
  destruct (same_tag (orkey e (Univ, 10)) (Prim c num (o :: cs) raw)) eqn:E; [|discriminate].
  intros H. exists c, num, o, cs, raw. split; [reflexivity|]. split; [reflexivity|congruence].
Qed.

Lemma interp_null e n a : interp TNull e n = Some a ->
  exists c num raw, n = Prim c num [] raw /\ same_tag (orkey e (Univ, 5)) n = true /\ a = ANull.
Proof.
  cbn [interp]. cbv zeta. destruct n as [c num contents raw|]; [|discriminate].
  destruct contents as [|o cs]; try discriminate.
  change (match e with Some e0 => e0 | None => (Univ, 5) end) with (orkey e (Univ, 5)).
  destruct (same_tag (orkey e (Univ, 5)) (Prim c num [] raw)) eqn:E; [|discriminate].
  intros H. exists c, num, raw. split; [reflexivity|]. split; [reflexivity|congruence].
Qed.

Lemma interp_oid e n a : interp TOid e n = Some a ->
  exists c num cs raw arcs, n = Prim c num cs raw /\ same_tag (orkey e (Univ, 6)) n = true
                            /\ oid_value cs = Some arcs /\ a = AOid arcs.
Proof.
  cbn [interp]. cbv zeta. destruct n as [c num contents raw|]; [|discriminate].
  change (match e with Some e0 => e0 | None => (Univ, 6) end) with (orkey e (Univ, 6)).
  destruct (same_tag (orkey e (Univ, 6)) (Prim c num contents raw)) eqn:E; [|discriminate].
  destruct (oid_value contents) as [arcs|] eqn:Eo; [|discriminate]. cbn [opt_bind].
  intros H. exists c, num, contents, raw, arcs. split; [reflexivity|]. split; [reflexivity|]. split; [exact Eo|congruence].
Qed.

Lemma interp_bits e n a : interp TBits e n = Some a ->
  exists l bs, same_tag (orkey e (Univ, 3)) n = true
               /\ bit_segments (S (length (node_raw n))) (as_univ 3 n) = Some l
               /\ join_bit_segments l = Some bs /\ a = ABits bs.
Proof.
  cbn [interp]. cbv zeta.
  change (match e with Some e0 => e0 | None => (Univ, 3) end) with (orkey e (Univ, 3)).
  destruct (same_tag (orkey e (Univ, 3)) n) eqn:E; [|discriminate]. cbn [negb].
  change (match n with Prim _ _ c0 r0 => Prim Univ 3 c0 r0 | Cons _ _ i0 k0 r1 => Cons Univ 3 i0 k0 r1 end) with (as_univ 3 n).
  destruct (bit_segments (S (length (node_raw n))) (as_univ 3 n)) as [l|] eqn:El; [|discriminate]. cbn [opt_bind].
  destruct (join_bit_segments l) as [bs|] eqn:Ej; [|discriminate]. cbn [opt_bind].
  intros H. exists l, bs. split; [reflexivity|]. split; [reflexivity|]. split; [exact Ej|congruence].
Qed.

Lemma interp_str u e n a : interp (TStr u) e n = Some a ->
  exists bs, same_tag (orkey e (Univ, u)) n = true
             /\ segments (S (length (node_raw n))) (as_univ 4 n) = Some bs /\ a = AOcts bs.
Proof.
  cbn [interp]. cbv zeta.
  change (match e with Some e0 => e0 | None => (Univ, u) end) with (orkey e (Univ, u)).
  destruct (same_tag (orkey e (Univ, u)) n) eqn:E; [|discriminate]. cbn [negb].
  change (match n with Prim _ _ c0 r0 => Prim Univ 4 c0 r0 | Cons _ _ i0 k0 r1 => Cons Univ 4 i0 k0 r1 end) with (as_univ 4 n).
  destruct (segments (S (length (node_raw n))) (as_univ 4 n)) as [bs|] eqn:El; [|discriminate]. cbn [opt_bind].
  intros H. exists bs. split; [reflexivity|]. split; [reflexivity|congruence].
Qed.

(* the reference reads an OCTET STRING as it reads a character string, under number 4 *)
Lemma interp_octs e n a : interp TOcts e n = Some a ->
  exists bs, same_tag (orkey e (Univ, 4)) n = true
             /\ segments (S (length (node_raw n))) (as_univ 4 n) = Some bs /\ a = AOcts bs.
Proof. exact (interp_str 4 e n a). Qed.

Lemma interp_imp t x e n : interp (TImp t x) e n = interp x (Some (orkey e (key t))) n.
Proof. cbn [interp]. destruct e; reflexivity. Qed.

Lemma interp_exp t x e n a : interp (TExp t x) e n = Some a ->
  exists c num i k raw, n = Cons c num i [k] raw /\ same_tag (orkey e (key t)) n = true /\ interp x None k = Some a.
Proof.
  cbn [interp]. destruct n as [|c num i kids raw]; [discriminate|].
  destruct kids as [|k [|]]; try discriminate.
  change (match e with Some e0 => e0 | None => (tcls t, tnum t) end) with (orkey e (key t)).
  destruct (same_tag (orkey e (key t)) (Cons c num i [k] raw)) eqn:E; [|discriminate].
  intros H. exists c, num, i, k, raw. split; [reflexivity|]. split; [reflexivity|exact H].
Qed.

Lemma interp_go_map t kids :
  (fix go (l: list node) := match l with [] => [] | k :: r => interp t None k :: go r end) kids = map (interp t None) kids.
Proof. induction kids as [|k r IH]; [reflexivity|]. cbn [map]. rewrite <- IH. reflexivity. Qed.

Lemma interp_seqof t e n a : interp (TSeqOf t) e n = Some a ->
  exists c num i kids raw l, n = Cons c num i kids raw /\ same_tag (orkey e (Univ, 16)) n = true
    /\ opt_all (map (interp t None) kids) = Some l /\ a = AList l.
Proof.
  cbn [interp]. cbv zeta. destruct n as [|c num i kids raw]; [discriminate|].
  change (match e with Some e0 => e0 | None => (Univ, 16) end) with (orkey e (Univ, 16)).
  destruct (same_tag (orkey e (Univ, 16)) (Cons c num i kids raw)) eqn:E; [|discriminate]. cbn [negb].
  rewrite interp_go_map.
  destruct (opt_all (map (interp t None) kids)) as [l|] eqn:El; [|discriminate]. cbn [opt_bind].
  intros H. exists c, num, i, kids, raw, l. split; [reflexivity|]. split; [reflexivity|]. split; [exact El|congruence].
Qed.

Lemma interp_setof t e n a : interp (TSetOf t) e n = Some a ->
  exists c num i kids raw l, n = Cons c num i kids raw /\ same_tag (orkey e (Univ, 17)) n = true
    /\ opt_all (map (interp t None) kids) = Some l /\ a = ABag l.
Proof.
  cbn [interp]. cbv zeta. destruct n as [|c num i kids raw]; [discriminate|].
  change (match e with Some e0 => e0 | None => (Univ, 17) end) with (orkey e (Univ, 17)).
  destruct (same_tag (orkey e (Univ, 17)) (Cons c num i kids raw)) eqn:E; [|discriminate]. cbn [negb].
  rewrite interp_go_map.
  destruct (opt_all (map (interp t None) kids)) as [l|] eqn:El; [|discriminate]. cbn [opt_bind].
  intros H. exists c, num, i, kids, raw, l. split; [reflexivity|]. split; [reflexivity|]. split; [exact El|congruence].
Qed.

(* the outermost (class, number) of a tag set: the last of its keys *)
Definition lk (ls: tagset) : tclass * N := last (keys ls) (Univ, 0).
Definition entries (fs: list ty) : list (tagset * ty) := flat_map (fun t => map (fun ls => (ls, t)) (leaves t)) fs.
Definition tm_entries (T: ty) : list (tagset * ty) :=
  match T with TChoice alts => entries alts | _ => [(tagset_of' T, T)] end.
(* the tagMap property of the type is just these entries: nothing overridden, postponed, defaulted *)
Definition tmok (T: ty) : Prop := tagmap_of T = mkTmap (tm_entries T) [] None false.

Lemma map_fst_entries fs : map fst (entries fs) = flat_map leaves fs.
Proof.
  unfold entries. induction fs as [|t fs IH]; [reflexivity|]. cbn [flat_map]. rewrite map_app, IH. f_equal.
  rewrite map_map. cbn [fst]. apply map_id.
Qed.

Lemma map_fst_tm_entries T : map fst (tm_entries T) = leaves T.
Proof. destruct T; try reflexivity. cbn [tm_entries leaves]. apply map_fst_entries. Qed.

Lemma NoDup_map_eq {A B} (g: A -> B) (l: list A) x y : NoDup (map g l) -> In x l -> In y l -> g x = g y -> x = y.
Proof.
  induction l as [|a l IH]; intros Hnd Hx Hy E; [contradiction|].
  cbn [map] in Hnd. inversion Hnd as [|? ? Hnin Hnd']; subst.
  destruct Hx as [->|Hx]; destruct Hy as [->|Hy]; try reflexivity.
  - exfalso. apply Hnin. rewrite E. apply in_map. exact Hy.
  - exfalso. apply Hnin. rewrite <- E. apply in_map. exact Hx.
  - apply IH; assumption.
Qed.

Lemma lk_keys a b : keys a = keys b -> lk a = lk b.
Proof. unfold lk. intros ->. reflexivity. Qed.

(* association lists keyed by tag sets with pairwise different outermost tags *)
Lemma assoc_nodup {X} : forall (E: list (tagset * X)) ls x ts, NoDup (map (fun e => lk (fst e)) E) ->
  In (ls, x) E -> keys ts = keys ls -> assoc tagset_eqb ts E = Some x.
Proof.
  induction E as [|[ls0 x0] E IH]; intros ls x ts Hnd Hin Hk; [contradiction|].
  cbn [assoc]. cbn [map fst] in Hnd. inversion Hnd as [|? ? Hnin Hnd']; subst.
  destruct (tagset_eqb ts ls0) eqn:Eq.
  - apply tagset_eqb_keys in Eq. destruct Hin as [Hin|Hin]; [congruence|].
    exfalso. apply Hnin. replace (lk ls0) with (lk ls) by (apply lk_keys; congruence).
    apply (in_map (fun e => lk (fst e)) E (ls, x) Hin).
  - destruct Hin as [Hin|Hin].
    + inversion Hin; subst. apply tagset_eqb_keys in Hk. rewrite Hk in Eq. discriminate Eq.
    + apply (IH ls x ts Hnd' Hin Hk).
Qed.

Lemma assoc_none {X} : forall (E: list (tagset * X)) ts, (forall e, In e E -> keys ts <> keys (fst e)) ->
  assoc tagset_eqb ts E = None.
Proof.
  induction E as [|[ls0 x0] E IH]; intros ts H; [reflexivity|]. cbn [assoc].
  destruct (tagset_eqb ts ls0) eqn:Eq.
  - apply tagset_eqb_keys in Eq. exfalso. apply (H (ls0, x0) (or_introl eq_refl) Eq).
  - apply IH. intros e He. apply H. right. exact He.
Qed.

Lemma filter_id {X} : forall (E: list (tagset * X)) ts, (forall e, In e E -> keys (fst e) <> keys ts) ->
  filter (fun e : tagset * X => negb (tagset_eqb (fst e) ts)) E = E.
Proof.
  induction E as [|[ls0 x0] E IH]; intros ts H; [reflexivity|]. cbn [filter fst].
  destruct (tagset_eqb ls0 ts) eqn:Eq.
  - apply tagset_eqb_keys in Eq. exfalso. apply (H (ls0, x0) (or_introl eq_refl) Eq).
  - cbn [negb]. f_equal. apply IH. intros e He. apply H. right. exact He.
Qed.

(* a key that is a proper outer part of an entry's key is not itself an entry's key *)
Lemma assoc_outer_none {X} (E: list (tagset * X)) ls x t acc pre : NoDup (map (fun e => lk (fst e)) E) ->
  In (ls, x) E -> keys ls = pre ++ keys (t :: acc) -> pre <> [] -> assoc tagset_eqb (t :: acc) E = None.
Proof.
  intros Hnd Hin Hk Hpre. apply assoc_none. intros e He Eq.
  assert (El: lk (fst e) = lk ls).
  { unfold lk. rewrite <- Eq, Hk. symmetry. apply last_app_ne. discriminate. }
  assert (Ee: e = (ls, x)) by (apply (NoDup_map_eq (fun e => lk (fst e)) E e (ls, x) Hnd He Hin El)).
  subst e. cbn [fst] in Eq. rewrite Hk in Eq. apply Hpre.
  apply (f_equal (@length _)) in Eq. rewrite app_length in Eq. destruct pre; [reflexivity|cbn [length] in Eq; lia].
Qed.

Lemma NoDup_app_l {A} (a b: list A) : NoDup (a ++ b) -> NoDup a.
Proof.
  induction a as [|x a IH]; intros H; [constructor|]. cbn [app] in H. inversion H as [|? ? Hn Hr]; subst.
  constructor; [intros Hi; apply Hn; apply in_or_app; left; exact Hi|apply IH; exact Hr].
Qed.

Lemma NoDup_app_disj {A} (a b: list A) : NoDup (a ++ b) -> forall x, In x a -> In x b -> False.
Proof.
  induction a as [|y a IH]; intros H x Ha Hb; [contradiction|]. cbn [app] in H. inversion H as [|? ? Hn Hr]; subst.
  destruct Ha as [->|Ha]; [apply Hn; apply in_or_app; right; exact Hb|apply (IH Hr x Ha Hb)].
Qed.

Lemma fold_entries T : forall (kts: list (tagset * ty)) (P: list (tagset * ty)),
  NoDup (map lk (map fst P ++ map fst kts)) ->
  fold_left (fun p kt => filter (fun e : tagset * ty => negb (tagset_eqb (fst e) (fst kt))) p ++ [(fst kt, T)]) kts P
  = P ++ map (fun kt => (fst kt, T)) kts.
Proof.
  induction kts as [|kt kts IH]; intros P Hnd; [cbn; rewrite app_nil_r; reflexivity|].
  cbn [fold_left map]. rewrite (filter_id P (fst kt)).
  - rewrite (IH (P ++ [(fst kt, T)])).
    + rewrite <- app_assoc. reflexivity.
    + rewrite (map_app fst P). cbn [map fst]. rewrite <- app_assoc. exact Hnd.
  - intros e He Eq. cbn [map] in Hnd. rewrite map_app in Hnd. cbn [map] in Hnd.
    apply NoDup_remove_2 in Hnd. apply Hnd. apply in_or_app. left.
    replace (lk (fst kt)) with (lk (fst e)) by (apply lk_keys; exact Eq). apply in_map. apply in_map. exact He.
Qed.

Lemma dup_none (kts P: list (tagset * ty)) : NoDup (map lk (map fst P ++ map fst kts)) ->
  existsb (fun kt => match tm_find (fst kt) P with Some _ => true | None => false end) kts = false.
Proof.
  intros Hnd. destruct (existsb _ kts) eqn:E; [|reflexivity]. exfalso.
  apply existsb_exists in E. destruct E as (kt & Hkt & Hf).
  destruct (tm_find (fst kt) P) as [x|] eqn:Ef; [|discriminate Hf].
  unfold tm_find in Ef.
  assert (Hex: exists e, In e P /\ keys (fst kt) = keys (fst e)).
  { clear -Ef. induction P as [|[l0 x0] P IH]; [discriminate Ef|]. cbn [assoc] in Ef.
    destruct (tagset_eqb (fst kt) l0) eqn:Eq.
    - exists (l0, x0). split; [left; reflexivity|apply tagset_eqb_keys; exact Eq].
    - destruct (IH Ef) as (e & He & Hk). exists e. split; [right; exact He|exact Hk]. }
  destruct Hex as (e & He & Hk).
  rewrite map_app in Hnd. apply in_split in Hkt. destruct Hkt as (k1 & k2 & ->).
  rewrite !map_app in Hnd. cbn [map] in Hnd. rewrite app_assoc in Hnd. apply NoDup_remove_2 in Hnd. apply Hnd.
  apply in_or_app. left. apply in_or_app. left.
  replace (lk (fst kt)) with (lk (fst e)) by (apply lk_keys; symmetry; exact Hk). apply in_map. apply in_map. exact He.
Qed.

Lemma combine_maps_entries unique : forall fs done,
  (forall t, In t fs -> tmok t) -> NoDup (map lk (flat_map leaves (done ++ fs))) ->
  combine_maps unique (map (fun t => (tagmap_of t, t)) fs) (mkTmap (entries done) [] None false)
  = mkTmap (entries (done ++ fs)) [] None false.
Proof.
  induction fs as [|t fs IH]; intros done Hok Hnd.
  - rewrite app_nil_r. reflexivity.
  - cbn [map combine_maps]. rewrite (Hok t (or_introl eq_refl)).
    cbn [tm_present tm_skip tm_default tm_postponed app].
    assert (Hnd1: NoDup (map lk (map fst (entries done) ++ map fst (tm_entries t)))).
    { rewrite map_fst_entries, map_fst_tm_entries. rewrite flat_map_app in Hnd. cbn [flat_map] in Hnd.
      rewrite app_assoc, map_app in Hnd. apply NoDup_app_l in Hnd. exact Hnd. }
    rewrite (fold_entries t (tm_entries t) (entries done) Hnd1). rewrite (dup_none _ _ Hnd1).
    rewrite !orb_false_r, andb_false_r. cbn [orb].
    replace (entries done ++ map (fun kt => (fst kt, t)) (tm_entries t)) with (entries (done ++ [t])).
    + rewrite (IH (done ++ [t])); rewrite <- ?app_assoc; [reflexivity| |exact Hnd].
      intros t' Ht'. apply Hok. right. exact Ht'.
    + unfold entries. rewrite flat_map_app. cbn [flat_map]. rewrite app_nil_r. f_equal.
      rewrite <- (map_fst_tm_entries t). rewrite map_map. reflexivity.
Qed.

Lemma fields_tagmap_entries unique fs : (forall t, In t fs -> tmok t) -> NoDup (map lk (flat_map leaves fs)) ->
  fields_tagmap unique fs = mkTmap (entries fs) [] None false.
Proof. intros Hok Hnd. unfold fields_tagmap, empty_tmap. apply (combine_maps_entries unique fs [] Hok Hnd). Qed.

Lemma choice_go_map alts :
  (fix go (l: list ty) : list (tmap * ty) := match l with [] => [] | a :: r => (tagmap_of a, a) :: go r end) alts
  = map (fun t => (tagmap_of t, t)) alts.
Proof. induction alts as [|a r IH]; [reflexivity|]. cbn [map]. rewrite <- IH. reflexivity. Qed.

Lemma tmok_choice alts : (forall t, In t alts -> tmok t) -> NoDup (map lk (flat_map leaves alts)) -> tmok (TChoice alts).
Proof.
  intros Hok Hnd. unfold tmok. cbn [tagmap_of tm_entries]. rewrite choice_go_map.
  apply (combine_maps_entries true alts [] Hok Hnd).
Qed.

Lemma kets_some_last : forall T k, exists pre, kets T (Some k) = pre ++ [k].
Proof.
  induction T as [| | | | | | | | n|fs IH|fs IH|t IH|t IH|alts IH| |tg x IH|tg x IH] using ty_ind'; intros k;
    try (exists []; reflexivity).
  - cbn [kets orkey]. apply IH.
  - cbn [kets orkey]. exists (kets x None). reflexivity.
Qed.

Lemma nodupb_NoDup : forall l, nodupb l = true -> NoDup l.
Proof.
  induction l as [|x r IH]; intros H; [constructor|].
  cbn [nodupb] in H. apply andb_true_iff in H. destruct H as [H1 H2]. constructor; [|apply IH; exact H2].
  intros Hin. apply negb_true_iff in H1. assert (E: existsb (tag_pair_eqb x) r = true); [|congruence].
  apply existsb_exists. exists x. split; [exact Hin|]. unfold tag_pair_eqb. rewrite !N.eqb_refl. reflexivity.
Qed.

Lemma choice_first_tags alts :
  first_tags (TChoice alts) =
  (fix go (alts: list ty) : option (list (tclass * N)) :=
     match alts with
     | [] => Some []
     | a :: r => match first_tags a, go r with Some x, Some y => Some (x ++ y) | _, _ => None end
     end) alts.
Proof. reflexivity. Qed.

(* the reference's first_tags are the outermost keys of the leaves *)
Lemma ft_leaves : forall T, frag T = true -> mapable T = true -> first_tags T = Some (map lk (leaves T)).
Proof.
  induction T as [| | | | | | | | n|fs IH|fs IH|t IH|t IH|alts IH| |tg x IH|tg x IH] using ty_ind'; intros Hf Hm;
    try reflexivity; try discriminate Hm.
  - cbn [frag] in Hf. apply andb_true_iff in Hf. destruct Hf as [Hf _].
    rewrite choice_first_tags. cbn [leaves]. clear Hm. revert Hf.
    induction IH as [|a alts Ha _ IHa]; intros Hf; [reflexivity|].
    cbn [forallb] in Hf. apply andb_true_iff in Hf. destruct Hf as [H1 H2]. apply andb_true_iff in H1. destruct H1 as [H1a H1b].
    rewrite (Ha H1a H1b). cbn [flat_map]. rewrite (IHa H2). rewrite map_app. reflexivity.
  - cbn [first_tags leaves]. f_equal. cbn [map]. f_equal. unfold lk. rewrite (frag_keys _ Hf). cbn [kets orkey].
    destruct (kets_some_last x (key tg)) as (pre & ->). rewrite last_app_ne by discriminate. reflexivity.
  - cbn [first_tags leaves]. f_equal. cbn [map]. f_equal. unfold lk. rewrite (frag_keys _ Hf). cbn [kets orkey].
    rewrite last_app_ne by discriminate. reflexivity.
Qed.

Lemma okeys_leaves T : frag T = true -> mapable T = true -> okeys T = map lk (leaves T).
Proof. intros Hf Hm. unfold okeys. rewrite (ft_leaves T Hf Hm). reflexivity. Qed.

Lemma nodup_leaves : forall fs, forallb (fun t => frag t && mapable t) fs = true -> nodupb (flat_map okeys fs) = true ->
  NoDup (map lk (flat_map leaves fs)).
Proof.
  intros fs Hf Hnd. apply nodupb_NoDup in Hnd.
  replace (map lk (flat_map leaves fs)) with (flat_map okeys fs); [exact Hnd|]. clear Hnd.
  induction fs as [|t fs IH]; [reflexivity|].
  cbn [forallb] in Hf. apply andb_true_iff in Hf. destruct Hf as [H1 H2]. apply andb_true_iff in H1. destruct H1 as [Ha Hb].
  cbn [flat_map]. rewrite map_app, (okeys_leaves t Ha Hb), (IH H2). reflexivity.
Qed.

(* every type of the fragment that can go into a tag map has the expected tagMap *)
Lemma tmok_frag : forall T, frag T = true -> mapable T = true -> tmok T /\ NoDup (map lk (leaves T)).
Proof.
  induction T as [| | | | | | | | n|fs IH|fs IH|t IH|t IH|alts IH| |tg x IH|tg x IH] using ty_ind'; intros Hf Hm;
    try discriminate Hm; try (split; [reflexivity|repeat constructor; intros []]).
  cbn [frag] in Hf. apply andb_true_iff in Hf. destruct Hf as [Hf Hnd].
  pose proof (nodup_leaves alts Hf Hnd) as HND. split; [|exact HND].
  apply tmok_choice; [|exact HND].
  intros t Ht. rewrite Forall_forall in IH. rewrite forallb_forall in Hf. specialize (Hf t Ht).
  apply andb_true_iff in Hf. destruct Hf as [Ha Hb]. apply (IH t Ht Ha Hb).
Qed.

Lemma leaves_not_choice T : not_choice T -> leaves T = [tagset_of' T].
Proof. destruct T; intros H; try reflexivity; contradiction. Qed.

Lemma leaves_nonempty : forall T, frag T = true -> mapable T = true -> Forall (fun ls => ls <> []) (leaves T).
Proof.
  induction T as [| | | | | | | | n|fs IH|fs IH|t IH|t IH|alts IH| |tg x IH|tg x IH] using ty_ind'; intros Hf Hm;
    try discriminate Hm; try (repeat constructor; discriminate).
  - cbn [frag] in Hf. apply andb_true_iff in Hf. destruct Hf as [Hf _]. cbn [leaves].
    apply Forall_forall. intros ls Hls. apply in_flat_map in Hls. destruct Hls as (a & Ha & Hls).
    rewrite Forall_forall in IH. rewrite forallb_forall in Hf. specialize (Hf a Ha).
    apply andb_true_iff in Hf. destruct Hf as [H1 H2]. specialize (IH a Ha H1 H2). rewrite Forall_forall in IH. apply (IH ls Hls).
  - constructor; [|constructor]. intros E. cbn [leaves] in E.
    pose proof (frag_keys _ Hf) as Hk. rewrite E in Hk. cbn [kets orkey] in Hk.
    destruct (kets_some_last x (key tg)) as (pre & Ep). rewrite Ep in Hk. destruct pre; discriminate Hk.
  - constructor; [|constructor]. intros E. cbn [leaves] in E.
    pose proof (frag_keys _ Hf) as Hk. rewrite E in Hk. cbn [kets orkey] in Hk. destruct (kets x None); discriminate Hk.
Qed.

Lemma in_entries fs T0 ls : In T0 fs -> In ls (leaves T0) -> In (ls, T0) (entries fs).
Proof. intros H1 H2. unfold entries. apply in_flat_map. exists T0. split; [exact H1|]. apply in_map_iff. exists ls. split; [reflexivity|exact H2]. Qed.

Lemma keys_in_leaves ts T0 : In (keys ts) (map keys (leaves T0)) -> exists ls, In ls (leaves T0) /\ keys ts = keys ls.
Proof. intros H. apply in_map_iff in H. destruct H as (ls & E & Hl). exists ls. split; [exact Hl|symmetry; exact E]. Qed.

Lemma leaf_entry T0 ls : In ls (leaves T0) -> exists x, In (ls, x) (tm_entries T0).
Proof.
  intros Hls. rewrite <- map_fst_tm_entries in Hls. apply in_map_iff in Hls. destruct Hls as ([l0 x0] & E & Hi).
  cbn [fst] in E. subst l0. exists x0. exact Hi.
Qed.

Lemma sp_ok_sty T0 : tmok T0 -> NoDup (map lk (leaves T0)) -> sp_ok (STy T0) T0 (DV T0) 0.
Proof.
  intros Htm Hnd.
  assert (HndE: NoDup (map (fun e : tagset * ty => lk (fst e)) (tm_entries T0))).
  { rewrite <- (map_map fst lk), map_fst_tm_entries. exact Hnd. }
  split.
  - intros f ts len cd fl body v Hin Hby _ _ Hlen Hval. rewrite Nat.add_0_r.
    destruct (keys_in_leaves _ _ Hin) as (ls & Hls & Hk).
    destruct (leaf_entry T0 ls Hls) as (x & Hx).
    rewrite (dispatch_match _ _ _ _ _ _ cd fl); [apply run_value_consumes; assumption| |rewrite Htm; reflexivity|exact Hby].
    unfold tm_contains, tm_find. rewrite Htm. cbn [tm_present]. rewrite (assoc_nodup _ ls x ts HndE Hx Hk). apply orb_true_r.
  - intros rec f t acc len ls pre Hls Hk Hpre Hcon Hcls.
    destruct (leaf_entry T0 ls Hls) as (x & Hx).
    assert (Hmis: tagset_eqb (t :: acc) (tagset_of' T0) = false).
    { destruct (tagset_eqb (t :: acc) (tagset_of' T0)) eqn:E; [|reflexivity]. exfalso. apply tagset_eqb_keys in E.
      destruct T0; try (cbn [leaves] in Hls; destruct Hls as [<-|[]]; rewrite Hk in E; apply Hpre;
                        apply (f_equal (@length _)) in E; rewrite app_length in E; destruct pre; [reflexivity|cbn [length] in E; lia]).
      cbn in E. discriminate E. }
    apply (dispatch_explicit _ _ _ _ _ _ Hmis); [|exact Hcon|exact Hcls].
    unfold tm_contains, tm_find. rewrite Htm. cbn [tm_present tm_default]. rewrite (assoc_outer_none _ ls x t acc pre HndE Hx Hk Hpre). reflexivity.
  - intros v. exact I.
  - intros ->. repeat split.
Qed.

Lemma tmok_not_any : ~ tmok TAny.
Proof. unfold tmok. cbn. intros H. discriminate H. Qed.

Lemma sp_ok_sty_any : sp_ok (STy TAny) TAny (DV TAny) 0.
Proof.
  split.
  - intros f ts len cd fl body v Hin Hby _ _ Hlen Hval. rewrite Nat.add_0_r.
    cbn [leaves map] in Hin. destruct Hin as [Hin|[]]. destruct ts; [|discriminate Hin].
    rewrite (dispatch_match (dec_call BER f) f TAny [] len false cd fl eq_refl eq_refl Hby). apply run_value_consumes; assumption.
  - intros rec f t acc len ls pre Hls Hk. cbn [leaves] in Hls. destruct Hls as [<-|[]]. destruct pre; discriminate Hk.
  - intros v. exact I.
  - intros _. repeat split.
Qed.

(* a tag map of components as the spec: resolves to the component whose tags are read *)
Lemma sp_ok_map unique fs T0 : (forall t, In t fs -> tmok t) -> NoDup (map lk (flat_map leaves fs)) -> In T0 fs ->
  sp_ok (SMap (fields_tagmap unique fs)) T0 (DV T0) 0.
Proof.
  intros Hok Hnd Hin. rewrite (fields_tagmap_entries unique fs Hok Hnd).
  assert (HndE: NoDup (map (fun e : tagset * ty => lk (fst e)) (entries fs))).
  { rewrite <- (map_map fst lk), map_fst_entries. exact Hnd. }
  split.
  - intros f ts len cd fl body v Hi Hby _ _ Hlen Hval. rewrite Nat.add_0_r.
    destruct (keys_in_leaves _ _ Hi) as (ls & Hls & Hk).
    assert (Hd: dispatch BER (dec_call BER f) f (SMap (mkTmap (entries fs) [] None false)) ts len false
                = DecShape.run_value len (dec_value (dec_call BER f) f cd fl (Some T0) ts len false)).
    { unfold dispatch, tm_get. cbn [tm_postponed tm_present tm_default]. unfold tm_find.
      rewrite (assoc_nodup _ ls T0 ts HndE (in_entries fs T0 ls Hin Hls) Hk). cbn [lift pbind]. rewrite Hby. destruct len; reflexivity. }
    rewrite Hd. apply run_value_consumes; assumption.
  - intros rec f t acc len ls pre Hls Hk Hpre Hcon Hcls.
    unfold dispatch, tm_get. cbn [tm_postponed tm_present tm_default]. unfold tm_find.
    rewrite (assoc_outer_none _ ls T0 t acc pre HndE (in_entries fs T0 ls Hin Hls) Hk Hpre).
    cbn [lift pbind]. rewrite Hcon. cbn [andb]. destruct (tcls t); try congruence; destruct len; reflexivity.
  - intros v. exact I.
  - intros ->. exfalso. apply tmok_not_any. apply (Hok TAny Hin).
Qed.

(* what tag_to_pos builds: every leaf tag set of fs with the position of its type, counted from i *)
Fixpoint numbered (i: nat) (fs: list ty) : list (tagset * nat) :=
  match fs with [] => [] | t :: r => map (fun ls => (ls, i)) (leaves t) ++ numbered (S i) r end.

Lemma numbered_app : forall a b i, numbered i (a ++ b) = numbered i a ++ numbered (i + length a) b.
Proof.
  induction a as [|t a IH]; intros b i; [cbn; rewrite Nat.add_0_r; reflexivity|].
  cbn [app numbered length]. rewrite IH, <- app_assoc. replace (S i + length a)%nat with (i + S (length a))%nat by lia. reflexivity.
Qed.

Lemma map_fst_numbered : forall fs i, map fst (numbered i fs) = flat_map leaves fs.
Proof.
  induction fs as [|t fs IH]; intros i; [reflexivity|]. cbn [numbered flat_map]. rewrite map_app, IH. f_equal.
  rewrite map_map. cbn [fst]. apply map_id.
Qed.

Lemma in_numbered : forall fs i j T0 ls, nth_error fs j = Some T0 -> In ls (leaves T0) -> In (ls, (i + j)%nat) (numbered i fs).
Proof.
  induction fs as [|t fs IH]; intros i j T0 ls Hn Hl; [destruct j; discriminate Hn|].
  cbn [numbered]. apply in_or_app. destruct j as [|j].
  - cbn in Hn. inversion Hn; subst. left. rewrite Nat.add_0_r. apply in_map_iff. exists ls. split; [reflexivity|exact Hl].
  - right. cbn [nth_error] in Hn. replace (i + S j)%nat with (S i + j)%nat by lia. apply (IH (S i) j T0 ls Hn Hl).
Qed.

Lemma tag_to_pos_numbered : forall fs done,
  (forall t, In t fs -> tmok t) -> NoDup (map lk (flat_map leaves (done ++ fs))) ->
  tag_to_pos fs (length done) (numbered 0 done) = Some (numbered 0 (done ++ fs)).
Proof.
  induction fs as [|t fs IH]; intros done Hok Hnd.
  - rewrite app_nil_r. reflexivity.
  - cbn [tag_to_pos]. rewrite (Hok t (or_introl eq_refl)). cbn [tm_postponed tm_present].
    rewrite map_fst_tm_entries.
    assert (Hno: existsb (fun k => match assoc tagset_eqb k (numbered 0 done) with Some _ => true | None => false end) (leaves t) = false).
    { destruct (existsb _ (leaves t)) eqn:E; [|reflexivity]. exfalso. apply existsb_exists in E. destruct E as (ls & Hls & Hf).
      rewrite (assoc_none (numbered 0 done) ls) in Hf; [discriminate Hf|].
      intros e He Eq. rewrite flat_map_app in Hnd. cbn [flat_map] in Hnd. rewrite !map_app in Hnd.
      rewrite app_assoc in Hnd. apply NoDup_app_l in Hnd.
      apply (NoDup_app_disj _ _ Hnd (lk ls)); [|apply in_map; exact Hls].
      replace (lk ls) with (lk (fst e)) by (apply lk_keys; symmetry; exact Eq).
      rewrite <- (map_fst_numbered done 0). apply in_map. apply in_map. exact He. }
    rewrite Hno.
    replace (numbered 0 done ++ map (fun k => (k, length done)) (leaves t)) with (numbered 0 (done ++ [t]))
      by (rewrite numbered_app; cbn [numbered Nat.add]; rewrite app_nil_r; reflexivity).
    replace (S (length done)) with (length (done ++ [t])) by (rewrite app_length; cbn [length]; lia).
    rewrite (IH (done ++ [t])); rewrite <- ?app_assoc; [reflexivity| |exact Hnd].
    intros t' Ht'. apply Hok. right. exact Ht'.
Qed.

Lemma position_leaf fs T0 j ls : (forall t, In t fs -> tmok t) -> NoDup (map lk (flat_map leaves fs)) ->
  nth_error fs j = Some T0 -> In ls (leaves T0) -> position_by_type fs ls = Ok j.
Proof.
  intros Hok Hnd Hn Hls. unfold position_by_type.
  change (tag_to_pos fs 0 []) with (tag_to_pos fs (length (@nil ty)) (numbered 0 [])).
  rewrite (tag_to_pos_numbered fs [] Hok Hnd). cbn [app].
  rewrite (assoc_nodup (numbered 0 fs) ls j ls); [reflexivity| |apply (in_numbered fs 0 j T0 ls Hn Hls)|reflexivity].
  rewrite <- (map_map fst lk), map_fst_numbered. exact Hnd.
Qed.

Lemma consumes_mark (k: proc dval) b v : consumes k b v -> consumes (Mark k) b v.
Proof.
  intros H s tl Hav. cbn [resume]. destruct (H (setmark s (pos s)) tl Hav) as (s' & Hr & Hp & Ha & Hc).
  exists s'. repeat split; assumption.
Qed.

Lemma consumes_bind_pure (p: proc dval) (k: dval -> proc dval) b v1 v2 :
  consumes p b v1 -> k v1 = Ret v2 -> consumes (pbind p k) b v2.
Proof.
  intros H Hk s tl Hav. destruct (H s tl Hav) as (s' & Hr & Hp & Ha & Hc).
  rewrite (resume_pbind_done _ _ _ _ _ Hr), Hk. cbn [resume]. exists s'. repeat split; assumption.
Qed.

Lemma sp_ok_alt sp alts W d j a :
  sp_ok sp (TChoice alts) W d -> nth_error alts j = Some a ->
  (forall t, In t alts -> tmok t) -> NoDup (map lk (flat_map leaves alts)) -> Forall (fun ls => ls <> []) (leaves a) ->
  sp_ok sp a (fun v => W (VChoice j v)) (S d).
Proof.
  intros Hsp Hn Hok Hnd Hne. pose proof (nth_error_In _ _ Hn) as Hin.
  pose proof (sp_ok_map true alts a Hok Hnd Hin) as Hmap.
  split.
  - intros f ts len cd fl body v Hi Hby Hets Hcd Hlen Hval.
    replace (f + S d)%nat with (S f + d)%nat by lia.
    destruct (keys_in_leaves _ _ Hi) as (ls & Hls & Hk).
    assert (Hts: tagset_eqb [] ts = false).
    { destruct ts; [|reflexivity]. rewrite Forall_forall in Hne. specialize (Hne ls Hls). destruct ls; [congruence|discriminate Hk]. }
    apply (so_match sp (TChoice alts) W d Hsp (S f) ts len DcChoice (mkDecFlags true (Some KChoice)) body (VChoice j v)).
    + cbn [leaves]. apply in_map_iff. exists ls. split; [symmetry; exact Hk|]. apply in_flat_map. exists a. split; assumption.
    + reflexivity.
    + apply (ets_choice alts j a v Hn Hets).
    + cbn [cdv]. rewrite (nth_error_nth alts j TNull Hn). lia.
    + exact Hlen.
    + cbn [dec_value base_of]. unfold dec_choice. change (tagset_of' (TChoice alts)) with (@nil tag). rewrite Hts.
      assert (Hinner: forall len', len' = len ->
                consumes (dec_call BER (S f) (SMap (fields_tagmap true alts)) ts (Some len') false false) body (DV a v)).
      { intros len' ->. cbn [dec_call]. unfold dec_body. cbn [andb].
        pose proof (so_match _ a (DV a) 0%nat Hmap f ts len cd fl body v Hi Hby Hets Hcd Hlen Hval) as H0.
        rewrite Nat.add_0_r in H0. exact H0. }
      assert (Hplace: choice_place (S f) (TChoice alts) alts (DV a v) = Ret (DV (TChoice alts) (VChoice j v))).
      { unfold choice_place.
        rewrite (position_leaf alts a j (effective_tagset (S (S f)) a v) Hok Hnd Hn); [reflexivity|].
        apply Hets. lia. }
      destruct len as [l|].
      * apply (consumes_bind_pure _ _ body (DV a v)); [apply Hinner; reflexivity|exact Hplace].
      * cbn [choice_loop]. apply (consumes_bind_pure _ _ body (DV a v)); [apply Hinner; reflexivity|].
        rewrite Hplace. reflexivity.
  - intros rec f t acc len ls pre Hls Hk Hpre Hcon Hcls.
    apply (so_explicit sp (TChoice alts) W d Hsp rec f t acc len ls pre); try assumption.
    cbn [leaves]. apply in_flat_map. exists a. split; assumption.
  - intros v. apply (so_dv sp _ W d Hsp).
  - intros ->. exfalso. apply tmok_not_any. apply (Hok TAny Hin).
Qed.

Lemma sp_sty t : frag t = true -> sp_ok (STy t) t (DV t) 0.
Proof.
  intros Hf. destruct (mapable t) eqn:Hm.
  - destruct (tmok_frag t Hf Hm) as [H1 H2]. apply (sp_ok_sty t H1 H2).
  - destruct t; try discriminate Hm. apply sp_ok_sty_any.
Qed.

(* the tags read complete the tag set: hand over to the value decoder of the base type *)
Lemma base_item : forall sp T0 W d acc e u n f allow cd fl v,
  sp_ok sp T0 W d -> by_type BER (base_of T0) = Some (cd, fl) ->
  keys (tagset_of' T0) = [orkey e u] ++ keys acc -> same_tag (orkey e u) n = true ->
  nok f n -> (allow = true -> eoc_start (node_raw n) = false) ->
  consumes (dec_value (dec_call BER f) f cd fl (Some T0) (node_wire n :: acc) (node_len n) false) (node_body n) (DV T0 v) ->
  consumes (dec_call BER (S (f + d)) sp acc None allow false) (node_raw n) (W v).
Proof.
  intros sp T0 W d acc e u n f allow cd fl v Hsp Hby Hkeys Hsame (Hsh & Ho & Hfit) Heoc Hval.
  assert (Hnc: not_choice T0) by (destruct T0; try exact I; discriminate Hkeys).
  destruct (ets_plain T0 v Hnc) as [Hets Hcd].
  apply (item_of_value_sp f sp T0 W d acc n allow v cd fl Hsh Hfit Heoc Hsp).
  - rewrite (leaves_not_choice T0 Hnc). left. cbn [keys map]. fold (keys acc). rewrite (same_tag_key _ _ Hsame), Hkeys. reflexivity.
  - rewrite RoundTrip1.by_type_base. exact Hby.
  - exact Hets.
  - rewrite Hcd. lia.
  - exact Hval.
Qed.

Lemma octs_body n : shape n -> octs (node_raw n) -> octs (node_body n).
Proof.
  intros Hsh Ho. destruct (shape_split n Hsh) as (ib & lb & _ & _ & E). rewrite E in Ho. apply octs_app in Ho. tauto.
Qed.

Lemma abs_base T v : abs T v = abs (base_of T) v. Proof. apply abs_wrappers. Qed.

(* where we stand: e legitimate; a type without a tag of its own (CHOICE, ANY) is only met as the whole T0 *)
Definition pos_ok (T T0: ty) (acc: tagset) (e: option (tclass * N)) : Prop :=
  e_ok e /\ (headed T = false -> T0 = T /\ acc = []).

(* what the induction over the type establishes: T is the part of the guiding type T0 still to be
   matched against node n, acc the tags read at the EXPLICIT levels above, e the (class, number) an
   IMPLICIT tag above substitutes for T's own outermost tag;
   sp: the spec in force, which resolves to T0 (sp_ok), wrapping T0's value by W and costing d levels of
   fuel; h: a bound on the octets of n; f: the fuel left for the value decoder *)
Definition item_ok0 (T: ty) : Prop := forall sp T0 W d acc e n a h f allow L,
  sp_ok sp T0 W d -> base_of T0 = base_of T ->
  keys (tagset_of' T0) = kets T e ++ keys acc -> pos_ok T T0 acc e ->
  nok h n -> (h + ty_depth T <= f)%nat -> (allow = true -> eoc_start (node_raw n) = false) ->
  safe L n = true -> (forall k, In k (side_keys T e) -> memk k L = true) ->
  interp T e n = Some a ->
  exists v, consumes (dec_call BER (S (f + d)) sp acc None allow false) (node_raw n) (W v) /\ abs T v = a.

(* the same, and the effective tag set of the value is one of T0's (needed where values are placed by type) *)
Definition item_ok (T: ty) : Prop := forall sp T0 W d acc e n a h f allow L,
  sp_ok sp T0 W d -> base_of T0 = base_of T ->
  keys (tagset_of' T0) = kets T e ++ keys acc -> pos_ok T T0 acc e ->
  nok h n -> (h + ty_depth T <= f)%nat -> (allow = true -> eoc_start (node_raw n) = false) ->
  safe L n = true -> (forall k, In k (side_keys T e) -> memk k L = true) ->
  interp T e n = Some a ->
  exists v, consumes (dec_call BER (S (f + d)) sp acc None allow false) (node_raw n) (W v) /\ abs T v = a
            /\ ets_ok T0 v /\ (cdv T0 v <= ty_depth T0)%nat.

Lemma item_up T : (forall e, kets T e <> []) -> item_ok0 T -> item_ok T.
Proof.
  intros Hne H sp T0 W d acc e n a h f allow L Hsp Hbase Hkeys He Hokh Hfuel Heoc Hsafe HL Hint.
  destruct (H sp T0 W d acc e n a h f allow L Hsp Hbase Hkeys He Hokh Hfuel Heoc Hsafe HL Hint) as (v & Hc & Ha).
  assert (Hnc: not_choice T0).
  { destruct T0; try exact I. cbn in Hkeys. specialize (Hne e). destruct (kets T e); [congruence|discriminate Hkeys]. }
  destruct (ets_plain T0 v Hnc) as [H1 H2]. exists v. split; [exact Hc|]. split; [exact Ha|]. split; [exact H1|rewrite H2; lia].
Qed.

(* one member of a constructed node: decoded under a spec of its own *)
Lemma kid_item t sp (i: bool) h' f' L k a : item_ok t -> frag t = true -> sp_ok sp t (DV t) 0 ->
  (forall k0, In k0 (side_keys t None) -> memk k0 L = true) ->
  nok h' k -> (h' + ty_depth t <= S f')%nat -> (i = true -> eoc_start (node_raw k) = false) -> safe L k = true ->
  interp t None k = Some a ->
  exists v, consumes (dec_call BER (S (S f')) sp [] None i false) (node_raw k) (DV t v) /\ abs t v = a
            /\ ets_ok t v /\ (cdv t v <= ty_depth t)%nat.
Proof.
  intros IH Hfr Hsp HL Hnk Hfu Hke Hs Hint.
  assert (Hkeys: keys (tagset_of' t) = kets t None ++ keys []) by (rewrite (frag_keys t Hfr), app_nil_r; reflexivity).
  destruct (IH sp t (DV t) 0%nat [] None k a h' (S f') i L Hsp eq_refl Hkeys (conj I (fun _ => conj eq_refl eq_refl)) Hnk Hfu Hke Hs HL Hint) as (v & Hc & Ha & He).
  rewrite Nat.add_0_r in Hc. exists v. split; [exact Hc|]. split; [exact Ha|exact He].
Qed.

(* a type with a universal tag of its own, whose node has no members to descend into with more fuel: it is
   enough that the value decoder reads the contents to a value with the abstract value the reference gave *)
Lemma item_leaf T u cd fl :
  by_type BER T = Some (cd, fl) -> (forall e, kets T e = [orkey e (Univ, u)]) ->
  (forall T0 acc e n a f L, base_of T0 = base_of T -> nok f n -> safe L n = true ->
     (forall k, In k (side_keys T e) -> memk k L = true) -> interp T e n = Some a ->
     same_tag (orkey e (Univ, u)) n = true
     /\ exists v, consumes (dec_value (dec_call BER f) f cd fl (Some T0) (node_wire n :: acc) (node_len n) false)
                            (node_body n) (DV T0 v) /\ abs T v = a) ->
  item_ok T.
Proof.
  intros Hby Hk H. apply item_up; [intros e; rewrite Hk; discriminate|].
  intros sp T0 W d acc e n a h f allow L Hsp Hbase Hkeys He Hokh Hfuel Heoc Hsafe HL Hint.
  pose proof (nok_mono h f n Hokh ltac:(lia)) as Hok.
  destruct (H T0 acc e n a f L Hbase Hok Hsafe HL Hint) as (Hsame & v & Hval & Ha).
  exists v. split; [|exact Ha].
  apply (base_item sp T0 W d acc e (Univ, u) n f allow cd fl v Hsp); try assumption.
  - rewrite Hbase, <- RoundTrip1.by_type_base. exact Hby.
  - rewrite Hkeys, Hk. reflexivity.
Qed.

Lemma item_bool : item_ok TBool.
Proof.
  apply (item_leaf TBool 1 DcBoolBer (mkDecFlags true (Some KBool)) eq_refl (fun e => eq_refl)).
  intros T0 acc e n a f L Hbase (Hsh & Ho & Hfit) _ _ Hint.
  destruct (interp_bool _ _ _ Hint) as (c & num & o & raw & -> & Hsame & ->). split; [exact Hsame|].
  exists (VBool (negb (Z.eqb (from_bytes_signed [o]) 0))). split.
  - cbn [dec_value node_len node_body node_wire].
    apply consumes_boolean; [reflexivity|apply (fits_of_body f _ Hfit Hsh)|exact Hbase].
  - cbn [abs]. f_equal. apply BerForms.any_nonzero_is_true.
    pose proof (octs_body _ Hsh Ho) as Hb. cbn [node_body] in Hb. apply octs_cons in Hb. tauto.
Qed.

Lemma item_int : item_ok TInt.
Proof.
  apply (item_leaf TInt 2 DcInt (mkDecFlags true (Some KInt)) eq_refl (fun e => eq_refl)).
  intros T0 acc e n a f L Hbase (Hsh & Ho & Hfit) _ _ Hint.
  destruct (interp_int _ _ _ Hint) as (c & num & o & cs & raw & -> & Hsame & ->). split; [exact Hsame|].
  exists (VInt (from_bytes_signed (o :: cs))). split.
  - cbn [dec_value node_len node_body node_wire df_proto].
    apply consumes_integer; [reflexivity|apply (fits_of_body f _ Hfit Hsh)|rewrite Hbase; exact I].
  - cbn [abs]. f_equal. symmetry. apply signed_value_is_from_bytes. apply octs_forallb. apply (octs_body _ Hsh Ho).
Qed.

Lemma item_enum : item_ok TEnum.
Proof.
  apply (item_leaf TEnum 10 DcInt (mkDecFlags true (Some KInt)) eq_refl (fun e => eq_refl)).
  intros T0 acc e n a f L Hbase (Hsh & Ho & Hfit) _ _ Hint.
  destruct (interp_enum _ _ _ Hint) as (c & num & o & cs & raw & -> & Hsame & ->). split; [exact Hsame|].
  exists (VInt (from_bytes_signed (o :: cs))). split.
  - cbn [dec_value node_len node_body node_wire df_proto].
    apply consumes_integer; [reflexivity|apply (fits_of_body f _ Hfit Hsh)|rewrite Hbase; exact I].
  - cbn [abs]. f_equal. symmetry. apply signed_value_is_from_bytes. apply octs_forallb. apply (octs_body _ Hsh Ho).
Qed.

Lemma item_null : item_ok TNull.
Proof.
  apply (item_leaf TNull 5 DcNull (mkDecFlags true (Some KNull)) eq_refl (fun e => eq_refl)).
  intros T0 acc e n a f L Hbase _ _ _ Hint.
  destruct (interp_null _ _ _ Hint) as (c & num & raw & -> & Hsame & ->). split; [exact Hsame|].
  exists VNull. split; [|reflexivity].
  cbn [dec_value node_len node_body node_wire length]. change (N.of_nat 0) with 0.
  apply consumes_null; [reflexivity|rewrite Hbase; exact I].
Qed.

Lemma item_oid : item_ok TOid.
Proof.
  apply (item_leaf TOid 6 DcOid (mkDecFlags true (Some KOid)) eq_refl (fun e => eq_refl)).
  intros T0 acc e n a f L Hbase (Hsh & Ho & Hfit) _ _ Hint.
  destruct (interp_oid _ _ _ Hint) as (c & num & cs & raw & arcs & -> & Hsame & Hoid & ->). split; [exact Hsame|].
  exists (VOid arcs). split; [|reflexivity].
  cbn [dec_value node_len node_body node_wire].
  apply consumes_oid; [reflexivity|apply (fits_of_body f _ Hfit Hsh)|exact Hbase|].
  apply oid_leaf; [apply (octs_body _ Hsh Ho)|exact Hoid].
Qed.

Lemma item_octs : item_ok TOcts.
Proof.
  apply (item_leaf TOcts 4 DcOcts (mkDecFlags true (Some KOcts)) eq_refl (fun e => eq_refl)).
  intros T0 acc e n a f L Hbase Hok _ _ Hint.
  destruct (interp_octs _ _ _ Hint) as (bs & Hsame & Hseg & ->). split; [exact Hsame|].
  exists (VOcts bs). split; [|reflexivity].
  apply (string_value f T0 DcOcts _ acc false n (S (length (node_raw n))) bs (or_introl eq_refl)); [|reflexivity|exact Hok|exact Hseg|apply all_octs_frag].
  intros ts. unfold proto_str, create. rewrite Hbase. reflexivity.
Qed.

Lemma str_ok_latin1 n b : latin1 n = true -> str_octets_ok n b = Some true.
Proof.
  unfold latin1. cbn [existsb]. intros H.
  repeat (apply orb_true_iff in H; destruct H as [H|H]); try discriminate H; apply N.eqb_eq in H; subst n; reflexivity.
Qed.

Lemma by_type_str n : latin1 n || ascii_str n = true -> by_type BER (TStr n) = Some (DcStr, mkDecFlags true (Some (KStr n))).
Proof.
  unfold latin1, ascii_str. cbn [existsb]. intros H.
  repeat (apply orb_true_iff in H; destruct H as [H|H]); try discriminate H; apply N.eqb_eq in H; subst n; reflexivity.
Qed.

Lemma str_ok_ascii n b : ascii_str n = true -> ascii b = true -> str_octets_ok n b = Some true.
Proof.
  unfold ascii_str, ascii. cbn [existsb]. intros H Hb.
  repeat (apply orb_true_iff in H; destruct H as [H|H]); try discriminate H; apply N.eqb_eq in H; subst n;
    unfold str_octets_ok; cbv zeta; rewrite Hb; reflexivity.
Qed.

Lemma ascii_app a b : ascii (a ++ b) = ascii a && ascii b.
Proof. apply forallb_app. Qed.

Lemma leaves_ascii_as_univ u n : leaves_ascii (as_univ u n) = leaves_ascii n.
Proof. destruct n; reflexivity. Qed.

(* the octets joined from segments whose primitive leaves are ASCII are ASCII *)
Lemma segments_ascii : forall n fuel bs, segments fuel n = Some bs -> leaves_ascii n = true -> ascii bs = true.
Proof.
  induction n as [c num contents raw|c num indef kids raw IH] using node_ind'; intros fuel bs Hseg Hl.
  - destruct (segments_inv _ _ _ Hseg) as [(c0 & raw0 & E & ->)|(i & kids & raw0 & l & fuel' & E & _)]; [|discriminate E].
    inversion E; subst. exact Hl.
  - destruct (segments_inv _ _ _ Hseg) as [(c0 & raw0 & E & _)|(i & kids0 & raw0 & l & fuel' & E & _ & Hall & ->)]; [discriminate E|].
    inversion E; subst c num i kids0 raw0. clear E Hseg. cbn [leaves_ascii] in Hl.
    pose proof (opt_all_Forall2 _ _ _ Hall) as HF. clear Hall.
    induction HF as [|k b kids l Hk HF IHF]; [reflexivity|].
    inversion IH as [|? ? IHk IHr]; subst. cbn [forallb] in Hl. apply andb_true_iff in Hl. destruct Hl as [Hl1 Hl2].
    cbn [concat]. rewrite ascii_app, (IHk fuel' b Hk Hl1), (IHF IHr Hl2). reflexivity.
Qed.

Lemma safe_ascii L n : safe L n = true -> memk (KA, key (node_wire n)) L = true -> leaves_ascii n = true.
Proof.
  intros Hs Hm. destruct n as [c num contents raw|c num indef kids raw]; unfold key in Hm; cbn [node_wire tcls tnum] in Hm;
    cbn [safe leaves_ascii] in *; rewrite Hm in Hs; cbn [negb orb] in Hs.
  - apply andb3 in Hs. tauto.
  - apply andb3 in Hs. tauto.
Qed.

Lemma item_str u : (latin1 u || ascii_str u)%bool = true -> item_ok (TStr u).
Proof.
  intros Hu. apply (item_leaf (TStr u) u DcStr (mkDecFlags true (Some (KStr u))) (by_type_str u Hu) (fun e => eq_refl)).
  intros T0 acc e n a f L Hbase Hok Hsafe HL Hint.
  destruct (interp_str _ _ _ _ Hint) as (bs & Hsame & Hseg & ->). split; [exact Hsame|].
  exists (VOcts bs). split; [|reflexivity].
  apply (string_value f T0 DcStr _ acc false n (S (length (node_raw n))) bs (or_intror eq_refl)); [|reflexivity|exact Hok|exact Hseg|apply all_octs_frag].
  intros ts. unfold proto_str, create. rewrite Hbase. cbn [base_of].
  destruct (latin1 u) eqn:El.
  - rewrite (str_ok_latin1 u bs El). reflexivity.
  - cbn [orb] in Hu. rewrite (str_ok_ascii u bs Hu); [reflexivity|].
    apply (segments_ascii (as_univ 4 n) _ bs Hseg). rewrite leaves_ascii_as_univ.
    apply (safe_ascii L n Hsafe). rewrite (same_tag_key _ _ Hsame). apply HL.
    cbn [side_keys]. rewrite Hu. left. reflexivity.
Qed.

Lemma item_bits : item_ok TBits.
Proof.
  apply (item_leaf TBits 3 DcBits (mkDecFlags true (Some KBits)) eq_refl (fun e => eq_refl)).
  intros T0 acc e n a f L Hbase Hok _ _ Hint.
  destruct (interp_bits _ _ _ Hint) as (l & bs & Hsame & Hseg & Hjoin & ->). split; [exact Hsame|].
  exists (VBits bs). split; [|reflexivity].
  apply (bits_value f T0 acc n _ l bs Hok Hseg Hjoin (all_bits_frag _)).
Qed.

Lemma abs_imp t x v : abs (TImp t x) v = abs x v. Proof. destruct v; reflexivity. Qed.
Lemma abs_exp t x v : abs (TExp t x) v = abs x v. Proof. destruct v; reflexivity. Qed.

Lemma item_imp t x : non_univ t = true -> headed x = true -> item_ok x -> item_ok (TImp t x).
Proof.
  intros Ht Hhd IH sp T0 W d acc e n a h f allow L Hsp Hbase Hkeys [He _] Hokh Hfuel Heoc Hsafe HL Hint.
  rewrite interp_imp in Hint. cbn [ty_depth] in Hfuel.
  destruct (IH sp T0 W d acc (Some (orkey e (key t))) n a h f allow L Hsp Hbase Hkeys) as (v & Hc & Ha & Hets); try assumption.
  - split; [|intros Hh; congruence].
    destruct e as [k0|]; [exact He|]. cbn [orkey e_ok key fst]. apply non_univ_cls. exact Ht.
  - lia.
  - exists v. split; [exact Hc|]. split; [rewrite abs_imp; exact Ha|exact Hets].
Qed.

Lemma item_exp t x : non_univ t = true -> headed x = true -> item_ok x -> item_ok (TExp t x).
Proof.
  intros Ht Hhd IH sp T0 W d acc e n a h f allow L Hsp Hbase Hkeys [He _] Hokh Hfuel Heoc Hsafe HL Hint.
  destruct (interp_exp _ _ _ _ _ Hint) as (c & num & i & k & raw & -> & Hsame & Hint').
  destruct (nok_kids _ _ _ _ _ _ Hokh) as (h' & -> & Hcnt & Hkids). cbn [ty_depth] in Hfuel.
  destruct f as [|f1]; [lia|].
  inversion Hkids as [|? ? (Hnk & Hke & Hkl) _]; subst.
  pose proof (safe_kids _ _ _ _ _ _ Hsafe) as Hsk. inversion Hsk as [|? ? Hsk1 _]; subst.
  pose proof (same_tag_key _ _ Hsame) as Hkey. unfold key in Hkey at 1. cbn [node_wire tcls tnum] in Hkey.
  assert (Hc: c <> Univ).
  { destruct e as [k0|]; cbn [orkey] in Hkey.
    - cbn [e_ok] in He. rewrite <- Hkey in He. exact He.
    - unfold key in Hkey. inversion Hkey. apply non_univ_cls. exact Ht. }
  cbn [kets] in Hkeys.
  assert (Hkeys': keys (tagset_of' T0) = kets x None ++ keys (mkTag c true num :: acc)).
  { rewrite Hkeys, <- app_assoc. cbn [keys map app]. unfold key at 2. cbn [tcls tnum]. rewrite Hkey. reflexivity. }
  assert (Hpo: pos_ok x T0 (mkTag c true num :: acc) None) by (split; [exact I|intros Hh; congruence]).
  destruct (IH sp T0 W d (mkTag c true num :: acc) None k a h' f1 i L Hsp Hbase Hkeys' Hpo Hnk ltac:(lia) Hke Hsk1 HL Hint')
    as (v & Hcons & Ha & Hets).
  exists v. split; [|split; [rewrite abs_exp; exact Ha|exact Hets]].
  pose proof (nok_mono _ (S (f1 + d)) _ Hokh ltac:(lia)) as (Hsh & Ho & Hfit).
  assert (Hnc: not_choice T0).
  { destruct T0; try exact I. cbn in Hkeys'. destruct (kets x None); discriminate Hkeys'. }
  cbn [Nat.add].
  apply (item_of_explicit_sp (f1 + d) sp T0 W d acc c num i k raw allow (W v) (tagset_of' T0) (kets x None) Hsh Hfit Heoc Hsp);
    [rewrite (leaves_not_choice T0 Hnc); left; reflexivity|exact Hkeys'|apply (kets_nonempty x None Hhd)|exact Hc
    |apply (so_dv sp T0 W d Hsp)|exact Hcons].
Qed.

Lemma listof_value f' T0 t cd fl acc c num i kids raw xs :
  (cd = DcSeqOf \/ cd = DcSetOf) -> (base_of T0 = TSeqOf t \/ base_of T0 = TSetOf t) ->
  Forall2 (elem (dec_call BER (S f')) t i) (map node_raw kids) xs -> (length kids < S f')%nat ->
  consumes (dec_value (dec_call BER (S f')) (S f') cd fl (Some T0) (mkTag c true num :: acc)
                      (node_len (Cons c num i kids raw)) false)
           (node_body (Cons c num i kids raw)) (DV T0 (VList xs)).
Proof.
  intros Hcd Hb HF Hlen.
  assert (Hdv: forall len, dec_value (dec_call BER (S f')) (S f') cd fl (Some T0) (mkTag c true num :: acc) len false
                           = dec_listof (dec_call BER (S f')) (S f') T0 t len).
  { intros len. destruct Hcd as [-> | ->]; cbn [dec_value tag0_cons tcon negb]; destruct Hb as [-> | ->]; reflexivity. }
  rewrite Hdv. clear Hdv. cbn [node_len node_body]. unfold kids_raw.
  rewrite <- (map_length node_raw kids) in Hlen.
  destruct i.
  - intros s tl Hav. unfold dec_listof. rewrite resume_tell. rewrite <- app_assoc in Hav.
    destruct (listof_indef_loop_run (dec_call BER (S f')) (call_eoo f') T0 t _ _ HF (S f') [] (pos s) s tl Hlen Hav)
      as (s' & Hrun & Hpos & Harr & Hcl).
    exists s'. split; [exact Hrun|]. rewrite app_length. cbn [length]. repeat split; assumption.
  - rewrite app_nil_r. apply (RoundTrip2.dec_listof_consumes (dec_call BER (S f')) (S f') T0 t _ _ HF Hlen).
Qed.

Lemma kids_elems t (i: bool) h' f' L : item_ok t -> frag t = true ->
  (forall k, In k (side_keys t None) -> memk k L = true) -> (h' + ty_depth t <= S f')%nat ->
  forall kids l,
  Forall (fun k => nok h' k /\ (i = true -> eoc_start (node_raw k) = false) /\ (0 < length (node_raw k))%nat) kids ->
  Forall (fun k => safe L k = true) kids ->
  Forall2 (fun k a => interp t None k = Some a) kids l ->
  exists xs, Forall2 (elem (dec_call BER (S (S f'))) t i) (map node_raw kids) xs /\ map (abs t) xs = l.
Proof.
  intros IH Hfr HL Hfu kids l Hkids Hsk HF.
  induction HF as [|k a kids l Hint HF IHF].
  - exists []. split; [constructor|reflexivity].
  - inversion Hkids as [|? ? (Hnk & Hke & Hkl) Hkr]; subst. inversion Hsk as [|? ? Hs1 Hsr]; subst.
    destruct (IHF Hkr Hsr) as (xs & HFx & Hmap).
    destruct (kid_item t (STy t) i h' f' L k a IH Hfr (sp_sty t Hfr) HL Hnk Hfu Hke Hs1 Hint) as (v & Hc & Ha & _).
    exists (v :: xs). split; [|cbn [map]; rewrite Ha, Hmap; reflexivity].
    cbn [map]. constructor; [|exact HFx]. split; [exact Hc|exact Hkl].
Qed.

Lemma fuel_kids h' D f : (S (S h') + S D <= f)%nat -> exists f', f = S (S f') /\ (h' + D <= f')%nat.
Proof. intros H. destruct f as [|[|f']]; try lia. exists f'. split; [reflexivity|lia]. Qed.

Lemma item_seqof t : frag t = true -> item_ok t -> item_ok0 (TSeqOf t).
Proof.
  intros Hfr IH sp T0 W d acc e n a h f allow L Hsp Hbase Hkeys He Hokh Hfuel Heoc Hsafe HL Hint.
  destruct (interp_seqof _ _ _ _ Hint) as (c & num & i & kids & raw & l & -> & Hsame & Hall & ->).
  destruct (nok_kids _ _ _ _ _ _ Hokh) as (h' & -> & Hcnt & Hkids). cbn [ty_depth] in Hfuel.
  destruct (fuel_kids h' (ty_depth t) f Hfuel) as (f' & -> & Hfu).
  pose proof (nok_mono _ (S (S f')) _ Hokh ltac:(lia)) as Hok.
  destruct (kids_elems t i h' f' L IH Hfr HL ltac:(lia) kids l Hkids (safe_kids _ _ _ _ _ _ Hsafe) (opt_all_Forall2 _ _ _ Hall))
    as (xs & HF & Hmap).
  exists (VList xs). split; [|cbn [abs]; rewrite Hmap; reflexivity].
  apply (base_item sp T0 W d acc e (Univ, 16) _ (S (S f')) allow DcSeqOf (mkDecFlags true (Some KSeqOf)) _ Hsp); try assumption.
  - rewrite Hbase. reflexivity.
  - cbn [node_wire]. apply (listof_value (S f') T0 t DcSeqOf _ acc c num i kids raw xs (or_introl eq_refl) (or_introl Hbase) HF). lia.
Qed.

Lemma item_setof t : frag t = true -> item_ok t -> item_ok0 (TSetOf t).
Proof.
  intros Hfr IH sp T0 W d acc e n a h f allow L Hsp Hbase Hkeys He Hokh Hfuel Heoc Hsafe HL Hint.
  destruct (interp_setof _ _ _ _ Hint) as (c & num & i & kids & raw & l & -> & Hsame & Hall & ->).
  destruct (nok_kids _ _ _ _ _ _ Hokh) as (h' & -> & Hcnt & Hkids). cbn [ty_depth] in Hfuel.
  destruct (fuel_kids h' (ty_depth t) f Hfuel) as (f' & -> & Hfu).
  pose proof (nok_mono _ (S (S f')) _ Hokh ltac:(lia)) as Hok.
  destruct (kids_elems t i h' f' L IH Hfr HL ltac:(lia) kids l Hkids (safe_kids _ _ _ _ _ _ Hsafe) (opt_all_Forall2 _ _ _ Hall))
    as (xs & HF & Hmap).
  exists (VList xs). split; [|cbn [abs]; rewrite Hmap; reflexivity].
  apply (base_item sp T0 W d acc e (Univ, 17) _ (S (S f')) allow DcSetOf (mkDecFlags true (Some KSetOf)) _ Hsp); try assumption.
  - rewrite Hbase. reflexivity.
  - cbn [node_wire]. apply (listof_value (S f') T0 t DcSetOf _ acc c num i kids raw xs (or_intror eq_refl) (or_intror Hbase) HF). lia.
Qed.

(* the inner fix of interp (TSeq _), named: the components against the members, in order *)
Definition seq_go (interp_f: ty -> node -> option aval) : list (presence * ty) -> list node -> option (list (option aval)) :=
  fix go (fs: list (presence * ty)) (kids: list node) {struct fs} : option (list (option aval)) :=
    match fs with
    | [] => match kids with [] => Some [] | _ => None end
    | (p, ft) :: fs' =>
        let absent := match p with
                      | Req => None
                      | Opt => opt_bind (go fs' kids) (fun r => Some (None :: r))
                      | Def d => opt_bind (go fs' kids) (fun r => Some (Some (abs ft d) :: r))
                      end in
        match kids with
        | k :: kids' =>
            if may_start ft (node_tag k) then
              match interp_f ft k with
              | Some a => opt_bind (go fs' kids') (fun r => Some (Some a :: r))
              | None => None
              end
            else absent
        | [] => absent
        end
    end.

Lemma interp_seq fs e n a : interp (TSeq fs) e n = Some a ->
  exists c num i kids raw l, n = Cons c num i kids raw /\ same_tag (orkey e (Univ, 16)) n = true
    /\ seq_go (fun ft k => interp ft None k) fs kids = Some l /\ a = ARec l.
Proof.
  cbn [interp]. cbv zeta. destruct n as [|c num i kids raw]; [discriminate|].
  change (match e with Some e0 => e0 | None => (Univ, 16) end) with (orkey e (Univ, 16)).
  destruct (same_tag (orkey e (Univ, 16)) (Cons c num i kids raw)) eqn:E; [|discriminate]. cbn [negb].
  intros H.
  match type of H with opt_bind ?g _ = _ => destruct g as [l|] eqn:El; [|discriminate H] end.
  cbn [opt_bind] in H. exists c, num, i, kids, raw, l. split; [reflexivity|]. split; [reflexivity|]. split; [exact El|congruence].
Qed.

Definition fields_depth (fs: list (presence * ty)) : nat := fold_right (fun f acc => Nat.max (ty_depth (snd f)) acc) O fs.
Definition alts_depth (alts: list ty) : nat := fold_right (fun a acc => Nat.max (ty_depth a) acc) O alts.

Lemma fields_depth_in fs f0 : In f0 fs -> (ty_depth (snd f0) <= fields_depth fs)%nat.
Proof.
  induction fs as [|x fs IH]; intros H; [contradiction|]. cbn [fields_depth fold_right]. fold (fields_depth fs).
  destruct H as [->|H]; [lia|]. specialize (IH H). lia.
Qed.

Lemma alts_depth_in alts a : In a alts -> (ty_depth a <= alts_depth alts)%nat.
Proof.
  induction alts as [|x alts IH]; intros H; [contradiction|]. cbn [alts_depth fold_right]. fold (alts_depth alts).
  destruct H as [->|H]; [lia|]. specialize (IH H). lia.
Qed.

(* the inner fixes of interp (TSet _), named: a member goes to the first component it may start, if that
   slot is free (set_pick, set_place); an unfilled slot at the end is absent, DEFAULT, or an error (set_final) *)
Definition set_pick (k: node) (slots: list (option aval)) : list (presence * ty) -> nat -> option (list (option aval)) :=
  fix pick (fs: list (presence * ty)) (i: nat) : option (list (option aval)) :=
    match fs with
    | [] => None
    | (p, ft) :: fs' =>
        if may_start ft (node_tag k) then
          match nth_error slots i with
          | Some None => opt_bind (interp ft None k) (fun a => Some (set_slot i a slots))
          | _ => None
          end
        else pick fs' (S i)
    end.

Definition set_place (fs: list (presence * ty)) : list node -> option (list (option aval)) -> option (list (option aval)) :=
  fix place (kids: list node) (acc: option (list (option aval))) : option (list (option aval)) :=
    match kids with
    | [] => acc
    | k :: kids' => place kids' (opt_bind acc (fun slots => set_pick k slots fs O))
    end.

Definition set_final (ps: (presence * ty) * option aval) : option (option aval) :=
  match fst ps, snd ps with
  | _, Some a => Some (Some a)
  | (Opt, _), None => Some None
  | (Def d, ft), None => Some (Some (abs ft d))
  | (Req, _), None => None
  end.

Lemma interp_set fs e n a : interp (TSet fs) e n = Some a ->
  exists c num i kids raw slots l, n = Cons c num i kids raw /\ same_tag (orkey e (Univ, 17)) n = true
    /\ set_place fs kids (Some (map (fun _ => None) fs)) = Some slots
    /\ opt_all (map set_final (combine fs slots)) = Some l /\ a = ARec l.
Proof.
  cbn [interp]. cbv zeta. destruct n as [|c num i kids raw]; [discriminate|].
  change (match e with Some e0 => e0 | None => (Univ, 17) end) with (orkey e (Univ, 17)).
  destruct (same_tag (orkey e (Univ, 17)) (Cons c num i kids raw)) eqn:E; [|discriminate]. cbn [negb].
  intros H.
  match type of H with opt_bind ?g _ = _ => destruct g as [slots|] eqn:El; [|discriminate H] end.
  cbn [opt_bind] in H.
  match type of H with opt_bind ?g _ = _ => destruct g as [l|] eqn:Ef; [|discriminate H] end.
  cbn [opt_bind] in H.
  exists c, num, i, kids, raw, slots, l. split; [reflexivity|]. split; [reflexivity|]. split; [exact El|]. split; [exact Ef|congruence].
Qed.

Lemma set_place_none fs : forall kids, set_place fs kids None = None.
Proof. induction kids as [|k kids IH]; [reflexivity|]. cbn [set_place opt_bind]. exact IH. Qed.

Lemma set_place_step fs k kids slots r : set_place fs (k :: kids) (Some slots) = Some r ->
  exists slots', set_pick k slots fs O = Some slots' /\ set_place fs kids (Some slots') = Some r.
Proof.
  cbn [set_place opt_bind]. fold (set_place fs). intros H.
  destruct (set_pick k slots fs 0) as [slots'|] eqn:E; [|rewrite set_place_none in H; discriminate H].
  exists slots'. split; [reflexivity|exact H].
Qed.

Lemma set_pick_inv k slots : forall fs i0 slots', set_pick k slots fs i0 = Some slots' ->
  exists j p ft a, nth_error fs j = Some (p, ft) /\ may_start ft (node_tag k) = true
                   /\ interp ft None k = Some a /\ slots' = set_slot (i0 + j) a slots.
Proof.
  induction fs as [|[p ft] fs IH]; intros i0 slots' H; [discriminate H|].
  cbn [set_pick] in H. destruct (may_start ft (node_tag k)) eqn:Em.
  - destruct (nth_error slots i0) as [[|]|]; try discriminate H.
    destruct (interp ft None k) as [a|] eqn:Ea; [|discriminate H]. cbn [opt_bind] in H. inversion H.
    exists 0%nat, p, ft, a. rewrite Nat.add_0_r. repeat split; assumption.
  - fold (set_pick k slots) in H. destruct (IH (S i0) slots' H) as (j & p' & ft' & a & H1 & H2 & H3 & H4).
    exists (S j), p', ft', a. split; [exact H1|]. split; [exact H2|]. split; [exact H3|].
    rewrite H4. f_equal. lia.
Qed.

Inductive slots_rel : list (presence * ty) -> list (option val) -> list (option aval) -> Prop :=
| sr_nil : slots_rel [] [] []
| sr_none f fs vs sl : slots_rel fs vs sl -> slots_rel (f :: fs) (None :: vs) (None :: sl)
| sr_some f fs v vs sl : slots_rel fs vs sl -> slots_rel (f :: fs) (Some v :: vs) (Some (abs (snd f) v) :: sl).

Lemma slots_rel_init fs : slots_rel fs (map (fun _ => None) fs) (map (fun _ => None) fs).
Proof. induction fs as [|f fs IH]; [constructor|]. cbn [map]. constructor. exact IH. Qed.

Lemma slots_rel_set : forall fs vs sl j p ft v, slots_rel fs vs sl -> nth_error fs j = Some (p, ft) ->
  slots_rel fs (set_nth j (Some v) vs) (set_slot j (abs ft v) sl).
Proof.
  intros fs vs sl j p ft v H. revert j. induction H as [|f fs vs sl H IH|f fs v0 vs sl H IH]; intros j Hn.
  - destruct j; discriminate Hn.
  - destruct j as [|j]; cbn [nth_error] in Hn.
    + inversion Hn; subst f. cbn [set_nth set_slot]. apply (sr_some (p, ft) fs v vs sl H).
    + cbn [set_nth set_slot]. constructor. apply IH. exact Hn.
  - destruct j as [|j]; cbn [nth_error] in Hn.
    + inversion Hn; subst f. cbn [set_nth set_slot]. apply (sr_some (p, ft) fs v vs sl H).
    + cbn [set_nth set_slot]. constructor. apply IH. exact Hn.
Qed.

Lemma slots_rel_final : forall fs vs sl l, slots_rel fs vs sl ->
  opt_all (map set_final (combine fs sl)) = Some l ->
  required_seen fs vs = true /\ RoundTrip2.abs_fields fs vs = l.
Proof.
  intros fs vs sl l H Hf. apply opt_all_Forall2 in Hf. revert l Hf. unfold required_seen.
  induction H as [|[p ft] fs vs sl H IH|[p ft] fs v0 vs sl H IH]; intros l Hf; cbn [combine] in Hf;
    inversion Hf as [|? x ? r Hx Hr]; subst.
  - split; reflexivity.
  - (* an empty slot: the component is OPTIONAL or DEFAULT *)
    destruct (IH r Hr) as [H1 H2]. cbn [combine forallb fst snd RoundTrip2.abs_fields]. fold RoundTrip2.abs_fields.
    rewrite H1, H2. unfold set_final in Hx. cbn [fst snd] in Hx. destruct p; inversion Hx; split; reflexivity.
  - destruct (IH r Hr) as [H1 H2]. cbn [combine forallb fst snd RoundTrip2.abs_fields]. fold RoundTrip2.abs_fields.
    rewrite H1, H2. unfold set_final in Hx. cbn [fst snd] in Hx. destruct p; inversion Hx; split; reflexivity.
Qed.

Lemma forallb_map_snd {A} (g: ty -> bool) (fs: list (A * ty)) : forallb g (map snd fs) = forallb (fun f => g (snd f)) fs.
Proof. induction fs as [|x fs IH]; [reflexivity|]. cbn [map forallb]. rewrite IH. reflexivity. Qed.

Lemma flat_map_map_snd {A B} (g: ty -> list B) (fs: list (A * ty)) : flat_map g (map snd fs) = flat_map (fun f => g (snd f)) fs.
Proof. induction fs as [|x fs IH]; [reflexivity|]. cbn [map flat_map]. rewrite IH. reflexivity. Qed.

(* the component types of a SET / a run: tag maps as expected, leaves told apart by their outermost tags *)
Lemma comps_ok (fts: list ty) : forallb (fun t => frag t && mapable t) fts = true -> nodupb (flat_map okeys fts) = true ->
  (forall t, In t fts -> tmok t) /\ NoDup (map lk (flat_map leaves fts)).
Proof.
  intros Hf Hnd. split; [|apply (nodup_leaves fts Hf Hnd)].
  intros t Ht. rewrite forallb_forall in Hf. specialize (Hf t Ht). apply andb_true_iff in Hf. destruct Hf as [H1 H2].
  apply (tmok_frag t H1 H2).
Qed.

Lemma set_steps_of_place (i: bool) h' f' L fs :
  Forall (fun f => item_ok (snd f)) fs -> forallb (fun f => frag (snd f)) fs = true ->
  (forall t, In t (map snd fs) -> tmok t) -> NoDup (map lk (flat_map leaves (map snd fs))) ->
  (forall k, In k (flat_map (fun f => side_keys (snd f) None) fs) -> memk k L = true) ->
  (forall f0, In f0 fs -> (h' + ty_depth (snd f0) <= S f')%nat) ->
  forall kids slots slots' vs,
  Forall (fun k => nok h' k /\ (i = true -> eoc_start (node_raw k) = false) /\ (0 < length (node_raw k))%nat) kids ->
  Forall (fun k => safe L k = true) kids ->
  set_place fs kids (Some slots) = Some slots' -> slots_rel fs vs slots ->
  forall idx, exists vs', steps (dec_call BER (S (S f'))) (S (S f')) fs true i idx (map node_raw kids) vs vs' /\ slots_rel fs vs' slots'.
Proof.
  intros HIH Hfrs Hok Hnd HL Hfu.
  induction kids as [|k kids IHk]; intros slots slots' vs Hkids Hsk Hpl Hrel idx.
  - cbn [set_place] in Hpl. inversion Hpl; subst. exists vs. split; [constructor|exact Hrel].
  - destruct (set_place_step _ _ _ _ _ Hpl) as (slots1 & Hpick & Hpl').
    destruct (set_pick_inv _ _ _ _ _ Hpick) as (j & p & ft & a & Hn & Hms & Hint & ->). cbn [Nat.add] in *.
    inversion Hkids as [|? ? (Hnk & Hke & Hkl) Hkr]; subst. inversion Hsk as [|? ? Hs1 Hsr]; subst.
    pose proof (nth_error_In _ _ Hn) as Hin.
    assert (IH1: item_ok ft) by (rewrite Forall_forall in HIH; apply (HIH (p, ft) Hin)).
    assert (Hnf: nth_error (map snd fs) j = Some ft) by (rewrite (map_nth_error snd j fs Hn); reflexivity).
    pose proof (nth_error_In _ _ Hnf) as Hinf.
    assert (Hfr: frag ft = true) by (rewrite forallb_forall in Hfrs; apply (Hfrs (p, ft) Hin)).
    destruct (kid_item ft (SMap (fields_tagmap true (map snd fs))) i h' f' L k a IH1 Hfr
                (sp_ok_map true (map snd fs) ft Hok Hnd Hinf)
                (fun k0 Hk0 => HL k0 (proj2 (in_flat_map _ _ _) (ex_intro _ (p, ft) (conj Hin Hk0))))
                Hnk (Hfu (p, ft) Hin) Hke Hs1 Hint) as (v & Hc & Ha & Hets & Hcd).
    destruct (IHk (set_slot j a slots) slots' (set_nth j (Some v) vs) Hkr Hsr Hpl') with (idx := S j) as (vs' & Hst & Hrel').
    { rewrite <- Ha. apply (slots_rel_set fs vs slots j p ft v Hrel Hn). }
    exists vs'. split; [|exact Hrel'].
    cbn [map]. apply (st_cons _ _ fs true i idx (node_raw k) (map node_raw kids) _ ft v j vs vs' eq_refl (conj Hc Hkl)); [|reflexivity| |exact Hst].
    + apply (position_leaf (map snd fs) ft j _ Hok Hnd Hnf). apply Hets. pose proof (Hfu (p, ft) Hin) as Hd. cbn [snd] in Hd. lia.
    + apply nth_error_Some. rewrite Hn. discriminate.
Qed.

Lemma item_set fs : forallb (fun f => frag (snd f) && mapable (snd f)) fs = true ->
  nodupb (flat_map (fun f => okeys (snd f)) fs) = true ->
  Forall (fun f => item_ok (snd f)) fs -> item_ok0 (TSet fs).
Proof.
  intros Hfrs Hnd IH sp T0 W d acc e n a h f allow L Hsp Hbase Hkeys He Hokh Hfuel Heoc Hsafe HL Hint.
  destruct (interp_set _ _ _ _ Hint) as (c & num & i & kids & raw & slots & l & -> & Hsame & Hpl & Hfin & ->).
  destruct (nok_kids _ _ _ _ _ _ Hokh) as (h' & -> & Hcnt & Hkids).
  change (ty_depth (TSet fs)) with (S (fields_depth fs)) in Hfuel.
  destruct (fuel_kids h' (fields_depth fs) f Hfuel) as (f' & -> & Hfu).
  pose proof (nok_mono _ (S (S f')) _ Hokh ltac:(lia)) as Hok.
  assert (Hfus: forall f0, In f0 fs -> (h' + ty_depth (snd f0) <= S f')%nat).
  { intros f0 Hf0. pose proof (fields_depth_in fs f0 Hf0). lia. }
  destruct (comps_ok (map snd fs)) as [Hcomp HND].
  { rewrite forallb_map_snd. exact Hfrs. }
  { rewrite flat_map_map_snd. exact Hnd. }
  assert (Hfr1: forallb (fun f => frag (snd f)) fs = true).
  { apply forallb_forall. intros x Hx. rewrite forallb_forall in Hfrs. specialize (Hfrs x Hx). apply andb_true_iff in Hfrs. tauto. }
  destruct fs as [|f0 fs0].
  -     destruct kids as [|k kids]; [|destruct (set_place_step _ _ _ _ _ Hpl) as (s1 & Hp & _); discriminate Hp].
    cbn in Hpl, Hfin. inversion Hpl; subst slots. inversion Hfin; subst l.
    exists (VRec []). split; [|reflexivity].
    apply (base_item sp T0 W d acc e (Univ, 17) _ (S (S f')) allow DcSet (mkDecFlags true (Some KSet)) _ Hsp); try assumption.
    + rewrite Hbase. reflexivity.
    + cbn [node_wire]. apply (record_empty (S f') T0 true DcSet _ acc c num i raw (or_intror eq_refl) Hbase).
  - destruct (set_steps_of_place i h' f' L (f0 :: fs0) IH Hfr1 Hcomp HND HL Hfus kids _ slots _ Hkids (safe_kids _ _ _ _ _ _ Hsafe) Hpl
                (slots_rel_init (f0 :: fs0)) 0%nat) as (vs' & HS & Hrel).
    destruct (slots_rel_final _ _ _ _ Hrel Hfin) as [Hreq Habs].
    exists (VRec vs'). split; [|change (abs (TSet (f0 :: fs0)) (VRec vs')) with (ARec (RoundTrip2.abs_fields (f0 :: fs0) vs')); rewrite Habs; reflexivity].
    apply (base_item sp T0 W d acc e (Univ, 17) _ (S (S f')) allow DcSet (mkDecFlags true (Some KSet)) _ Hsp); try assumption.
    + rewrite Hbase. reflexivity.
    + cbn [node_wire]. apply (record_value (S f') T0 (f0 :: fs0) true DcSet _ acc c num i kids raw vs' (or_intror eq_refl) Hbase eq_refl HS Hreq). lia.
Qed.

Definition absent_val (f: presence * ty) : option aval := match fst f with Def d => Some (abs (snd f) d) | _ => None end.
Definition non_req (f: presence * ty) : bool := negb (is_req (fst f)).
Definition nones {A B} (l: list A) : list (option B) := map (fun _ => None) l.

(* a component without a member: OPTIONAL or DEFAULT, and the walk goes on with the same members *)
Lemma absent_inv (p: presence) ft (g: option (list (option aval))) l :
  match p with
  | Req => None
  | Opt => opt_bind g (fun r => Some (None :: r))
  | Def d => opt_bind g (fun r => Some (Some (abs ft d) :: r))
  end = Some l ->
  non_req (p, ft) = true /\ exists r, g = Some r /\ l = absent_val (p, ft) :: r.
Proof.
  intros H. destruct p as [| |d]; [discriminate H| |]; (destruct g as [r|]; [|discriminate H]);
    cbn [opt_bind] in H; inversion H; (split; [reflexivity|exists r; split; reflexivity]).
Qed.

Lemma seq_go_nil_kids : forall todo l, seq_go (fun ft k => interp ft None k) todo [] = Some l ->
  forallb non_req todo = true /\ l = map absent_val todo.
Proof.
  induction todo as [|[p ft] todo IH]; intros l H.
  - cbn in H. inversion H. split; reflexivity.
  - cbn [seq_go] in H. cbv zeta in H. fold (seq_go (fun ft k => interp ft None k)) in H.
    destruct (absent_inv _ _ _ _ H) as (Hp & r & Er & ->). destruct (IH r Er) as [H1 ->].
    cbn [forallb map]. rewrite Hp, H1. split; reflexivity.
Qed.

Lemma seq_go_kid : forall todo k kids l, seq_go (fun ft k => interp ft None k) todo (k :: kids) = Some l ->
  exists pre p ft todo' a r, todo = pre ++ (p, ft) :: todo' /\ forallb non_req pre = true
    /\ may_start ft (node_tag k) = true /\ interp ft None k = Some a
    /\ seq_go (fun ft k => interp ft None k) todo' kids = Some r /\ l = map absent_val pre ++ Some a :: r.
Proof.
  induction todo as [|[p ft] todo IH]; intros k kids l H; [discriminate H|].
  cbn [seq_go] in H. cbv zeta in H. fold (seq_go (fun ft k => interp ft None k)) in H.
  destruct (may_start ft (node_tag k)) eqn:Em.
  - destruct (interp ft None k) as [a|] eqn:Ea; [|discriminate H].
    destruct (seq_go (fun ft k => interp ft None k) todo kids) as [r|] eqn:Er; [|discriminate H].
    cbn [opt_bind] in H. inversion H; subst l.
    exists [], p, ft, todo, a, r. repeat split; assumption.
  - destruct (absent_inv _ _ _ _ H) as (Hp & r0 & Er & ->).
    destruct (IH k kids r0 Er) as (pre & p' & ft' & todo' & a & r & -> & Hpre & Hm & Hi & Hgo & ->).
    exists ((p, ft) :: pre), p', ft', todo', a, r. split; [reflexivity|]. split; [cbn [forallb]; rewrite Hp, Hpre; reflexivity|].
    split; [exact Hm|]. split; [exact Hi|]. split; [exact Hgo|reflexivity].
Qed.

Lemma run_app : forall pre rest, forallb non_req pre = true -> ambiguous_run (pre ++ rest) = map snd pre ++ ambiguous_run rest.
Proof.
  induction pre as [|[p t] pre IH]; intros rest H; [reflexivity|].
  cbn [forallb] in H. apply andb_true_iff in H. destruct H as [H1 H2].
  cbn [app ambiguous_run map snd]. destruct p; [discriminate H1| |]; rewrite (IH rest H2); reflexivity.
Qed.

Lemma run_head p ft rest : exists r, ambiguous_run ((p, ft) :: rest) = ft :: r.
Proof. cbn [ambiguous_run]. destruct p; eexists; reflexivity. Qed.

Lemma run_incl : forall l t, In t (ambiguous_run l) -> In t (map snd l).
Proof.
  induction l as [|[p ft] l IH]; intros t H; [contradiction|].
  cbn [ambiguous_run] in H. cbn [map snd].
  destruct p; destruct H as [->|H]; try (left; reflexivity); try contradiction; right; apply IH; exact H.
Qed.

Lemma abs_fields_nones : forall l, RoundTrip2.abs_fields l (nones l) = map absent_val l.
Proof.
  induction l as [|[p ft] l IH]; [reflexivity|].
  unfold nones in *. cbn [map RoundTrip2.abs_fields]. fold RoundTrip2.abs_fields. rewrite IH.
  unfold absent_val at 2. cbn [fst snd]. destruct p; reflexivity.
Qed.

Lemma abs_fields_app : forall fa va fb vb, length va = length fa ->
  RoundTrip2.abs_fields (fa ++ fb) (va ++ vb) = RoundTrip2.abs_fields fa va ++ RoundTrip2.abs_fields fb vb.
Proof.
  induction fa as [|[p ft] fa IH]; intros va fb vb Hl.
  - destruct va; [|discriminate Hl]. cbn [app]. destruct fb; reflexivity.
  - destruct va as [|ov va]; [discriminate Hl|]. cbn [length] in Hl.
    cbn [app RoundTrip2.abs_fields]. fold RoundTrip2.abs_fields. rewrite IH by lia. reflexivity.
Qed.

Lemma required_seen_app : forall fa va fb vb, length va = length fa ->
  required_seen (fa ++ fb) (va ++ vb) = required_seen fa va && required_seen fb vb.
Proof.
  unfold required_seen. induction fa as [|f fa IH]; intros va fb vb Hl.
  - destruct va; [|discriminate Hl]. reflexivity.
  - destruct va as [|ov va]; [discriminate Hl|]. cbn [length] in Hl.
    cbn [app combine forallb]. rewrite IH by lia. rewrite andb_assoc. reflexivity.
Qed.

Lemma required_seen_nones : forall l, forallb non_req l = true -> required_seen l (nones l) = true.
Proof.
  unfold required_seen, nones. induction l as [|[p ft] l IH]; intros H; [reflexivity|].
  cbn [forallb] in H. apply andb_true_iff in H. destruct H as [H1 H2].
  cbn [map combine forallb fst snd]. rewrite (IH H2). destruct p; [discriminate H1|reflexivity|reflexivity].
Qed.

Lemma nones_length {A B} (l: list A) : length (@nones A B l) = length l.
Proof. apply map_length. Qed.

Lemma nones_app {A B} (a b: list A) : @nones A B (a ++ b) = nones a ++ nones b.
Proof. apply map_app. Qed.

Definition seq_runs_ok (fs: list (presence * ty)) : bool :=
  forallb (fun idx => nodupb (flat_map okeys (ambiguous_run (skipn idx fs)))) (seq 0 (length fs)).

Lemma in_skipn {A} (x: A) : forall n l, In x (skipn n l) -> In x l.
Proof.
  induction n as [|n IH]; intros l H; [exact H|]. destruct l as [|y l]; [contradiction|].
  cbn [skipn] in H. right. apply IH. exact H.
Qed.

Lemma seq_steps_of_go (i: bool) h' f' L fs :
  Forall (fun f => item_ok (snd f)) fs -> forallb (fun f => frag (snd f)) fs = true ->
  forallb (fun f => is_req (fst f)) fs || forallb (fun f => mapable (snd f)) fs = true -> seq_runs_ok fs = true ->
  (forall k, In k (flat_map (fun f => side_keys (snd f) None) fs) -> memk k L = true) ->
  (forall f0, In f0 fs -> (h' + ty_depth (snd f0) <= S f')%nat) ->
  forall m todo, (length todo <= m)%nat -> forall done vdone kids l,
  fs = done ++ todo -> length vdone = length done ->
  Forall (fun k => nok h' k /\ (i = true -> eoc_start (node_raw k) = false) /\ (0 < length (node_raw k))%nat) kids ->
  Forall (fun k => safe L k = true) kids ->
  seq_go (fun ft k => interp ft None k) todo kids = Some l ->
  exists vt, steps (dec_call BER (S (S f'))) (S (S f')) fs false i (length done) (map node_raw kids)
                   (vdone ++ nones todo) (vdone ++ vt)
    /\ length vt = length todo /\ RoundTrip2.abs_fields todo vt = l /\ required_seen todo vt = true.
Proof.
  intros HIH Hfrs Hmap Hruns HL Hfu.
  induction m as [|m IHm]; intros todo Hm done vdone kids l Hfs Hvd Hkids Hsk Hgo.
  - destruct todo; [|cbn [length] in Hm; lia].
    destruct kids as [|k kids]; [|discriminate Hgo]. cbn in Hgo. inversion Hgo; subst l.
    exists []. split; [constructor|]. repeat split.
  - destruct kids as [|k kids].
    + destruct (seq_go_nil_kids _ _ Hgo) as [Hnr ->].
      exists (nones todo). split; [constructor|]. split; [apply nones_length|].
      split; [apply abs_fields_nones|apply required_seen_nones; exact Hnr].
    + destruct (seq_go_kid _ _ _ _ Hgo) as (pre & p & ft & todo' & a & r & -> & Hpre & Hms & Hint & Hgo' & ->).
      inversion Hkids as [|? ? (Hnk & Hke & Hkl) Hkr]; subst. inversion Hsk as [|? ? Hs1 Hsr]; subst.
      set (fs := done ++ pre ++ (p, ft) :: todo') in *.
      set (idx := length done).
      assert (Hin: In (p, ft) fs) by (subst fs; apply in_or_app; right; apply in_or_app; right; left; reflexivity).
      assert (IH1: item_ok ft) by (rewrite Forall_forall in HIH; apply (HIH (p, ft) Hin)).
      assert (Hfr: frag ft = true) by (rewrite forallb_forall in Hfrs; apply (Hfrs (p, ft) Hin)).
      pose proof (Hfu (p, ft) Hin) as Hfuft. cbn [snd] in Hfuft.
      assert (HLft: forall k0, In k0 (side_keys ft None) -> memk k0 L = true).
      { intros k0 Hk0. apply HL. apply in_flat_map. exists (p, ft). split; [exact Hin|exact Hk0]. }
      assert (Hskip: skipn idx fs = pre ++ (p, ft) :: todo') by (subst fs idx; apply skipn_app_exact).
      assert (Hidx: (idx < length fs)%nat) by (subst fs idx; rewrite !app_length; cbn [length]; lia).
      assert (Hmem: exists sp v, member_spec fs false idx = Some sp
                 /\ consumes (dec_call BER (S (S f')) sp [] None i false) (node_raw k) (DV ft v) /\ abs ft v = a
                 /\ seq_position (S (S f')) fs false (rec_det false fs) idx ft v = Ok (idx + length pre)%nat).
      { unfold member_spec, seq_component_spec, seq_position, rec_det. cbn [negb andb].
        assert (Hhd: exists p0 ft0, nth_error fs idx = Some (p0, ft0) /\
                       ((pre = [] /\ p0 = p /\ ft0 = ft) \/ (is_req p0 = false))).
        { subst fs idx. rewrite nth_error_app2 by lia. rewrite Nat.sub_diag.
          destruct pre as [|[p0 ft0] pre'].
          - exists p, ft. split; [reflexivity|]. left. repeat split.
          - exists p0, ft0. split; [reflexivity|]. right. cbn [forallb] in Hpre. apply andb_true_iff in Hpre.
            destruct Hpre as [H1 _]. unfold non_req in H1. cbn [fst] in H1. apply negb_true_iff in H1. exact H1. }
        destruct Hhd as (p0 & ft0 & Hn0 & Hcase). rewrite Hn0.
        destruct (is_req p0) eqn:Er.
        - (* a mandatory component: its own type is the spec, its own position the position *)
          destruct Hcase as [(-> & -> & ->)|Hc]; [|discriminate Hc]. rewrite orb_true_r.
          destruct (kid_item ft (STy ft) i h' f' L k a IH1 Hfr (sp_sty ft Hfr) HLft Hnk Hfuft Hke Hs1 Hint) as (v & Hc & Ha & _).
          exists (STy ft), v. split; [reflexivity|]. split; [exact Hc|]. split; [exact Ha|].
          cbn [length]. rewrite Nat.add_0_r. destruct (forallb (fun f => is_req (fst f)) fs); reflexivity.
        - (* an OPTIONAL component: the tag map of the run, the position by type *)
          assert (Hdet: forallb (fun f => is_req (fst f)) fs = false).
          { destruct (forallb (fun f => is_req (fst f)) fs) eqn:E; [|reflexivity]. rewrite forallb_forall in E.
            specialize (E (p0, ft0) (nth_error_In _ _ Hn0)). cbn [fst] in E. congruence. }
          rewrite Hdet in Hmap |- *. cbn [orb] in Hmap |- *. rewrite Hskip.
          set (run := ambiguous_run (pre ++ (p, ft) :: todo')).
          assert (Hrn: nth_error run (length pre) = Some ft).
          { subst run. rewrite (run_app pre _ Hpre). destruct (run_head p ft todo') as (r0 & ->).
            rewrite nth_error_app2 by (rewrite map_length; lia). rewrite map_length, Nat.sub_diag. reflexivity. }
          assert (Hrsub: forall t, In t run -> In t (map snd fs)).
          { intros t Ht. subst run. apply run_incl in Ht. rewrite <- Hskip in Ht. apply in_map_iff in Ht.
            destruct Ht as (x & <- & Hx). apply in_map. apply (in_skipn x idx fs Hx). }
          destruct (comps_ok run) as [Hrok Hrnd].
          { apply forallb_forall. intros t Ht. specialize (Hrsub t Ht). apply in_map_iff in Hrsub. destruct Hrsub as (x & <- & Hx).
            rewrite forallb_forall in Hfrs, Hmap. rewrite (Hfrs x Hx), (Hmap x Hx). reflexivity. }
          { unfold seq_runs_ok in Hruns. rewrite forallb_forall in Hruns.
            specialize (Hruns idx). rewrite Hskip in Hruns. apply Hruns. apply in_seq. lia. }
          pose proof (nth_error_In _ _ Hrn) as Hrin.
          destruct (kid_item ft (SMap (fields_tagmap false run)) i h' f' L k a IH1 Hfr (sp_ok_map false run ft Hrok Hrnd Hrin)
                      HLft Hnk Hfuft Hke Hs1 Hint) as (v & Hc & Ha & Hets & Hcd).
          exists (SMap (fields_tagmap false run)), v. split; [reflexivity|]. split; [exact Hc|]. split; [exact Ha|].
          rewrite (position_leaf run ft (length pre) _ Hrok Hrnd Hrn); [reflexivity|]. apply Hets. lia. }
      destruct Hmem as (sp & v & Hspec & Hcons & Ha & Hposn).
      assert (Hlen': (length todo' <= m)%nat) by (rewrite !app_length in Hm; cbn [length] in Hm; lia).
      destruct (IHm todo' Hlen' (done ++ pre ++ [(p, ft)]) (vdone ++ nones pre ++ [Some v]) kids r) as (vt' & Hst & Hlvt & Habs & Hreq).
      { subst fs. rewrite <- !app_assoc. reflexivity. }
      { rewrite !app_length, nones_length. cbn [length]. lia. }
      { exact Hkr. } { exact Hsr. } { exact Hgo'. }
      exists (nones pre ++ Some v :: vt'). split; [|split; [|split]].
      * cbn [map]. apply (st_cons _ _ fs false i idx (node_raw k) (map node_raw kids) sp ft v (idx + length pre)%nat _ _ Hspec
                            (conj Hcons Hkl) Hposn).
        { apply Nat.leb_gt. exact Hidx. }
        { subst fs idx. rewrite !app_length. cbn [length]. lia. }
        replace (set_nth (idx + length pre) (Some v) (vdone ++ nones (pre ++ (p, ft) :: todo')))
          with ((vdone ++ nones pre ++ [Some v]) ++ nones todo').
        { replace (S (idx + length pre)) with (length (done ++ pre ++ [(p, ft)])) by (subst idx; rewrite !app_length; cbn [length]; lia).
          replace (vdone ++ nones pre ++ Some v :: vt') with ((vdone ++ nones pre ++ [Some v]) ++ vt') by (rewrite <- !app_assoc; reflexivity).
          exact Hst. }
        { rewrite nones_app. unfold nones at 4. cbn [map]. fold (@nones (presence * ty) val todo').
          rewrite (app_assoc vdone (nones pre) (None :: nones todo')).
          replace (idx + length pre)%nat with (length (vdone ++ nones pre)) by (subst idx; rewrite app_length, nones_length; lia).
          rewrite RoundTrip2.set_nth_app. rewrite <- !app_assoc. reflexivity. }
      * rewrite !app_length, nones_length. cbn [length]. lia.
      * rewrite (abs_fields_app pre (nones pre)) by apply nones_length.
        rewrite abs_fields_nones. cbn [RoundTrip2.abs_fields]. fold RoundTrip2.abs_fields. rewrite Ha, Habs. reflexivity.
      * rewrite (required_seen_app pre (nones pre)) by apply nones_length.
        rewrite (required_seen_nones pre Hpre). unfold required_seen in *. cbn [combine forallb fst snd andb]. rewrite Hreq.
        destruct p; reflexivity.
Qed.

Lemma item_seq fs : forallb (fun f => frag (snd f)) fs = true ->
  forallb (fun f => is_req (fst f)) fs || forallb (fun f => mapable (snd f)) fs = true -> seq_runs_ok fs = true ->
  Forall (fun f => item_ok (snd f)) fs -> item_ok0 (TSeq fs).
Proof.
  intros Hfrs Hmap Hruns IH sp T0 W d acc e n a h f allow L Hsp Hbase Hkeys He Hokh Hfuel Heoc Hsafe HL Hint.
  destruct (interp_seq _ _ _ _ Hint) as (c & num & i & kids & raw & l & -> & Hsame & Hgo & ->).
  destruct (nok_kids _ _ _ _ _ _ Hokh) as (h' & -> & Hcnt & Hkids).
  change (ty_depth (TSeq fs)) with (S (fields_depth fs)) in Hfuel.
  destruct (fuel_kids h' (fields_depth fs) f Hfuel) as (f' & -> & Hfu).
  pose proof (nok_mono _ (S (S f')) _ Hokh ltac:(lia)) as Hok.
  assert (Hfus: forall f0, In f0 fs -> (h' + ty_depth (snd f0) <= S f')%nat).
  { intros f0 Hf0. pose proof (fields_depth_in fs f0 Hf0). lia. }
  destruct (seq_steps_of_go i h' f' L fs IH Hfrs Hmap Hruns HL Hfus (length fs) fs (le_n _) [] [] kids l eq_refl eq_refl Hkids
              (safe_kids _ _ _ _ _ _ Hsafe) Hgo) as (vt & HS & Hlvt & Habs & Hreq).
  cbn [app length] in HS.
  exists (VRec vt). split; [|rewrite RoundTrip2.abs_seq, Habs; reflexivity].
  apply (base_item sp T0 W d acc e (Univ, 16) _ (S (S f')) allow DcSeq (mkDecFlags true (Some KSeq)) _ Hsp); try assumption.
  - rewrite Hbase. reflexivity.
  - cbn [node_wire]. destruct fs as [|f0 fs0].
    + destruct kids; [|discriminate Hgo]. destruct vt; [|discriminate Hlvt].
      apply (record_empty (S f') T0 false DcSeq _ acc c num i raw (or_introl eq_refl) Hbase).
    + apply (record_value (S f') T0 (f0 :: fs0) false DcSeq _ acc c num i kids raw vt (or_introl eq_refl) Hbase eq_refl HS Hreq). lia.
Qed.

Lemma interp_real e n a : interp TReal e n = Some a ->
  exists c num cs raw r, n = Prim c num cs raw /\ same_tag (orkey e (Univ, 9)) n = true
                         /\ real_value cs = Some r /\ a = AReal r.
Proof.
  cbn [interp]. cbv zeta. destruct n as [c num contents raw|]; [|discriminate].
  change (match e with Some e0 => e0 | None => (Univ, 9) end) with (orkey e (Univ, 9)).
  destruct (same_tag (orkey e (Univ, 9)) (Prim c num contents raw)) eqn:E; [|discriminate].
  destruct (real_value contents) as [r|] eqn:Eo; [|discriminate]. cbn [opt_bind].
  intros H. exists c, num, contents, raw, r. split; [reflexivity|]. split; [reflexivity|]. split; [exact Eo|congruence].
Qed.

Lemma item_real : item_ok TReal.
Proof.
  apply (item_leaf TReal 9 DcReal (mkDecFlags true (Some KReal)) eq_refl (fun e => eq_refl)).
  intros T0 acc e n a f L Hbase (Hsh & Ho & Hfit) Hsafe HL Hint.
  destruct (interp_real _ _ _ Hint) as (c & num & cs & raw & ra & -> & Hsame & Hreal & ->). split; [exact Hsame|].
  assert (Hm: real_mant_ok cs = true).
  { cbn [safe] in Hsafe. pose proof (same_tag_key _ _ Hsame) as Hk. unfold key in Hk. cbn [node_wire tcls tnum] in Hk.
    rewrite Hk in Hsafe. rewrite (HL (KR, orkey e (Univ, 9)) (or_introl eq_refl)) in Hsafe. cbn [negb orb] in Hsafe.
    apply andb3 in Hsafe. tauto. }
  destruct (real_leaf cs ra (octs_body _ Hsh Ho) Hreal Hm) as (r & Hdec & Habs).
  exists (VReal r). split; [|cbn [abs]; rewrite Habs; reflexivity].
  cbn [dec_value node_len node_body node_wire].
  apply consumes_real; [reflexivity|apply (fits_of_body f _ Hfit Hsh)|exact Hbase|exact Hdec].
Qed.

(* the inner fix of interp (TChoice _), named: the first alternative the node may start *)
Definition choice_go (n: node) : list ty -> nat -> option aval :=
  fix go (alts: list ty) (i: nat) : option aval :=
    match alts with
    | [] => None
    | a :: r => if may_start a (node_tag n)
                then opt_bind (interp a None n) (fun x => Some (AChoice i x))
                else go r (S i)
    end.

Lemma choice_go_inv n : forall alts i a, choice_go n alts i = Some a ->
  exists j alt x, nth_error alts j = Some alt /\ interp alt None n = Some x /\ a = AChoice (i + j) x.
Proof.
  induction alts as [|alt alts IH]; intros i a H; [discriminate H|].
  cbn [choice_go] in H. destruct (may_start alt (node_tag n)).
  - destruct (interp alt None n) as [x|] eqn:E; [|discriminate H]. cbn [opt_bind] in H. inversion H.
    exists 0%nat, alt, x. rewrite Nat.add_0_r. repeat split; assumption.
  - fold (choice_go n) in H. destruct (IH (S i) a H) as (j & alt' & x & H1 & H2 & H3).
    exists (S j), alt', x. split; [exact H1|]. split; [exact H2|]. rewrite H3. f_equal. lia.
Qed.

Lemma interp_choice alts e n a : interp (TChoice alts) e n = Some a ->
  e = None /\ exists j alt x, nth_error alts j = Some alt /\ interp alt None n = Some x /\ a = AChoice j x.
Proof.
  cbn [interp]. destruct e as [k|]; [discriminate|]. intros H. split; [reflexivity|].
  apply (choice_go_inv n alts 0%nat a H).
Qed.

Lemma abs_choice : forall alts j alt v, nth_error alts j = Some alt -> abs (TChoice alts) (VChoice j v) = AChoice j (abs alt v).
Proof.
  intros alts j alt v Hn. cbn [abs]. rewrite (nth_loop (fun a => AChoice j (abs a v))), Hn. reflexivity.
Qed.

Lemma choice_parts alts : frag (TChoice alts) = true ->
  (forall t, In t alts -> tmok t) /\ NoDup (map lk (flat_map leaves alts))
  /\ (forall t, In t alts -> frag t = true /\ mapable t = true).
Proof.
  intros Hf. cbn [frag] in Hf. apply andb_true_iff in Hf. destruct Hf as [Hf Hnd].
  destruct (comps_ok alts Hf Hnd) as [H1 H2]. split; [exact H1|]. split; [exact H2|].
  intros t Ht. rewrite forallb_forall in Hf. specialize (Hf t Ht). apply andb_true_iff in Hf. exact Hf.
Qed.

(* an untagged CHOICE: whatever spec resolves to it resolves, one level of fuel lower, to its alternatives *)
Lemma item_choice alts : frag (TChoice alts) = true -> Forall item_ok alts -> item_ok (TChoice alts).
Proof.
  intros Hfr IH sp T0 W d acc e n a h f allow L Hsp Hbase Hkeys [He Hun] Hokh Hfuel Heoc Hsafe HL Hint.
  destruct (Hun eq_refl) as [-> ->].
  destruct (interp_choice _ _ _ _ Hint) as (-> & j & alt & x & Hn & Hix & ->).
  destruct (choice_parts alts Hfr) as (Htm & Hnd & Hfa).
  pose proof (nth_error_In _ _ Hn) as Hin. destruct (Hfa alt Hin) as [Hfalt Hmalt].
  change (ty_depth (TChoice alts)) with (S (alts_depth alts)) in Hfuel.
  pose proof (alts_depth_in alts alt Hin) as Hdep.
  destruct f as [|f']; [lia|].
  pose proof (sp_ok_alt sp alts W d j alt Hsp Hn Htm Hnd (leaves_nonempty alt Hfalt Hmalt)) as Hsp'.
  rewrite Forall_forall in IH.
  assert (Hkeys': keys (tagset_of' alt) = kets alt None ++ keys []) by (rewrite (frag_keys alt Hfalt), app_nil_r; reflexivity).
  destruct (IH alt Hin sp alt (fun v => W (VChoice j v)) (S d) [] None n x h f' allow L Hsp' eq_refl Hkeys'
              (conj I (fun _ => conj eq_refl eq_refl)) Hokh ltac:(lia) Heoc Hsafe
              (fun k0 Hk0 => HL k0 (proj2 (in_flat_map _ _ _) (ex_intro _ alt (conj Hin Hk0)))) Hix)
    as (v & Hc & Ha & Hets & Hcd).
  exists (VChoice j v). split; [replace (S f' + d)%nat with (f' + S d)%nat by lia; exact Hc|].
  split; [rewrite (abs_choice alts j alt v Hn), Ha; reflexivity|].
  split; [apply (ets_choice alts j alt v Hn Hets)|].
  cbn [cdv]. rewrite (nth_error_nth alts j TNull Hn). change (ty_depth (TChoice alts)) with (S (alts_depth alts)). lia.
Qed.

(* a CHOICE under an EXPLICIT tag: the tag completes the tag set, the alternative follows with a header of its own *)
Lemma item_exp_choice t alts : non_univ t = true -> frag (TChoice alts) = true -> Forall item_ok alts ->
  item_ok0 (TExp t (TChoice alts)).
Proof.
  intros Ht Hfr IH sp T0 W d acc e n a h f allow L Hsp Hbase Hkeys [He _] Hokh Hfuel Heoc Hsafe HL Hint.
  destruct (interp_exp _ _ _ _ _ Hint) as (c & num & i & k & raw & -> & Hsame & Hint').
  destruct (interp_choice _ _ _ _ Hint') as (_ & j & alt & x & Hn & Hix & ->).
  destruct (choice_parts alts Hfr) as (Htm & Hnd & Hfa).
  pose proof (nth_error_In _ _ Hn) as Hin. destruct (Hfa alt Hin) as [Hfalt Hmalt].
  destruct (nok_kids _ _ _ _ _ _ Hokh) as (h' & -> & Hcnt & Hkids).
  change (ty_depth (TExp t (TChoice alts))) with (S (S (alts_depth alts))) in Hfuel.
  pose proof (alts_depth_in alts alt Hin) as Hdep.
  destruct (fuel_kids h' (S (alts_depth alts)) f Hfuel) as (f' & -> & Hfu).
  pose proof (nok_mono _ (S (S f')) _ Hokh ltac:(lia)) as Hok.
  inversion Hkids as [|? ? (Hnk & Hke & Hkl) _]; subst.
  pose proof (safe_kids _ _ _ _ _ _ Hsafe) as Hsk. inversion Hsk as [|? ? Hsk1 _]; subst.
  rewrite Forall_forall in IH.
  destruct (kid_item alt (SMap (fields_tagmap true alts)) i h' f' L k x (IH alt Hin) Hfalt (sp_ok_map true alts alt Htm Hnd Hin)
              (fun k0 Hk0 => HL k0 (proj2 (in_flat_map _ _ _) (ex_intro _ alt (conj Hin Hk0)))) Hnk ltac:(lia) Hke Hsk1 Hix)
    as (v & Hc & Ha & Hets & Hcd).
  exists (VChoice j v). split; [|rewrite abs_exp, (abs_choice alts j alt v Hn), Ha; reflexivity].
  cbn [kets app] in Hkeys.
  apply (base_item sp T0 W d acc e (key t) _ (S (S f')) allow DcChoice (mkDecFlags true (Some KChoice)) _ Hsp); try assumption.
  - rewrite Hbase. reflexivity.
  - assert (Hplace: choice_place (S (S f')) T0 alts (DV alt v) = Ret (DV T0 (VChoice j v))).
    { unfold choice_place. rewrite (position_leaf alts alt j (effective_tagset (S (S (S f'))) alt v) Htm Hnd Hn); [reflexivity|].
      apply Hets. lia. }
    assert (Htag: tagset_eqb (tagset_of' T0) (node_wire (Cons c num i [k] raw) :: acc) = true).
    { apply tagset_eqb_keys. rewrite Hkeys. cbn [keys map]. fold (keys acc). rewrite (same_tag_key _ _ Hsame). reflexivity. }
    cbn [dec_value]. rewrite Hbase. cbn [base_of]. unfold dec_choice. rewrite Htag.
    cbn [node_len node_body node_wire] in *. unfold kids_raw. cbn [map concat]. rewrite app_nil_r.
    destruct i.
    + (* indefinite: the alternative, then end-of-contents *)
      cbn [choice_loop]. apply (consumes_then_eoo _ _ _ _ _ Hc). intros s1 tl Hav1.
      rewrite Hplace. cbn [pbind choice_loop].
      rewrite (resume_pbind_done _ _ _ _ _ (call_eoo (S f') _ _ _ s1 tl Hav1)). reflexivity.
    + rewrite ?app_nil_r. apply (consumes_bind_pure _ _ _ (DV alt v)); [exact Hc|exact Hplace].
Qed.

Lemma interp_any e n a : interp TAny e n = Some a -> e = None /\ a = AAny (node_raw n).
Proof. cbn [interp]. destruct e; [discriminate|]. intros H. inversion H. split; reflexivity. Qed.

Fixpoint u0_free (n: node) : bool :=
  match n with
  | Prim c num _ _ => negb (tag_pair_eqb (c, num) (Univ, 0))
  | Cons c num _ kids _ => negb (tag_pair_eqb (c, num) (Univ, 0)) && forallb u0_free kids
  end.

Lemma safe_u0 L : memk (KN, (Univ, 0)) L = true -> forall n, safe L n = true -> u0_free n = true.
Proof.
  intros HL. induction n as [c num contents raw|c num indef kids raw IH] using node_ind'; intros Hs.
  - cbn [safe u0_free] in *. apply andb3 in Hs. destruct Hs as (_ & _ & Hu). unfold u0_ok in Hu. rewrite HL in Hu. exact Hu.
  - cbn [safe u0_free] in *. apply andb3 in Hs. destruct Hs as (_ & Hu & Hk). unfold u0_ok in Hu. rewrite HL in Hu.
    cbn [andb] in Hu. rewrite Hu. cbn [andb]. apply forallb_forall. intros k Hk0. rewrite Forall_forall in IH.
    rewrite forallb_forall in Hk. apply (IH k Hk0 (Hk k Hk0)).
Qed.

Lemma u0_wire n : u0_free n = true -> tag_eqb (node_wire n) (utag false 0) = false.
Proof.
  intros H. assert (Hk: tag_pair_eqb (key (node_wire n)) (Univ, 0) = false).
  { destruct n; cbn [u0_free] in H; [|apply andb_true_iff in H; destruct H as [H _]]; apply negb_true_iff in H; exact H. }
  unfold tag_pair_eqb, key in Hk. cbn [fst snd] in Hk. unfold tag_eqb, utag. cbn [tcls tnum].
  destruct (tcls (node_wire n)); cbn [cls_eqb class_no andb N.eqb] in *; try reflexivity. exact Hk.
Qed.

(* the dispatch of an untagged ANY: any tag but UNIVERSAL 0 *)
Lemma dispatch_any rec f t len sfun : tag_eqb t (utag false 0) = false ->
  dispatch BER rec f (STy TAny) [t] len sfun =
  DecShape.run_value len match len with
                         | Some l => dec_any f (Some TAny) [t] l sfun
                         | None => dec_any_indef rec f (Some TAny) [t] sfun
                         end.
Proof.
  intros Ht. unfold dispatch, tm_contains, tm_find, tm_mem, eoo_tagset.
  change (tagset_of' TAny) with (@nil tag). change (tagmap_of TAny) with (mkTmap [([], TAny)] [[utag false 0]] (Some TAny) false).
  cbn [tm_present tm_default tm_skip tm_postponed assoc tagset_eqb list_eqb existsb orb]. unfold tagset_eqb. cbn [list_eqb].
  rewrite Ht. cbn [andb orb negb]. destruct len; reflexivity.
Qed.

Definition any_result (sfun: bool) (raw: bytes) : dval := if sfun then DRaw raw else DV TAny (VAny raw).

Section AnyLoop.
  Variable rec : spec -> tagset -> option (option N) -> bool -> bool -> proc dval.
  Hypothesis rec_eoo : reports_eoo rec.

  Lemma any_indef_loop_run sp ts (sfun tagged: bool) : forall parts,
    Forall (fun p => consumes (rec (STy TAny) [] None true true) p (DRaw p)) parts ->
    forall n acc s tl, (length parts < n)%nat -> avail s = concat parts ++ [0; 0] ++ tl ->
    exists s', resume (any_indef_loop rec sp ts sfun tagged n acc) s
               = resume (let whole := acc ++ concat parts ++ (if tagged then [] else [0; 0]) in
                         if sfun then Ret (DRaw whole) else create sp TAny ts (VAny whole)) s'
      /\ pos s' = (pos s + (length (concat parts) + 2))%nat /\ arrived s' = arrived s /\ closed s' = closed s.
  Proof.
    intros parts HF. induction HF as [|p parts Hp HF IH]; intros n acc s tl Hn Hav.
    - destruct n as [|n']; [cbn [length] in Hn; lia|].
      cbn [any_indef_loop]. unfold fragment. cbn [concat app] in Hav.
      rewrite (resume_pbind_done _ _ _ _ _ (rec_eoo _ _ _ s tl Hav)). cbv zeta. cbn [concat app].
      exists (adv s 2). split; [reflexivity|]. repeat split.
    - destruct n as [|n']; [cbn [length] in Hn; lia|].
      cbn [any_indef_loop]. unfold fragment. cbn [concat] in Hav. rewrite <- app_assoc in Hav.
      destruct (Hp s _ Hav) as (s1 & Hrun & Hpos & Harr & Hcl).
      rewrite (resume_pbind_done _ _ _ _ _ Hrun).
      pose proof (consumes_avail p s _ s1 Hav Hpos Harr) as Hav1.
      cbn [length] in Hn.
      destruct (IH n' (acc ++ p) s1 tl ltac:(lia) Hav1) as (s2 & Hrun2 & Hpos2 & Harr2 & Hcl2).
      exists s2. rewrite Hrun2. cbv zeta. rewrite <- !app_assoc. cbn [concat]. rewrite <- !app_assoc.
      split; [reflexivity|]. rewrite app_length. split; [lia|]. split; congruence.
  Qed.
End AnyLoop.

Lemma create_any T0 ts b : base_of T0 = TAny -> create (Some T0) TAny ts (VAny b) = Ret (DV T0 (VAny b)).
Proof. intros H. unfold create. rewrite H. reflexivity. Qed.

(* a definite-length TLV under an untagged ANY: back to the mark, then the whole of it in one read *)
Lemma any_definite n f allow sfun :
  nok f n -> u0_free n = true -> (allow = true -> eoc_start (node_raw n) = false) ->
  node_len n = Some (N.of_nat (length (node_body n))) ->
  consumes (dec_call BER (S f) (STy TAny) [] None allow sfun) (node_raw n) (any_result sfun (node_raw n)).
Proof.
  intros (Hsh & Ho & Hmax & Hf) Hu0 Heoc Hdef. pose proof (u0_wire _ Hu0) as Ht.
  destruct (shape_split _ Hsh) as (ib & lb & Hi & Hl & Eraw).
  set (raw := node_raw n) in *. set (body := node_body n) in *.
  intros s tl Hav. rewrite Eraw in Hav. rewrite <- !app_assoc in Hav.
  rewrite (call_header f (STy TAny) [] allow sfun ib lb _ _ (body ++ tl) s Hi Hl Hav).
  2:{ rewrite Eraw, !app_length in Hf. lia. }
  2:{ intros Ha. apply (eoc_start_prefix _ body); [apply (hdr_len2 _ _ _ _ Hi Hl)|rewrite <- Eraw; apply Heoc; exact Ha]. }
  rewrite Hdef, (dispatch_any _ _ _ _ _ Ht). unfold DecShape.run_value, dec_any.
  change (tagset_of' TAny) with (@nil tag). unfold tagset_eqb. cbn [list_eqb negb].
  set (hl := (length ib + length lb)%nat). set (s1 := adv (setmark s (pos s)) hl).
  unfold getmark, tell. cbn [pbind]. cbn [resume].
  replace (pos s1 - mark s1)%nat with hl by (subst s1; cbn [pos mark adv setpos setmark]; lia).
  assert (Es2: setpos s1 (pos s1 - hl) = setmark s (pos s)) by (subst s1; apply setpos_back).
  rewrite Es2.
  assert (Hlen: N.of_nat (length body) + N.of_nat hl = N.of_nat (length raw)).
  { rewrite Eraw, !app_length. subst hl. lia. }
  rewrite Hlen. unfold read_len.
  destruct (N.ltb_spec index_max (N.of_nat (length raw))) as [Hc|_]; [lia|].
  replace (N.to_nat (N.min (N.of_nat (length raw)) (N.of_nat (S f)))) with (length raw) by lia.
  unfold readN. cbn [pbind resume].
  rewrite (attempt_enough (setmark s (pos s)) (length raw) raw tl).
  2:{ rewrite avail_setmark, Hav, Eraw, <- !app_assoc. reflexivity. }
  2:{ reflexivity. }
  assert (Hfin: (if sfun then Ret (DRaw raw) else create (Some TAny) TAny [node_wire n] (VAny raw)) = Ret (any_result sfun raw))
    by (destruct sfun; reflexivity).
  rewrite Hfin. cbn [pbind resume].
  replace (pos (adv (setmark s (pos s)) (length raw)) - pos s1)%nat with (length body)
    by (subst s1 hl; cbn [pos adv setpos setmark]; rewrite Eraw, !app_length; lia).
  rewrite N.eqb_refl. cbn [resume].
  eexists. split; [reflexivity|]. cbn [pos arrived closed adv setpos setmark]. repeat split.
Qed.

(* an untagged ANY: the whole TLV, in any form, as a value or as a fragment of an enclosing ANY *)
Theorem any_item : forall n f allow sfun,
  nok f n -> u0_free n = true -> (allow = true -> eoc_start (node_raw n) = false) ->
  consumes (dec_call BER (S f) (STy TAny) [] None allow sfun) (node_raw n) (any_result sfun (node_raw n)).
Proof.
  induction n as [c num contents raw|c num indef kids raw IH] using node_ind'; intros f allow sfun Hok Hu0 Heoc.
  - apply any_definite; [exact Hok|exact Hu0|exact Heoc|reflexivity].
  - destruct indef; [|apply any_definite; [exact Hok|exact Hu0|exact Heoc|cbn [node_len node_body]; rewrite app_nil_r; reflexivity]].
    pose proof Hok as (Hsh & Ho & Hmax & Hf). pose proof (u0_wire _ Hu0) as Ht.
    destruct (nok_kids _ _ _ _ _ _ Hok) as (f' & -> & Hcnt & Hkids).
    destruct (shape_split _ Hsh) as (ib & lb & Hi & Hl & Eraw). cbn [node_raw node_wire node_len node_body] in *.
    cbn [u0_free] in Hu0. apply andb_true_iff in Hu0. destruct Hu0 as [_ Hu0k].
    intros s tl Hav. rewrite Eraw in Hav. rewrite <- !app_assoc in Hav.
    rewrite (call_header (S (S f')) (STy TAny) [] allow sfun ib lb _ _ _ s Hi Hl Hav).
    2:{ rewrite Eraw, !app_length in Hf. lia. }
    2:{ intros Ha. apply (eoc_start_prefix _ (kids_raw kids ++ [0; 0])); [apply (hdr_len2 _ _ _ _ Hi Hl)|rewrite <- Eraw; apply Heoc; exact Ha]. }
    rewrite (dispatch_any _ _ _ _ _ Ht). unfold DecShape.run_value.
    set (hl := (length ib + length lb)%nat). set (s1 := adv (setmark s (pos s)) hl).
    (* the header again, then the members as raw fragments *)
    unfold dec_any_indef. change (tagset_of' TAny) with (@nil tag). unfold tagset_eqb. cbn [list_eqb].
    unfold getmark, tell. cbn [pbind]. cbn [resume].
    replace (pos s1 - mark s1)%nat with hl by (subst s1; cbn [pos mark adv setpos setmark]; lia).
    assert (Es2: setpos s1 (pos s1 - hl) = setmark s (pos s)) by (subst s1; apply setpos_back).
    rewrite Es2. unfold readN. cbn [pbind resume].
    rewrite (attempt_enough (setmark s (pos s)) hl (ib ++ lb) (kids_raw kids ++ [0; 0] ++ tl)).
    2:{ rewrite avail_setmark, Hav, <- !app_assoc. reflexivity. }
    2:{ subst hl. apply app_length. }
    fold s1.
    assert (Hparts: Forall (fun p => consumes (dec_call BER (S (S f')) (STy TAny) [] None true true) p (DRaw p)) (map node_raw kids)).
    { apply Forall_forall. intros p Hp. apply in_map_iff in Hp. destruct Hp as (k & <- & Hk).
      rewrite Forall_forall in IH, Hkids. destruct (Hkids k Hk) as (Hnk & Hke & _).
      rewrite forallb_forall in Hu0k.
      apply (IH k Hk (S f') true true (nok_mono _ _ _ Hnk (Nat.le_succ_diag_r f')) (Hu0k k Hk) Hke). }
    assert (Hav1: avail s1 = concat (map node_raw kids) ++ [0; 0] ++ tl).
    { subst s1 hl. rewrite avail_adv, avail_setmark, Hav. rewrite app_assoc, <- app_length. rewrite skipn_app_exact. reflexivity. }
    destruct (any_indef_loop_run (dec_call BER (S (S f'))) (call_eoo (S f')) (Some TAny) [mkTag c true num] sfun false
                (map node_raw kids) Hparts (S (S f')) (ib ++ lb) s1 tl ltac:(rewrite map_length; lia) Hav1)
      as (s2 & Hrun & Hpos & Harr & Hcl).
    rewrite Hrun. cbv zeta. fold (kids_raw kids).
    replace ((ib ++ lb) ++ kids_raw kids ++ [0; 0]) with raw by (rewrite Eraw, <- !app_assoc; reflexivity).
    assert (Hfin: (if sfun then Ret (DRaw raw) else create (Some TAny) TAny [mkTag c true num] (VAny raw)) = Ret (any_result sfun raw))
      by (destruct sfun; reflexivity).
    rewrite Hfin. cbn [resume]. exists s2. split; [reflexivity|].
    fold (kids_raw kids) in Hpos. rewrite Hpos, Harr, Hcl. subst s1 hl. cbn [pos arrived closed adv setpos setmark].
    rewrite Eraw, !app_length. cbn [length]. repeat split. lia.
Qed.

Lemma item_any : item_ok TAny.
Proof.
  intros sp T0 W d acc e n a h f allow L Hsp Hbase Hkeys [He Hun] Hokh Hfuel Heoc Hsafe HL Hint.
  destruct (Hun eq_refl) as [-> ->]. destruct (so_any sp TAny W d Hsp eq_refl) as (-> & -> & HW).
  destruct (interp_any _ _ _ Hint) as [-> ->].
  pose proof (nok_mono h f n Hokh ltac:(lia)) as Hok.
  exists (VAny (node_raw n)). split; [|split; [reflexivity|]].
  - rewrite Nat.add_0_r, HW.
    apply (any_item n f allow false Hok (safe_u0 L (HL (KN, (Univ, 0)) (or_introl eq_refl)) n Hsafe) Heoc).
  - destruct (ets_plain TAny (VAny (node_raw n)) I) as [H1 H2]. split; [exact H1|rewrite H2; lia].
Qed.

Lemma item_exp_any t : non_univ t = true -> item_ok0 (TExp t TAny).
Proof.
  intros Ht sp T0 W d acc e n a h f allow L Hsp Hbase Hkeys [He _] Hokh Hfuel Heoc Hsafe HL Hint.
  destruct (interp_exp _ _ _ _ _ Hint) as (c & num & i & k & raw & -> & Hsame & Hint').
  destruct (interp_any _ _ _ Hint') as [_ ->].
  destruct (nok_kids _ _ _ _ _ _ Hokh) as (h' & -> & Hcnt & Hkids).
  change (ty_depth (TExp t TAny)) with 2%nat in Hfuel.
  destruct (fuel_kids h' 1 f Hfuel) as (f' & -> & Hfu).
  pose proof (nok_mono _ (S (S f')) _ Hokh ltac:(lia)) as Hok.
  inversion Hkids as [|? ? (Hnk & Hke & Hkl) _]; subst.
  pose proof (safe_kids _ _ _ _ _ _ Hsafe) as Hsk. inversion Hsk as [|? ? Hsk1 _]; subst.
  exists (VAny (node_raw k)). split; [|rewrite abs_exp; reflexivity].
  cbn [kets app] in Hkeys.
  assert (HbT: base_of T0 = TAny) by (rewrite Hbase; reflexivity).
  apply (base_item sp T0 W d acc e (key t) _ (S (S f')) allow DcAny (mkDecFlags true (Some KAny)) _ Hsp); try assumption.
  - rewrite HbT. reflexivity.
  - assert (Htag: tagset_eqb (node_wire (Cons c num i [k] raw) :: acc) (tagset_of' T0) = true).
    { apply tagset_eqb_keys. rewrite Hkeys. cbn [keys map]. fold (keys acc). rewrite (same_tag_key _ _ Hsame). reflexivity. }
    destruct Hok as (Hsh & Ho & Hfit). pose proof (fits_of_body _ _ Hfit Hsh) as Hfb.
    cbn [node_len node_body node_wire] in *. unfold kids_raw in *. cbn [map concat] in *. rewrite app_nil_r in *.
    destruct i; cbn [dec_value].
    + (* indefinite: one raw fragment, then end-of-contents *)
      unfold dec_any_indef. rewrite Htag. cbn [pbind].
      assert (Hparts: Forall (fun p => consumes (dec_call BER (S (S f')) (STy TAny) [] None true true) p (DRaw p)) [node_raw k]).
      { constructor; [|constructor].
        apply (any_item k (S f') true true (nok_mono h' (S f') k Hnk ltac:(lia))
                 (safe_u0 L (HL (KN, (Univ, 0)) (or_introl eq_refl)) k Hsk1) Hke). }
      intros s tl Hav. rewrite <- app_assoc in Hav.
      destruct (any_indef_loop_run (dec_call BER (S (S f'))) (call_eoo (S f')) (Some T0) (mkTag c true num :: acc) false true
                  [node_raw k] Hparts (S (S f')) [] s tl ltac:(cbn [length]; lia)
                  ltac:(cbn [concat]; rewrite app_nil_r; exact Hav)) as (s2 & Hrun & Hpos & Harr & Hcl).
      rewrite Hrun. cbv zeta. cbn [concat app]. rewrite !app_nil_r. rewrite (create_any T0 _ _ HbT). cbn [resume].
      exists s2. split; [reflexivity|]. cbn [concat] in Hpos. rewrite app_nil_r in Hpos. rewrite app_length. cbn [length].
      repeat split; assumption.
    + rewrite ?app_nil_r in *. unfold dec_any. rewrite Htag. cbn [negb pbind].
      apply consumes_ret; [exact Hfb|apply (create_any T0 _ _ HbT)].
Qed.

Lemma base_kets_ne T : (match T with TImp _ _ | TExp _ _ | TChoice _ | TAny => False | _ => True end) -> forall e, kets T e <> [].
Proof. intros H e. destruct T; try contradiction; discriminate. Qed.

Lemma Forall_of_forallb {A} (b: A -> bool) (P: A -> Prop) l :
  forallb b l = true -> Forall (fun x => b x = true -> P x) l -> Forall P l.
Proof.
  intros Hb H. apply Forall_forall. intros x Hx. rewrite Forall_forall in H. rewrite forallb_forall in Hb. exact (H x Hx (Hb x Hx)).
Qed.

Theorem all_items_strong : forall T, frag T = true ->
  item_ok T /\ match T with TChoice alts => Forall item_ok alts | _ => True end.
Proof.
  induction T as [| | | | | | | | n|fs IH|fs IH|t IH|t IH|alts IH| |tg x IH|tg x IH] using ty_ind'; intros Hfr;
    try (split; [|exact I]).
  - exact item_bool.
  - exact item_int.
  - exact item_enum.
  - exact item_bits.
  - exact item_octs.
  - exact item_null.
  - exact item_oid.
  - exact item_real.
  - apply item_str. exact Hfr.
  - apply item_up; [apply base_kets_ne; exact I|].
    cbn [frag] in Hfr. apply andb_true_iff in Hfr. destruct Hfr as [Hfr Hruns]. apply andb_true_iff in Hfr. destruct Hfr as [Hfrs Hmap].
    assert (HIH: Forall (fun f => item_ok (snd f)) fs).
    { apply (Forall_of_forallb _ _ _ Hfrs). revert IH. apply Forall_impl. intros f H Hf. apply (H Hf). }
    apply item_seq; assumption.
  - apply item_up; [apply base_kets_ne; exact I|].
    cbn [frag] in Hfr. apply andb_true_iff in Hfr. destruct Hfr as [Hfrs Hnd]. apply item_set; [exact Hfrs|exact Hnd|].
    apply (Forall_of_forallb _ _ _ Hfrs). revert IH. apply Forall_impl. intros f H Hf.
    apply andb_true_iff in Hf. apply (H (proj1 Hf)).
  - apply item_up; [apply base_kets_ne; exact I|]. apply item_seqof; [exact Hfr|apply IH; exact Hfr].
  - apply item_up; [apply base_kets_ne; exact I|]. apply item_setof; [exact Hfr|apply IH; exact Hfr].
  - assert (HIH: Forall item_ok alts).
    { pose proof Hfr as Hf. cbn [frag] in Hf. apply andb_true_iff in Hf.
      apply (Forall_of_forallb _ _ _ (proj1 Hf)). revert IH. apply Forall_impl. intros a H Ha.
      apply andb_true_iff in Ha. apply (H (proj1 Ha)). }
    split; [apply item_choice; assumption|exact HIH].
  - exact item_any.
  - cbn [frag] in Hfr. apply andb_true_iff in Hfr. destruct Hfr as [H1 H2]. apply andb_true_iff in H1. destruct H1 as [H1 Hh].
    apply item_imp; [exact H1|exact Hh|apply IH; exact H2].
  - cbn [frag] in Hfr. apply andb_true_iff in Hfr. destruct Hfr as [H1 H2].
    destruct x; try (apply item_exp; [exact H1|apply (frag_headed _ H2 eq_refl I)|apply IH; exact H2]).
    + apply item_up; [intros e; cbn [kets]; discriminate|]. apply item_exp_choice; [exact H1|exact H2|apply (IH H2)].
    + apply item_up; [intros e; cbn [kets]; discriminate|]. apply item_exp_any. exact H1.
Qed.

Theorem all_items : forall T, frag T = true -> item_ok T.
Proof. intros T H. apply (all_items_strong T H). Qed.

Lemma decode_is_decode_with c sp b : decode c sp b = decode_with c (dec_fuel sp b) sp b.
Proof. reflexivity. Qed.

Lemma mkey_eqb_refl k : mkey_eqb k k = true.
Proof. unfold mkey_eqb, tag_pair_eqb. rewrite !N.eqb_refl. destruct (fst k); reflexivity. Qed.

Lemma memk_in k L : In k L -> memk k L = true.
Proof. intros H. apply existsb_exists. exists k. split; [exact H|apply mkey_eqb_refl]. Qed.

Definition of_kind (q: kind) (L: list mkey) : list mkey := filter (fun x : mkey => kind_eqb (fst x) q) L.

Lemma memk_of_kind q k : forall L, memk (q, k) (of_kind q L) = memk (q, k) L.
Proof.
  induction L as [|[q0 k0] L IH]; [reflexivity|]. unfold of_kind in *. cbn [filter fst].
  destruct (kind_eqb q0 q) eqn:E.
  - unfold memk in *. cbn [existsb]. rewrite IH. reflexivity.
  - unfold memk in *. cbn [existsb]. rewrite IH. unfold mkey_eqb at 2. cbn [fst].
    replace (kind_eqb q q0) with false by (destruct q, q0; try reflexivity; discriminate E). reflexivity.
Qed.

Lemma memk_other_kind q q' k : q <> q' -> forall L, memk (q, k) (of_kind q' L) = false.
Proof.
  intros Hne. induction L as [|[q0 k0] L IH]; [reflexivity|]. unfold of_kind in *. cbn [filter fst].
  destruct (kind_eqb q0 q') eqn:E; [|exact IH].
  unfold memk in *. cbn [existsb]. rewrite IH. unfold mkey_eqb. cbn [fst].
  replace (kind_eqb q q0) with false by (destruct q, q0, q'; try reflexivity; try discriminate E; congruence). reflexivity.
Qed.

(* side condition 1: every primitive node under a (class, number) a REAL of T can carry has, if it is a
   binary encoding, at least one mantissa octet *)
Definition real_mantissas_present (T: ty) (n: node) : bool := safe (of_kind KR (side_keys T None)) n.
(* side condition 2: under a (class, number) that a character string of T with an ASCII repertoire
   (NumericString, PrintableString, IA5String, VisibleString, the time types, UTF8String) can carry,
   every octet of every primitive leaf is below 128 (the library checks the repertoire, X.690 does not) *)
Definition ascii_strings_ascii (T: ty) (n: node) : bool := safe (of_kind KA (side_keys T None)) n.
(* side condition 3: if an ANY occurs in T, no node carries the reserved tag UNIVERSAL 0 (the library
   keeps that tag for the end-of-contents octets and never takes it for an ANY value) *)
Definition any_without_tag_zero (T: ty) (n: node) : bool := safe (of_kind KN (side_keys T None)) n.

Lemma u0_ok_of_kind L c num : u0_ok (of_kind KN L) c num = u0_ok L c num.
Proof. unfold u0_ok. rewrite memk_of_kind. reflexivity. Qed.
Lemma u0_ok_other q L c num : q <> KN -> u0_ok (of_kind q L) c num = true.
Proof. intros H. unfold u0_ok. rewrite (memk_other_kind KN q) by congruence. reflexivity. Qed.

Lemma safe_split L : forall n, safe (of_kind KR L) n = true -> safe (of_kind KA L) n = true -> safe (of_kind KN L) n = true ->
  safe L n = true.
Proof.
  induction n as [c num contents raw|c num indef kids raw IH] using node_ind'; intros H2 H3 H4.
  - cbn [safe] in *. rewrite memk_of_kind in H2, H3. rewrite u0_ok_of_kind in H4.
    apply andb3 in H2. apply andb3 in H3. apply andb3 in H4.
    destruct H2 as (H2 & _ & _). destruct H3 as (_ & H3 & _). destruct H4 as (_ & _ & H4). rewrite H2, H3, H4. reflexivity.
  - cbn [safe] in *. rewrite memk_of_kind in H3. rewrite u0_ok_of_kind in H4.
    apply andb3 in H2. apply andb3 in H3. apply andb3 in H4.
    destruct H2 as (_ & _ & H2b). destruct H3 as (H3a & _ & H3b). destruct H4 as (_ & H4a & H4b).
    rewrite H3a, H4a. cbn [andb]. apply forallb_forall. intros k Hk. rewrite Forall_forall in IH.
    rewrite forallb_forall in H2b, H3b, H4b. apply (IH k Hk (H2b k Hk) (H3b k Hk) (H4b k Hk)).
Qed.

(* C09, tree form: whatever TLV tree the reference parses off the front of b and interprets under T as
   the abstract value a, the library's decoder returns a value of T with that abstract value and leaves
   the same remainder *)
Theorem ber_all_forms_tree : forall T b n a tl,
  frag T = true -> wf_bytes b = true -> N.of_nat (length b) <= index_max ->
  parse b = Some (n, tl) -> interp T None n = Some a ->
  real_mantissas_present T n = true -> ascii_strings_ascii T n = true -> any_without_tag_zero T n = true ->
  exists v, decode BER (Some T) b = Ok (DV T v, tl) /\ abs T v = a.
Proof.
  intros T b n a tl Hfr Hwf Hmax Hparse Hint Hsafe2 Hsafe3 Hsafe4.
  pose proof (safe_split (side_keys T None) n Hsafe2 Hsafe3 Hsafe4) as Hsafe.
  pose proof (wf_bytes_octs b Hwf) as Hb.
  destruct (parse_shape b n tl Hb Hparse) as [Hsh Eb].
  assert (Hkeys: keys (tagset_of' T) = kets T None ++ keys []) by (rewrite (frag_keys T Hfr), app_nil_r; reflexivity).
  set (f := (2 * length b + 2 * ty_depth T + 5)%nat).
  assert (Hok: nok (length b) n).
  { split; [exact Hsh|]. split; [rewrite Eb in Hb; apply octs_app in Hb; tauto|].
    assert (Hl: (length (node_raw n) <= length b)%nat) by (rewrite Eb, app_length; lia).
    split; lia. }
  destruct (all_items T Hfr (STy T) T (DV T) 0%nat [] None n a (length b) f false (side_keys T None) (sp_sty T Hfr) eq_refl Hkeys
              (conj I (fun _ => conj eq_refl eq_refl)) Hok ltac:(subst f; lia) ltac:(discriminate) Hsafe
              (fun k Hk0 => memk_in k _ Hk0) Hint) as (v & Hc & Ha & _).
  exists v. split; [|exact Ha].
  rewrite decode_is_decode_with. rewrite Eb at 2.
  apply RoundTrip1.consumes_decode_with. unfold dec_item, dec_fuel.
  replace (2 * length b + 2 * ty_depth T + 6)%nat with (S (f + 0)) by (subst f; lia). exact Hc.
Qed.

(* C09 in the shape of the property: read = parse + interp *)
Theorem ber_all_forms : forall T b a tl,
  frag T = true -> wf_bytes b = true -> N.of_nat (length b) <= index_max ->
  X690.read T b = Some (a, tl) ->
  (forall n r, parse b = Some (n, r) ->
     real_mantissas_present T n = true /\ ascii_strings_ascii T n = true /\ any_without_tag_zero T n = true) ->
  exists v, decode BER (Some T) b = Ok (DV T v, tl) /\ abs T v = a.
Proof.
  intros T b a tl Hfr Hwf Hmax Hread Hsafe. unfold X690.read in Hread.
  destruct (parse b) as [[n rest]|] eqn:Hp; [|discriminate Hread].
  destruct (interp T None n) as [a'|] eqn:Hi; [|discriminate Hread]. cbn [opt_bind] in Hread.
  inversion Hread; subst a' rest.
  destruct (Hsafe n tl eq_refl) as (H2 & H3 & H4).
  apply (ber_all_forms_tree T b n a tl Hfr Hwf Hmax Hp Hi H2 H3 H4).
Qed.

Lemma safe_nil : forall n, safe [] n = true.
Proof.
  induction n as [c num contents raw|c num indef kids raw IH] using node_ind'; [reflexivity|].
  cbn [safe memk existsb u0_ok]. cbn [negb andb orb]. apply forallb_forall. intros k Hk.
  rewrite Forall_forall in IH. apply IH. exact Hk.
Qed.

(* types in which no REAL, no ASCII-repertoire string and no ANY occurs need no side condition *)
Theorem ber_all_forms_unconditional : forall T b a tl,
  frag T = true -> side_keys T None = [] -> wf_bytes b = true -> N.of_nat (length b) <= index_max ->
  X690.read T b = Some (a, tl) ->
  exists v, decode BER (Some T) b = Ok (DV T v, tl) /\ abs T v = a.
Proof.
  intros T b a tl Hfr Hnb Hwf Hmax Hread. apply (ber_all_forms T b a tl Hfr Hwf Hmax Hread).
  intros n r _. unfold real_mantissas_present, ascii_strings_ascii, any_without_tag_zero. rewrite Hnb.
  unfold of_kind. cbn [filter]. repeat split; apply safe_nil.
Qed.

(* the hypotheses are satisfiable on an input that uses the liberties of the basic rules: indefinite
   and definite lengths mixed, a long-form length for one octet, over-long length octets, a long-form
   tag number, a segmented BIT STRING with a nested constructed segment under an IMPLICIT tag, a
   constructed IA5String, an OPTIONAL and a DEFAULT component absent, an OPTIONAL untagged CHOICE whose
   alternative is an EXPLICITly tagged CHOICE holding a segmented OCTET STRING, SET members out of order
   (REAL, BOOLEAN, OID; the DEFAULT member absent), TRUE as 07, a binary REAL, an untagged ANY holding an
   indefinite-length SEQUENCE, an EXPLICITly tagged ANY, octets left unread *)
Definition ex_T : ty :=
  TSeq [(Req, TExp (mkTag Ctx false 0) TInt); (Opt, TNull); (Def (VBool true), TBool);
        (Req, TImp (mkTag Appl false 40) TBits); (Req, TSeqOf (TStr 22));
        (Opt, TChoice [TStr 12; TExp (mkTag Ctx false 3) (TChoice [TInt; TOcts]); TChoice [TEnum; TImp (mkTag Ctx false 4) TNull]]);
        (Req, TSet [(Req, TBool); (Opt, TOid); (Def (VInt 7%Z), TImp (mkTag Ctx false 2) TInt); (Req, TReal)]);
        (Req, TSeq [(Req, TAny); (Req, TExp (mkTag Ctx false 6) TAny)])].
Definition ex_b : bytes :=
  [48; 128;  160; 128; 2; 129; 1; 5; 0; 0;   127; 40; 128; 3; 2; 0; 170; 35; 4; 3; 2; 4; 240; 0; 0;
   48; 131; 0; 0; 5; 54; 3; 4; 1; 72;
   163; 128; 36; 128; 4; 1; 9; 0; 0; 0; 0;
   49; 12;  9; 3; 128; 255; 5;   1; 1; 7;   6; 2; 42; 3;
   48; 128;  48; 128; 5; 0; 0; 0;  166; 3; 4; 1; 7;  0; 0;
   0; 0;  9; 9].
Definition ex_bits : list bool := [true; false; true; false; true; false; true; false; true; true; true; true].

Example ber_all_forms_nonvacuous :
  frag ex_T = true /\ wf_bytes ex_b = true /\ N.of_nat (length ex_b) <= index_max
  /\ X690.read ex_T ex_b
     = Some (ARec [Some (AInt 5); None; Some (ABool true); Some (ABits ex_bits); Some (AList [AOcts [72]]);
                   Some (AChoice 1 (AChoice 1 (AOcts [9])));
                   Some (ARec [Some (ABool true); Some (AOid [1; 2; 3]); Some (AInt 7); Some (AReal (ABin 5 (-1)))]);
                   Some (ARec [Some (AAny [48; 128; 5; 0; 0; 0]); Some (AAny [4; 1; 7])])], [9; 9])
  /\ (forall n r, parse ex_b = Some (n, r) ->
        real_mantissas_present ex_T n = true /\ ascii_strings_ascii ex_T n = true /\ any_without_tag_zero ex_T n = true)
  /\ decode BER (Some ex_T) ex_b
     = Ok (DV ex_T (VRec [Some (VInt 5); None; None; Some (VBits ex_bits); Some (VList [VOcts [72]]);
                          Some (VChoice 1 (VChoice 1 (VOcts [9])));
                          Some (VRec [Some (VBool true); Some (VOid [1; 2; 3]); None; Some (VReal (RBin 5 (-1)))]);
                          Some (VRec [Some (VAny [48; 128; 5; 0; 0; 0]); Some (VAny [4; 1; 7])])]), [9; 9]).
Proof.
  split; [vm_compute; reflexivity|]. split; [vm_compute; reflexivity|]. split; [vm_compute; discriminate|].
  split; [vm_compute; reflexivity|]. split; [|vm_compute; reflexivity].
  intros n r H. assert (E: parse ex_b <> None) by (rewrite H; discriminate).
  revert H. destruct (parse ex_b) as [[n0 r0]|] eqn:Hp; [|congruence].
  intros H. inversion H; subst n0 r0. clear H E.
  assert (Hc: match parse ex_b with
              | Some (n1, _) => real_mantissas_present ex_T n1 && (ascii_strings_ascii ex_T n1 && any_without_tag_zero ex_T n1)
              | None => false end = true)
    by (vm_compute; reflexivity).
  rewrite Hp in Hc. apply andb_true_iff in Hc. destruct Hc as [H1 H2]. apply andb_true_iff in H2. tauto.
Qed.

(* the first side condition is needed as the reference stands *)
Example real_refuted_empty_mantissa :
  X690.read TReal [9; 2; 128; 0] = Some (AReal AZero, []) /\ decode BER (Some TReal) [9; 2; 128; 0] = Err EMalformed.
Proof. vm_compute. split; reflexivity. Qed.

(* the second side condition reflects a check the library makes and X.690 does not *)
Example ascii_refuted_high_octet :
  X690.read (TStr 22) [22; 1; 200] = Some (AOcts [200], []) /\ decode BER (Some (TStr 22)) [22; 1; 200] = Err EUnicode
  /\ X690.read (TStr 22) [54; 128; 4; 1; 72; 36; 3; 4; 1; 105; 0; 0] = Some (AOcts [72; 105], [])
  /\ decode BER (Some (TStr 22)) [54; 128; 4; 1; 72; 36; 3; 4; 1; 105; 0; 0] = Ok (DV (TStr 22) (VOcts [72; 105]), []).
Proof. vm_compute. repeat split. Qed.

(* the third side condition: an ANY value tagged UNIVERSAL 0 is read by the reference, not by the library *)
Example any_refuted_tag_zero :
  X690.read TAny [0; 1; 7] = Some (AAny [0; 1; 7], []) /\ decode BER (Some TAny) [0; 1; 7] = Err EMalformed
  /\ X690.read TAny [36; 128; 4; 1; 7; 0; 0; 5] = Some (AAny [36; 128; 4; 1; 7; 0; 0], [5])
  /\ decode BER (Some TAny) [36; 128; 4; 1; 7; 0; 0; 5] = Ok (DV TAny (VAny [36; 128; 4; 1; 7; 0; 0]), [5]).
Proof. vm_compute. repeat split. Qed.

(* outside the fragment (an untagged ANY as alternative of an untagged CHOICE is chosen by the tag map's
   default, not by a tag), but in agreement since the library keeps the marked position on re-entry
   (without it the identifier and length octets are lost: VAny [7]): the whole TLV, in either length form *)
Example choice_any_alternative_whole_tlv :
  X690.read (TChoice [TInt; TAny]) [4; 1; 7] = Some (AChoice 1 (AAny [4; 1; 7]), [])
  /\ decode BER (Some (TChoice [TInt; TAny])) [4; 1; 7] = Ok (DV (TChoice [TInt; TAny]) (VChoice 1 (VAny [4; 1; 7])), [])
  /\ X690.read (TChoice [TInt; TAny]) [36; 128; 4; 1; 7; 0; 0; 9] = Some (AChoice 1 (AAny [36; 128; 4; 1; 7; 0; 0]), [9])
  /\ decode BER (Some (TChoice [TInt; TAny])) [36; 128; 4; 1; 7; 0; 0; 9]
     = Ok (DV (TChoice [TInt; TAny]) (VChoice 1 (VAny [36; 128; 4; 1; 7; 0; 0])), [9])
  /\ decode BER (Some (TSeq [(Opt, TInt); (Req, TAny)])) [48; 3; 4; 1; 7]
     = Ok (DV (TSeq [(Opt, TInt); (Req, TAny)]) (VRec [None; Some (VAny [4; 1; 7])]), []).
Proof. vm_compute. repeat split. Qed.

Print Assumptions split_ident_dec_ident.
Print Assumptions split_length_dec_len.
Print Assumptions parse_one_shape.
Print Assumptions oid_leaf.
Print Assumptions real_leaf.
Print Assumptions octet_string_item.
Print Assumptions bit_string_item.
Print Assumptions any_item.
Print Assumptions all_items.
Print Assumptions ber_all_forms_tree.
Print Assumptions ber_all_forms.
Print Assumptions ber_all_forms_unconditional.

Definition ber_all_forms_no_bits := ber_all_forms_unconditional.

