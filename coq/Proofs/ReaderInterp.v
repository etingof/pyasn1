(* C03, reading side: the independent reference's interpretation ([interp], Spec/X690.v) of the
   nodes its parser yields.  A property of the specification alone.

   [reads_as T a e]: the octets e begin with an identifier; they, and the same octets under any
   other identifier (IMPLICIT tagging above), are parsed to a node that [interp] reads, for the
   type T, as the abstract value a.  Closed under IMPLICIT and EXPLICIT tagging (definite and
   indefinite wrappers); established for primitive and constructed encodings of the base types. *)
From Coq Require Import Lia.
From PV Require Import Base.Bytes Model.Tag Model.Types Spec.X690
     Proofs.Bits Proofs.SpecOctets Proofs.LeafInt Proofs.DerReference Proofs.ReaderParse.
Local Open Scope N_scope.

Definition exp_tag (expect: option (tclass * N)) (own: tclass * N) : tclass * N :=
  match expect with Some x => x | None => own end.

Definition reads_as (T: ty) (a: aval) (e: bytes) : Prop :=
  exists c0 pc num0 rb,
    e = ident c0 pc num0 ++ rb /\
    first_tags T = Some [(c0, num0)] /\
    forall expect: option (tclass * N),
      exists n, parses (ident (fst (exp_tag expect (c0, num0))) pc (snd (exp_tag expect (c0, num0))) ++ rb) n /\
                node_tag n = exp_tag expect (c0, num0) /\ interp T expect n = Some a.

Lemma tag_pair_eqb_refl tg : tag_pair_eqb tg tg = true.
Proof. unfold tag_pair_eqb. rewrite !N.eqb_refl. reflexivity. Qed.

Lemma may_start_single T tg : first_tags T = Some [tg] -> may_start T tg = true.
Proof. intros H. unfold may_start. rewrite H. cbn [existsb]. rewrite tag_pair_eqb_refl. reflexivity. Qed.

Lemma reads_none T a e : reads_as T a e ->
  exists n, parses e n /\ interp T None n = Some a /\ first_tags T = Some [node_tag n].
Proof.
  intros (c0 & pc & num0 & rb & -> & Hft & H). destruct (H None) as (n & Hp & Htag & Hi).
  cbn [exp_tag fst snd] in *. exists n. rewrite Htag. auto.
Qed.

Lemma reads_nz_head T a e c num : reads_as T a e -> first_tags T = Some [(c, num)] ->
  (c <> Univ \/ num <> 0) -> nz_head e.
Proof.
  intros (c0 & pc & num0 & rb & -> & Hft & _) Hft' Hnz. rewrite Hft in Hft'. injection Hft' as -> ->.
  apply ident_nz_head. tauto.
Qed.

Theorem reads_read T a e tl : reads_as T a e -> read T (e ++ tl) = Some (a, tl).
Proof.
  intros H. destruct (reads_none T a e H) as (n & [_ Hp] & Hi & _).
  unfold read, parse. rewrite Hp by (rewrite app_length; lia). rewrite Hi. reflexivity.
Qed.

Theorem reads_imp t x a e : reads_as x a e ->
  exists e', retag t e = Some e' /\ reads_as (TImp t x) a e'.
Proof.
  intros (c0 & pc & num0 & rb & -> & Hft & H).
  exists (ident (tcls t) pc (tnum t) ++ rb). split.
  - unfold retag. rewrite split_ident_ident. reflexivity.
  - exists (tcls t), pc, (tnum t), rb. split; [reflexivity|split; [reflexivity|]].
    intros [ex|].
    + destruct (H (Some ex)) as (n & Hp & Htag & Hi). exists n. cbn [exp_tag] in *. auto.
    + destruct (H (Some (tcls t, tnum t))) as (n & Hp & Htag & Hi). exists n. cbn [exp_tag] in *. auto.
Qed.

Lemma tlv_nonempty c pc num contents : tlv c pc num contents <> [].
Proof. pose proof (tlv_length c pc num contents). destruct (tlv c pc num contents); [cbn [length] in *; lia|discriminate]. Qed.
Lemma itlv_nonempty c num contents : itlv c num contents <> [].
Proof.
  unfold itlv. pose proof (ident_length_pos c true num).
  destruct (ident c true num); [cbn [length] in *; lia|discriminate].
Qed.

Theorem reads_cons T a c0 num0 (indef: bool) es kids :
  first_tags T = Some [(c0, num0)] ->
  Forall2 parses es kids -> (indef = true -> Forall nz_head es) ->
  (indef = false -> N.of_nat (length (concat es)) < max_len) ->
  (forall expect raw, raw <> [] ->
     interp T expect (Cons (fst (exp_tag expect (c0, num0))) (snd (exp_tag expect (c0, num0))) indef kids raw) = Some a) ->
  reads_as T a (ctlv indef c0 num0 (concat es)).
Proof.
  intros Hft Hk Hnz Hlen Hi. destruct indef.
  - exists c0, true, num0, ([128] ++ concat es ++ [0; 0]). split; [reflexivity|split; [exact Hft|]].
    intros expect. set (tg := exp_tag expect (c0, num0)).
    exists (Cons (fst tg) (snd tg) true kids (itlv (fst tg) (snd tg) (concat es))).
    split; [apply parses_cons_indef; [exact Hk|apply Hnz; reflexivity]|].
    split; [destruct tg; reflexivity|apply Hi; apply itlv_nonempty].
  - exists c0, true, num0, (length_octets (N.of_nat (length (concat es))) ++ concat es).
    split; [reflexivity|split; [exact Hft|]].
    intros expect. set (tg := exp_tag expect (c0, num0)).
    exists (Cons (fst tg) (snd tg) false kids (tlv (fst tg) true (snd tg) (concat es))).
    split; [apply parses_cons_def; [exact Hk|apply Hlen; reflexivity]|].
    split; [destruct tg; reflexivity|apply Hi; apply tlv_nonempty].
Qed.

Theorem reads_prim T a c0 num0 contents :
  first_tags T = Some [(c0, num0)] -> N.of_nat (length contents) < max_len ->
  (forall expect raw, interp T expect (Prim (fst (exp_tag expect (c0, num0))) (snd (exp_tag expect (c0, num0))) contents raw) = Some a) ->
  reads_as T a (tlv c0 false num0 contents).
Proof.
  intros Hft Hlen Hi.
  exists c0, false, num0, (length_octets (N.of_nat (length contents)) ++ contents).
  split; [reflexivity|split; [exact Hft|]].
  intros expect. set (tg := exp_tag expect (c0, num0)).
  exists (Prim (fst tg) (snd tg) contents (tlv (fst tg) false (snd tg) contents)).
  split; [apply parses_prim; exact Hlen|]. split; [destruct tg; reflexivity|apply Hi].
Qed.

Lemma same_tag_own expect own n : node_tag n = exp_tag expect own ->
  same_tag (match expect with Some e => e | None => own end) n = true.
Proof. intros H. unfold same_tag. rewrite H. apply tag_pair_eqb_refl. Qed.

Lemma same_tag_prim expect own contents raw :
  same_tag (match expect with Some e => e | None => own end)
           (Prim (fst (exp_tag expect own)) (snd (exp_tag expect own)) contents raw) = true.
Proof. apply same_tag_own. cbn [node_tag]. destruct (exp_tag expect own); reflexivity. Qed.

Lemma same_tag_cons expect own indef kids raw :
  same_tag (match expect with Some e => e | None => own end)
           (Cons (fst (exp_tag expect own)) (snd (exp_tag expect own)) indef kids raw) = true.
Proof. apply same_tag_own. cbn [node_tag]. destruct (exp_tag expect own); reflexivity. Qed.

Theorem reads_exp t x a e (indef: bool) : reads_as x a e ->
  (indef = true -> nz_head e) -> (indef = false -> N.of_nat (length e) < max_len) ->
  reads_as (TExp t x) a (ctlv indef (tcls t) (tnum t) e).
Proof.
  intros Hx Hnz Hlen. destruct (reads_none x a e Hx) as (n & Hp & Hi & _).
  replace e with (concat [e]) by (cbn [concat]; apply app_nil_r).
  apply (reads_cons (TExp t x) a (tcls t) (tnum t) indef [e] [n]).
  - reflexivity.
  - constructor; [exact Hp|constructor].
  - intros Hd. constructor; [apply Hnz; exact Hd|constructor].
  - intros Hd. cbn [concat]. rewrite app_nil_r. apply Hlen; exact Hd.
  - intros expect raw _. cbn [interp].
    rewrite (same_tag_cons expect (tcls t, tnum t)). exact Hi.
Qed.

Theorem reads_bool (o: N) : reads_as TBool (ABool (negb (N.eqb o 0))) (tlv Univ false 1 [o]).
Proof.
  apply reads_prim; [reflexivity|vm_compute; reflexivity|].
  intros expect raw. cbn [interp]. rewrite (same_tag_prim expect (Univ, 1)). reflexivity.
Qed.

Theorem reads_int (o: N) (c: bytes) : N.of_nat (length (o :: c)) < max_len ->
  reads_as TInt (AInt (signed_value (o :: c))) (tlv Univ false 2 (o :: c)).
Proof.
  intros Hl. apply reads_prim; [reflexivity|exact Hl|].
  intros expect raw. cbn [interp]. rewrite (same_tag_prim expect (Univ, 2)). reflexivity.
Qed.

Theorem reads_enum (o: N) (c: bytes) : N.of_nat (length (o :: c)) < max_len ->
  reads_as TEnum (AInt (signed_value (o :: c))) (tlv Univ false 10 (o :: c)).
Proof.
  intros Hl. apply reads_prim; [reflexivity|exact Hl|].
  intros expect raw. cbn [interp]. rewrite (same_tag_prim expect (Univ, 10)). reflexivity.
Qed.

Theorem reads_null : reads_as TNull ANull (tlv Univ false 5 []).
Proof.
  apply reads_prim; [reflexivity|vm_compute; reflexivity|].
  intros expect raw. cbn [interp]. rewrite (same_tag_prim expect (Univ, 5)). reflexivity.
Qed.

Theorem reads_oid (c: bytes) (arcs: list N) : oid_value c = Some arcs -> N.of_nat (length c) < max_len ->
  reads_as TOid (AOid arcs) (tlv Univ false 6 c).
Proof.
  intros Hv Hl. apply reads_prim; [reflexivity|exact Hl|].
  intros expect raw. cbn [interp]. rewrite (same_tag_prim expect (Univ, 6)), Hv. reflexivity.
Qed.

Theorem reads_real (c: bytes) (r: areal) : real_value c = Some r -> N.of_nat (length c) < max_len ->
  reads_as TReal (AReal r) (tlv Univ false 9 c).
Proof.
  intros Hv Hl. apply reads_prim; [reflexivity|exact Hl|].
  intros expect raw. cbn [interp]. rewrite (same_tag_prim expect (Univ, 9)), Hv. reflexivity.
Qed.

Lemma segments_S f n :
  segments (S f) n = match n with
                     | Prim Univ 4 c _ => Some c
                     | Cons Univ 4 _ kids _ => opt_bind (opt_all (map (segments f) kids)) (fun l => Some (concat l))
                     | _ => None
                     end.
Proof. reflexivity. Qed.

(* OCTET STRING and the character and useful string types are read alike, under the tag number u *)
Definition octs_type (T: ty) (u: N) : Prop := (T = TOcts /\ u = 4) \/ T = TStr u.

Theorem reads_octs_prim (T: ty) (u: N) (b: bytes) : octs_type T u -> N.of_nat (length b) < max_len ->
  reads_as T (AOcts b) (tlv Univ false u b).
Proof.
  intros [[-> ->]| ->] Hl; (apply reads_prim; [reflexivity|exact Hl|]); intros expect raw; cbn [interp];
    rewrite (same_tag_prim expect (Univ, _)); reflexivity.
Qed.

Definition piece_node (tagnum: N) (p: bytes) : node := Prim Univ tagnum p (tlv Univ false tagnum p).

Lemma pieces_parse tagnum : forall ps, Forall (fun p => N.of_nat (length p) < max_len) ps ->
  Forall2 parses (map (tlv Univ false tagnum) ps) (map (piece_node tagnum) ps).
Proof.
  induction 1 as [|p ps Hp _ IH]; cbn [map]; constructor; [apply parses_prim; exact Hp|exact IH].
Qed.

Lemma pieces_nz tagnum ps : tagnum <> 0 -> Forall nz_head (map (tlv Univ false tagnum) ps).
Proof.
  intros Hn. apply Forall_forall. intros e He. apply in_map_iff in He. destruct He as (p & <- & _).
  unfold tlv. apply ident_nz_head. right. right. exact Hn.
Qed.

Lemma segments_pieces f ps : opt_all (map (segments (S f)) (map (piece_node 4) ps)) = Some ps.
Proof.
  induction ps as [|p ps IH]; [reflexivity|].
  cbn [map opt_all]. rewrite segments_S. unfold piece_node at 1. cbv iota. rewrite IH. reflexivity.
Qed.

(* a constructed string whose members are primitive OCTET STRING segments (8.7.3, 8.23.6) *)
Theorem reads_octs_cons (T: ty) (u: N) (indef: bool) (ps: list bytes) : octs_type T u ->
  Forall (fun p => N.of_nat (length p) < max_len) ps ->
  (indef = false -> N.of_nat (length (concat (map (tlv Univ false 4) ps))) < max_len) ->
  reads_as T (AOcts (concat ps)) (ctlv indef Univ u (concat (map (tlv Univ false 4) ps))).
Proof.
  intros HT Hps Hl. apply (reads_cons T _ Univ u indef _ (map (piece_node 4) ps)).
  - destruct HT as [[-> ->]| ->]; reflexivity.
  - apply pieces_parse. exact Hps.
  - intros _. apply pieces_nz. lia.
  - exact Hl.
  - intros expect raw Hraw. destruct raw as [|x raw]; [congruence|].
    destruct HT as [[-> ->]| ->]; cbn [interp]; rewrite (same_tag_cons expect (Univ, _)); cbn [negb node_raw length];
      rewrite segments_S; cbv iota; rewrite segments_pieces; reflexivity.
Qed.

Lemma bit_segments_S f n :
  bit_segments (S f) n = match n with
                         | Prim Univ 3 (u :: c) _ => if N.ltb 7 u then None else Some [(bits_of_octets_spec c, u)]
                         | Cons Univ 3 _ kids _ => opt_bind (opt_all (map (bit_segments f) kids)) (fun l => Some (concat l))
                         | _ => None
                         end.
Proof. reflexivity. Qed.

Theorem reads_bits_prim (u: N) (c: bytes) (bs: list bool) :
  N.ltb 7 u = false -> join_bit_segments [(bits_of_octets_spec c, u)] = Some bs ->
  N.of_nat (length (u :: c)) < max_len ->
  reads_as TBits (ABits bs) (tlv Univ false 3 (u :: c)).
Proof.
  intros Hu Hj Hl. apply reads_prim; [reflexivity|exact Hl|].
  intros expect raw. cbn [interp]. rewrite (same_tag_prim expect (Univ, 3)). cbn [negb].
  rewrite bit_segments_S. cbv iota. rewrite Hu. cbn [opt_bind]. rewrite Hj. reflexivity.
Qed.

Definition bit_piece (p: bytes) : option (list bool * N) :=
  match p with u :: c => if N.ltb 7 u then None else Some (bits_of_octets_spec c, u) | [] => None end.

Lemma bit_segments_pieces f : forall ps l, opt_all (map bit_piece ps) = Some l ->
  opt_all (map (bit_segments (S f)) (map (piece_node 3) ps)) = Some (map (fun x => [x]) l).
Proof.
  induction ps as [|p ps IH]; intros l H.
  - cbn in H. injection H as <-. reflexivity.
  - cbn [map opt_all] in H. destruct (bit_piece p) as [x|] eqn:Ep; [|discriminate H].
    destruct (opt_all (map bit_piece ps)) as [l'|] eqn:El; cbn [opt_bind] in H; [|discriminate H].
    injection H as <-. cbn [map opt_all]. rewrite bit_segments_S. unfold piece_node at 1. cbv iota.
    unfold bit_piece in Ep. destruct p as [|u c]; [discriminate Ep|].
    destruct (N.ltb 7 u); [discriminate Ep|]. injection Ep as <-.
    rewrite (IH l' eq_refl). reflexivity.
Qed.

Lemma concat_singletons {A} (l: list A) : concat (map (fun x => [x]) l) = l.
Proof. induction l as [|x l IH]; [reflexivity|]. cbn [map concat app]. rewrite IH. reflexivity. Qed.

Theorem reads_bits_cons (indef: bool) (ps: list bytes) (l: list (list bool * N)) (bs: list bool) :
  opt_all (map bit_piece ps) = Some l -> join_bit_segments l = Some bs ->
  Forall (fun p => N.of_nat (length p) < max_len) ps ->
  (indef = false -> N.of_nat (length (concat (map (tlv Univ false 3) ps))) < max_len) ->
  reads_as TBits (ABits bs) (ctlv indef Univ 3 (concat (map (tlv Univ false 3) ps))).
Proof.
  intros Hp Hj Hps Hl. apply (reads_cons TBits _ Univ 3 indef _ (map (piece_node 3) ps)).
  - reflexivity.
  - apply pieces_parse. exact Hps.
  - intros _. apply pieces_nz. lia.
  - exact Hl.
  - intros expect raw Hraw. cbn [interp]. rewrite (same_tag_cons expect (Univ, 3)). cbn [negb].
    cbn [node_raw]. destruct raw as [|x raw]; [congruence|]. cbn [length].
    rewrite bit_segments_S. cbv iota. rewrite (bit_segments_pieces _ ps l Hp). cbn [opt_bind].
    rewrite concat_singletons, Hj. reflexivity.
Qed.

Definition interp_each (t: ty) : list node -> list (option aval) :=
  fix go (l: list node) := match l with [] => [] | k :: r => interp t None k :: go r end.

Lemma interp_seqof t expect c num indef kids raw :
  interp (TSeqOf t) expect (Cons c num indef kids raw) =
  if negb (same_tag (match expect with Some e => e | None => (Univ, 16) end) (Cons c num indef kids raw)) then None
  else opt_bind (opt_all (interp_each t kids)) (fun l => Some (AList l)).
Proof. reflexivity. Qed.

Lemma reads_each t : forall avs es, Forall2 (reads_as t) avs es ->
  exists kids, Forall2 parses es kids /\ opt_all (interp_each t kids) = Some avs.
Proof.
  induction 1 as [|a e avs es Ha _ IH].
  - exists []. split; [constructor|reflexivity].
  - destruct IH as (kids & Hk & Hi). destruct (reads_none t a e Ha) as (n & Hp & Hn & _).
    exists (n :: kids). split; [constructor; assumption|]. cbn [interp_each opt_all]. rewrite Hn, Hi. reflexivity.
Qed.

Theorem reads_seqof t (indef: bool) avs es : Forall2 (reads_as t) avs es ->
  (indef = true -> Forall nz_head es) -> (indef = false -> N.of_nat (length (concat es)) < max_len) ->
  reads_as (TSeqOf t) (AList avs) (ctlv indef Univ 16 (concat es)).
Proof.
  intros Hr Hnz Hl. destruct (reads_each t avs es Hr) as (kids & Hk & Hi).
  apply (reads_cons (TSeqOf t) _ Univ 16 indef es kids); [reflexivity|exact Hk|exact Hnz|exact Hl|].
  intros expect raw _. rewrite interp_seqof, (same_tag_cons expect (Univ, 16)). cbn [negb]. rewrite Hi. reflexivity.
Qed.

Definition seq_go : list (presence * ty) -> list node -> option (list (option aval)) :=
  fix go (fs: list (presence * ty)) (kids: list node) {struct fs} : option (list (option aval)) :=
    match fs with
    | [] => match kids with [] => Some [] | _ => None end
    | (p, ft) :: fs' =>
        let absent := match p with
                      | Req => None
                      | Opt => opt_bind (go fs' kids) (fun r => Some (None :: r))
                      | Def d => opt_bind (go fs' kids) (fun r => Some (Some (abs ft d) :: r))
                      end in
        match kids with
        | k :: kids' =>
            if may_start ft (node_tag k) then
              match interp ft None k with
              | Some a => opt_bind (go fs' kids') (fun r => Some (Some a :: r))
              | None => None
              end
            else absent
        | [] => absent
        end
    end.

Lemma interp_seq fs expect c num indef kids raw :
  interp (TSeq fs) expect (Cons c num indef kids raw) =
  if negb (same_tag (match expect with Some e => e | None => (Univ, 16) end) (Cons c num indef kids raw)) then None
  else opt_bind (seq_go fs kids) (fun l => Some (ARec l)).
Proof. reflexivity. Qed.

Definition head_differs (ft: ty) (kids: list node) : Prop :=
  match kids with [] => True | k :: _ => may_start ft (node_tag k) = false end.

Inductive fields_read : list (presence * ty) -> list node -> list (option aval) -> Prop :=
| FRnil : fields_read [] [] []
| FRpresent p ft fs k kids a r :
    interp ft None k = Some a -> first_tags ft = Some [node_tag k] -> fields_read fs kids r ->
    fields_read ((p, ft) :: fs) (k :: kids) (Some a :: r)
| FRopt ft fs kids r : head_differs ft kids -> fields_read fs kids r -> fields_read ((Opt, ft) :: fs) kids (None :: r)
| FRdef d ft fs kids r : head_differs ft kids -> fields_read fs kids r ->
    fields_read ((Def d, ft) :: fs) kids (Some (abs ft d) :: r).

Lemma seq_go_reads : forall fs kids slots, fields_read fs kids slots -> seq_go fs kids = Some slots.
Proof.
  induction 1 as [|p ft fs k kids a r Hi Hft _ IH|ft fs kids r Hd _ IH|d ft fs kids r Hd _ IH].
  - reflexivity.
  - cbn [seq_go]. rewrite (may_start_single ft _ Hft), Hi, IH. reflexivity.
  - cbn [seq_go]. destruct kids as [|k kids']; [rewrite IH; reflexivity|].
    cbn [head_differs] in Hd. rewrite Hd, IH. reflexivity.
  - cbn [seq_go]. destruct kids as [|k kids']; [rewrite IH; reflexivity|].
    cbn [head_differs] in Hd. rewrite Hd, IH. reflexivity.
Qed.

Theorem reads_seq fs (indef: bool) slots es kids : Forall2 parses es kids -> fields_read fs kids slots ->
  (indef = true -> Forall nz_head es) -> (indef = false -> N.of_nat (length (concat es)) < max_len) ->
  reads_as (TSeq fs) (ARec slots) (ctlv indef Univ 16 (concat es)).
Proof.
  intros Hk Hf Hnz Hl.
  apply (reads_cons (TSeq fs) _ Univ 16 indef es kids); [reflexivity|exact Hk|exact Hnz|exact Hl|].
  intros expect raw _. rewrite interp_seq, (same_tag_cons expect (Univ, 16)). cbn [negb].
  rewrite (seq_go_reads fs kids slots Hf). reflexivity.
Qed.

Print Assumptions reads_read.
Print Assumptions reads_imp.
Print Assumptions reads_exp.
Print Assumptions reads_octs_cons.
Print Assumptions reads_bits_cons.
Print Assumptions reads_seqof.
Print Assumptions reads_seq.
