(* C04 / C12 on the container model: the DER a container yields is a function of its abstract content
   (so of nothing in the way it was built; for SEQUENCE OF / SET OF also of the order in which the positions
   were first assigned: [seqof_assignment_order]), reads and encoding leave it alone, independent machines
   (suspended decoders) do not disturb each other under any interleaving, and the model's codec functions
   are functions ([model_deterministic]). *)
From Coq Require Import Lia.
From PV Require Import Spec.ListSpec Proofs.ContainerBase Proofs.ContainerSeqOf Proofs.ContainerChoice
                       Proofs.ContainerRecord Model.Proc Model.Enc Model.Dec Proofs.ContainerCodecDefs.
Local Open Scope nat_scope.

Theorem factor_seqof ct isset ops1 ops2 :
  l_wf_hist ct isset None ops1 = true -> l_wf_hist ct isset None ops2 = true ->
  fst (l_run isset None ops1) = fst (l_run isset None ops2) ->
  fst (sof_run ct isset None ops1) = fst (sof_run ct isset None ops2) /\
  sof_observe ct isset (fst (sof_run ct isset None ops1)) = sof_observe ct isset (fst (sof_run ct isset None ops2)).
Proof.
  intros H1 H2 E. pose proof (sof_refines ct isset ops1 H1) as R1. pose proof (sof_refines ct isset ops2 H2) as R2.
  destruct (sof_run ct isset None ops1) as [s1 o1]. destruct (l_run isset None ops1) as [a1 p1].
  destruct (sof_run ct isset None ops2) as [s2 o2]. destruct (l_run isset None ops2) as [a2 p2].
  cbn [fst] in *. destruct R1 as (-> & _ & O1). destruct R2 as (-> & _ & O2). subst a2. split; reflexivity.
Qed.

Theorem encode_preserves_seqof ct isset a o : is_some a = true ->
  fst (sof_step ct isset (conc a) SEncode) = conc a /\
  (sof_reader o = true -> f18d ct a o = false ->
   snd (sof_step ct isset (fst (sof_step ct isset (conc a) o)) SEncode) = snd (sof_step ct isset (conc a) SEncode)).
Proof.
  intros Ha. split.
  - apply sof_reads_inert_partial; [reflexivity|reflexivity].
  - intros Hr Hx. rewrite (sof_reads_inert_partial ct isset a o Hr Hx). reflexivity.
Qed.

Theorem factor_record cfg isset ops1 ops2 : has_req cfg = true ->
  r_wf_hist cfg isset (r_init cfg) ops1 = true -> r_wf_hist cfg isset (r_init cfg) ops2 = true ->
  fst (r_run cfg isset (r_init cfg) ops1) = fst (r_run cfg isset (r_init cfg) ops2) ->
  let s1 := fst (rec_run cfg isset (Some []) ops1) in
  let s2 := fst (rec_run cfg isset (Some []) ops2) in
  rec_isvalue cfg s1 = rec_isvalue cfg s2 /\
  (rec_isvalue cfg s1 = true -> snd (rec_step cfg isset s1 REncode) = snd (rec_step cfg isset s2 REncode)).
Proof.
  intros Hreq H1 H2 E. pose proof (rec_refines cfg isset ops1 Hreq H1) as R1.
  pose proof (rec_refines cfg isset ops2 Hreq H2) as R2.
  destruct (rec_run cfg isset (Some []) ops1) as [s1 o1]. destruct (r_run cfg isset (r_init cfg) ops1) as [a1 p1].
  destruct (rec_run cfg isset (Some []) ops2) as [s2 o2]. destruct (r_run cfg isset (r_init cfg) ops2) as [a2 p2].
  cbn [fst] in *. destruct R1 as (A1 & _ & V1 & D1). destruct R2 as (A2 & _ & V2 & D2). subst a2.
  cbn zeta. split; [congruence|]. intros Hv. rewrite V1 in Hv. rewrite (D1 Hv), (D2 Hv). reflexivity.
Qed.

Theorem reads_preserve_der_record cfg isset s o : has_req cfg = true -> rinv cfg s ->
  rec_reader o = true -> r_isvalue cfg (rabs cfg s) = true ->
  snd (rec_step cfg isset (fst (rec_step cfg isset s o)) REncode) = snd (rec_step cfg isset s REncode).
Proof.
  intros Hreq Hinv Hr Hv. pose proof (rec_reads_inert cfg isset s o Hinv Hr) as Hc'.
  rewrite (rec_encode_abs cfg isset _ s Hreq (conj Hinv eq_refl) Hv).
  apply (rec_encode_abs cfg isset _ _ Hreq Hc' Hv).
Qed.

Lemma out_abs_bool x b : out_abs x = OBool b -> x = OBool b.
Proof. destruct x; cbn [out_abs]; intros E; try discriminate; exact E. Qed.

Theorem encode_preserves_record cfg isset s : has_req cfg = true -> rinv cfg s ->
  let s' := fst (rec_step cfg isset s REncode) in
  rinv cfg s' /\ rabs cfg s' = rabs cfg s /\ rec_isvalue cfg s' = rec_isvalue cfg s /\
  (r_isvalue cfg (rabs cfg s) = true -> snd (rec_step cfg isset s' REncode) = snd (rec_step cfg isset s REncode)) /\
  (forall l, all_explicit cfg (rabs cfg s) = true -> snd (rec_step cfg isset s' (REq l)) = snd (rec_step cfg isset s (REq l))).
Proof.
  intros Hreq Hinv. cbn zeta. pose proof (conj Hinv eq_refl : content cfg (rabs cfg s) s) as Hc.
  pose proof (rec_reads_inert cfg isset s REncode Hinv eq_refl) as Hc'.
  split; [apply Hc'|]. split; [apply Hc'|]. split.
  - rewrite (isvalue_abs cfg _ _ Hreq Hc), (isvalue_abs cfg _ _ Hreq Hc'). reflexivity.
  - split.
    + intros Hv. apply reads_preserve_der_record; auto.
    + intros l Hall.
      destruct (rec_sim_step cfg isset _ s (REq l) Hreq Hc Hall) as [_ O1].
      destruct (rec_sim_step cfg isset _ _ (REq l) Hreq Hc' Hall) as [_ O2].
      cbn [r_step snd] in O1, O2. rewrite (out_abs_bool _ _ O1), (out_abs_bool _ _ O2). reflexivity.
Qed.

Theorem encode_preserves_choice cfg s : fst (ch_step cfg s REncode) = s.
Proof. cbn [ch_step]. destruct (c_cur s); reflexivity. Qed.

Lemma ch_encode_abs cfg s : no_def cfg = true -> cinv cfg s ->
  match cabs s with Some (_, Some _) => True | _ => False end ->
  snd (ch_step cfg s REncode) = snd (c_step cfg (cabs s) REncode).
Proof.
  intros Hnd Hinv Hv. destruct (ch_sim_step cfg s REncode Hnd Hinv) as (_ & _ & Ho).
  - unfold c_wf. cbn [f18a negb andb]. destruct (cabs s) as [[k [z|]]|]; try contradiction. reflexivity.
  - destruct (cabs s) as [[k [z|]]|] eqn:E; try contradiction. cbn [c_step snd] in *.
    destruct (snd (ch_step cfg s REncode)); cbn [out_abs] in Ho; try discriminate; exact Ho.
Qed.

Theorem factor_choice cfg ops1 ops2 : no_def cfg = true ->
  c_wf_hist cfg None ops1 = true -> c_wf_hist cfg None ops2 = true ->
  fst (c_run cfg None ops1) = fst (c_run cfg None ops2) ->
  match fst (c_run cfg None ops1) with Some (_, Some _) => True | _ => False end ->
  snd (ch_step cfg (fst (ch_run cfg ch_init ops1)) REncode) = snd (ch_step cfg (fst (ch_run cfg ch_init ops2)) REncode).
Proof.
  intros Hnd H1 H2 E Hv.
  destruct (ch_refines_from cfg Hnd ops1 ch_init (cinv_init cfg) H1) as [A1 _].
  destruct (ch_refines_from cfg Hnd ops2 ch_init (cinv_init cfg) H2) as [A2 _].
  change (cabs ch_init) with (@None (nat * option Z)) in *.
  pose proof (cinv_run cfg ops1 ch_init (cinv_init cfg)) as I1.
  pose proof (cinv_run cfg ops2 ch_init (cinv_init cfg)) as I2.
  rewrite (ch_encode_abs cfg _ Hnd I1) by (rewrite A1; exact Hv).
  rewrite (ch_encode_abs cfg _ Hnd I2) by (rewrite A2, <- E; exact Hv).
  rewrite A1, A2, E. reflexivity.
Qed.

Section Interleave.
  Context {St Ev: Type} (step: St -> Ev -> St).

  Lemma nth_error_set_nth_same (ss: list St) i x s : nth_error ss i = Some s -> nth_error (set_nth i x ss) i = Some x.
  Proof. revert i; induction ss as [|y ss IH]; intros [|i] H; cbn in *; try discriminate; auto. Qed.

  Lemma nth_error_set_nth_other (ss: list St) i j x : i <> j -> nth_error (set_nth j x ss) i = nth_error ss i.
  Proof. revert i j; induction ss as [|y ss IH]; intros [|i] [|j] H; cbn; auto; try congruence. Qed.

  (* machine i ends where it ends alone on its own events, whatever the others did in between *)
  Theorem interleave : forall (w: list (nat * Ev)) (ss: list St) i s, nth_error ss i = Some s ->
    nth_error (prun step ss w) i = Some (fold_left step (proj i w) s).
  Proof.
    induction w as [|[j e] w IH]; intros ss i s H; [exact H|].
    unfold prun in *. cbn [fold_left]. unfold proj in *. cbn [filter fst].
    destruct (Nat.eqb_spec j i) as [->|Hne].
    - cbn [map snd fold_left]. apply IH. unfold pstep. cbn [fst snd]. rewrite H.
      apply (nth_error_set_nth_same ss i _ s H).
    - apply IH. unfold pstep. cbn [fst snd]. destruct (nth_error ss j); [|exact H].
      rewrite nth_error_set_nth_other by auto. exact H.
  Qed.

  Theorem interleave_length : forall (w: list (nat * Ev)) (ss: list St), length (prun step ss w) = length ss.
  Proof.
    induction w as [|[j e] w IH]; intros ss; [reflexivity|]. unfold prun in *. cbn [fold_left]. rewrite IH.
    unfold pstep. destruct (nth_error ss (fst (j, e))); [apply set_nth_length|reflexivity].
  Qed.
End Interleave.

Theorem interleave_decoders {A} (w: list (nat * envev)) (ds: list (dstate A)) i d :
  nth_error ds i = Some d ->
  nth_error (prun dstep ds w) i = Some (fold_left dstep (proj i w) d).
Proof. apply interleave. Qed.

(* the model's codec functions are functions *)
Theorem model_deterministic : forall c1 c2 d1 d2 k1 k2 T1 T2 v1 v2 b1 b2,
  c1 = c2 -> d1 = d2 -> k1 = k2 -> T1 = T2 -> v1 = v2 -> b1 = b2 ->
  encode c1 d1 k1 T1 v1 = encode c2 d2 k2 T2 v2 /\ decode c1 (Some T1) b1 = decode c2 (Some T2) b2.
Proof. intros; subst; split; reflexivity. Qed.

(* the encoder and iteration walk positions 0 .. len-1 in ascending order and look each one up: on a state
   without holes or placeholders what they see is a function of the lookup, not of the dict's insertion order *)
Section FullDict.
  Context (ct: bool) (d: dict) (val: nat -> Z) (n: nat).
  Hypothesis Hv: forall k, k < n -> dget k d = Some (CVal (val k)).

  Lemma sof_get_full k : k < n -> sof_get ct (Some d) (Z.of_nat k) true = Ok (Some d, Some (CVal (val k))).
  Proof. intros H. unfold sof_get. rewrite norm_idx_nat. unfold sget. cbn [sdict]. rewrite (Hv k H). reflexivity. Qed.

  Lemma sof_chunks_full : forall m from acc, from + m <= n ->
    sof_chunks ct (Some d) from m acc =
    (Some d, Ok (rev acc ++ map (fun k => int_tlv tag_integer (val k)) (seq from m))).
  Proof.
    induction m as [|m IH]; intros from acc H; cbn [sof_chunks seq map].
    - rewrite app_nil_r. reflexivity.
    - rewrite sof_get_full, IH by lia. cbn [rev]. rewrite <- app_assoc. reflexivity.
  Qed.

  Lemma sof_iter_full : forall m from acc, from + m <= n ->
    sof_iter ct (Some d) from m acc = (Some d, Ok (rev acc ++ map (fun k => Some (CVal (val k))) (seq from m))).
  Proof.
    induction m as [|m IH]; intros from acc H; cbn [sof_iter seq map].
    - rewrite app_nil_r. reflexivity.
    - rewrite sof_get_full, IH by lia. cbn [rev]. rewrite <- app_assoc. reflexivity.
  Qed.
End FullDict.

Theorem seqof_assignment_order ct isset (d1 d2: dict) (val: nat -> Z) n :
  slen (Some d1) = n -> slen (Some d2) = n ->
  (forall k, k < n -> dget k d1 = Some (CVal (val k))) ->
  (forall k, k < n -> dget k d2 = Some (CVal (val k))) ->
  snd (sof_step ct isset (Some d1) SEncode) = snd (sof_step ct isset (Some d2) SEncode) /\
  fst (sof_step ct isset (Some d1) SEncode) = Some d1 /\
  snd (sof_step ct isset (Some d1) SIter) = OSlots (map (fun k => Some (CVal (val k))) (seq 0 n)).
Proof.
  intros H1 H2 V1 V2. cbn [sof_step]. rewrite H1, H2.
  rewrite (sof_chunks_full ct d1 val n V1 n 0 []), (sof_chunks_full ct d2 val n V2 n 0 []) by lia.
  rewrite (sof_iter_full ct d1 val n V1 n 0 []) by lia. repeat split.
Qed.

(* s[2] = 30; s[1] = 20; s[0] = 10 against the ascending twin: different dicts, same lookup, same DER *)
Lemma seqof_assignment_order_example :
  let h1 := [SSetItem 2 (PInt 30); SSetItem 1 (PInt 20); SSetItem 0 (PInt 10)] in
  let h2 := [SSetItem 0 (PInt 10); SSetItem 1 (PInt 20); SSetItem 2 (PInt 30)] in
  fst (sof_run true false None h1) = Some [(2, CVal 30%Z); (1, CVal 20%Z); (0, CVal 10%Z)] /\
  fst (sof_run true false None h2) = Some [(0, CVal 10%Z); (1, CVal 20%Z); (2, CVal 30%Z)] /\
  snd (sof_step true false (fst (sof_run true false None h1)) SEncode) =
  snd (sof_step true false (fst (sof_run true false None h2)) SEncode) /\
  snd (sof_step true false (fst (sof_run true false None h1)) SEncode) = OBytes [48; 9; 2; 1; 10; 2; 1; 20; 2; 1; 30]%N.
Proof. repeat split. Qed.
