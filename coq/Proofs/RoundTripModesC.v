(* Round trip under every encoder mode (C01/C02), part C: what the encoders write, before any comparison
   of abstract values.  The simple types in every mode - unsegmented, segmented (maxChunkSize) in definite
   and indefinite form - for the BER, CER and DER encoders and the BER and CER decoders ([leaf_modes]);
   then, under any tagging, the framing of a simple type ([prim_frame_m]), of a container
   ([container_frame_m]) and the contents of SEQUENCE OF / SET OF ([listof_frame_m]).
   Suffixes in RoundTripModes*.v: _m "in every mode" (the twin of a definite-mode lemma of RoundTrip3*.v),
   _sp "under any guiding specification", _g "with the parameter its namesake fixes left general". *)
From Coq Require Import Lia Sorting.Permutation.
From PV Require Import Base.Bytes Model.Tag Model.TableTypes Model.Types Model.Proc Model.Enc Model.Dec Gen.Tables
     Proofs.ProcBind Proofs.RunLemmas Proofs.TagOctets Proofs.TagAlgebra Proofs.DecHeader Proofs.DecFrame Proofs.DecPrim
     Proofs.TagsetShape Proofs.Schemaless Proofs.LeafOidBits Proofs.LeafReal Proofs.RoundTrip1 Proofs.RoundTrip2
     Proofs.RoundTripModesA Proofs.RoundTripModesB Proofs.EncUnfold.
From PV Require Proofs.ContainerCodecSort.
Local Open Scope N_scope.

(* the options of encode(value, defMode=d, maxChunkSize=k) *)
Definition mo (d: bool) (k: N) : eopts := mkOpts d k false.

(* options the codec's fixed options leave alone: any for BER; defMode=False, maxChunkSize=1000 for
   CER; defMode=True, maxChunkSize=0 for DER *)
Definition stable (ce: codec) (d: bool) (k: N) : Prop := fix_opts ce (mo d k) = mo d k.

Lemma stable_ber d k : stable BER d k. Proof. reflexivity. Qed.

Lemma stable_cer : stable CER false 1000. Proof. reflexivity. Qed.

Lemma stable_der : stable DER true 0. Proof. reflexivity. Qed.

Lemma enc_with_inv_g ce T d k v b : stable ce d k -> enc_with ce (enc_content ce) T (mo d k) v = Ok b ->
  exists ec fl ts content cns, concrete_encoder ce T = Ok (ec, fl) /\ tagset_of T = Ok ts
    /\ enc_content ce T ec fl (mo d k) v = Ok (content, cns) /\ frame ts content cns (mo d k) (ef_indef fl) = Ok b.
Proof.
  unfold enc_with, stable. intros Hst H. rewrite Hst in H.
  destruct (concrete_encoder ce T) as [[ec fl]|e] eqn:E1; cbn [bind] in H; [|discriminate].
  destruct (tagset_of T) as [ts|e] eqn:E2; cbn [bind] in H; [|discriminate].
  change (mkOpts (o_def (mo d k)) (o_chunk (mo d k)) false) with (mo d k) in H.
  destruct (enc_content ce T ec fl (mo d k) v) as [[content cns]|e] eqn:E3; cbn [bind] in H; [|discriminate].
  exists ec, fl, ts, content, cns. split; [reflexivity|]. split; [reflexivity|]. split; [exact E3|exact H].
Qed.

(* decoders that read indefinite lengths and constructed strings: BER and CER *)
Definition dec_ok (cd: codec) : Prop := cd = BER \/ cd = CER.

Lemma dec_ok_indef cd : dec_ok cd -> support_indef cd = true.
Proof. intros [-> | ->]; reflexivity. Qed.

Lemma lookup3_in_eqb {B C} (k: tkey) (l: list (tkey * B * C)) b c :
  lookup3 k l = Some (b, c) -> exists k', In (k', b, c) l /\ tkey_eqb k k' = true.
Proof.
  unfold lookup3. intros H. destruct (assoc_In _ _ _ _ H) as (k' & Hin & Hk).
  apply in_map_iff in Hin. destruct Hin as ([[k0 b0] c0] & E & Hin). cbn [fst snd] in E. inversion E; subst.
  eexists. split; [exact Hin|exact Hk].
Qed.

Definition enc_str_row_ok (x: tkey * enc_codec * enc_flags) : bool :=
  match x with (KStr n, EcOcts, fl) => ef_indef fl && negb (N.eqb n 0) | _ => true end.

Lemma enc_str_rows ce : forallb enc_str_row_ok (enc_type_map ce) = true.
Proof. destruct ce; vm_compute; reflexivity. Qed.

Lemma enc_str_flag ce n fl : lookup3 (KStr n) (enc_type_map ce) = Some (EcOcts, fl) -> ef_indef fl = true /\ n <> 0.
Proof.
  intros H. destruct (lookup3_in_eqb _ _ _ _ H) as (k' & Hin & Hk).
  pose proof (enc_str_rows ce) as Hall. rewrite forallb_forall in Hall. specialize (Hall _ Hin).
  destruct k'; try discriminate Hk. cbn [tkey_eqb] in Hk. apply N.eqb_eq in Hk. subst n0.
  cbn [enc_str_row_ok] in Hall. apply Bool.andb_true_iff in Hall. destruct Hall as [H1 H2].
  split; [exact H1|]. intros ->. discriminate H2.
Qed.

Definition dec_str_row_ok (x: tkey * dec_codec * dec_flags) : bool :=
  match x with (KStr n, DcStr, fl) => df_constructed fl | _ => true end.

Lemma dec_str_flag cd n fl : dec_ok cd -> lookup3 (KStr n) (dec_type_map cd) = Some (DcStr, fl) -> df_constructed fl = true.
Proof.
  intros Hcd H. destruct (lookup3_in_eqb _ _ _ _ H) as (k' & Hin & Hk).
  assert (Hall: forallb dec_str_row_ok (dec_type_map cd) = true) by (destruct Hcd as [-> | ->]; vm_compute; reflexivity).
  rewrite forallb_forall in Hall. specialize (Hall _ Hin).
  destruct k'; try discriminate Hk. exact Hall.
Qed.

Lemma chunks_concat {A} : forall fuel (k: nat) (l: list A), (0 < k)%nat -> (length l < fuel)%nat ->
  concat (chunks fuel k l) = l.
Proof.
  induction fuel as [|f IH]; intros k l Hk Hf; [lia|].
  cbn [chunks]. destruct l as [|x l']; [reflexivity|].
  cbn [concat]. rewrite IH; [apply firstn_skipn|exact Hk|].
  rewrite skipn_length. cbn [length] in *. lia.
Qed.

Lemma chunks_nonempty {A} fuel (k: nat) (l: list A) : l <> [] -> chunks (S fuel) k l <> [].
Proof. destruct l; [congruence|]. cbn [chunks]. discriminate. Qed.

Lemma fold_err {A} (g: res bytes -> A -> res bytes) (Hg: forall e x, g (Err e) x = Err e) :
  forall l e, fold_left g l (Err e) = Err e.
Proof. induction l as [|x l IH]; intros e; [reflexivity|]. cbn [fold_left]. rewrite Hg. apply IH. Qed.

Lemma fold_pieces {A} (tagnum: N) (g: A -> bytes) : forall (pieces: list A) a0 s,
  fold_left (fun acc piece => do a <- acc; do p <- frame_piece tagnum (g piece); Ok (a ++ p)) pieces (Ok a0) = Ok s ->
  exists ps, Forall2 (fun piece p => frame_piece tagnum (g piece) = Ok p) pieces ps /\ s = a0 ++ concat ps.
Proof.
  induction pieces as [|x l IH]; intros a0 s H; cbn [fold_left] in H.
  - inversion H; subst. exists []. split; [constructor|]. rewrite app_nil_r. reflexivity.
  - cbn [bind] in H. destruct (frame_piece tagnum (g x)) as [p|e] eqn:Ep; cbn [bind] in H.
    + destruct (IH _ _ H) as (ps & HF & ->). exists (p :: ps). split; [constructor; assumption|].
      cbn [concat]. rewrite app_assoc. reflexivity.
    + rewrite fold_err in H; [discriminate|reflexivity].
Qed.

Lemma frame_piece_facts n content p : frame_piece n content = Ok p -> n <> 0 ->
  (length content + 2 <= length p)%nat /\ hd 0 p <> 0.
Proof.
  unfold frame_piece. intros H Hn.
  destruct (frame_one_facts _ _ _ _ _ _ H) as (F1 & _ & F3); [right; exact Hn|]. split; assumption.
Qed.

Lemma pieces_length {A} n (g: A -> bytes) pieces ps : n <> 0 ->
  Forall2 (fun piece p => frame_piece n (g piece) = Ok p) pieces ps ->
  (2 * length pieces <= length (concat ps))%nat.
Proof.
  intros Hn. induction 1 as [|x p l ps Hp _ IH]; [cbn; lia|].
  destruct (frame_piece_facts _ _ _ Hp Hn) as [F _]. cbn [length concat]. rewrite app_length. lia.
Qed.

Lemma Forall2_in_r {A B} (P: A -> B -> Prop) l1 l2 y : Forall2 P l1 l2 -> In y l2 -> exists x, In x l1 /\ P x y.
Proof. exact (Basics.Forall2_in_r P l1 l2 y). Qed.

Lemma in_concat_le {A} (p: list A) ps : In p ps -> (length p <= length (concat ps))%nat.
Proof.
  induction ps as [|q ps IH]; intros Hin; [destruct Hin|]. cbn [concat]. rewrite app_length.
  destruct Hin as [->|Hin]; [lia|]. specialize (IH Hin). lia.
Qed.

Lemma by_type_octs cd : dec_ok cd -> exists fl, by_type cd TOcts = Some (DcOcts, fl) /\ df_constructed fl = true.
Proof. intros [-> | ->]; (eexists; split; [vm_compute; reflexivity | vm_compute; reflexivity]). Qed.

Lemma by_type_bits cd : dec_ok cd -> exists fl, by_type cd TBits = Some (DcBits, fl) /\ df_constructed fl = true.
Proof. intros [-> | ->]; (eexists; split; [vm_compute; reflexivity | vm_compute; reflexivity]). Qed.

(* a primitive OCTET STRING segment, read with the fragment collector in force *)
Lemma frag_octets cd f piece p ae : dec_ok cd ->
  frame_piece 4 piece = Ok p -> N.of_nat (length p) <= index_max -> (length p <= f)%nat ->
  frag_o (dec_call cd f) ae piece p.
Proof.
  intros Hcd Hp Hmax Hf.
  destruct (frame_piece_facts 4 piece p Hp ltac:(discriminate)) as [Fl Fh].
  split; [|lia].
  destruct (by_type_octs cd Hcd) as (fl & Hby & _).
  destruct f as [|f']; [lia|].
  apply ae_any; [apply dec_ok_indef; exact Hcd|lia|exact Fh|].
  unfold frame_piece in Hp.
  apply (match_level_g cd f' TOcts [] (utag false 4) false true piece p _ DcOcts fl true Hp).
  - reflexivity.
  - reflexivity.
  - exact Hby.
  - cbn. lia.
  - cbn [dec_value base_of]. rewrite wire_false. apply consumes_octets; [reflexivity|split; lia|reflexivity].
Qed.

(* a primitive BIT STRING segment: a BIT STRING value of its own *)
Lemma frag_bits cd f piece p ae : dec_ok cd ->
  frame_piece 3 (enc_bits_prim piece) = Ok p -> N.of_nat (length p) <= index_max -> (length p <= f)%nat ->
  frag_b (dec_call cd f) ae piece p.
Proof.
  intros Hcd Hp Hmax Hf.
  destruct (frame_piece_facts 3 _ p Hp ltac:(discriminate)) as [Fl Fh].
  split; [|lia].
  destruct (by_type_bits cd Hcd) as (fl & Hby & _).
  destruct f as [|f']; [lia|].
  apply ae_any; [apply dec_ok_indef; exact Hcd|lia|exact Fh|].
  unfold frame_piece in Hp.
  apply (match_level_g cd f' TBits [] (utag false 3) false true (enc_bits_prim piece) p _ DcBits fl false Hp).
  - reflexivity.
  - reflexivity.
  - exact Hby.
  - cbn. lia.
  - cbn [dec_value]. rewrite wire_false. unfold enc_bits_prim in *.
    apply consumes_bits; [reflexivity|split; lia|reflexivity|pose proof (pad_of_lt (length piece)); lia|apply bits_roundtrip].
Qed.

(* what the value decoder is run on: constructed contents under indefinite lengths ([cns && negb d]) are read
   with "length unknown" up to and including the closing 00 00, all others with their announced length *)
Definition val_consumes (cd: codec) (f0: nat) (dcd: dec_codec) (dfl: dec_flags) (T: ty) (ts: tagset)
           (d cns: bool) (content: bytes) (vdec: val) : Prop :=
  if cns && negb d
  then consumes (dec_value (dec_call cd f0) f0 dcd dfl (Some T) ts None false) (content ++ [0; 0]) (DV T vdec)
  else consumes (dec_value (dec_call cd f0) f0 dcd dfl (Some T) ts (Some (N.of_nat (length content))) false) content (DV T vdec).

Definition dec_leaf (cd: codec) (T: ty) (content: bytes) (vdec: val) : Prop :=
  exists dcd dfl, by_type cd T = Some (dcd, dfl)
    /\ forall f ts, tag0_simple ts = true -> fits f content ->
       consumes (dec_value (dec_call cd f) f dcd dfl (Some T) ts (Some (N.of_nat (length content))) false)
                content (DV T vdec).

Lemma leaf_ok_dec ce cd T v content vdec : leaf_ok ce cd T v content vdec -> dec_leaf cd T content vdec.
Proof. intros [_ H]. exact H. Qed.

Definition leaf_goal (cd: codec) (d: bool) (T: ty) (v: val) (content: bytes) (cns: bool) : Prop :=
  exists dcd dfl vdec, by_type cd T = Some (dcd, dfl) /\ abs T vdec = abs T v /\
    forall f0 t0 r, tcon t0 = false -> N.of_nat (length content) <= index_max -> (length content + 2 <= f0)%nat ->
      val_consumes cd f0 dcd dfl T (wire t0 cns :: r) d cns content vdec.

Lemma prim_goal cd d T v content vdec : dec_leaf cd T content vdec -> abs T vdec = abs T v ->
  leaf_goal cd d T v content false.
Proof.
  intros (dcd & dfl & Hby & Hval) Habs. exists dcd, dfl, vdec. split; [exact Hby|]. split; [exact Habs|].
  intros f0 t0 r Hc0 Hmax Hf. unfold val_consumes. cbn [andb].
  apply Hval; [|split; lia]. rewrite wire_false. unfold tag0_simple. rewrite Hc0. reflexivity.
Qed.

Lemma eoo_ok_call cd f : dec_ok cd -> eoo_ok (dec_call cd (S f)).
Proof. intros Hcd sp sfun s tl Hav. exact (eoo_read cd f sp [] None sfun s tl (dec_ok_indef cd Hcd) Hav). Qed.

Lemma wire_true_not_simple t0 r : tag0_simple (wire t0 true :: r) = false.
Proof. unfold tag0_simple, wire. cbn [tcon]. rewrite Bool.orb_true_r. reflexivity. Qed.

(* segmented OCTET STRING / character string contents, whatever guides the decoder: the collecting loop runs
   until the announced length is used up, or until end-of-octets *)
Lemma chunked_octets_g cd f0 proto dfl sp ts (d: bool) bs pieces ps w :
  dec_ok cd -> df_constructed dfl = true -> tag0_simple ts = false ->
  create sp proto ts (VOcts bs) = Ret w ->
  concat pieces = bs -> Forall2 (fun piece p => frame_piece 4 piece = Ok p) pieces ps ->
  N.of_nat (length (concat ps)) <= index_max -> (length (concat ps) + 2 <= f0)%nat ->
  if d then consumes (dec_octets (dec_call cd f0) f0 proto dfl sp ts (N.of_nat (length (concat ps))) false) (concat ps) w
  else consumes (dec_octets_indef (dec_call cd f0) f0 proto sp ts) (concat ps ++ [0; 0]) w.
Proof.
  intros Hcd Hcf Hts Hcreate Hcat HF Hmax Hf.
  destruct f0 as [|f']; [lia|].
  pose proof (pieces_length 4 (fun x => x) pieces ps ltac:(discriminate) HF) as Hcount.
  assert (Hfr: forall ae, Forall2 (frag_o (dec_call cd (S f')) ae) pieces ps).
  { intros ae. apply (Forall2_impl_in _ _ _ _ (fun piece p _ Hin Hp =>
      frag_octets cd (S f') piece p ae Hcd Hp
        ltac:(pose proof (in_concat_le p ps Hin); lia) ltac:(pose proof (in_concat_le p ps Hin); lia)) HF). }
  destruct d; intros s tl Hav.
  - unfold dec_octets. rewrite Hts, Hcf. cbn [negb]. rewrite resume_tell.
    destruct (octets_loop_run (dec_call cd (S f')) proto sp ts pieces ps (Hfr false) (S f') [] (pos s)
                (length (concat ps)) s tl ltac:(lia) Hav ltac:(lia) ltac:(lia)) as (s' & Hrun & Hpos & Harr & Hcl).
    exists s'. rewrite Hrun. cbn [app]. rewrite Hcat, Hcreate. cbn [resume]. repeat split; assumption.
  - rewrite <- app_assoc in Hav. unfold dec_octets_indef.
    destruct (octets_indef_run (dec_call cd (S f')) (eoo_ok_call cd f' Hcd) proto sp ts pieces ps (Hfr true) (S f') []
                s tl ltac:(lia) Hav) as (s' & Hrun & Hpos & Harr & Hcl).
    exists s'. rewrite Hrun. cbn [app]. rewrite Hcat, Hcreate. cbn [resume]. rewrite app_length. cbn [length].
    repeat split; try assumption. lia.
Qed.

Lemma chunked_octets_consumes cd f0 dcd dfl T ts d bs pieces ps :
  dec_ok cd -> (dcd = DcOcts \/ dcd = DcStr) -> df_constructed dfl = true -> tag0_simple ts = false ->
  (forall proto, create (Some T) proto ts (VOcts bs) = Ret (DV T (VOcts bs))) ->
  concat pieces = bs -> Forall2 (fun piece p => frame_piece 4 piece = Ok p) pieces ps ->
  N.of_nat (length (concat ps)) <= index_max -> (length (concat ps) + 2 <= f0)%nat ->
  val_consumes cd f0 dcd dfl T ts d true (concat ps) (VOcts bs).
Proof.
  intros Hcd Hdcd Hcf Hts Hcreate Hcat HF Hmax Hf.
  pose proof (chunked_octets_g cd f0 (match base_of T with TStr n => TStr n | _ => TOcts end) dfl (Some T) ts d bs pieces ps _
                Hcd Hcf Hts (Hcreate _) Hcat HF Hmax Hf) as H.
  unfold val_consumes. destruct d; cbn [andb negb]; destruct Hdcd as [-> | ->]; exact H.
Qed.

(* segmented BIT STRING contents *)
Lemma chunked_bits_g cd f0 dfl sp ts (d: bool) bs pieces ps w :
  dec_ok cd -> df_constructed dfl = true -> tag0_simple ts = false ->
  create sp TBits ts (VBits bs) = Ret w ->
  concat pieces = bs -> pieces <> [] ->
  Forall2 (fun piece p => frame_piece 3 (enc_bits_prim piece) = Ok p) pieces ps ->
  N.of_nat (length (concat ps)) <= index_max -> (length (concat ps) + 2 <= f0)%nat ->
  if d then consumes (dec_value (dec_call cd f0) f0 DcBits dfl sp ts (Some (N.of_nat (length (concat ps)))) false) (concat ps) w
  else consumes (dec_value (dec_call cd f0) f0 DcBits dfl sp ts None false) (concat ps ++ [0; 0]) w.
Proof.
  intros Hcd Hcf Hts Hcreate Hcat Hne HF Hmax Hf.
  destruct f0 as [|f']; [lia|].
  pose proof (pieces_length 3 enc_bits_prim pieces ps ltac:(discriminate) HF) as Hcount.
  assert (Hfr: forall ae, Forall2 (frag_b (dec_call cd (S f')) ae) pieces ps).
  { intros ae. apply (Forall2_impl_in _ _ _ _ (fun piece p _ Hin Hp =>
      frag_bits cd (S f') piece p ae Hcd Hp
        ltac:(pose proof (in_concat_le p ps Hin); lia) ltac:(pose proof (in_concat_le p ps Hin); lia)) HF). }
  destruct d; intros s tl Hav.
  - cbn [dec_value]. unfold dec_bits.
    destruct (N.eqb_spec (N.of_nat (length (concat ps))) 0) as [E|_].
    { destruct pieces as [|x l]; [congruence|]. cbn [length] in Hcount. lia. }
    rewrite Hts, Hcf. cbn [negb]. rewrite resume_tell.
    destruct (bits_loop_run (dec_call cd (S f')) sp ts pieces ps (Hfr false) (S f') [] (pos s)
                (length (concat ps)) s tl ltac:(lia) Hav ltac:(lia) ltac:(lia)) as (s' & Hrun & Hpos & Harr & Hcl).
    exists s'. rewrite Hrun. cbn [app]. rewrite Hcat, Hcreate. cbn [resume]. repeat split; assumption.
  - rewrite <- app_assoc in Hav. cbn [dec_value]. unfold dec_bits_indef.
    destruct (bits_indef_run (dec_call cd (S f')) (eoo_ok_call cd f' Hcd) sp ts pieces ps (Hfr true) (S f') []
                s tl ltac:(lia) Hav) as (s' & Hrun & Hpos & Harr & Hcl).
    exists s'. rewrite Hrun. cbn [app]. rewrite Hcat, Hcreate. cbn [resume]. rewrite app_length. cbn [length].
    repeat split; try assumption. lia.
Qed.

Lemma chunked_bits_consumes cd f0 dfl T ts d bs pieces ps :
  dec_ok cd -> df_constructed dfl = true -> tag0_simple ts = false -> base_of T = TBits ->
  concat pieces = bs -> pieces <> [] ->
  Forall2 (fun piece p => frame_piece 3 (enc_bits_prim piece) = Ok p) pieces ps ->
  N.of_nat (length (concat ps)) <= index_max -> (length (concat ps) + 2 <= f0)%nat ->
  val_consumes cd f0 DcBits dfl T ts d true (concat ps) (VBits bs).
Proof.
  intros Hcd Hcf Hts Hb Hcat Hne HF Hmax Hf.
  assert (Hcreate: create (Some T) TBits ts (VBits bs) = Ret (DV T (VBits bs))) by (unfold create; rewrite Hb; reflexivity).
  pose proof (chunked_bits_g cd f0 dfl (Some T) ts d bs pieces ps _ Hcd Hcf Hts Hcreate Hcat Hne HF Hmax Hf) as H.
  unfold val_consumes. destruct d; exact H.
Qed.

Lemma enc_octets_like_cases o b content cns : enc_octets_like o (VOcts b) = Ok (content, cns) ->
  (cns = false /\ content = b) \/
  (cns = true /\ exists pieces ps, concat pieces = b /\ Forall2 (fun piece p => frame_piece 4 piece = Ok p) pieces ps
                                  /\ content = concat ps).
Proof.
  unfold enc_octets_like. cbn [octets_of].
  destruct (N.eqb (o_chunk o) 0 || Nat.leb (length b) (N.to_nat (o_chunk o)))%bool eqn:Ec.
  - intros H. inversion H; subst. left. split; reflexivity.
  - apply Bool.orb_false_iff in Ec. destruct Ec as [Ek _]. apply N.eqb_neq in Ek.
    cbn [enc_string_chunked].
    destruct (fold_left _ _ _) as [s|e] eqn:Ef; cbn [bind]; [|discriminate].
    intros H. inversion H; subst. right. split; [reflexivity|].
    destruct (fold_pieces 4 (fun x => x) _ _ _ Ef) as (ps & HF & ->).
    exists (chunks (S (length b)) (N.to_nat (o_chunk o)) b), ps.
    split; [apply chunks_concat; lia|]. split; [exact HF|reflexivity].
Qed.

Lemma enc_bits_cases o bs content cns : enc_bits o bs = Ok (content, cns) ->
  (cns = false /\ content = enc_bits_prim bs) \/
  (cns = true /\ exists pieces ps, concat pieces = bs /\ pieces <> []
                   /\ Forall2 (fun piece p => frame_piece 3 (enc_bits_prim piece) = Ok p) pieces ps
                   /\ content = concat ps).
Proof.
  unfold enc_bits. cbv zeta.
  destruct (N.eqb (o_chunk o) 0 || Nat.leb (length bs + pad_of (length bs)) (N.to_nat (o_chunk o) * 8))%bool eqn:Ec.
  - intros H. inversion H; subst. left. split; reflexivity.
  - apply Bool.orb_false_iff in Ec. destruct Ec as [Ek El]. apply N.eqb_neq in Ek. apply Nat.leb_gt in El.
    destruct (fold_left _ _ _) as [s|e] eqn:Ef; cbn [bind]; [|discriminate].
    intros H. inversion H; subst. right. split; [reflexivity|].
    destruct (fold_pieces 3 enc_bits_prim _ _ _ Ef) as (ps & HF & ->).
    exists (chunks (S (length bs)) (N.to_nat (o_chunk o) * 8) bs), ps.
    split; [apply chunks_concat; lia|]. split; [|split; [exact HF|reflexivity]].
    apply chunks_nonempty. intros ->. cbn in El. lia.
Qed.

(* the simple types whose contents are never constructed: the class of finding F01 *)
Definition six (T: ty) : bool :=
  match base_of T with TBool | TInt | TEnum | TNull | TOid | TReal => true | _ => false end.

(* the definite-mode encoder whose contents octets the given encoder shares *)
Definition ce0 (ce: codec) : codec := match ce with BER => BER | _ => DER end.
Lemma ce0_ok ce : enc_ok (ce0 ce). Proof. destruct ce; [left|right|right]; reflexivity. Qed.

Lemma bool_compat_ce0 ce cd b : bool_compat ce cd b = true -> bool_compat (ce0 ce) cd b = true.
Proof. destruct ce; intros H; try exact H; reflexivity. Qed.

(* the contents octets the three encoders write for the values of the simple types whose encoder
   class does not depend on the type (all but the character and useful strings) *)
Lemma prim_content ce B ec fl d k v content cns :
  concrete_encoder ce B = Ok (ec, fl) -> enc_content ce B ec fl (mo d k) v = Ok (content, cns) ->
  match B, v with
  | TBool, VBool b => cns = false /\ content = [bool_octet (ce0 ce) b]
  | (TInt | TEnum), VInt z => cns = false /\ content = enc_integer false z
  | TNull, VNull => cns = false /\ content = []
  | TOid, VOid arcs => cns = false /\ enc_oid arcs = Ok content
  | TReal, VReal r => cns = false /\ enc_real r = Ok content
  | TBits, VBits bs => ef_indef fl = true /\ exists o', (k = 0 -> o_chunk o' = 0) /\ enc_bits o' bs = Ok (content, cns)
  | TOcts, VOcts bo => ef_indef fl = true /\ enc_octets_like (mo d k) (VOcts bo) = Ok (content, cns)
  | _, _ => True
  end.
Proof.
  intros Hce Hcont.
  destruct B; try exact I; destruct v; try exact I;
    destruct ce; vm_compute in Hce; inversion Hce; subst ec fl; cbn [enc_content ef_compact_zero] in Hcont.
  (* BOOLEAN, INTEGER, ENUMERATED, NULL: the octets are there *)
  all: try (inversion Hcont; subst; split; reflexivity).
  (* BIT STRING (CER and DER count the initial octet into the segment), OCTET STRING *)
  all: try (split; [reflexivity|]; first [exact Hcont | eexists; (split; [|exact Hcont]); intros ->; reflexivity]).
  (* OBJECT IDENTIFIER, REAL *)
  all: match type of Hcont with (do _ <- ?x; _) = _ => destruct x; cbn [bind] in Hcont; [|discriminate] end;
    inversion Hcont; subst; split; reflexivity.
Qed.

(* the shape of the conclusion of [leaf_modes] for a type whose contents are never constructed *)
Lemma six_goal ce cd d T v content vdec (P: Prop) : leaf_ok ce cd T v content vdec -> abs T vdec = abs T v ->
  (true = true -> false = false) /\ (true = false -> P) /\ leaf_goal cd d T v content false.
Proof.
  intros Hl Ha. split; [reflexivity|]. split; [discriminate|].
  exact (prim_goal cd d T v content vdec (leaf_ok_dec _ _ _ _ _ _ Hl) Ha).
Qed.

Lemma leaf_modes ce cd d k T v ec fl content cns :
  dec_ok cd -> stage1_val ce cd T v = true ->
  concrete_encoder ce T = Ok (ec, fl) -> enc_content ce T ec fl (mo d k) v = Ok (content, cns) ->
  (six T = true -> cns = false) /\ (six T = false -> ef_indef fl = true) /\ leaf_goal cd d T v content cns.
Proof.
  intros Hcd Hs Hce Hcont.
  rewrite concrete_encoder_base in Hce. rewrite enc_content_base in Hcont.
  pose proof (prim_content ce (base_of T) ec fl d k v content cns Hce Hcont) as Hpc.
  unfold stage1_val in Hs. unfold six.
  pose proof (ce0_ok ce) as Hce0.
  destruct (base_of T) eqn:Hb; destruct v as [bb|z|bs|bo|cs| |arcs|r|vfs|xs|i x|ab]; try discriminate Hs.
  - (* BOOLEAN *)
    destruct Hpc as [-> ->].
    exact (six_goal _ cd d T _ _ _ _ (leaf_bool (ce0 ce) cd T bb Hce0 Hb (bool_compat_ce0 ce cd bb Hs)) eq_refl).
  - (* INTEGER *)
    destruct Hpc as [-> ->]. exact (six_goal _ cd d T _ _ _ _ (leaf_int (ce0 ce) cd T z Hce0 (or_introl Hb)) eq_refl).
  - (* ENUMERATED *)
    destruct Hpc as [-> ->]. exact (six_goal _ cd d T _ _ _ _ (leaf_int (ce0 ce) cd T z Hce0 (or_intror Hb)) eq_refl).
  - (* BIT STRING *)
    destruct Hpc as (Hsi & o' & _ & Hc).
    split; [discriminate|]. split; [intros _; exact Hsi|].
    destruct (enc_bits_cases _ _ _ _ Hc) as [[-> ->]|(-> & pieces & ps & Hcat & Hne & HF & ->)].
    + apply (prim_goal cd d T _ _ (VBits bs)); [|reflexivity].
      exact (leaf_ok_dec _ _ _ _ _ _ (leaf_bits (ce0 ce) cd T bs Hce0 Hb)).
    + destruct (by_type_bits cd Hcd) as (dfl & Hby & Hcf).
      exists DcBits, dfl, (VBits bs). split; [rewrite by_type_base, Hb; exact Hby|]. split; [reflexivity|].
      intros f0 t0 r Hc0 Hmax Hf.
      apply (chunked_bits_consumes cd f0 dfl T _ d bs pieces ps Hcd Hcf (wire_true_not_simple t0 r) Hb Hcat Hne HF Hmax Hf).
  - (* OCTET STRING *)
    destruct Hpc as (Hsi & Hc).
    split; [discriminate|]. split; [intros _; exact Hsi|].
    destruct (enc_octets_like_cases _ _ _ _ Hc) as [[-> ->]|(-> & pieces & ps & Hcat & HF & ->)].
    + apply (prim_goal cd d T _ _ (VOcts bo)); [|reflexivity].
      exact (leaf_ok_dec _ _ _ _ _ _ (leaf_octets (ce0 ce) cd T bo Hce0 Hb)).
    + destruct (by_type_octs cd Hcd) as (dfl & Hby & Hcf).
      exists DcOcts, dfl, (VOcts bo). split; [rewrite by_type_base, Hb; exact Hby|]. split; [reflexivity|].
      intros f0 t0 r Hc0 Hmax Hf.
      apply (chunked_octets_consumes cd f0 DcOcts dfl T _ d bo pieces ps Hcd (or_introl eq_refl) Hcf (wire_true_not_simple t0 r));
        try assumption.
      intros proto. unfold create. rewrite Hb. reflexivity.
  - (* NULL *)
    destruct Hpc as [-> ->]. exact (six_goal _ cd d T _ _ _ _ (leaf_null (ce0 ce) cd T Hce0 Hb) eq_refl).
  - (* OBJECT IDENTIFIER *)
    destruct Hpc as [-> Eo]. exact (six_goal _ cd d T _ _ _ _ (leaf_oid (ce0 ce) cd T arcs content Hce0 Hb Eo) eq_refl).
  - (* REAL *)
    destruct Hpc as [-> Er].
    destruct r as [| |m e|m e|]; try discriminate Hs.
    + destruct real_roundtrip_special as [[E1 D1] _]. rewrite E1 in Er. inversion Er; subst.
      exact (six_goal _ cd d T _ _ _ _ (leaf_real (ce0 ce) cd T RPInf [64] RPInf Hce0 Hb E1 D1) eq_refl).
    + destruct real_roundtrip_special as [_ [[E1 D1] _]]. rewrite E1 in Er. inversion Er; subst.
      exact (six_goal _ cd d T _ _ _ _ (leaf_real (ce0 ce) cd T RNInf [65] RNInf Hce0 Hb E1 D1) eq_refl).
    + assert (Hm: m <> 0%Z) by (destruct (Z.eqb_spec m 0); [discriminate|assumption]).
      destruct (real_roundtrip_bin m e content Hm Er) as (r' & Hd & Habs).
      apply (six_goal _ cd d T _ _ _ _ (leaf_real (ce0 ce) cd T _ content r' Hce0 Hb Er Hd)).
      rewrite (abs_wrappers T (VReal r')), (abs_wrappers T (VReal (RBin m e))), Hb. cbn [abs]. rewrite Habs. reflexivity.
  - (* character and useful strings *)
    apply Bool.andb_true_iff in Hs. destruct Hs as [Hk Hok].
    destruct (str_octets_ok n bo) as [[|]|] eqn:Eok; try discriminate.
    unfold known_string in Hk. apply Bool.andb_true_iff in Hk. destruct Hk as [Hk1 Hk2].
    destruct (lookup3 (KStr n) (enc_type_map ce)) as [[ec' ef]|] eqn:Ele; [|discriminate].
    destruct (lookup3 (KStr n) (dec_type_map cd)) as [[dc df]|] eqn:Eld; [|discriminate].
    destruct ec'; try discriminate. destruct dc; try discriminate.
    unfold concrete_encoder in Hce. cbn [key_of base_of] in Hce. rewrite Ele in Hce. inversion Hce; subst ec fl; clear Hce.
    destruct (enc_str_flag ce n ef Ele) as [Hsi _].
    cbn [enc_content] in Hcont.
    split; [discriminate|]. split; [intros _; exact Hsi|].
    destruct (enc_octets_like_cases _ _ _ _ Hcont) as [[-> ->]|(-> & pieces & ps & Hcat & HF & ->)].
    + apply (prim_goal cd d T _ _ (VOcts bo)); [|reflexivity].
      exact (leaf_ok_dec _ _ _ _ _ _ (leaf_string (ce0 ce) cd T n bo ef df Hb Eok
               ltac:(destruct ce; exact Ele) Eld)).
    + exists DcStr, df, (VOcts bo). split.
      { rewrite by_type_base, Hb. unfold by_type. cbn [key_of base_of]. rewrite Eld. reflexivity. }
      split; [reflexivity|].
      intros f0 t0 r Hc0 Hmax Hf.
      apply (chunked_octets_consumes cd f0 DcStr df T _ d bo pieces ps Hcd (or_intror eq_refl)
               (dec_str_flag cd n df Hcd Eld) (wire_true_not_simple t0 r)); try assumption.
      intros proto. unfold create. rewrite Hb, Eok. reflexivity.
Qed.

Lemma base_of_plain : forall T, match base_of T with TImp _ _ | TExp _ _ => False | _ => True end.
Proof.
  induction T as [| | | | | | | | n|fs IH|fs IH|t IH|t IH|alts IH| |tg x IH|tg x IH] using ty_ind'; try exact I; exact IH.
Qed.

Lemma tagset_shape_nz : forall T, tagged_base T = true -> wf_tags T = true ->
  exists t0 r b0, tagset_of (base_of T) = Ok [b0] /\ tagset_of T = Ok (t0 :: r) /\ tcon t0 = tcon b0
    /\ Forall explicit_like r /\ (length r + ty_depth (base_of T) <= ty_depth T)%nat
    /\ (t0 = b0 \/ tcls t0 <> Univ).
Proof.
  induction T as [| | | | | | | | n|fs IH|fs IH|t IH|t IH|alts IH| |tg x IH|tg x IH] using ty_ind';
    intros Hp Hw; try discriminate Hp;
    try (eexists; exists []; eexists; split; [reflexivity|split; [reflexivity|split; [reflexivity|split; [constructor|
           split; [cbn [length base_of]; lia|left; reflexivity]]]]]).
  - (* TImp *)
    cbn [wf_tags] in Hw. apply Bool.andb_true_iff in Hw. destruct Hw as [Hcl Hw].
    destruct (IH Hp Hw) as (t0 & r & b0 & Hb0 & Hts & Hc0 & Hex & Hd & Hnz).
    assert (Hnu: tcls tg <> Univ) by (destruct (tcls tg); try discriminate; cbn in Hcl; congruence).
    cbn [tagset_of base_of]. rewrite Hts. cbn [bind].
    destruct r as [|r1 r'].
    + exists (mkTag (tcls tg) (tcon t0) (tnum tg)), [], b0.
      split; [exact Hb0|]. split; [reflexivity|]. split; [exact Hc0|]. split; [constructor|].
      split; [cbn [ty_depth length] in *; lia|right; exact Hnu].
    + destruct (tag_implicitly_cons t0 (r1 :: r') tg) as (r2 & E & Hl & Hf); [discriminate|].
      exists t0, r2, b0. rewrite E. split; [exact Hb0|]. split; [reflexivity|]. split; [exact Hc0|]. split.
      * apply Hf; [exact Hex|exact Hnu].
      * split; [cbn [ty_depth]; lia|exact Hnz].
  - (* TExp *)
    cbn [wf_tags] in Hw. apply Bool.andb_true_iff in Hw. destruct Hw as [Hcl Hw].
    destruct (IH Hp Hw) as (t0 & r & b0 & Hb0 & Hts & Hc0 & Hex & Hd & Hnz).
    cbn [tagset_of base_of]. rewrite Hts. cbn [bind]. unfold tag_explicitly.
    assert (Hnu: tcls tg <> Univ) by (destruct (tcls tg); try discriminate; cbn in Hcl; congruence).
    exists t0, (r ++ [mkTag (tcls tg) true (tnum tg)]), b0.
    split; [exact Hb0|].
    split; [destruct (tcls tg); try reflexivity; congruence|].
    split; [exact Hc0|]. split.
    + apply Forall_app. split; [exact Hex|]. constructor; [|constructor]. split; [reflexivity|exact Hnu].
    + split; [rewrite app_length; cbn [length ty_depth]; lia|exact Hnz].
Qed.

Lemma base_tag_nz T b0 : tagset_of (base_of T) = Ok [b0] -> (forall n, base_of T = TStr n -> n <> 0) -> tnum b0 <> 0.
Proof.
  intros H Hn. pose proof (base_of_plain T) as Hp.
  destruct (base_of T) eqn:Hb; try contradiction; cbn [tagset_of] in H; inversion H; subst; cbn [utag tnum]; try discriminate.
  exact (Hn n eq_refl).
Qed.

Lemma frame_outer_len_m : forall r c d si sub b, frame_outer r c d si sub = Ok b ->
  (length sub + 2 * length r <= length b)%nat.
Proof.
  induction r as [|t r IH]; intros c d si sub b H; cbn [frame_outer] in H.
  - inversion H; subst. cbn [length]. lia.
  - destruct (frame_one t c d si sub) as [s1|e] eqn:E1; cbn [bind] in H; [|discriminate].
    specialize (IH _ _ _ _ _ H). destruct (frame_one_shape _ _ _ _ _ _ E1) as (l & e & -> & Hl).
    pose proof (enc_tag_nonempty t c). rewrite !app_length in IH. cbn [length]. lia.
Qed.

Lemma frame_modes_len_r t0 r content cns d k si b : frame (t0 :: r) content cns (mo d k) si = Ok b ->
  (length content + 2 + 2 * length r <= length b)%nat.
Proof.
  intros He. cbn [frame] in He. unfold mo in He. rewrite Bool.andb_false_r in He. cbn [o_def] in He.
  destruct (frame_one t0 cns (if cns then d else true) si content) as [s0|e] eqn:E0; cbn [bind] in He; [|discriminate].
  pose proof (frame_outer_len_m _ _ _ _ _ _ He) as Hl.
  destruct (frame_one_shape _ _ _ _ _ _ E0) as (l & e & -> & Hl0). pose proof (enc_tag_nonempty t0 cns).
  rewrite !app_length in Hl. lia.
Qed.

Lemma frame_modes_len t0 r content cns d k si b : Forall explicit_like r ->
  frame (t0 :: r) content cns (mo d k) si = Ok b -> (length content + 2 <= length b)%nat.
Proof. intros _ He. pose proof (frame_modes_len_r _ _ _ _ _ _ _ _ He). lia. Qed.

Lemma sort_setof_perm_self l : Permutation l (sort_setof l).
Proof.
  unfold sort_setof. destruct l as [|a [|b l]]; try apply Permutation_refl. apply ContainerCodecSort.sort_by_perm_self.
Qed.

Definition container_base (T: ty) : bool :=
  match base_of T with TSeq _ | TSet _ | TSeqOf _ | TSetOf _ => true | _ => false end.

(* SEQUENCE / SET / SEQUENCE OF / SET OF under any tagging: the tags, the encoder of the table, the
   contents it writes and their framing *)
Lemma container_frame_m ce d k T v b : stable ce d k -> container_base T = true -> wf_tags T = true ->
  enc_with ce (enc_content ce) T (mo d k) v = Ok b ->
  exists t0 r ec fl content cns,
    tagset_of T = Ok (t0 :: r) /\ Forall explicit_like r /\ (length r + ty_depth (base_of T) <= ty_depth T)%nat /\
    (tcls t0 <> Univ \/ tnum t0 <> 0) /\ tcon t0 = true /\
    concrete_encoder ce (base_of T) = Ok (ec, fl) /\ enc_content ce (base_of T) ec fl (mo d k) v = Ok (content, cns) /\
    frame (t0 :: r) content cns (mo d k) (ef_indef fl) = Ok b.
Proof.
  unfold container_base. intros Hst Hcb Hw He.
  assert (Htb: tagged_base T = true) by (unfold tagged_base; destruct (base_of T); try discriminate Hcb; reflexivity).
  destruct (tagset_shape_nz T Htb Hw) as (t0 & r & b0 & Hb0 & Hts & Hc0 & Hex & Hd & Hnz).
  assert (Hb0p: tcon b0 = true /\ tnum b0 <> 0).
  { destruct (base_of T); try discriminate Hcb; inversion Hb0; split; try reflexivity; discriminate. }
  destruct (enc_with_inv_g ce T d k v b Hst He) as (ec & fl & ts & content & cns & Hce & Hts' & Hcont & Hfr).
  rewrite Hts in Hts'. inversion Hts'; subst ts.
  rewrite concrete_encoder_base in Hce. rewrite enc_content_base in Hcont.
  exists t0, r, ec, fl, content, cns.
  split; [exact Hts|]. split; [exact Hex|]. split; [exact Hd|].
  split; [destruct Hnz as [-> | H]; [right; exact (proj2 Hb0p)|left; exact H]|].
  split; [rewrite Hc0; exact (proj1 Hb0p)|]. split; [exact Hce|]. split; [exact Hcont|exact Hfr].
Qed.

(* a simple type: the framing of its contents octets, and the value decoder on them *)
Lemma prim_frame_m ce cd d k T v b : stable ce d k -> dec_ok cd ->
  prim_base T = true -> wf_tags T = true ->
  (d = false -> six T = true -> forall t0 r, tagset_of T = Ok (t0 :: r) -> r = []) ->
  stage1_val ce cd T v = true -> enc_with ce (enc_content ce) T (mo d k) v = Ok b ->
  exists t0 r content cns si dcd dfl vdec,
    tagset_of T = Ok (t0 :: r) /\ Forall explicit_like r /\ (length r < ty_depth T)%nat /\
    (tcls t0 <> Univ \/ tnum t0 <> 0) /\ (d = false -> cns = true \/ r <> [] -> si = true) /\
    frame (t0 :: r) content cns (mo d k) si = Ok b /\
    by_type cd T = Some (dcd, dfl) /\ abs T vdec = abs T v /\
    forall f, N.of_nat (length content) <= index_max -> (length content + 2 <= f)%nat ->
      val_consumes cd f dcd dfl T (wire t0 cns :: r) d cns content vdec.
Proof.
  intros Hst Hcd Hp Hw Hf01 Hs He.
  destruct (enc_with_inv_g ce T d k v b Hst He) as (ec & fl & ts & content & cns & Hce & Hts' & Hcont & Hfr).
  assert (Htb: tagged_base T = true) by (unfold tagged_base, prim_base in *; destruct (base_of T); try discriminate Hp; reflexivity).
  destruct (tagset_shape_nz T Htb Hw) as (t0 & r & b0 & Hb0 & Hts & Hc0 & Hex & Hd & Hnz).
  rewrite Hts in Hts'. inversion Hts'; subst ts; clear Hts'.
  destruct (leaf_modes ce cd d k T v ec fl content cns Hcd Hs Hce Hcont) as (Hsix & Hnsix & dcd & dfl & vdec & Hby & Habs & Hval).
  assert (Hb0p: tcon b0 = false /\ tnum b0 <> 0).
  { split.
    - unfold prim_base in Hp. destruct (base_of T); try discriminate Hp; cbn [tagset_of] in Hb0; inversion Hb0; reflexivity.
    - apply (base_tag_nz T b0 Hb0). intros n Hbn. unfold stage1_val in Hs. rewrite Hbn in Hs.
      destruct v; try discriminate Hs. apply Bool.andb_true_iff in Hs. destruct Hs as [Hk _].
      unfold known_string in Hk. apply Bool.andb_true_iff in Hk. destruct Hk as [Hk _].
      destruct (lookup3 (KStr n) (enc_type_map ce)) as [[ec' ef]|] eqn:Ele; [|discriminate].
      destruct ec'; try discriminate. exact (proj2 (enc_str_flag ce n ef Ele)). }
  destruct Hb0p as [Hb0c Hb0n].
  exists t0, r, content, cns, (ef_indef fl), dcd, dfl, vdec.
  split; [exact Hts|]. split; [exact Hex|]. split.
  { assert (1 <= ty_depth (base_of T))%nat by (destruct (base_of T); cbn [ty_depth]; lia). lia. }
  split; [destruct Hnz as [-> | H]; [right; exact Hb0n|left; exact H]|]. split.
  { (* indefinite lengths: the six are never constructed, and carry a single tag (finding F01 otherwise) *)
    intros Hd0 Hor. destruct (six T) eqn:E6; [|exact (Hnsix eq_refl)].
    exfalso. specialize (Hsix eq_refl). destruct Hor as [Hc|Hr]; [congruence|].
    exact (Hr (Hf01 Hd0 eq_refl t0 r Hts)). }
  split; [exact Hfr|]. split; [exact Hby|]. split; [exact Habs|].
  intros f Hmax Hf. apply (Hval f t0 r); [congruence|exact Hmax|exact Hf].
Qed.

Lemma Forall2_elem_ae_count rec t parts xs' : Forall2 (elem_ok_ae rec t) parts xs' -> (length parts <= length (concat parts))%nat.
Proof.
  induction 1 as [|p x' parts xs' [_ Hpl] _ IH]; [cbn; lia|]. cbn [length concat]. rewrite app_length. lia.
Qed.

(* SEQUENCE OF / SET OF: the contents are the element encodings in the order the encoder leaves them in
   (sorted, for SET OF under CER and DER); the value decoder takes them one by one *)
Lemma listof_frame_m ce cd d k T' t xs b : stable ce d k -> dec_ok cd ->
  (base_of T' = TSeqOf t \/ base_of T' = TSetOf t) -> wf_tags T' = true ->
  enc_with ce (enc_content ce) T' (mo d k) (VList xs) = Ok b ->
  exists t0 r parts wparts dcd dfl,
    tagset_of T' = Ok (t0 :: r) /\ Forall explicit_like r /\ (length r + S (ty_depth t) <= ty_depth T')%nat /\
    (tcls t0 <> Univ \/ tnum t0 <> 0) /\
    enc_elems_g ce t (mo d k) xs = Ok parts /\ Permutation parts wparts /\
    (wparts = parts \/ (base_of T' = TSetOf t /\ ce <> BER)) /\
    frame (t0 :: r) (concat wparts) true (mo d k) true = Ok b /\
    by_type cd T' = Some (dcd, dfl) /\
    forall f ws', (length (concat wparts) < f)%nat -> Forall2 (elem_ok_ae (dec_call cd f) t) wparts ws' ->
      val_consumes cd f dcd dfl T' (wire t0 true :: r) d true (concat wparts) (VList ws').
Proof.
  intros Hst Hcd Hb Hw He.
  assert (Hcb: container_base T' = true) by (unfold container_base; destruct Hb as [-> | ->]; reflexivity).
  destruct (container_frame_m ce d k T' _ b Hst Hcb Hw He) as (t0 & r & ec & fl & content & cns & Hts & Hex & Hd & Hnz & Hcon & Hce & Hcont & Hfr).
  assert (Hdep: ty_depth (base_of T') = S (ty_depth t)) by (destruct Hb as [-> | ->]; reflexivity).
  assert (Hc': enc_content ce (base_of T') ec fl (mo d k) (VList xs) = (do parts <- enc_elems_g ce t (mo d k) xs; listof_finish ec parts))
    by (destruct Hb as [-> | ->]; reflexivity).
  rewrite Hc' in Hcont. clear Hc'.
  destruct (enc_elems_g ce t (mo d k) xs) as [parts|e] eqn:Eparts; cbn [bind] in Hcont; [|discriminate].
  assert (Hwire: exists wparts, content = concat wparts /\ cns = true /\ ef_indef fl = true /\ Permutation parts wparts
                   /\ (wparts = parts \/ (base_of T' = TSetOf t /\ ce <> BER))).
  { destruct ce; destruct Hb as [Hb|Hb]; rewrite Hb in Hce; vm_compute in Hce;
      inversion Hce; subst ec fl; clear Hce; cbn [listof_finish] in Hcont; inversion Hcont; subst content cns.
    - exists parts. repeat split; try apply Permutation_refl. left; reflexivity.
    - exists parts. repeat split; try apply Permutation_refl. left; reflexivity.
    - exists parts. repeat split; try apply Permutation_refl. left; reflexivity.
    - exists (sort_setof parts). repeat split; [apply sort_setof_perm_self|]. right. split; [exact Hb|discriminate].
    - exists parts. repeat split; try apply Permutation_refl. left; reflexivity.
    - exists (sort_setof parts). repeat split; [apply sort_setof_perm_self|]. right. split; [exact Hb|discriminate]. }
  destruct Hwire as (wparts & -> & -> & Hsi & Hperm & Hwhich). rewrite Hsi in Hfr.
  assert (Hby: exists dcd dfl, by_type cd T' = Some (dcd, dfl) /\ (dcd = DcSeqOf \/ dcd = DcSetOf)).
  { rewrite by_type_base. destruct Hcd as [-> | ->]; destruct Hb as [-> | ->]; eexists; eexists;
      (split; [vm_compute; reflexivity|]); (left; reflexivity) || (right; reflexivity). }
  destruct Hby as (dcd & dfl & Hby & Hdcd).
  exists t0, r, parts, wparts, dcd, dfl.
  split; [exact Hts|]. split; [exact Hex|]. split; [lia|]. split; [exact Hnz|]. split; [reflexivity|].
  split; [exact Hperm|]. split; [exact Hwhich|]. split; [exact Hfr|]. split; [exact Hby|].
  intros f ws' Hf HF.
  rewrite (wire_con t0 true Hcon).
  pose proof (Forall2_elem_ae_count _ _ _ _ HF) as Hcnt.
  unfold val_consumes. destruct d; cbn [andb negb].
  - assert (Hdv: dec_value (dec_call cd f) f dcd dfl (Some T') (t0 :: r) (Some (N.of_nat (length (concat wparts)))) false
                 = dec_listof (dec_call cd f) f T' t (Some (N.of_nat (length (concat wparts))))).
    { destruct Hdcd as [-> | ->]; cbn [dec_value tag0_cons]; rewrite Hcon; cbn [negb]; destruct Hb as [-> | ->]; reflexivity. }
    rewrite Hdv. apply dec_listof_consumes; [apply Forall2_elem_ok_of_ae; exact HF|lia].
  - assert (Hdv: dec_value (dec_call cd f) f dcd dfl (Some T') (t0 :: r) None false = dec_listof (dec_call cd f) f T' t None).
    { destruct Hdcd as [-> | ->]; cbn [dec_value tag0_cons]; rewrite Hcon; cbn [negb]; destruct Hb as [-> | ->]; reflexivity. }
    rewrite Hdv. destruct f as [|f']; [lia|].
    apply (dec_listof_indef_consumes (dec_call cd (S f')) (eoo_ok_call cd f' Hcd)); [exact HF|lia].
Qed.
