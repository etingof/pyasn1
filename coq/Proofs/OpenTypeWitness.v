(* Executable witnesses for the open-type model: non-vacuity of the C18 theorems and the classes
   where the property is refuted (F01, and the encoders before fixes/F50.diff and fixes/F51.diff). *)
From PV Require Import Model.Types Model.Proc Model.Enc Model.Dec Model.Obs Model.OpenType Proofs.OpenType.
Local Open Scope N_scope.

(* ---- the example in the docstring of OpenType (pyasn1/type/opentype.py): SEQUENCE { id INTEGER, blob ANY DEFINED BY id } ---- *)
Definition T1 := TSeq [(Req, TInt); (Req, TAny)].
Definition m1 : omap := [(VInt 1, TInt); (VInt 2, TOcts)].

Lemma ex_int_keyed :
  enc_open BER true 0 T1 1 (VRec [Some (VInt 1); None]) true [(TInt, VInt 12)] = Ok [48;6;2;1;1;2;1;12]
  /\ encode BER true 0 TInt (VInt 12) = Ok [2;1;12]
  /\ dec_open BER T1 0 1 m1 [] true [48;6;2;1;1;2;1;12]
     = Ok (DV (TSeq [(Req, TInt); (Req, TInt)]) (VRec [Some (VInt 1); Some (VInt 12)]), [])
  /\ dec_open BER T1 0 1 m1 [] false [48;6;2;1;1;2;1;12]
     = Ok (DV T1 (VRec [Some (VInt 1); Some (VAny [2;1;12])]), []).
Proof. repeat split; vm_compute; reflexivity. Qed.

(* unmapped governing value: the complete encoding stays, resolution on or off *)
Lemma ex_unmapped :
  resolve_type [] m1 (VInt 3) = None
  /\ dec_open BER T1 0 1 m1 [] true [48;6;2;1;3;2;1;12]
     = Ok (DV T1 (VRec [Some (VInt 3); Some (VAny [2;1;12])]), []).
Proof. split; vm_compute; reflexivity. Qed.

(* a caller-supplied map wins over the default one, and switches resolution on by itself *)
Lemma ex_override :
  resolve_type [(VInt 1, TOcts)] m1 (VInt 1) = Some TOcts
  /\ enc_open BER true 0 T1 1 (VRec [Some (VInt 1); None]) true [(TOcts, VOcts [12])] = Ok [48;6;2;1;1;4;1;12]
  /\ dec_open BER T1 0 1 m1 [(VInt 1, TOcts)] false [48;6;2;1;1;4;1;12]
     = Ok (DV (TSeq [(Req, TInt); (Req, TOcts)]) (VRec [Some (VInt 1); Some (VOcts [12])]), []).
Proof. repeat split; vm_compute; reflexivity. Qed.

(* OID-keyed map, explicitly tagged ANY in front of its governing member, constructed inner value, CER *)
Definition Tin2 := TSeq [(Req, TInt); (Req, TBool)].
(* an EXPLICIT tag is always constructed: [tag_explicitly] ignores the flag given to [mkTag], so the types written
   with [mkTag Ctx false n] in Proofs/OpenTypeRT.v are the same kind of type as this one *)
Definition T2 := TSeq [(Req, TExp (mkTag Ctx true 0) TAny); (Req, TOid)].
Definition m2 : omap := [(VOid [1;3;6;1;1], TStr 12); (VOid [1;3;6;1;2], Tin2)].
Definition wire2 : bytes := [48;128;160;128;48;128;2;1;5;1;1;255;0;0;0;0;6;4;43;6;1;2;0;0].

Lemma ex_oid_keyed_cer :
  enc_open CER true 0 T2 0 (VRec [None; Some (VOid [1;3;6;1;2])]) true [(Tin2, VRec [Some (VInt 5); Some (VBool true)])] = Ok wire2
  /\ encode CER true 0 Tin2 (VRec [Some (VInt 5); Some (VBool true)]) = Ok [48;128;2;1;5;1;1;255;0;0]
  /\ dec_open CER T2 1 0 m2 [] true wire2
     = Ok (DV (TSeq [(Req, Tin2); (Req, TOid)]) (VRec [Some (VRec [Some (VInt 5); Some (VBool true)]); Some (VOid [1;3;6;1;2])]), [])
  /\ dec_open CER T2 1 0 m2 [] false wire2
     = Ok (DV T2 (VRec [Some (VAny [48;128;2;1;5;1;1;255;0;0]); Some (VOid [1;3;6;1;2])]), []).
Proof. repeat split; vm_compute; reflexivity. Qed.

(* SET OF [3] IMPLICIT ANY member, DER: every element is wrapped, then resolved *)
Definition T5 := TSeq [(Req, TInt); (Req, TSetOf (TImp (mkTag Ctx false 3) TAny))].
Lemma ex_set_of_der :
  enc_open DER true 0 T5 1 (VRec [Some (VInt 1); None]) true [(TInt, VInt 256); (TInt, VInt 1)]
    = Ok [48;16;2;1;1;49;11;131;3;2;1;1;131;4;2;2;1;0]
  /\ dec_open DER T5 0 1 m1 [] true [48;16;2;1;1;49;11;131;3;2;1;1;131;4;2;2;1;0]
     = Ok (DV (TSeq [(Req, TInt); (Req, TSetOf TInt)]) (VRec [Some (VInt 1); Some (VList [VInt 1; VInt 256])]), []).
Proof. split; vm_compute; reflexivity. Qed.

(* SET with an explicitly tagged ANY member under DER: the SET encoder orders the members by the tag
   of the typed inner value (BOOLEAN before INTEGER), so these bytes are not those of the plain
   record encoder; resolution still returns the inner value *)
Definition T6 := TSet [(Req, TInt); (Req, TExp (mkTag Ctx true 3) TAny)].
Lemma ex_sorted_set_der :
  enc_open DER true 0 T6 1 (VRec [Some (VInt 1); None]) true [(TBool, VBool true)] = Ok [49;8;163;3;1;1;255;2;1;1]
  /\ encode DER true 0 T6 (VRec [Some (VInt 1); Some (VAny [1;1;255])]) = Ok [49;8;2;1;1;163;3;1;1;255]
  /\ dec_open DER T6 0 1 [(VInt 1, TBool)] [] true [49;8;163;3;1;1;255;2;1;1]
     = Ok (DV (TSet [(Req, TInt); (Req, TBool)]) (VRec [Some (VInt 1); Some (VBool true)]), []).
Proof. repeat split; vm_compute; reflexivity. Qed.

(* the premises of the theorems are satisfiable: instance of the record facts for the example *)
Lemma ex_premises :
  rec_fields T1 = Some [(Req, TInt); (Req, TAny)] /\ is_any TAny = true /\ gov_ok TInt (VInt 1) = true
  /\ holds_blob TAny TInt = false /\ no_eoo_prefix [2;1;12] = true
  /\ (exists ce, concrete_encoder BER T1 = Ok ce /\ sorts_members (fst ce) = false).
Proof.
  repeat match goal with |- _ /\ _ => split end;
    match goal with
    | |- exists _, _ => eexists; split; [vm_compute; reflexivity | vm_compute; reflexivity]
    | |- _ => vm_compute; reflexivity
    end.
Qed.

(* ---- F01 (open, pinned): an EXPLICIT tag over a primitive in indefinite mode ---- *)
Definition Tx := TExp (mkTag Ctx true 1) TInt.
Definition m7 : omap := [(VInt 5, Tx)].

(* the round-trip premise fails for such an inner type: two octets are left over *)
Lemma f01_inner_roundtrip_fails : ~ roundtrips BER false 0 Tx.
Proof.
  intros RT. destruct (RT (VInt 5) [161;3;2;1;5;0;0] eq_refl) as [v' [H _]].
  vm_compute in H. discriminate.
Qed.

(* and the open record built from it does not come back: the record ends early, its own
   end-of-octets marker is left over, with resolution on and off *)
Lemma f01_open_record :
  exists wire, enc_open BER false 0 T1 1 (VRec [Some (VInt 5); None]) true [(Tx, VInt 5)] = Ok wire
  /\ f01_top Tx = true
  /\ (exists d, dec_open BER T1 0 1 m7 [] true wire = Ok (d, [0;0]))
  /\ (exists vs', dec_open BER T1 0 1 m7 [] false wire = Ok (DV T1 (VRec vs'), [0;0])
                 /\ nth 1 vs' None = Some (VAny [161;3;2;1;5])
                 /\ encode BER false 0 Tx (VInt 5) = Ok [161;3;2;1;5;0;0]).
Proof.
  eexists. split; [vm_compute; reflexivity|]. split; [vm_compute; reflexivity|]. split.
  - eexists. vm_compute. reflexivity.
  - eexists. split; [vm_compute; reflexivity|]. split; vm_compute; reflexivity.
Qed.

(* ---- F50 (repaired by fixes/F50.diff): tag sets alone decided that a component needs no wrapping ---- *)
Definition Ti50 := TImp (mkTag Ctx false 3) TInt.
Definition T50 := TSeq [(Req, TInt); (Req, TExp (mkTag Ctx true 3) TAny)].
(* what the unrepaired encoder emitted: the inner encoding in the place of the member, unwrapped *)
Definition T50_unwrapped := TSeq [(Req, TInt); (Req, Ti50)].

Lemma f50_unrepaired_refuted :
  f50_class (TExp (mkTag Ctx true 3) TAny) Ti50 = true
  /\ encode BER true 0 Ti50 (VInt 5) = Ok [131;1;5]
  /\ encode BER true 0 T50_unwrapped (VRec [Some (VInt 6); Some (VInt 5)]) = Ok [48;6;2;1;6;131;1;5]
  (* the member then holds the contents octets only, not the complete encoding *)
  /\ dec_open BER T50 0 1 [(VInt 6, Ti50)] [] false [48;6;2;1;6;131;1;5]
     = Ok (DV T50 (VRec [Some (VInt 6); Some (VAny [5])]), [])
  (* and resolution fails *)
  /\ dec_open BER T50 0 1 [(VInt 6, Ti50)] [] true [48;6;2;1;6;131;1;5] = Err EEndOfStream.
Proof. repeat split; vm_compute; reflexivity. Qed.

Lemma f50_repaired :
  holds_blob (TExp (mkTag Ctx true 3) TAny) Ti50 = false
  /\ enc_open BER true 0 T50 1 (VRec [Some (VInt 6); None]) true [(Ti50, VInt 5)] = Ok [48;8;2;1;6;163;3;131;1;5]
  /\ dec_open BER T50 0 1 [(VInt 6, Ti50)] [] true [48;8;2;1;6;163;3;131;1;5]
     = Ok (DV (TSeq [(Req, TInt); (Req, Ti50)]) (VRec [Some (VInt 6); Some (VInt 5)]), [])
  /\ dec_open BER T50 0 1 [(VInt 6, Ti50)] [] false [48;8;2;1;6;163;3;131;1;5]
     = Ok (DV T50 (VRec [Some (VInt 6); Some (VAny [131;1;5])]), []).
Proof. repeat split; vm_compute; reflexivity. Qed.

(* ---- F51 (repaired by fixes/F51.diff): CER/DER SET, elements of an open SEQUENCE OF [3] ANY not wrapped ---- *)
Definition T51 := TSet [(Req, TInt); (Req, TSeqOf (TExp (mkTag Ctx true 3) TAny))].
Definition T51_unwrapped := TSet [(Req, TInt); (Req, TSeqOf TOcts)].

Lemma f51_unrepaired_refuted :
  encode DER true 0 T51_unwrapped (VRec [Some (VInt 2); Some (VList [VOcts [97]])]) = Ok [49;8;2;1;2;48;3;4;1;97]
  /\ dec_open DER T51 0 1 [(VInt 2, TOcts)] [] false [49;8;2;1;2;48;3;4;1;97] = Err EMalformed.
Proof. split; vm_compute; reflexivity. Qed.

Lemma f51_repaired :
  enc_open DER true 0 T51 1 (VRec [Some (VInt 2); None]) true [(TOcts, VOcts [97])] = Ok [49;10;2;1;2;48;5;163;3;4;1;97]
  /\ dec_open DER T51 0 1 [(VInt 2, TOcts)] [] true [49;10;2;1;2;48;5;163;3;4;1;97]
     = Ok (DV (TSet [(Req, TInt); (Req, TSeqOf TOcts)]) (VRec [Some (VInt 2); Some (VList [VOcts [97]])]), []).
Proof. split; vm_compute; reflexivity. Qed.
