(* The streaming decoder's header reading (one octet per read) computes the pure functions
   dec_ident / dec_len of Model/Tag.v on a stream that holds the octets. *)
From Coq Require Import Lia.
From PV Require Import Base.Bytes Model.Tag Model.Types Model.Proc Model.Enc Model.Dec
     Proofs.ProcBind Proofs.RunLemmas Proofs.TagOctets.
Local Open Scope N_scope.

Lemma run_read1 s o r : avail s = o :: r -> resume read1 s = inr (Ok o, adv s 1).
Proof.
  intros Hav. unfold read1, readN. cbn [pbind].
  rewrite (resume_ReadN s 1 [o] r) by (rewrite ?Hav; reflexivity). reflexivity.
Qed.

Lemma resume_read1 {A} s o r (f: N -> proc A) : avail s = o :: r ->
  resume (pbind read1 f) s = resume (f o) (adv s 1).
Proof. intros Hav. exact (resume_pbind_done _ _ _ _ _ (run_read1 s o r Hav)). Qed.

Lemma b128_rest_lt : forall b acc n r, dec_b128 acc b = Some (n, r) -> (length r < length b)%nat.
Proof.
  induction b as [|x b IH]; intros acc n r Hd; [cbn in Hd; discriminate|].
  cbn [dec_b128] in Hd. destruct (N.eqb (N.land x 128) 0).
  - inversion Hd; subst. cbn. lia.
  - specialize (IH _ _ _ Hd). cbn. lia.
Qed.

(* the long-form tag number loop follows dec_b128 *)
Lemma resume_long_tag {A} : forall k (b: bytes) cl fm acc n r s (g: tag -> proc A),
  dec_b128 acc b = Some (n, r) -> avail s = b -> (length b - length r <= k)%nat ->
  resume (pbind (long_tag cl fm k acc) g) s = resume (g (mkTag cl fm n)) (adv s (length b - length r)).
Proof.
  induction k as [|k IH]; intros b cl fm acc n r s g Hd Hav Hlen.
  - pose proof (b128_rest_lt _ _ _ _ Hd). lia.
  - destruct b as [|o b']; [cbn in Hd; discriminate|].
    cbn [long_tag]. rewrite (resume_pbind_assoc _ _ _ _ _ _ (run_read1 s o b' Hav)).
    cbn [dec_b128] in Hd.
    destruct (N.eqb (N.land o 128) 0) eqn:E.
    + inversion Hd; subst; clear Hd. cbn [pbind]. cbn [length].
      replace (S (length r) - length r)%nat with 1%nat by lia. reflexivity.
    + pose proof (b128_rest_lt _ _ _ _ Hd) as Hr.
      rewrite (IH b' cl fm _ n r (adv s 1) g Hd (avail_cons_adv _ _ _ Hav)) by (cbn [length] in Hlen; lia).
      rewrite adv_adv. f_equal. f_equal. cbn [length]. lia.
Qed.

(* read_tag on a stream holding identifier octets: what dec_ident computes *)
Lemma resume_read_tag {A} : forall fuel b t r s (g: tag -> proc A),
  dec_ident b = Some (t, r) -> avail s = b -> (length b - length r <= S fuel)%nat ->
  resume (pbind (read_tag fuel) g) s = resume (g t) (adv s (length b - length r)).
Proof.
  intros fuel b t r s g Hd Hav Hlen. destruct b as [|o b']; [cbn in Hd; discriminate|].
  unfold read_tag. rewrite (resume_pbind_assoc _ _ _ _ _ _ (run_read1 s o b' Hav)).
  cbn [dec_ident] in Hd. cbv zeta in Hd. cbv zeta.
  destruct (N.eqb (N.land o 31) 31) eqn:E.
  - destruct (dec_b128 0 b') as [[num r']|] eqn:Hb; [|discriminate].
    inversion Hd; subst; clear Hd.
    pose proof (b128_rest_lt _ _ _ _ Hb) as Hr.
    rewrite (resume_long_tag fuel b' _ _ 0 num r (adv s 1) g Hb (avail_cons_adv _ _ _ Hav)) by (cbn [length] in Hlen; lia).
    rewrite adv_adv. f_equal. f_equal. cbn [length]. lia.
  - inversion Hd; subst; clear Hd. cbn [pbind length].
    replace (S (length r) - length r)%nat with 1%nat by lia. reflexivity.
Qed.

(* read_length on a stream holding length octets: what dec_len computes *)
Lemma resume_read_length {A} : forall c b ol r s (g: option N -> proc A),
  dec_len b = Some (ol, r) -> avail s = b -> (ol = None -> support_indef c = true) ->
  resume (pbind (read_length c) g) s = resume (g ol) (adv s (length b - length r)).
Proof.
  intros c b ol r s g Hd Hav Hind. destruct b as [|o b']; [cbn in Hd; discriminate|].
  unfold read_length. rewrite (resume_pbind_assoc _ _ _ _ _ _ (run_read1 s o b' Hav)).
  rewrite dec_len_cons in Hd.
  destruct (N.ltb o 128) eqn:E1.
  - inversion Hd; subst; clear Hd. cbn [pbind length].
    replace (S (length r) - length r)%nat with 1%nat by lia. reflexivity.
  - destruct (N.eqb o 128) eqn:E2.
    + inversion Hd; subst; clear Hd. rewrite (Hind eq_refl). cbn [pbind length].
      replace (S (length r) - length r)%nat with 1%nat by lia. reflexivity.
    + cbv zeta in Hd.
      destruct (Nat.ltb_spec (length b') (N.to_nat (N.land o 127))) as [Hs|Hs]; [discriminate|].
      inversion Hd; subst; clear Hd.
      assert (Hsplit: b' = firstn (N.to_nat (N.land o 127)) b' ++ skipn (N.to_nat (N.land o 127)) b') by (symmetry; apply firstn_skipn).
      rewrite (resume_pbind_assoc _ _ _ (adv s 1) (firstn (N.to_nat (N.land o 127)) b') (adv (adv s 1) (N.to_nat (N.land o 127)))).
      2:{ unfold readN. rewrite (resume_ReadN (adv s 1) _ (firstn (N.to_nat (N.land o 127)) b') (skipn (N.to_nat (N.land o 127)) b')).
          - reflexivity.
          - rewrite (avail_cons_adv _ _ _ Hav). exact Hsplit.
          - apply firstn_length_le. exact Hs. }
      cbn [pbind]. rewrite adv_adv. f_equal. f_equal. cbn [length]. rewrite skipn_length. lia.
Qed.
