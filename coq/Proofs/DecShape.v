(* The shape of [dispatch] (Model/Dec.v), for every proof that walks through the decoder: it comes to
   a refusal, to the decoder of an EXPLICIT tag, or to the payload decoder of a class - chosen by the
   tag when there is no specification, by the type, or by the type the tag map gives - and around
   either decoder stands the check of a definite length ([run_value]). *)
From PV Require Import Base.Bytes Model.Tag Model.Types Model.TableTypes Model.Proc Model.Enc Model.Dec.
Local Open Scope N_scope.

Definition run_value (len: option N) (k: proc dval) : proc dval :=
  match len with
  | None => k
  | Some l => let! p0 := tell in let! v := k in let! p1 := tell in
              if N.eqb (N.of_nat (p1 - p0)) l then Ret v else Raise EMalformed
  end.

(* the tag map refuses in one way only *)
Lemma tm_get_err m ts e : tm_get m ts = Err e -> e = EMalformed.
Proof.
  unfold tm_get. destruct (tm_postponed m); [congruence|]. destruct (tm_find ts (tm_present m)); [discriminate|].
  destruct (tm_default m); [|discriminate]. destruct (tm_mem ts (tm_skip m)); congruence.
Qed.

Lemma dispatch_cases (G: proc dval -> Prop) c rec lf sp ts len sfun :
  G (Raise EMalformed) ->
  G (run_value len (dec_raw rec lf sp ts len sfun)) ->
  (forall cd fl osp,
     match sp with
     | SNone => osp = None
     | STy T => osp = Some T /\ by_type c T = Some (cd, fl)
     | SMap m => exists T, osp = Some T /\ tm_get m ts = Ok (Some T) /\ by_type c T = Some (cd, fl)
     end -> G (run_value len (dec_value rec lf cd fl osp ts len sfun))) ->
  G (dispatch c rec lf sp ts len sfun).
Proof.
  intros Herr Hraw Hval. unfold dispatch. cbv zeta.
  set (fail := match match ts with [] => None | t :: _ => _ end with Some k => _ | None => Raise EMalformed end).
  assert (Hfail: G fail).
  { subst fail. destruct ts as [|t r]; [exact Herr|].
    destruct (tcon t && negb (cls_eqb (tcls t) Univ))%bool; [exact Hraw|exact Herr]. }
  clearbody fail. destruct sp as [|T|m].
  - destruct (by_tag c ts) as [[cd fl]|]; [apply Hval; reflexivity|].
    destruct (by_tag c (firstn 1 ts)) as [[cd fl]|]; [apply Hval; reflexivity|exact Hfail].
  - destruct (tagset_eqb ts (tagset_of' T) || tm_contains (tagmap_of T) ts)%bool; [|exact Hfail].
    destruct (tm_postponed (tagmap_of T)); [exact Herr|].
    destruct (by_type c T) as [[cd fl]|] eqn:Eb; [apply Hval; auto|exact Hfail].
  - destruct (tm_get m ts) as [[T|]|e] eqn:Eg; cbn [lift pbind]; [|exact Hfail|].
    + destruct (by_type c T) as [[cd fl]|] eqn:Eb; [apply Hval; eauto|exact Hfail].
    + rewrite (tm_get_err _ _ _ Eg). exact Herr.
Qed.
