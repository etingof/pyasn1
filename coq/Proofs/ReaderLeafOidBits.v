(* The OBJECT IDENTIFIER (8.19) and BIT STRING (8.6) readers of the independent X.690 reference
   (Spec/X690.v) invert its writers.  For BIT STRING the reference's reader is run on the contents
   octets the model writes ([bits_octets], Model/Enc.v), which are the reference's; the octets of a
   bit string are those of an octet-aligned prefix followed by those of the rest (what segmenting a
   BIT STRING relies on). *)
From Coq Require Import Lia NArith ZArith ZifyNat ZifyN.
From PV Require Import Base.Bytes Model.Tag Model.Enc Model.Dec Spec.X690
     Proofs.Bits Proofs.TagOctets Proofs.SpecOctets Proofs.LeafInt Proofs.LeafOidBits Proofs.DerReference.
Local Open Scope N_scope.

Lemma digits128_head : forall f n, (N.size_nat n <= f)%nat ->
  exists d r, digits f 128 n = d :: r /\ (n <> 0 -> d <> 0).
Proof.
  induction f as [|f IH]; intros n Hf.
  - assert (n = 0) as -> by (apply size_nat_0; lia). cbn [digits].
    exists 0, []. split; [reflexivity|]. intros H; exact H.
  - cbn [digits]. destruct (N.ltb_spec n 128) as [Hs|Hl].
    + exists n, []. split; [reflexivity|]. intros H; exact H.
    + assert (Hn: n <> 0) by lia.
      pose proof (size_nat_div n 7 Hn eq_refl) as Hd. change (2 ^ 7) with 128 in Hd.
      destruct (IH (n / 128)) as (d & r & E & Hnz); [lia|].
      rewrite E. exists d, (r ++ [n mod 128]). split; [reflexivity|].
      intros _. apply Hnz.
      intros Hq. apply N.div_small_iff in Hq; lia.
Qed.

Lemma digits_of_128_head n : exists d r, digits_of 128 n = d :: r /\ (n <> 0 -> d <> 0).
Proof. unfold digits_of. apply digits128_head. lia. Qed.

Lemma subids_digits : forall ds f acc fresh rest,
  ds <> [] -> Forall (fun d => d < 128) ds ->
  (fresh = true -> (exists d, ds = [d]) \/ hd 0 ds <> 0) ->
  subids (length ds + f) acc fresh (mark_continuation ds ++ rest) =
  opt_bind (subids f 0 true rest) (fun l => Some (val128 acc ds :: l)).
Proof.
  induction ds as [|d ds IH]; intros f acc fresh rest Hne Hall Hfr; [congruence|].
  inversion Hall as [|? ? Hd Hall']; subst.
  destruct ds as [|e ds'].
  - cbn [mark_continuation app length Nat.add subids val128].
    destruct (N.eqb_spec d 128) as [Hc|_]; [lia|]. rewrite Bool.andb_false_r.
    destruct (N.ltb_spec d 128) as [_|Hc]; [reflexivity|lia].
  - rewrite mark_continuation_cons2.
    change (length (d :: e :: ds') + f)%nat with (S (length (e :: ds') + f)).
    cbn [app subids].
    assert (Hfn: (fresh && N.eqb (128 + d) 128)%bool = false).
    { destruct fresh; [|reflexivity]. cbn [andb].
      destruct (N.eqb_spec (128 + d) 128) as [Hc|_]; [|reflexivity].
      destruct (Hfr eq_refl) as [(x & Hx)|Hh]; [discriminate|].
      cbn [hd] in Hh. lia. }
    rewrite Hfn.
    destruct (N.ltb_spec (128 + d) 128) as [Hc|_]; [lia|].
    replace (128 + d - 128) with d by lia.
    change (val128 acc (d :: e :: ds')) with (val128 (acc * 128 + d) (e :: ds')).
    apply IH; [discriminate|exact Hall'|discriminate].
Qed.

Lemma subid_octets_length_pos n : (1 <= length (subid_octets n))%nat.
Proof.
  unfold subid_octets. rewrite mark_continuation_length.
  destruct (digits_of_128_head n) as (d & r & E & _). rewrite E. cbn [length]. lia.
Qed.

Lemma subids_subid_octets n f fresh rest :
  subids (length (subid_octets n) + f) 0 fresh (subid_octets n ++ rest) =
  opt_bind (subids f 0 true rest) (fun l => Some (n :: l)).
Proof.
  unfold subid_octets. rewrite mark_continuation_length.
  destruct (digits_of_128_value n) as [Hall Hval].
  destruct (digits_of_128_head n) as (d & r & E & Hnz).
  rewrite subids_digits.
  - rewrite Hval. reflexivity.
  - rewrite E. discriminate.
  - exact Hall.
  - intros _. rewrite E. cbn [hd].
    destruct (N.eq_dec n 0) as [Hz|Hn]; [|right; apply Hnz; exact Hn].
    left. subst n. exists 0. vm_compute in E. inversion E. reflexivity.
Qed.

Lemma subids_fuel_mono : forall b f acc fresh k, (length b <= f)%nat ->
  subids (f + k) acc fresh b = subids f acc fresh b.
Proof.
  induction b as [|o r IH]; intros f acc fresh k Hf.
  - destruct (f + k)%nat; destruct f; reflexivity.
  - destruct f as [|f]; [cbn [length] in Hf; lia|].
    cbn [Nat.add subids]. cbn [length] in Hf.
    rewrite !(IH f) by lia. reflexivity.
Qed.

Theorem subids_concat : forall (l: list N) (f: nat),
  (length (concat (map subid_octets l)) <= f)%nat ->
  subids f 0 true (concat (map subid_octets l)) = Some l.
Proof.
  induction l as [|n l IH]; intros f Hf.
  - cbn [map concat]. destruct f; reflexivity.
  - cbn [map concat] in *. rewrite app_length in Hf.
    replace f with (length (subid_octets n) + (f - length (subid_octets n)))%nat by lia.
    rewrite subids_subid_octets, IH by lia. reflexivity.
Qed.

Theorem oid_value_oid_contents : forall (arcs: list N) (c: bytes),
  oid_contents arcs = Some c -> oid_value c = Some arcs.
Proof.
  intros arcs c H. unfold oid_contents in H.
  destruct arcs as [|a1 [|a2 rest]]; try discriminate.
  destruct (N.leb a1 2 && (N.eqb a1 2 || N.leb a2 39))%bool eqn:G; [|discriminate].
  assert (Hc: c = concat (map subid_octets (40 * a1 + a2 :: rest))) by congruence.
  clear H. subst c.
  unfold oid_value. rewrite subids_concat by lia.
  apply Bool.andb_true_iff in G. destruct G as [G1 G2].
  apply N.leb_le in G1. apply Bool.orb_true_iff in G2.
  assert (G3: a1 = 2 \/ a2 <= 39).
  { destruct G2 as [G2|G2]; [left; apply N.eqb_eq in G2; exact G2|right; apply N.leb_le in G2; exact G2]. }
  clear G2.
  destruct (N.ltb_spec (40 * a1 + a2) 40) as [L1|L1].
  - assert (a1 = 0) by lia. subst a1. replace (40 * 0 + a2) with a2 by lia. reflexivity.
  - destruct (N.ltb_spec (40 * a1 + a2) 80) as [L2|L2].
    + assert (a1 = 1) by lia. subst a1. replace (40 * 1 + a2 - 40) with a2 by lia. reflexivity.
    + assert (a1 = 2) as -> by lia.
      replace (40 * 2 + a2 - 80) with a2 by lia. reflexivity.
Qed.

Example oid_value_oid_contents_ex1 :
  oid_contents [2; 999; 3] = Some [136; 55; 3] /\ oid_value [136; 55; 3] = Some [2; 999; 3].
Proof. vm_compute. split; reflexivity. Qed.

Example oid_value_oid_contents_ex2 :
  oid_contents [1; 2; 840; 113549] = Some [42; 134; 72; 134; 247; 13] /\
  oid_value [42; 134; 72; 134; 247; 13] = Some [1; 2; 840; 113549].
Proof. vm_compute. split; reflexivity. Qed.

(* the leading-0x80 rule is really exercised: a padded subidentifier is refused *)
Example oid_value_leading_80 : oid_value [42; 128; 1] = None.
Proof. vm_compute. reflexivity. Qed.

Lemma mod2_eqb_odd n : N.eqb (n mod 2) 1 = N.odd n.
Proof.
  pose proof (N.bit0_mod n) as H. rewrite N.bit0_odd in H.
  destruct (N.odd n); cbn [N.b2n] in H; rewrite <- H; reflexivity.
Qed.

Lemma bits_of_N_is_N_to_bits k : forall n, bits_of_N k n = N_to_bits k n.
Proof.
  induction k as [|k IH]; intros n; cbn [bits_of_N N_to_bits]; [reflexivity|].
  rewrite IH, mod2_eqb_odd. reflexivity.
Qed.

Lemma bits_of_octets_spec_is_octets_to_bits b : bits_of_octets_spec b = octets_to_bits b.
Proof.
  unfold bits_of_octets_spec, octets_to_bits. f_equal.
  apply map_ext. intros a. apply bits_of_N_is_N_to_bits.
Qed.

Lemma bits_of_octets_spec_bits_octets bs :
  bits_of_octets_spec (bits_octets bs) = bs ++ repeat false (pad_of (length bs)).
Proof.
  rewrite bits_of_octets_spec_is_octets_to_bits. unfold bits_octets. cbv zeta.
  set (p := pad_of (length bs)). set (padded := bs ++ repeat false p).
  assert (HL: length padded = (length bs + p)%nat)
    by (subst padded; rewrite app_length, repeat_length; reflexivity).
  assert (H8: (8 * (length padded / 8) = length padded)%nat).
  { rewrite HL. pose proof (pad_aligned (length bs)) as Ha. fold p in Ha. lia. }
  rewrite octets_to_bits_be_bytes, H8. apply N_to_bits_bits_to_N.
Qed.

Theorem bits_read_back : forall (bs: list bool),
  exists c, bitstring_contents bs = N.of_nat (pad_of (length bs)) :: c
         /\ bits_of_octets_spec c = bs ++ repeat false (pad_of (length bs))
         /\ length c = ((length bs + pad_of (length bs)) / 8)%nat.
Proof.
  intros bs. exists (bits_octets bs). split; [|split].
  - rewrite bitstring_contents_is_enc_bits_prim. reflexivity.
  - apply bits_of_octets_spec_bits_octets.
  - apply bits_octets_length.
Qed.

Example bits_read_back_ex :
  let bs := [true; false; true; true; false; false; true; false; true; true] in
  bitstring_contents bs = [6; 178; 192] /\
  bits_of_octets_spec [178; 192] = bs ++ repeat false 6 /\ pad_of (length bs) = 6%nat.
Proof. vm_compute. split; [|split]; reflexivity. Qed.

Corollary bits_join_single : forall bs, exists u c,
  bitstring_contents bs = u :: c /\ N.ltb 7 u = false /\
  join_bit_segments [(bits_of_octets_spec c, u)] = Some bs.
Proof.
  intros bs. destruct (bits_read_back bs) as (c & Hc & Hb & _).
  exists (N.of_nat (pad_of (length bs))), c. split; [exact Hc|].
  pose proof (pad_of_lt (length bs)) as Hp. split.
  - apply N.ltb_ge. lia.
  - cbn [join_bit_segments]. rewrite Hb, Nat2N.id, app_length, repeat_length.
    destruct (Nat.ltb_spec (length bs + pad_of (length bs)) (pad_of (length bs))) as [Hc'|_]; [lia|].
    replace (length bs + pad_of (length bs) - pad_of (length bs))%nat with (length bs) by lia.
    rewrite firstn_app_exact. reflexivity.
Qed.

Example bits_join_single_ex :
  let bs := [true; false; true; true; false; false; true; false; true; true] in
  bitstring_contents bs = [6; 178; 192] /\
  join_bit_segments [(bits_of_octets_spec [178; 192], 6)] = Some bs.
Proof. vm_compute. split; reflexivity. Qed.

Lemma be_bytes_app : forall k j x y, y < 256 ^ N.of_nat k ->
  be_bytes (j + k) (x * 256 ^ N.of_nat k + y) = be_bytes j x ++ be_bytes k y.
Proof.
  induction k as [|k IH]; intros j x y Hy.
  - change (256 ^ N.of_nat 0) with 1 in *. assert (y = 0) by lia. subst y.
    rewrite Nat.add_0_r, N.mul_1_r, N.add_0_r. cbn [be_bytes]. rewrite app_nil_r. reflexivity.
  - rewrite Nat.add_succ_r. cbn [be_bytes]. rewrite pow256_succ in *.
    assert (Hq: y / 256 < 256 ^ N.of_nat k) by (apply N.div_lt_upper_bound; lia).
    replace (x * (256 * 256 ^ N.of_nat k) + y) with (y + (x * 256 ^ N.of_nat k) * 256) by lia.
    rewrite N.div_add, N.mod_add by discriminate.
    rewrite (N.add_comm (y / 256)), (IH j x (y / 256) Hq), app_assoc. reflexivity.
Qed.

Lemma bits_value_lt l : bits_value l < 2 ^ N.of_nat (length l).
Proof.
  induction l as [|b l IH]; [cbn; lia|].
  cbn [bits_value length]. rewrite Nat2N.inj_succ, N.pow_succ_r'. destruct b; lia.
Qed.

Lemma pad_of_0 n : (n mod 8 = 0)%nat -> pad_of n = 0%nat.
Proof. unfold pad_of. lia. Qed.

Lemma pad_of_add a b : (a mod 8 = 0)%nat -> pad_of (a + b) = pad_of b.
Proof. unfold pad_of. lia. Qed.

Theorem bits_octets_app : forall a b, (length a mod 8 = 0)%nat ->
  bits_octets (a ++ b) = bits_octets a ++ bits_octets b.
Proof.
  intros a b Ha. unfold bits_octets. cbv zeta.
  rewrite (app_length a b), (pad_of_add _ _ Ha), (pad_of_0 _ Ha).
  cbn [repeat]. rewrite (app_nil_r a), <- app_assoc.
  set (pb := b ++ repeat false (pad_of (length b))).
  assert (Hpb: (length pb mod 8 = 0)%nat).
  { subst pb. rewrite app_length, repeat_length. apply pad_aligned. }
  rewrite app_length.
  replace ((length a + length pb) / 8)%nat with (length a / 8 + length pb / 8)%nat by lia.
  rewrite bits_to_N_app, bits_to_N_value, (bits_to_N_is_bits_value pb).
  pose proof (bits_value_lt pb) as Hlt.
  replace (N.of_nat (length pb)) with (8 * N.of_nat (length pb / 8)) in * by lia.
  rewrite N.pow_mul_r in *. apply be_bytes_app. exact Hlt.
Qed.

Example bits_octets_app_ex :
  let a := [true; false; true; true; false; false; true; false] in
  let b := [true; true; false] in
  bits_octets (a ++ b) = [178; 192] /\ bits_octets a = [178] /\ bits_octets b = [192].
Proof. vm_compute. split; [|split]; reflexivity. Qed.

(* alignment is needed: an unaligned prefix is padded on its own *)
Example bits_octets_app_unaligned :
  bits_octets ([true] ++ [true]) <> bits_octets [true] ++ bits_octets [true].
Proof. vm_compute. discriminate. Qed.

Print Assumptions subids_concat.
Print Assumptions oid_value_oid_contents.
Print Assumptions bits_read_back.
Print Assumptions bits_join_single.
Print Assumptions bits_octets_app.
