(* Totality facts about runs of the decoder model on closed streams. *)
From PV Require Import Base.Bytes Model.Proc Model.Types Model.Enc Model.Dec Proofs.ProcSim.

Lemma decoder_finishes : forall c fuel sp (b: bytes),
  exists r s', resume (guard EUnclean (dec_item c fuel sp)) (mkStream b 0 true 0) = inr (r, s').
Proof.
  intros c fuel sp b. apply closed_no_suspend; [apply guard_clean|reflexivity].
Qed.

(* reads get all their octets or end the run, seeks only go back: the position stays within the input *)
Lemma run_position_bounded : forall (A: Type) (p: proc A) b r s',
  clean p -> resume p (mkStream b 0 true 0) = inr (r, s') -> pos s' <= length b.
Proof.
  intros A p b r s' _ H. destruct (resume_frame p (mkStream b 0 true 0)) as (_ & _ & Hle).
  rewrite H in Hle. exact (Hle (Nat.le_0_l _)).
Qed.
