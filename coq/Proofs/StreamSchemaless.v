(* The streaming properties (C05, C06) of decoding WITHOUT a guiding type (schemaless, C16), for the stage-1
   values of self-describing types (SchemalessRT.v): the consuming run provided by [leaf_consumes] is a
   clean run by StreamStage2.consumes_clean_dec_item, whatever the specification. *)
From Coq Require Import Lia.
From PV Require Import Base.Bytes Model.Tag Model.TableTypes Model.Types Model.Proc Model.Enc Model.Dec Gen.Tables
     Proofs.DecFrame Proofs.TagsetShape Proofs.RoundTrip1 Proofs.RoundTripModesC Proofs.SchemalessRT
     Proofs.ProcSim Proofs.ProcSched Proofs.DecStream Proofs.StreamStage2.
Local Open Scope N_scope.

Theorem schemaless_stage1_consumes_clean : forall ce cd T v b,
  enc_ok ce -> univ_explicit T = true -> stage1_val ce cd T v = true ->
  encode ce true 0 T v = Ok b -> N.of_nat (length b) <= index_max ->
  (0 < length b)%nat /\ exists vdec, abs (sl_ty T) vdec = abs T v /\
    forall fuel, (2 * length b + 2 <= fuel)%nat -> consumes_clean (dec_item cd fuel None) b (DV (sl_ty T) vdec).
Proof.
  intros ce cd T v b Hce Hue Hs He Hmax.
  assert (Hst: stable ce true 0) by (destruct Hce as [-> | ->]; reflexivity).
  destruct (leaf_consumes ce cd true 0 T v b Hst (or_intror (conj eq_refl eq_refl)) Hue ltac:(discriminate) Hs He Hmax)
    as (H2 & _ & vdec & Habs & Hc).
  split; [lia|]. exists vdec. split; [exact Habs|]. intros fuel Hf.
  apply consumes_clean_dec_item; [lia|]. apply Hc. lia.
Qed.
Print Assumptions schemaless_stage1_consumes_clean.

Theorem c06_schemaless_stage1 : forall ce cd T v b fuel k,
  enc_ok ce -> univ_explicit T = true -> stage1_val ce cd T v = true ->
  encode ce true 0 T v = Ok b -> N.of_nat (length b) <= index_max ->
  (2 * length b + 2 <= fuel)%nat -> (k < length b)%nat ->
  decode_with cd fuel None (firstn k b) = Err EEndOfStream
  /\ exists n kont s1, resume (dec_item cd fuel None) (mkStream (firstn k b) 0 false 0) = inl (ReadN n kont, s1)
                       /\ (length (avail s1) < n)%nat.
Proof.
  intros ce cd T v b fuel k Hce Hue Hs He Hmax Hf Hk.
  destruct (schemaless_stage1_consumes_clean ce cd T v b Hce Hue Hs He Hmax) as (_ & vdec & _ & Hc).
  exact (c06_of_clean cd fuel None b (DV (sl_ty T) vdec) k (Hc fuel Hf) Hk).
Qed.

Theorem c05_schemaless_stage1 : forall ce cd T v b,
  enc_ok ce -> univ_explicit T = true -> stage1_val ce cd T v = true ->
  encode ce true 0 T v = Ok b -> N.of_nat (length b) <= index_max ->
  exists vdec, abs (sl_ty T) vdec = abs T v /\
    forall fuel tl sched, (2 * length b + 2 <= fuel)%nat ->
    wf_sched false sched -> arrivals sched = b ++ tl ->
    decode_with cd fuel None (b ++ tl) = Ok (DV (sl_ty T) vdec, tl)
    /\ exists j, drive sched (dec_item cd fuel None) (mkStream [] 0 false 0)
                 = repeat OUnder j ++ [ODone (Ok (DV (sl_ty T) vdec)) (length b)].
Proof.
  intros ce cd T v b Hce Hue Hs He Hmax.
  destruct (schemaless_stage1_consumes_clean ce cd T v b Hce Hue Hs He Hmax) as (_ & vdec & Habs & Hc).
  exists vdec. split; [exact Habs|]. intros fuel tl sched Hf Hw Harr.
  exact (c05_of_clean cd fuel None b (DV (sl_ty T) vdec) (Hc fuel Hf) tl sched Hw Harr).
Qed.

Print Assumptions c06_schemaless_stage1.
Print Assumptions c05_schemaless_stage1.

(* [0] EXPLICIT [APPLICATION 1] EXPLICIT INTEGER 300, no guiding type: every cut point *)
Example c06_schemaless_example :
  let T := TExp (mkTag Ctx false 0) (TExp (mkTag Appl false 1) TInt) in
  let b := [160; 6; 97; 4; 2; 2; 1; 44] in
  univ_explicit T = true /\ stage1_val BER BER T (VInt 300) = true /\ encode BER true 0 T (VInt 300) = Ok b
  /\ (2 * length b + 2 <= 20)%nat
  /\ forallb (fun k => match decode_with BER 20 None (firstn k b) with Err EEndOfStream => true | _ => false end
                       && match resume (dec_item BER 20 None) (mkStream (firstn k b) 0 false 0) with
                          | inl (ReadN _ _, _) => true | _ => false end) (seq 0 (length b)) = true.
Proof. vm_compute. repeat split; try reflexivity; lia. Qed.
