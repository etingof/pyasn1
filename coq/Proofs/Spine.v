(* The identifier octets met when descending through the headers of an encoding are the type's
   tags, outermost first (C13); and how much one header and the outer tags add to the length. *)
From Coq Require Import Lia.
From PV Require Import Base.Bytes Model.Tag Model.Types Model.Enc Proofs.TagOctets.
Local Open Scope N_scope.

(* read n nested headers: identifier, then length octets, then go on inside the contents *)
Fixpoint spine (n: nat) (b: bytes) : list tag :=
  match n with
  | O => []
  | S k => match dec_ident b with
           | Some (t, r) => match dec_len r with
                            | Some (_, r') => t :: spine k r'
                            | None => [t]
                            end
           | None => []
           end
  end.

Lemma dec_enc_len_any (n: N) (i: bool) (l r: bytes) :
  enc_len n i = Ok l -> exists x, dec_len (l ++ r) = Some (x, r).
Proof.
  destruct i.
  - unfold enc_len. intros H. inversion H; subst. exists None. reflexivity.
  - intros H. exists (Some n). exact (dec_enc_len n l r H).
Qed.

Definition wire_tag (is_cons: bool) (t: tag) : tag := mkTag (tcls t) (tcon t || is_cons) (tnum t).

Lemma frame_one_spine_app t c d si sub b k tail :
  frame_one t c d si sub = Ok b ->
  spine (S k) (b ++ tail) = wire_tag c t :: spine k (sub ++ (if d then [] else [0; 0]) ++ tail).
Proof.
  unfold frame_one. destruct (enc_len (N.of_nat (length sub)) (negb d && si)) as [l|e] eqn:El; cbn [bind]; [|discriminate].
  intros H. inversion H; subst; clear H. cbn [spine].
  rewrite <- ?app_assoc. rewrite dec_enc_tag.
  destruct (dec_enc_len_any _ _ l (sub ++ (if d then [] else [0; 0]) ++ tail) El) as [x Hx].
  rewrite Hx. reflexivity.
Qed.

Lemma frame_one_spine t c d si sub b k :
  frame_one t c d si sub = Ok b -> spine (S k) b = wire_tag c t :: spine k (sub ++ (if d then [] else [0; 0])).
Proof. intros H. pose proof (frame_one_spine_app _ _ _ _ _ _ k [] H) as E. rewrite !app_nil_r in E. exact E. Qed.

Lemma frame_outer_spine : forall r c defm si sub b k,
  frame_outer r c defm si sub = Ok b ->
  exists tail, spine (length r + k) b = map (wire_tag c) (rev r) ++ spine k (sub ++ tail).
Proof.
  induction r as [|t r IH]; intros c defm si sub b k H.
  - cbn [frame_outer] in H. inversion H; subst. exists []. rewrite app_nil_r. reflexivity.
  - cbn [frame_outer] in H.
    destruct (frame_one t c defm si sub) as [s'|e] eqn:E1; cbn [bind] in H; [|discriminate].
    destruct (IH c defm si s' b (S k) H) as [tail Ht].
    cbn [length rev]. rewrite map_app. cbn [map].
    replace (S (length r) + k)%nat with (length r + S k)%nat by lia.
    exists ((if defm then [] else [0; 0]) ++ tail).
    rewrite Ht, (frame_one_spine_app _ _ _ _ _ _ k tail E1), <- app_assoc. reflexivity.
Qed.

(* AbstractItemEncoder.encode: whatever the mode, the headers of the result, read from the outside
   in, carry the type's tags from outermost to innermost; the constructed bit is that of the tag
   (set for explicit wrappers) or-ed with "the contents are constructed" *)
Theorem frame_spine : forall ts content is_cons o si b,
  frame ts content is_cons o si = Ok b -> b <> [] ->
  spine (length ts) b = map (wire_tag is_cons) (rev ts).
Proof.
  intros ts content is_cons o si b H Hne. destruct ts as [|t0 r]; [reflexivity|].
  cbn [frame] in H.
  destruct ((match content with [] => true | _ => false end) && is_cons && o_ifne o)%bool.
  - inversion H; subst. congruence.
  - destruct (frame_one t0 is_cons (if is_cons then o_def o else true) si content) as [s0|e] eqn:E0; cbn [bind] in H; [|discriminate].
    destruct (frame_outer_spine r is_cons (o_def o) si s0 b 1 H) as [tail Ht].
    cbn [length rev]. rewrite map_app. cbn [map].
    replace (S (length r)) with (length r + 1)%nat by lia.
    rewrite Ht, (frame_one_spine_app _ _ _ _ _ _ 0 tail E0). reflexivity.
Qed.

(* what one definite-length header adds, and what the outer tags add *)
Lemma frame_one_def_inv t c si sub b : frame_one t c true si sub = Ok b ->
  exists l, enc_len (N.of_nat (length sub)) false = Ok l /\ b = enc_tag t c ++ l ++ sub.
Proof.
  unfold frame_one. cbn [negb andb]. intros H.
  destruct (enc_len (N.of_nat (length sub)) false) as [l|e]; cbn [bind] in H; [|discriminate].
  inversion H; subst. exists l. rewrite app_nil_r. split; reflexivity.
Qed.

Lemma frame_one_length t c si sub b : frame_one t c true si sub = Ok b ->
  exists l, b = enc_tag t c ++ l ++ sub /\ (0 < length l)%nat.
Proof.
  intros (l & El & ->)%frame_one_def_inv. exists l. split; [reflexivity|].
  unfold enc_len in El. destruct (N.of_nat (length sub) <? 128).
  - inversion El; subst. cbn. lia.
  - destruct (Nat.ltb 126 (length (b256 (N.of_nat (length sub))))); [discriminate|]. inversion El; subst. cbn [length]. lia.
Qed.

Lemma enc_tag_nonempty t c : (0 < length (enc_tag t c))%nat.
Proof. unfold enc_tag. destruct (N.ltb (tnum t) 31); cbn [length]; lia. Qed.

(* each outer tag adds at least two octets *)
Lemma frame_outer_len_r : forall r c si sub b, frame_outer r c true si sub = Ok b ->
  (length sub + 2 * length r <= length b)%nat.
Proof.
  induction r as [|t r IH]; intros c si sub b H; cbn [frame_outer] in H.
  - inversion H; subst. cbn [length]. lia.
  - destruct (frame_one t c true si sub) as [s1|e] eqn:E1; cbn [bind] in H; [|discriminate].
    specialize (IH _ _ _ _ H). destruct (frame_one_length _ _ _ _ _ E1) as (l & -> & Hl).
    pose proof (enc_tag_nonempty t c). rewrite !app_length in IH. cbn [length]. lia.
Qed.

Lemma frame_outer_length : forall r c si sub b, frame_outer r c true si sub = Ok b -> (length sub <= length b)%nat.
Proof. intros r c si sub b H. pose proof (frame_outer_len_r _ _ _ _ _ H). lia. Qed.

Lemma frame_outer_taglens : forall r c si sub b k, frame_outer r c true si sub = Ok b -> (length b <= k)%nat ->
  Forall (fun t => (length (enc_tag t c) <= k)%nat) r.
Proof.
  induction r as [|t r IH]; intros c si sub b k H Hk; [constructor|].
  cbn [frame_outer] in H.
  destruct (frame_one t c true si sub) as [s1|e] eqn:E1; cbn [bind] in H; [|discriminate].
  pose proof (frame_outer_length _ _ _ _ _ H) as Hl.
  constructor; [|exact (IH _ _ _ _ _ H Hk)].
  destruct (frame_one_length _ _ _ _ _ E1) as (l & -> & _). rewrite !app_length in Hl. lia.
Qed.
