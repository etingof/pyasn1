(* Shape of a type's tag set: the base tag first, then one constructed non-universal tag per
   EXPLICIT tagging that survived (IMPLICIT tagging renames the outermost one).  Also: [abs] and
   the tag map look through the tagging wrappers. *)
From Coq Require Import Lia.
From PV Require Import Base.Bytes Model.Tag Model.Types Model.Proc Model.Enc Model.Dec Proofs.TagAlgebra Proofs.DecFrame.
Local Open Scope N_scope.

(* every tag written in the type is APPLICATION, CONTEXT or PRIVATE *)
Fixpoint wf_tags (T: ty) : bool :=
  match T with
  | TImp t x | TExp t x => negb (cls_eqb (tcls t) Univ) && wf_tags x
  | _ => true
  end.

(* under its tagging wrappers the type is one of the simple types (no SEQUENCE, SET, CHOICE, ANY) *)
Definition prim_base (T: ty) : bool :=
  match base_of T with
  | TBool | TInt | TEnum | TBits | TOcts | TNull | TOid | TReal | TStr _ => true
  | _ => false
  end.

Lemma last_app_singleton {X} (l: list X) (x: X) : rev (l ++ [x]) = x :: rev l.
Proof. rewrite rev_app_distr. reflexivity. Qed.

Lemma tag_implicitly_cons t0 r t : r <> [] ->
  exists r', tag_implicitly (t0 :: r) t = t0 :: r' /\ length r' = length r
             /\ (Forall explicit_like r -> tcls t <> Univ -> Forall explicit_like r').
Proof.
  intros Hne. destruct (exists_last Hne) as (r0 & lastt & ->).
  rewrite app_comm_cons. rewrite tag_implicitly_spec. cbn [app].
  exists (r0 ++ [mkTag (tcls t) (tcon lastt) (tnum t)]). split; [reflexivity|].
  split; [rewrite !app_length; reflexivity|].
  intros Hex Hcls. apply Forall_app in Hex. destruct Hex as [H0 Hl]. apply Forall_app. split; [exact H0|].
  constructor; [|constructor]. inversion Hl as [|? ? [Hc _] _]; subst. split; [exact Hc|exact Hcls].
Qed.

(* for a type over a simple (primitive) base: tag set = primitive base tag, then explicit-like tags *)
Lemma tagset_prim_shape : forall T, prim_base T = true -> wf_tags T = true ->
  exists t0 r, tagset_of T = Ok (t0 :: r) /\ tcon t0 = false /\ Forall explicit_like r /\ (length r < ty_depth T)%nat.
Proof.
  induction T as [| | | | | | | | n|fs IH|fs IH|t IH|t IH|alts IH| |tg x IH|tg x IH] using ty_ind';
    intros Hp Hw; try discriminate Hp;
    try (eexists; exists []; split; [reflexivity|split; [reflexivity|split; [constructor|cbn; lia]]]).
  - (* TImp *)
    cbn [wf_tags] in Hw. apply Bool.andb_true_iff in Hw. destruct Hw as [Hcl Hw].
    destruct (IH Hp Hw) as (t0 & r & Hts & Hc0 & Hex & Hd).
    cbn [tagset_of]. rewrite Hts. cbn [bind].
    destruct r as [|r1 r'].
    + exists (mkTag (tcls tg) (tcon t0) (tnum tg)), []. split; [reflexivity|split; [exact Hc0|split; [constructor|cbn [ty_depth length]; lia]]].
    + destruct (tag_implicitly_cons t0 (r1 :: r') tg) as (r2 & E & Hl & Hf); [discriminate|].
      exists t0, r2. rewrite E. split; [reflexivity|split; [exact Hc0|split; [|cbn [ty_depth]; lia]]].
      apply Hf; [exact Hex|]. destruct (tcls tg); try discriminate; cbn in Hcl; congruence.
  - (* TExp *)
    cbn [wf_tags] in Hw. apply Bool.andb_true_iff in Hw. destruct Hw as [Hcl Hw].
    destruct (IH Hp Hw) as (t0 & r & Hts & Hc0 & Hex & Hd).
    cbn [tagset_of]. rewrite Hts. cbn [bind]. unfold tag_explicitly.
    assert (Hnu: tcls tg <> Univ) by (destruct (tcls tg); try discriminate; cbn in Hcl; congruence).
    exists t0, (r ++ [mkTag (tcls tg) true (tnum tg)]).
    split; [destruct (tcls tg); try reflexivity; congruence|].
    split; [exact Hc0|]. split.
    + apply Forall_app. split; [exact Hex|]. constructor; [|constructor]. split; [reflexivity|exact Hnu].
    + rewrite app_length. cbn [length ty_depth]. lia.
Qed.

Lemma abs_wrappers : forall T v, abs T v = abs (base_of T) v.
Proof.
  induction T as [| | | | | | | | n|fs IH|fs IH|t IH|t IH|alts IH| |tg x IH|tg x IH] using ty_ind'; intros v; try reflexivity.
  - cbn [base_of]. rewrite <- IH. destruct v; reflexivity.
  - cbn [base_of]. rewrite <- IH. destruct v; reflexivity.
Qed.

Lemma plain_map_tagged T : (match T with TChoice _ | TAny => False | _ => True end) -> plain_map T.
Proof. unfold plain_map. destruct T; intros H; try reflexivity; contradiction. Qed.
