(* Round trip under every encoder mode for the whole type universe (C01/C02), part (d): CHOICE,
   untagged and tagged, in every mode.  The new cases are the untagged CHOICE whose alternative is written
   with an indefinite length (the CHOICE decoder re-enters the item decoder after the header with
   "length unknown"), and the CHOICE under an indefinite-length EXPLICIT tag (the decoder's loop
   reads the alternative where end-of-octets is allowed, then the closing 00 00). *)
From Coq Require Import Lia Permutation.
From PV Require Import Base.Bytes Model.Tag Model.TableTypes Model.Types Model.Proc Model.Enc Model.Dec Gen.Tables
     Proofs.ProcBind Proofs.RunLemmas Proofs.TagOctets Proofs.TagAlgebra Proofs.DecHeader Proofs.DecFrame Proofs.DecPrim
     Proofs.TagsetShape Proofs.Schemaless Proofs.RoundTrip1 Proofs.RoundTrip2 Proofs.TagReject Proofs.ContainerCodecSort
     Proofs.RoundTripModesA Proofs.RoundTripModesB Proofs.RoundTripModesC Proofs.RoundTripModesBag Proofs.RoundTripModes
     Proofs.RoundTrip3 Proofs.RoundTrip3a Proofs.RoundTrip3b Proofs.RoundTrip3c
     Proofs.RoundTripModes3a Proofs.RoundTripModes3b Proofs.RoundTripModes3c.
Local Open Scope N_scope.

Lemma choice_codecs_m ce cd T' alts : dec_ok cd -> base_of T' = TChoice alts ->
  (exists fl, concrete_encoder ce T' = Ok (EcChoice, fl) /\ ef_indef fl = true)
  /\ by_type cd T' = Some (DcChoice, mkDecFlags true (Some KChoice)).
Proof.
  intros Hcd Hb. split.
  - rewrite concrete_encoder_base, Hb. destruct ce; eexists; (split; [vm_compute; reflexivity|reflexivity]).
  - rewrite by_type_base, Hb. destruct Hcd as [-> | ->]; vm_compute; reflexivity.
Qed.

Lemma explicit_all_nz t0 r : Forall explicit_like (t0 :: r) -> tcls t0 <> Univ \/ tnum t0 <> 0.
Proof. intros H. inversion H as [|? ? [_ Hc] _]; subst. left. exact Hc. Qed.

Section Modes3d.
  Variables ce cd : codec.
  Variable d : bool.
  Variable k : N.
  Hypothesis Hst : stable ce d k.
  Hypothesis Hcd : dec_ok cd.
  Variable R : aval -> aval -> Prop.
  Variable srt : bool.
  Hypothesis HR : rel_ok R srt.

  Notation encm := (encm ce d k).
  Notation val_ok_m := (val_ok_m ce cd d k R).
  Notation item_sty_m := (item_sty_m ce cd d k R).

  (* the untagged CHOICE: the value decoder is entered with the tags of the alternative already read *)
  Lemma choice_val_untagged_m (Pv: ty -> val -> Prop) alts :
    keys_ok (flat_map ckeys alts) = true ->
    Forall (fun a => forall x, Pv a x -> val_ok_m a x) alts ->
    forall i x a, nth_error alts i = Some a -> Pv a x -> val_ok_m (TChoice alts) (VChoice i x).
  Proof.
    intros HK IHa i x a En HPx b He Hmax.
    destruct (choice_codecs_m ce cd (TChoice alts) alts Hcd eq_refl) as [(fl & Hcenc & Hsi) Hby].
    destruct (RoundTripModesC.enc_with_inv_g ce _ d k _ b Hst He) as (ec & fl' & ts & content & cns & Hcenc' & Hts & Hcont & Hfr).
    rewrite Hcenc in Hcenc'. inversion Hcenc'; subst ec fl'; clear Hcenc'.
    cbn [tagset_of] in Hts. inversion Hts; subst ts; clear Hts.
    rewrite enc_content_choice, En in Hcont.
    change (encw ce a (mo d k) x) with (encm a x) in Hcont.
    destruct (encm a x) as [p|e] eqn:Ep; cbn [bind] in Hcont; [|discriminate].
    inversion Hcont; subst content cns; clear Hcont. cbn [frame] in Hfr. inversion Hfr; subst p; clear Hfr.
    rewrite Forall_forall in IHa. pose proof (IHa a (nth_error_In _ _ En) x HPx) as Hva.
    destruct (Hva b Ep Hmax) as (t0 & r & content & cns & si & x' & Hw & Hex & Hrd & Hnz & Hmode & Hfr & Hw' & HRx & dcd & dfl & Hbya & Hc).
    pose proof (depth_alt alts i a En) as Hda.
    pose proof (frame_modes_len_r _ _ _ _ _ _ _ _ Hfr) as Hlr.
    exists t0, r, content, cns, si, (VChoice i x').
    split; [rewrite wire_tags_choice, En; exact Hw|]. split; [exact Hex|]. split; [lia|]. split; [exact Hnz|].
    split; [exact Hmode|]. split; [exact Hfr|].
    split; [rewrite wire_tags_choice, En; exact Hw'|].
    split; [rewrite !abs_choice, En; apply (r_choice _ _ HR); exact HRx|].
    exists DcChoice, (mkDecFlags true (Some KChoice)). split; [exact Hby|].
    intros f Hf.
    assert (Hwne: wire_tags a x <> []) by (rewrite Hw; discriminate).
    assert (Hget: tm_get (fields_tagmap true alts) (wire t0 cns :: r) = Ok (Some a)).
    { rewrite (tm_get_eqb _ _ (t0 :: r) (wire_tagset_eqb t0 cns r)).
      apply (sib_hit true alts HK i a (t0 :: r) En). rewrite <- Hw. apply tm_mem_in, wire_in_ckeys. exact Hwne. }
    destruct f as [|f']; [lia|].
    specialize (Hc f' ltac:(lia)).
    pose proof (choice_place_ok (S f') (TChoice alts) alts i a x x' HK En Hwne ltac:(congruence) ltac:(lia)) as Hplace.
    unfold val_consumes in *. destruct (cns && negb d)%bool.
    - (* the alternative was written with an indefinite length *)
      cbn [dec_value base_of]. unfold dec_choice.
      assert (Htag: tagset_eqb (tagset_of' (TChoice alts)) (wire t0 cns :: r) = false) by reflexivity.
      rewrite Htag. cbn [choice_loop].
      intros s tl Hav.
      cbn [dec_call]. unfold dec_body. cbn [andb]. cbn [pbind resume].
      unfold dispatch. rewrite Hget. cbn [lift pbind]. rewrite Hbya.
      destruct (Hc s tl Hav) as (s1 & Hrun & Hpos & Harr & Hcl).
      rewrite (resume_pbind_done _ _ _ _ _ Hrun). rewrite Hplace.
      cbn [pbind resume]. exists s1. split; [reflexivity|]. repeat split; assumption.
    - cbn [dec_value base_of]. unfold dec_choice.
      assert (Htag: tagset_eqb (tagset_of' (TChoice alts)) (wire t0 cns :: r) = false) by reflexivity.
      rewrite Htag.
      intros s tl Hav.
      cbn [dec_call]. unfold dec_body. cbn [andb]. cbn [pbind resume].
      unfold dispatch. rewrite Hget. cbn [lift pbind]. rewrite Hbya.
      destruct (Hc s tl Hav) as (s1 & Hrun & Hpos & Harr & Hcl).
      assert (Hinner: resume (let! p0 := tell in
                              let! v := dec_value (dec_call cd f') f' dcd dfl (Some a) (wire t0 cns :: r) (Some (N.of_nat (length content))) false in
                              let! p1 := tell in
                              if N.eqb (N.of_nat (p1 - p0)) (N.of_nat (length content)) then Ret v else Raise EMalformed) s
                      = inr (Ok (DV a x'), s1)).
      { rewrite resume_tell. rewrite (resume_pbind_done _ _ _ _ _ Hrun). rewrite resume_tell.
        rewrite Hpos. rewrite (Nat.add_comm (pos s)), Nat.add_sub. rewrite N.eqb_refl. reflexivity. }
      rewrite (resume_pbind_done _ _ _ _ _ Hinner). rewrite Hplace.
      cbn [resume]. exists s1. split; [reflexivity|]. repeat split; assumption.
  Qed.

  (* a tagged CHOICE or ANY, from what the encoder and the value decoder of the base do with the contents *)
  Lemma val_ok_wrapped_m T' v : untagged_base T' = true -> is_wrapped T' = true -> stage3_ty srt ce T' = true ->
    (forall ec fl content cns, concrete_encoder ce T' = Ok (ec, fl) ->
       enc_content ce (base_of T') ec fl (mo d k) v = Ok (content, cns) -> N.of_nat (length content) <= index_max ->
       ef_indef fl = true /\ exists v', R (abs (base_of T') v') (abs (base_of T') v) /\
         exists dcd dfl, by_type cd T' = Some (dcd, dfl) /\
           forall f, (length content + ty_depth (base_of T') < f)%nat ->
             val_consumes cd f dcd dfl T' (tagset_of' T') d cns content v') ->
    val_ok_m T' v.
  Proof.
    intros Hub Hwr Hty Hbase b He Hmax.
    destruct (tagset_shape_u srt ce T' Hty Hub Hwr) as (t0 & r & Hts & Hc0 & Hexall & Hd).
    pose proof (explicit_all_nz t0 r Hexall) as Hnz.
    inversion Hexall as [|? ? _ Hex]; subst.
    destruct (RoundTripModesC.enc_with_inv_g ce _ d k _ b Hst He) as (ec & fl & ts & content & cns & Hcenc & Hts' & Hcont & Hfr).
    rewrite Hts in Hts'. inversion Hts'; subst ts; clear Hts'. rewrite enc_content_base in Hcont.
    pose proof (frame_modes_len _ _ _ _ _ _ _ _ Hex Hfr) as Hlr.
    destruct (Hbase ec fl content cns Hcenc Hcont ltac:(lia)) as (Hsi & v' & HRv & dcd & dfl & Hby & Hdec).
    assert (Hwt: forall x, wire_tags T' x = t0 :: r).
    { intros x. rewrite wire_tags_plain; [apply tagset_of'_ok; exact Hts|]. destruct T'; try exact I; discriminate Hwr. }
    exists t0, r, content, cns, (ef_indef fl), v'.
    split; [apply Hwt|]. split; [exact Hex|]. split; [lia|]. split; [exact Hnz|]. split; [intros _ _; exact Hsi|].
    split; [exact Hfr|]. split; [apply Hwt|].
    split; [rewrite (abs_wrappers T' v'), (abs_wrappers T' v); exact HRv|].
    exists dcd, dfl. split; [exact Hby|]. intros f Hf.
    rewrite (wire_con t0 cns Hc0), <- (tagset_of'_ok T' _ Hts). apply Hdec. lia.
  Qed.

  (* the tagged CHOICE: the contents are one complete encoding of an alternative, resolved by the tag map;
     under an indefinite-length tag the 00 00 follows it *)
  Lemma choice_val_tagged_m (Pv: ty -> val -> Prop) T' alts :
    base_of T' = TChoice alts -> is_wrapped T' = true -> stage3_ty srt ce T' = true ->
    keys_ok (flat_map ckeys alts) = true ->
    Forall (fun a => forall x, Pv a x -> val_ok_m a x) alts ->
    forall i x a, nth_error alts i = Some a -> Pv a x -> val_ok_m T' (VChoice i x).
  Proof.
    intros Hb Hwr Hty HK IHa i x a En HPx.
    assert (Hub: untagged_base T' = true) by (unfold untagged_base; rewrite Hb; reflexivity).
    apply (val_ok_wrapped_m T' _ Hub Hwr Hty). intros ec fl content cns Hcenc Hcont Hmax.
    destruct (choice_codecs_m ce cd T' alts Hcd Hb) as [(fl0 & Hcenc0 & Hsi) Hby].
    rewrite Hcenc0 in Hcenc. inversion Hcenc; subst ec fl; clear Hcenc.
    rewrite Hb, enc_content_choice, En in Hcont.
    change (encw ce a (mo d k) x) with (encm a x) in Hcont.
    destruct (encm a x) as [p|e] eqn:Ep; cbn [bind] in Hcont; [|discriminate].
    inversion Hcont; subst content cns; clear Hcont.
    split; [exact Hsi|].
    rewrite Forall_forall in IHa. pose proof (IHa a (nth_error_In _ _ En) x HPx) as Hva.
    destruct (item_of_val_m ce cd d k Hcd R a x p Hva Ep Hmax) as (x' & HRx & Hwx & Hwne & Hit).
    destruct (Hit _ (resolves_sib true alts i a x HK En Hwne)) as (Hpl & Hphd & Hcons).
    pose proof (depth_alt alts i a En) as Hda.
    exists (VChoice i x'). split; [rewrite Hb, !abs_choice, En; apply (r_choice _ _ HR); exact HRx|].
    exists DcChoice, (mkDecFlags true (Some KChoice)). split; [exact Hby|].
    intros f Hf. rewrite Hb in Hf.
    pose proof (choice_place_ok f T' alts i a x x' HK En Hwne Hwx ltac:(lia)) as Hplace.
    unfold val_consumes. destruct d; cbn [andb negb]; cbn [dec_value]; rewrite Hb; unfold dec_choice; rewrite tagset_eqb_refl.
    - intros s tl Hav.
      destruct (Hcons f false ltac:(unfold fuel_ok; lia) s tl Hav) as (s1 & Hrun & Hpos & Harr & Hcl).
      rewrite (resume_pbind_done _ _ _ _ _ Hrun). rewrite Hplace.
      cbn [resume]. exists s1. split; [reflexivity|]. repeat split; assumption.
    - intros s tl Hav. rewrite <- app_assoc in Hav.
      destruct f as [|[|f']]; try lia.
      cbn [choice_loop].
      destruct (Hcons (S (S f')) true ltac:(unfold fuel_ok; lia) s _ Hav) as (s1 & Hrun & Hpos & Harr & Hcl).
      rewrite (resume_pbind_done _ _ _ _ _ Hrun). rewrite Hplace. cbn [pbind].
      pose proof (consumes_avail p s _ s1 Hav Hpos Harr) as Hav1.
      rewrite (resume_pbind_done _ _ _ _ _ (eoo_read cd (S f') (SMap (fields_tagmap true alts)) [] None false s1 tl (dec_ok_indef cd Hcd) Hav1)).
      cbn [resume]. exists (adv s1 2). split; [reflexivity|].
      rewrite app_length, pos_adv, arrived_adv, closed_adv. cbn [length]. repeat split; [lia|congruence|congruence].
  Qed.

End Modes3d.
