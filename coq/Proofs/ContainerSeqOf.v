(* SEQUENCE OF / SET OF refine the Python list: one lemma per operation on dense states,
   then induction over the history. *)
From Coq Require Import Lia.
From PV Require Import Spec.ListSpec Proofs.Basics Proofs.ContainerBase.
Local Open Scope nat_scope.

Lemma dense_length l : length (dense l) = length l.
Proof. unfold dense, enumerate. rewrite enumerate_from_length, map_length. auto. Qed.

Lemma sdict_conc a : sdict (conc a) = dense (lst a).
Proof. destruct a; auto. Qed.

Lemma slen_conc a : slen (conc a) = length (lst a).
Proof.
  destruct a as [l|]; [|reflexivity]. unfold conc, dense. simpl option_map. simpl lst.
  rewrite slen_enum, map_length. auto.
Qed.

Lemma sget_conc a k : sget (conc a) k = option_map CVal (nth_error (lst a) k).
Proof.
  unfold sget. rewrite sdict_conc. unfold dense, enumerate. rewrite dget_enum. simpl.
  rewrite Nat.sub_0_r. rewrite nth_error_map. auto.
Qed.

Lemma dset_dense_in l k z : k < length l -> dset k (CVal z) (dense l) = dense (set_nth k z l).
Proof.
  intros H. unfold dense, enumerate. rewrite dset_enum_in by (rewrite map_length; lia).
  rewrite Nat.sub_0_r, set_nth_map. auto.
Qed.

Lemma dset_dense_end l z : dset (length l) (CVal z) (dense l) = dense (l ++ [z]).
Proof.
  unfold dense, enumerate.
  replace (length l) with (0 + length (map CVal l)) by (rewrite map_length; auto).
  rewrite dset_enum_end, map_app. auto.
Qed.

Lemma nth_error_range {A B} (f: A -> B) (l: list A) k :
  is_some (option_map f (nth_error l k)) = Nat.ltb k (length l).
Proof.
  destruct (Nat.ltb_spec k (length l)) as [H|H].
  - destruct (nth_error l k) eqn:E; [reflexivity|]. apply nth_error_None in E. lia.
  - apply nth_error_None in H. rewrite H. reflexivity.
Qed.

Lemma sof_set_conc ct a i v :
  sof_set ct (conc a) i v =
  match norm_idx i (length (lst a)) with
  | None => Err ELib
  | Some k => match sof_resolve ct (option_map CVal (nth_error (lst a) k)) v with
              | Ok c => Ok (Some (dset k c (dense (lst a))))
              | Err e => Err e
              end
  end.
Proof. unfold sof_set. rewrite slen_conc, sdict_conc. destruct (norm_idx i _); [rewrite sget_conc|]; reflexivity. Qed.

Lemma resolve_ok ct cur v z : pv_z v = Some z -> val_ok ct (is_some cur) v = true ->
  sof_resolve ct cur (Some v) = Ok (CVal z).
Proof.
  destruct v; simpl; try discriminate; intros E H; inversion E; subst; auto.
  destruct ct; auto. destruct cur; auto. discriminate.
Qed.

Lemma resolve_bad ct cur v : val_ok ct (is_some cur) v = false ->
  match v with PBadAsn => ct | _ => true end = true ->
  sof_resolve ct cur (Some v) = Err ELib.
Proof.
  destruct v; cbn; intros H1 H2; try reflexivity; try discriminate.
  - destruct ct; [discriminate|]. destruct cur; [discriminate|reflexivity].
  - rewrite H2. reflexivity.
Qed.

Lemma sof_set_dense ct a i v z k :
  norm_idx i (length (lst a)) = Some k -> k <= length (lst a) -> pv_z v = Some z ->
  val_ok ct (Nat.ltb k (length (lst a))) v = true ->
  sof_set ct (conc a) i (Some v) =
  Ok (conc (Some (if Nat.ltb k (length (lst a)) then set_nth k z (lst a) else lst a ++ [z]))).
Proof.
  intros Hn Hk Hz Hv. rewrite sof_set_conc, Hn, (resolve_ok ct _ v z Hz).
  - destruct (Nat.ltb_spec k (length (lst a))) as [Hlt|Hge].
    + rewrite dset_dense_in by auto. reflexivity.
    + assert (k = length (lst a)) by lia. subst k. rewrite dset_dense_end. reflexivity.
  - rewrite nth_error_range. exact Hv.
Qed.

Lemma sof_append_dense ct a v z : pv_z v = Some z -> val_ok ct false v = true ->
  sof_set ct (conc a) (Z.of_nat (length (lst a))) (Some v) = Ok (conc (Some (lst a ++ [z]))).
Proof.
  intros Hz Hv. rewrite (sof_set_dense ct a _ v z (length (lst a)) (norm_idx_nat _ _)); auto;
    rewrite Nat.ltb_irrefl; auto.
Qed.

Lemma pvs_z_length vs zs : pvs_z vs = Some zs -> length zs = length vs.
Proof.
  revert zs; induction vs as [|v r IH]; intros zs; simpl.
  - intros E; inversion E; auto.
  - destruct (pv_z v), (pvs_z r); try discriminate. intros E; inversion E; subst. simpl. f_equal. auto.
Qed.

Lemma val_ok_pv ct e v : val_ok ct e v = true -> exists z, pv_z v = Some z.
Proof. destruct v; simpl; try discriminate; eauto. Qed.

Lemma forall_ok_pvs ct e vs : forallb (val_ok ct e) vs = true -> exists zs, pvs_z vs = Some zs.
Proof.
  induction vs as [|v r IH]; simpl; [eauto|].
  intros H. apply andb_prop in H as [H1 H2]. destruct (val_ok_pv _ _ _ H1) as [z Ez].
  destruct (IH H2) as [zs Ezs]. rewrite Ez, Ezs. eauto.
Qed.

(* appending one by one: slice assignment into an empty object, and extend; a schema object becomes a
   value object with the first element *)
Lemma sof_set_many_append ct : forall vs zs a,
  pvs_z vs = Some zs -> forallb (val_ok ct false) vs = true -> vs <> [] \/ is_some a = true ->
  sof_set_many ct (conc a) (length (lst a)) vs = (conc (Some (lst a ++ zs)), None).
Proof.
  induction vs as [|v r IH]; intros zs a Hz Hok Hne; cbn [pvs_z forallb sof_set_many] in *.
  - injection Hz as <-. rewrite app_nil_r. destruct Hne as [[]|Ha]; [reflexivity|]. destruct a; [reflexivity|discriminate].
  - destruct (pv_z v) as [z|] eqn:Ez; [|discriminate]. destruct (pvs_z r) as [zs'|] eqn:Er; [|discriminate].
    injection Hz as <-. apply andb_prop in Hok as [H1 H2]. rewrite (sof_append_dense ct a v z Ez H1).
    replace (S (length (lst a))) with (length (lst (Some (lst a ++ [z])))) by (cbn [lst]; rewrite app_length; cbn; lia).
    rewrite (IH zs' (Some (lst a ++ [z])) eq_refl H2 (or_intror eq_refl)). cbn [lst]. rewrite <- app_assoc. reflexivity.
Qed.

Lemma sof_extend_dense ct : forall vs zs a,
  pvs_z vs = Some zs -> forallb (val_ok ct false) vs = true -> vs <> [] \/ is_some a = true ->
  sof_extend ct (conc a) vs = (conc (Some (lst a ++ zs)), None).
Proof.
  induction vs as [|v r IH]; intros zs a Hz Hok Hne; cbn [pvs_z forallb sof_extend] in *.
  - injection Hz as <-. rewrite app_nil_r. destruct Hne as [[]|Ha]; [reflexivity|]. destruct a; [reflexivity|discriminate].
  - destruct (pv_z v) as [z|] eqn:Ez; [|discriminate]. destruct (pvs_z r) as [zs'|] eqn:Er; [|discriminate].
    injection Hz as <-. apply andb_prop in Hok as [H1 H2]. unfold sof_append.
    rewrite sdict_conc, dense_length, (sof_append_dense ct a v z Ez H1).
    rewrite (IH zs' (Some (lst a ++ [z])) eq_refl H2 (or_intror eq_refl)). cbn [lst]. rewrite <- app_assoc. reflexivity.
Qed.

Lemma splice_step {A} (l: list A) k z m : k < length l ->
  firstn (S k) (firstn k l ++ z :: skipn (S k) l) = firstn k l ++ [z] /\
  skipn (S k + m) (firstn k l ++ z :: skipn (S k) l) = skipn (k + S m) l.
Proof.
  intros Hk. assert (Hl: length (firstn k l) = k) by (rewrite firstn_length; lia).
  split.
  - rewrite firstn_app, Hl. rewrite firstn_all2 by lia.
    replace (S k - k) with 1 by lia. reflexivity.
  - rewrite skipn_app, Hl. rewrite skipn_all2 by lia.
    replace (S k + m - k) with (S m) by lia. cbn [app]. rewrite skipn_cons.
    rewrite <- skipn_add. f_equal. lia.
Qed.

(* replacing l[k .. k+|zs|) in place *)
Lemma sof_set_many_replace ct : forall vs zs l k,
  pvs_z vs = Some zs -> forallb (val_ok ct true) vs = true -> k + length vs <= length l ->
  sof_set_many ct (conc (Some l)) k vs =
  (conc (Some (firstn k l ++ zs ++ skipn (k + length vs) l)), None).
Proof.
  induction vs as [|v r IH]; intros zs l k Hz Hok Hlen; cbn [pvs_z forallb sof_set_many length] in *.
  - inversion Hz. cbn [app]. rewrite Nat.add_0_r, firstn_skipn. auto.
  - destruct (pv_z v) as [z|] eqn:Ez; [|discriminate]. destruct (pvs_z r) as [zs'|] eqn:Er; [|discriminate].
    inversion Hz; subst. apply andb_prop in Hok as [H1 H2].
    assert (Hk: k < length l) by lia. assert (Hkk: Nat.ltb k (length l) = true) by (apply Nat.ltb_lt; exact Hk).
    rewrite (sof_set_dense ct (Some l) (Z.of_nat k) v z k (norm_idx_nat _ _)); cbn [lst]; rewrite ?Hkk; auto; [|lia].
    rewrite (IH zs' (set_nth k z l) (S k)); auto; [|rewrite set_nth_length; lia].
    rewrite (set_nth_split l k z Hk).
    destruct (splice_step l k z (length r) Hk) as [E1 E2]. rewrite E1, E2.
    rewrite <- app_assoc. reflexivity.
Qed.

(* a position of the list is read; one past its end is, with instantiation, filled with a placeholder if
   a component type is declared (F18d) and refused if not *)
Lemma sof_get_conc ct a i inst :
  sof_get ct (conc a) i inst =
  match norm_idx i (length (lst a)) with
  | None => Err ELib
  | Some k => match nth_error (lst a) k with
              | Some x => Ok (conc a, vslot x)
              | None => if inst then
                          if ct then Ok (Some (dset k CSchema (dense (lst a))), Some CSchema) else Err ELib
                        else Ok (conc a, None)
              end
  end.
Proof.
  unfold sof_get. rewrite slen_conc. destruct (norm_idx i (length (lst a))) as [k|]; [|reflexivity].
  rewrite sget_conc. destruct (nth_error (lst a) k) eqn:E; [reflexivity|]. cbn [option_map].
  destruct inst; [|reflexivity]. rewrite sof_set_conc, norm_idx_nat, E. destruct ct; [|reflexivity].
  cbn [sof_resolve option_map]. unfold sget. cbn [sdict]. rewrite dget_dset, Nat.eqb_refl. reflexivity.
Qed.

Lemma sof_get_dense ct a k inst : k < length (lst a) ->
  sof_get ct (conc a) (Z.of_nat k) inst = Ok (conc a, vslot (nth k (lst a) 0%Z)).
Proof. intros H. rewrite sof_get_conc, norm_idx_nat, (nth_error_nth' _ 0%Z H). reflexivity. Qed.

Lemma sof_iter_dense ct a : forall n from acc, from + n <= length (lst a) ->
  sof_iter ct (conc a) from n acc =
  (conc a, Ok (rev acc ++ map vslot (firstn n (skipn from (lst a))))).
Proof.
  induction n as [|n IH]; intros from acc H; cbn [sof_iter].
  - cbn [firstn map]. rewrite app_nil_r. reflexivity.
  - rewrite sof_get_dense, IH, (skipn_cons_nth _ from 0%Z) by lia.
    cbn [firstn map rev]. rewrite <- app_assoc. reflexivity.
Qed.

Lemma sof_in_dense ct a z : forall n from, from + n = length (lst a) ->
  sof_in ct (conc a) from n z = (conc a, OBool (existsb (fun x => Z.eqb x z) (skipn from (lst a)))).
Proof.
  induction n as [|n IH]; intros from H; cbn [sof_in].
  - rewrite skipn_all2 by lia. reflexivity.
  - rewrite sof_get_dense, (skipn_cons_nth _ from 0%Z) by lia. cbn [vslot existsb].
    destruct (Z.eqb (nth from (lst a) 0%Z) z); [reflexivity|]. apply IH. lia.
Qed.

Lemma sof_chunks_dense ct a : forall n from acc, from + n <= length (lst a) ->
  sof_chunks ct (conc a) from n acc =
  (conc a, Ok (rev acc ++ map (int_tlv tag_integer) (firstn n (skipn from (lst a))))).
Proof.
  induction n as [|n IH]; intros from acc H; cbn [sof_chunks].
  - cbn [firstn map]. rewrite app_nil_r. reflexivity.
  - rewrite sof_get_dense by lia. cbn [vslot]. rewrite IH, (skipn_cons_nth _ from 0%Z) by lia.
    cbn [firstn map rev]. rewrite <- app_assoc. reflexivity.
Qed.

Lemma dense_vals l : map snd (dense l) = map CVal l.
Proof. unfold dense, enumerate. apply enumerate_from_snd. Qed.

Lemma has_schema_vals l : has_schema (map CVal l) = false.
Proof. induction l; auto. Qed.

Lemma comp_z_vals l : map comp_z (map CVal l) = l.
Proof. induction l; cbn [map comp_z]; [auto|f_equal; auto]. Qed.

Lemma count_z_vals z l : count_z z (map CVal l) = count_of z l.
Proof.
  unfold count_of. induction l as [|x l IH]; auto. cbn [map count_z comp_z filter].
  rewrite IH. destruct (Z.eqb x z); reflexivity.
Qed.

Lemma index_z_dense z : forall l i,
  index_z z (enumerate_from i (map CVal l)) =
  match index_of z l i with Some j => ONat j | None => ORaise EValue end.
Proof.
  induction l as [|x l IH]; intros i; cbn [map enumerate_from index_z index_of]; auto.
  destruct (Z.eqb x z); auto.
Qed.

Lemma clone_fold : forall (r p: list comp),
  fold_left (fun acc kv => dset (fst kv) (snd kv) acc) (enumerate_from (length p) r) (enumerate_from 0 p)
  = enumerate_from 0 (p ++ r).
Proof.
  induction r as [|x r IH]; intros p; cbn [enumerate_from fold_left fst snd].
  - rewrite app_nil_r. reflexivity.
  - change (length p) with (0 + length p). rewrite dset_enum_end.
    replace (S (0 + length p)) with (length (p ++ [x])) by (rewrite app_length; cbn; lia).
    rewrite IH. rewrite <- app_assoc. reflexivity.
Qed.

Lemma isvalue_dense l : sof_isvalue (Some (dense l)) = true.
Proof.
  unfold sof_isvalue. change (Some (dense l)) with (conc (Some l)) at 1. rewrite slen_conc.
  rewrite dense_length. cbn [lst]. rewrite Nat.eqb_refl. cbn [andb].
  unfold dense, enumerate. generalize 0. induction l as [|x l IH]; intros i; auto.
  cbn [map enumerate_from forallb snd is_value]. apply IH.
Qed.

Lemma zsort_short (l: list Z) : length l <= 1 -> zsort l = l /\ rev l = l.
Proof. destruct l as [|x [|y l]]; cbn [length]; intros; try lia; auto. Qed.

Lemma to_index_lib : to_index ELib = EIndex. Proof. reflexivity. Qed.

Lemma sof_set_wf ct a i v : l_wf ct a (SSetItem i v) = true ->
  exists z k, pv_z v = Some z /\ norm_idx i (length (lst a)) = Some k /\
              sof_set ct (conc a) i (Some v) =
              Ok (conc (Some (if Nat.ltb k (length (lst a)) then set_nth k z (lst a) else lst a ++ [z]))).
Proof.
  cbn [l_wf]. destruct (norm_idx i (length (lst a))) as [k|] eqn:En; [|discriminate].
  intros H. apply andb_prop in H as [H1 H2]. apply Nat.leb_le in H1.
  destruct (val_ok_pv _ _ _ H2) as [z Ez]. exists z, k. repeat split; auto. apply sof_set_dense; auto.
Qed.

Theorem sof_sim_step ct isset a o : l_wf ct a o = true ->
  sof_step ct isset (conc a) o = (conc (fst (l_step isset a o)), snd (l_step isset a o)).
Proof.
  intros Hwf. destruct o; cbn [l_wf] in Hwf.
  - (* SSetItem *)
    destruct (sof_set_wf ct a i v Hwf) as (z & k & Ez & En & Es).
    cbn [sof_step l_step]. rewrite Es, Ez, En. reflexivity.
  - (* SSetPos *)
    destruct v as [v|]; [|discriminate].
    destruct (sof_set_wf ct a i v Hwf) as (z & k & Ez & En & Es).
    cbn [sof_step l_step]. rewrite Es, Ez, En. reflexivity.
  - (* SSetSlice *)
    apply andb_prop in Hwf as [Hne Hwf]. cbn [sof_step l_step]. rewrite slen_conc.
    unfold slice_range.
    destruct (Nat.eqb_spec (length (lst a)) 0) as [E0|E0].
    + (* empty object *)
      destruct (forall_ok_pvs _ _ _ Hwf) as [zs Ezs]. rewrite Ezs.
      assert (Hl: lst a = []) by (destruct (lst a); [auto|discriminate]).
      cbn [orb]. rewrite <- E0 at 1.
      rewrite (sof_set_many_append ct vs zs a Ezs Hwf) by (left; destruct vs; [discriminate|congruence]).
      rewrite Hl. rewrite firstn_nil, skipn_nil. cbn [app]. rewrite app_nil_r. reflexivity.
    + apply andb_prop in Hwf as [Hwf Hok]. apply andb_prop in Hwf as [Hlt Hsum].
      apply Nat.ltb_lt in Hlt. apply Nat.eqb_eq in Hsum.
      destruct (forall_ok_pvs _ _ _ Hok) as [zs Ezs]. rewrite Ezs.
      cbn [orb]. replace (Nat.min a0 (length (lst a))) with a0 by lia.
      destruct (Nat.eqb_spec (Nat.min b (length (lst a)) - a0) 0); [lia|]. cbn [negb].
      assert (conc a = conc (Some (lst a))) as -> by (destruct a; [reflexivity|cbn in E0; congruence]).
      rewrite (sof_set_many_replace ct vs zs (lst a) a0 Ezs Hok) by lia.
      replace (Nat.max a0 (Nat.min b (length (lst a)))) with (a0 + length vs) by lia. reflexivity.
  - (* SAppend *)
    destruct (val_ok_pv _ _ _ Hwf) as [z Ez]. cbn [sof_step l_step]. unfold sof_append.
    rewrite sdict_conc, dense_length, (sof_append_dense ct a v z Ez Hwf), Ez. reflexivity.
  - (* SExtend *)
    destruct (forall_ok_pvs _ _ _ Hwf) as [zs Ezs]. cbn [sof_step l_step]. rewrite Ezs.
    destruct vs as [|v r], a as [l|]; try (injection Ezs as <-; cbn [lst app]; rewrite ?app_nil_r; reflexivity).
    all: rewrite (sof_extend_dense ct _ zs _ Ezs Hwf) by (left; discriminate); reflexivity.
  - (* SSort *)
    destruct a as [l|]; [|discriminate]. cbn [sof_step l_step conc option_map lst].
    rewrite dense_vals.
    destruct l as [|x [|y l]]; [destruct reverse; reflexivity..|].
    cbn [map]. change (CVal x :: CVal y :: map CVal l) with (map CVal (x :: y :: l)).
    rewrite has_schema_vals, comp_z_vals. destruct reverse; reflexivity.
  - (* SReverse *)
    destruct a as [l|]; [|discriminate]. cbn [sof_step l_step conc option_map lst].
    unfold dense at 1. rewrite components_enum. rewrite <- map_rev. reflexivity.
  - reflexivity.
  - reflexivity.
  - (* SClone *)
    cbn [sof_step l_step]. destruct cloneValueFlag; [|reflexivity].
    destruct a as [l|]; [|reflexivity]. cbn [conc option_map fst snd]. do 2 f_equal.
    unfold dense, enumerate. apply (clone_fold (map CVal l) []).
  - (* SLen *) cbn [sof_step l_step]. rewrite slen_conc. reflexivity.
  - (* SIter *)
    cbn [sof_step l_step]. rewrite slen_conc. rewrite sof_iter_dense by lia.
    cbn [rev app skipn]. rewrite firstn_all. reflexivity.
  - (* SIn *)
    cbn [sof_step l_step]. rewrite slen_conc. rewrite sof_in_dense by lia. reflexivity.
  - (* SGetItem *)
    cbn [sof_step l_step]. rewrite sof_get_conc.
    destruct (norm_idx i (length (lst a))) as [k|]; [|discriminate]. apply Nat.ltb_lt in Hwf.
    rewrite (nth_error_nth' _ 0%Z Hwf). reflexivity.
  - (* SGetPos *)
    cbn [sof_step l_step]. rewrite sof_get_conc.
    destruct (norm_idx i (length (lst a))) as [k|]; [|discriminate].
    destruct (Nat.ltb_spec k (length (lst a))) as [Hk|Hk].
    + rewrite (nth_error_nth' _ 0%Z Hk). reflexivity.
    + cbn [orb] in Hwf. destruct inst; [discriminate|].
      assert (nth_error (lst a) k = None) as -> by (apply nth_error_None; lia). reflexivity.
  - (* SGetSlice *)
    cbn [sof_step l_step]. rewrite slen_conc. unfold slice_range.
    rewrite sof_iter_dense by lia. reflexivity.
  - (* SCount *)
    destruct a as [l|]; [|discriminate]. cbn [sof_step l_step conc option_map lst].
    rewrite dense_vals, has_schema_vals, count_z_vals. reflexivity.
  - (* SIndex *)
    destruct a as [l|]; [|discriminate]. cbn [sof_step l_step conc option_map lst fst snd].
    unfold dense, enumerate. rewrite index_z_dense. reflexivity.
  - reflexivity.
  - (* SEq *)
    destruct a as [l0|]; [|discriminate]. cbn [sof_step l_step conc option_map lst fst snd].
    unfold dense at 2. rewrite components_enum, eq_list_vals. reflexivity.
  - (* SIsValue *)
    cbn [sof_step l_step]. destruct a as [l|]; [|reflexivity].
    cbn [conc option_map]. rewrite isvalue_dense. reflexivity.
  - (* SEncode *)
    destruct a as [l|]; [|discriminate]. cbn [sof_step l_step lst].
    rewrite slen_conc. rewrite sof_chunks_dense by (cbn [lst]; lia).
    cbn [rev app skipn lst]. rewrite firstn_all. reflexivity.
Qed.

Theorem sof_refines_from ct isset : forall ops a, l_wf_hist ct isset a ops = true ->
  sof_run ct isset (conc a) ops = (conc (fst (l_run isset a ops)), snd (l_run isset a ops)).
Proof.
  intros ops a H.
  destruct (simulation_run (sof_step ct isset) (l_step isset) (l_wf ct) (fun a s => s = conc a) (fun x => x)
              (sof_run ct isset) (l_run isset) (l_wf_hist ct isset)) with (ops := ops) (a := a) (s := conc a)
    as [E1 E2]; try reflexivity; try exact H.
  - intros a' s o -> Hw. rewrite (sof_sim_step ct isset a' o Hw). split; reflexivity.
  - rewrite map_id in E2. rewrite <- E1, <- E2. apply surjective_pairing.
Qed.

Lemma sof_observe_conc ct isset a : sof_observe ct isset (conc a) = l_observe isset a.
Proof.
  unfold sof_observe, l_observe. rewrite slen_conc. f_equal.
  - destruct a as [l|]; [|reflexivity]. cbn [conc option_map]. unfold dense. rewrite components_enum.
    rewrite map_map. reflexivity.
  - destruct a as [l|]; [|reflexivity]. cbn [conc option_map]. apply isvalue_dense.
  - destruct a as [l|].
    + rewrite (sof_sim_step ct isset (Some l) SEncode eq_refl). reflexivity.
    + reflexivity.
Qed.

Theorem sof_refines ct isset ops : l_wf_hist ct isset None ops = true ->
  let '(s, outs) := sof_run ct isset None ops in
  let '(a, outs') := l_run isset None ops in
  s = conc a /\ outs = outs' /\ sof_observe ct isset s = l_observe isset a.
Proof.
  intros H. pose proof (sof_refines_from ct isset ops None H) as E. change (conc None) with (@None dict) in E.
  rewrite E. destruct (l_run isset None ops) as [a outs']. cbn [fst snd].
  repeat split. apply sof_observe_conc.
Qed.

Lemma l_step_reader isset a o : sof_reader o = true -> fst (l_step isset a o) = a.
Proof. destruct o; cbn; try discriminate; reflexivity. Qed.

(* an instantiating read outside the list: refused, unless a component type is declared (F18d) *)
Lemma sof_get_refused ct a i :
  match norm_idx i (length (lst a)) with Some k => Nat.leb (length (lst a)) k | None => true end = true ->
  ct && match norm_idx i (length (lst a)) with Some k => Nat.leb (length (lst a)) k | None => false end = false ->
  sof_get ct (conc a) i true = Err ELib.
Proof.
  rewrite sof_get_conc. destruct (norm_idx i (length (lst a))) as [k|]; [|reflexivity]. intros H1 H2.
  rewrite H1, andb_true_r in H2. subst ct. apply Nat.leb_le in H1. rewrite (proj2 (nth_error_None _ _) H1). reflexivity.
Qed.

(* a read leaves a dense state as it is, unless it belongs to the class of F18d *)
Theorem sof_reads_inert_partial ct isset a o : sof_reader o = true -> f18d ct a o = false ->
  fst (sof_step ct isset (conc a) o) = conc a.
Proof.
  intros Hr Hx. destruct (l_wf ct a o) eqn:W.
  - rewrite (sof_sim_step ct isset a o W). cbn [fst]. rewrite l_step_reader; auto.
  - destruct o; try discriminate Hr; try discriminate W; cbn [l_wf f18d] in W, Hx; cbn [sof_step];
      try (destruct a; [discriminate W|reflexivity]).
    + (* SGetItem *)
      rewrite sof_get_refused; [reflexivity| |exact Hx].
      destruct (norm_idx i (length (lst a))); [|reflexivity]. apply Nat.ltb_ge in W. apply Nat.leb_le. exact W.
    + (* SGetPos *)
      destruct inst.
      * rewrite sof_get_refused; [reflexivity| |exact Hx].
        destruct (norm_idx i (length (lst a))); [|reflexivity]. rewrite orb_false_r in W.
        apply Nat.ltb_ge in W. apply Nat.leb_le. exact W.
      * rewrite sof_get_conc. destruct (norm_idx i (length (lst a))); [|reflexivity]. rewrite orb_true_r in W. discriminate.
Qed.

Theorem sof_reads_inert_refuted :
  exists a o, sof_reader o = true /\ l_wf true a o = false /\
              fst (sof_step true false (conc a) o) <> conc a /\
              o_len (sof_observe true false (fst (sof_step true false (conc a) o))) = 6.
Proof.
  exists (Some [1%Z]), (SGetItem 5). repeat split; try reflexivity. vm_compute. discriminate.
Qed.

Lemma sof_set_refused ct a i v : l_ill ct a (SSetItem i v) = true -> f18d ct a (SSetItem i v) = false ->
  sof_set ct (conc a) i (Some v) = Err ELib.
Proof.
  cbn [l_ill f18d]. rewrite sof_set_conc. destruct (norm_idx i (length (lst a))) as [k|]; [|reflexivity].
  intros H1 H2. rewrite H2 in H1. cbn [orb] in H1. apply andb_prop in H1 as [H1 H3]. apply negb_true_iff in H1.
  rewrite resolve_bad; [reflexivity| rewrite nth_error_range; exact H1 | exact H3].
Qed.

Theorem sof_illformed_inert_partial ct isset a o : l_ill ct a o = true -> f18d ct a o = false ->
  fst (sof_step ct isset (conc a) o) = conc a /\
  exists e, snd (sof_step ct isset (conc a) o) = ORaise e /\ lookup_or_library e = true.
Proof.
  intros Hi Hx. destruct o; try discriminate Hi; cbn [sof_step].
  - (* SSetItem *) rewrite (sof_set_refused ct a i v Hi Hx). apply (raises_inert _ _ EIndex); reflexivity.
  - (* SSetPos *) destruct v as [v|]; [|discriminate]. rewrite (sof_set_refused ct a i v Hi Hx).
    apply (raises_inert _ _ ELib); reflexivity.
  - (* SAppend *)
    unfold sof_append. rewrite sdict_conc, dense_length, (sof_set_refused ct a _ v).
    + apply (raises_inert _ _ EIndex); reflexivity.
    + cbn [l_ill]. rewrite norm_idx_nat, Nat.ltb_irrefl. exact Hi.
    + cbn [f18d]. rewrite norm_idx_nat. apply Nat.ltb_irrefl.
  - (* SSort *) destruct a; [discriminate|]. apply (raises_inert _ _ ELib); reflexivity.
  - (* SReverse *) destruct a; [discriminate|]. apply (raises_inert _ _ ELib); reflexivity.
  - (* SGetItem *) rewrite (sof_get_refused ct a i Hi Hx). apply (raises_inert _ _ EIndex); reflexivity.
  - (* SGetPos *)
    destruct inst.
    + rewrite (sof_get_refused ct a i Hi Hx). apply (raises_inert _ _ ELib); reflexivity.
    + rewrite sof_get_conc. cbn [l_ill] in Hi. destruct (norm_idx i (length (lst a))); [discriminate|].
      apply (raises_inert _ _ ELib); reflexivity.
  - (* SCount *) destruct a; [discriminate|]. apply (raises_inert _ _ ELib); reflexivity.
  - (* SEq *) destruct a; [discriminate|]. apply (raises_inert _ _ ELib); reflexivity.
Qed.

(* an assignment beyond the end is accepted and leaves holes (F18d) *)
Theorem sof_illformed_inert_refuted :
  exists a o, l_ill true a o = true /\ snd (sof_step true false (conc a) o) = ORet /\
              fst (sof_step true false (conc a) o) = Some [(0, CVal 1%Z); (7, CVal 9%Z)].
Proof. exists (Some [1%Z]), (SSetItem 7 (PInt 9)). repeat split. Qed.
