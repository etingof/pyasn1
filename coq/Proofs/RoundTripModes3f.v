(* Round trip under every encoder mode for the whole type universe (C01/C02), part (f): ANY in every
   mode.  The untagged ANY holds one complete TLV of definite length and is written as it is; the decoder
   takes it where end-of-octets is allowed because its first octet is not zero.  A tagged ANY is written,
   in indefinite-length mode, as the tag, 80, the octets, 00 00 - and the decoder reads the octets back
   TLV by TLV up to the end-of-octets marker: the octets must then be a sequence of complete TLVs. *)
From Coq Require Import Lia Permutation.
From PV Require Import Base.Bytes Model.Tag Model.TableTypes Model.Types Model.Proc Model.Enc Model.Dec Gen.Tables
     Proofs.ProcBind Proofs.RunLemmas Proofs.TagOctets Proofs.TagAlgebra Proofs.DecHeader Proofs.DecFrame Proofs.DecPrim
     Proofs.TagsetShape Proofs.Schemaless Proofs.RoundTrip1 Proofs.RoundTrip2 Proofs.TagReject Proofs.ContainerCodecSort
     Proofs.RoundTripModesA Proofs.RoundTripModesB Proofs.RoundTripModesC Proofs.RoundTripModesBag Proofs.RoundTripModes
     Proofs.RoundTrip3 Proofs.RoundTrip3a Proofs.RoundTrip3b Proofs.RoundTrip3c Proofs.RoundTrip3d Proofs.RoundTrip3e
     Proofs.RoundTripModes3a Proofs.RoundTripModes3b Proofs.RoundTripModes3c Proofs.RoundTripModes3d.
Local Open Scope N_scope.

Lemma tlv_ok_facts b : tlv_ok b = true -> (2 <= length b)%nat /\ hd 0 b <> 0.
Proof.
  intros H. destruct (tlv_ok_inv b H) as (t & r1 & r2 & Hid & Hdl & Hne).
  pose proof (dec_ident_len _ _ _ Hid) as L1. pose proof (dec_len_len _ _ _ Hdl) as L2.
  split; [lia|].
  destruct b as [|o b']; [discriminate Hid|]. cbn [hd]. intros ->.
  cbn in Hid. inversion Hid; subst t. discriminate Hne.
Qed.

Lemma any_by_type cd : dec_ok cd -> by_type cd TAny = Some (DcAny, mkDecFlags true (Some KAny)).
Proof. intros [-> | ->]; vm_compute; reflexivity. Qed.

(* the decoder guided by the untagged ANY goes back to the start of the header and takes the whole TLV:
   as a value, or as raw octets for a caller that collects fragments *)
Lemma any_tlv_consumes cd bs (sfun: bool) f : dec_ok cd -> tlv_ok bs = true -> N.of_nat (length bs) <= index_max ->
  (length bs + 1 <= f)%nat ->
  forall ae, consumes (dec_call cd f (STy TAny) [] None ae sfun) bs (if sfun then DRaw bs else DV TAny (VAny bs)).
Proof.
  intros Hcd Htlv Hmax Hf.
  destruct (tlv_ok_facts bs Htlv) as [Hl2 Hhd].
  apply ae_any; [apply dec_ok_indef; exact Hcd|exact Hl2|exact Hhd|].
  destruct (tlv_ok_inv bs Htlv) as (t & r1 & content & Hid & Hdl & Hneoo).
  pose proof (dec_ident_len _ _ _ Hid) as L1. pose proof (dec_len_len _ _ _ Hdl) as L2.
  pose proof (any_by_type cd Hcd) as Hby.
  destruct f as [|f']; [lia|].
  intros s tl Hav.
  rewrite (dec_call_header_g cd f' (STy TAny) [] sfun bs tl t r1 _ content s Hid Hdl Hav) by lia.
  set (hl := (length bs - length content)%nat).
  set (s1 := adv (setmark s (pos s)) hl).
  unfold dispatch.
  assert (Hcontains: (tagset_eqb [t] (tagset_of' TAny) || tm_contains (tagmap_of TAny) [t])%bool = true).
  { cbn [tagset_of' tagset_of tagmap_of]. unfold tm_contains, tm_find, tm_mem, eoo_tagset. cbn [tm_present tm_default tm_skip assoc existsb].
    change (tagset_eqb [t] []) with false. cbn [orb].
    change (tagset_eqb [t] [utag false 0]) with (tag_eqb t (utag false 0) && true)%bool.
    unfold tag_eqb, utag. cbn [tcls tnum]. rewrite Hneoo. reflexivity. }
  rewrite Hcontains. change (tm_postponed (tagmap_of TAny)) with false. cbv iota. rewrite Hby.
  rewrite resume_tell. cbn [dec_value]. unfold dec_any.
  change (tagset_eqb [t] (tagset_of' TAny)) with false. cbn [negb].
  assert (Hlenb: length bs = (hl + length content)%nat) by (subst hl; lia).
  set (s2 := setpos s1 (pos s1 - (pos s1 - mark s1))).
  assert (Hstep1: resume (let! m := getmark in let! p := tell in
                          SeekBack (p - m) (Ret (N.of_nat (length content) + N.of_nat (p - m)))) s1
                  = inr (Ok (N.of_nat (length bs)), s2)).
  { unfold getmark, tell. cbn [pbind resume]. fold s2. f_equal. f_equal. f_equal.
    change (mark s1) with (pos s). change (pos s1) with (pos s + hl)%nat. lia. }
  assert (Hs2: avail s2 = bs ++ tl).
  { subst s2. unfold avail, setpos. cbn [pos arrived]. change (mark s1) with (pos s). change (pos s1) with (pos s + hl)%nat.
    replace (pos s + hl - (pos s + hl - pos s))%nat with (pos s) by lia. exact Hav. }
  assert (Hps2: pos s2 = pos s).
  { subst s2. unfold setpos. cbn [pos]. change (mark s1) with (pos s). change (pos s1) with (pos s + hl)%nat. lia. }
  assert (Hstep2: resume (let! len' := (let! m := getmark in let! p := tell in
                                        SeekBack (p - m) (Ret (N.of_nat (length content) + N.of_nat (p - m)))) in
                          let! b := read_len f' len' in
                          if sfun then Ret (DRaw b) else create (Some TAny) TAny [t] (VAny b)) s1
                  = inr (Ok (if sfun then DRaw bs else DV TAny (VAny bs)), adv s2 (length bs))).
  { rewrite (resume_pbind_done _ _ _ _ _ Hstep1).
    rewrite (resume_read_len f' bs tl s2 _ Hs2 Hmax) by lia. destruct sfun; reflexivity. }
  rewrite (resume_pbind_done _ _ _ _ _ Hstep2). rewrite resume_tell.
  change (pos (adv s2 (length bs))) with (pos s2 + length bs)%nat. rewrite Hps2.
  change (pos s1) with (pos s + hl)%nat.
  replace (pos s + length bs - (pos s + hl))%nat with (length content) by lia.
  rewrite N.eqb_refl. cbn [resume].
  exists (adv s2 (length bs)). split; [reflexivity|]. split; [rewrite pos_adv, Hps2; reflexivity|]. split; reflexivity.
Qed.

(* the octets are a sequence of complete TLVs, each with a definite length (header in any form), none
   of them the end-of-octets marker *)
Fixpoint tlvs_ok (fuel: nat) (b: bytes) : bool :=
  match b with
  | [] => true
  | _ => match fuel with
         | O => false
         | S f => match dec_ident b with
                  | Some (t, r1) =>
                      match dec_len r1 with
                      | Some (Some n, r2) =>
                          let m := (length b - length r2 + N.to_nat n)%nat in
                          tlv_ok (firstn m b) && tlvs_ok f (skipn m b)
                      | _ => false
                      end
                  | None => false
                  end
         end
  end.

Definition any_payload_ok (b: bytes) : bool := tlvs_ok (S (length b)) b.

Lemma tlvs_ok_split : forall fuel b, tlvs_ok fuel b = true ->
  exists pieces, concat pieces = b /\ Forall (fun p => tlv_ok p = true) pieces.
Proof.
  induction fuel as [|f IH]; intros b H.
  - destruct b; [|discriminate H]. exists []. split; [reflexivity|constructor].
  - destruct b as [|o b']; [exists []; split; [reflexivity|constructor]|].
    cbn [tlvs_ok] in H.
    destruct (dec_ident (o :: b')) as [[t r1]|]; [|discriminate H].
    destruct (dec_len r1) as [[[n|] r2]|]; try discriminate H.
    cbv zeta in H. apply Bool.andb_true_iff in H. destruct H as [H1 H2].
    destruct (IH _ H2) as (pieces & Hc & HF).
    exists (firstn (length (o :: b') - length r2 + N.to_nat n) (o :: b') :: pieces). split.
    + cbn [concat]. rewrite Hc. apply firstn_skipn.
    + constructor; assumption.
Qed.

Section AnyLoop.
  Variable cd : codec.
  Hypothesis Hcd : dec_ok cd.

  Lemma any_indef_run T' ts : base_of T' = TAny -> forall pieces, Forall (fun p => tlv_ok p = true) pieces ->
    forall f n acc s tl,
      (length pieces < n)%nat ->
      (length (concat pieces) + 1 <= f)%nat -> N.of_nat (length (concat pieces)) <= index_max ->
      avail s = concat pieces ++ [0; 0] ++ tl ->
      exists s', resume (any_indef_loop (dec_call cd (S f)) (Some T') ts false true n acc) s
                 = inr (Ok (DV T' (VAny (acc ++ concat pieces))), s')
        /\ pos s' = (pos s + length (concat pieces) + 2)%nat /\ arrived s' = arrived s /\ closed s' = closed s.
  Proof.
    intros Hb pieces HF. induction HF as [|p pieces Hp HF IH]; intros f n acc s tl Hn Hf Hmax Hav.
    - destruct n as [|n']; [cbn [length] in Hn; lia|].
      cbn [any_indef_loop]. unfold fragment. cbn [concat app] in Hav.
      rewrite (resume_pbind_done _ _ _ _ _ (eoo_read cd f (STy TAny) [] None true s tl (dec_ok_indef cd Hcd) Hav)).
      rewrite !app_nil_r. unfold create. rewrite Hb. cbn [resume].
      exists (adv s 2). cbn [concat length]. rewrite pos_adv. repeat split. lia.
    - destruct n as [|n']; [cbn [length] in Hn; lia|].
      cbn [any_indef_loop]. unfold fragment.
      cbn [concat] in Hav, Hf, Hmax. rewrite app_length in Hf, Hmax. rewrite <- app_assoc in Hav.
      destruct (any_tlv_consumes cd p true (S f) Hcd Hp ltac:(lia) ltac:(lia) true s _ Hav) as (s1 & Hrun & Hpos & Harr & Hcl).
      rewrite (resume_pbind_done _ _ _ _ _ Hrun).
      pose proof (consumes_avail p s _ s1 Hav Hpos Harr) as Hav1.
      cbn [length] in Hn.
      destruct (IH f n' (acc ++ p) s1 tl ltac:(lia) ltac:(lia) ltac:(lia) Hav1) as (s2 & Hrun2 & Hpos2 & Harr2 & Hcl2).
      exists s2. rewrite Hrun2. rewrite <- app_assoc. cbn [concat]. rewrite app_length.
      split; [reflexivity|]. split; [lia|]. split; congruence.
  Qed.

End AnyLoop.

Lemma tlv_pieces_count pieces : Forall (fun p => tlv_ok p = true) pieces -> (length pieces <= length (concat pieces))%nat.
Proof.
  induction 1 as [|p l Hp _ IH]; [cbn; lia|]. destruct (tlv_ok_facts p Hp) as [H2 _].
  cbn [length concat]. rewrite app_length. lia.
Qed.

Section Modes3f.
  Variables ce cd : codec.
  Variable d : bool.
  Variable k : N.
  Hypothesis Hst : stable ce d k.
  Hypothesis Hcd : dec_ok cd.
  Variable R : aval -> aval -> Prop.
  Variable srt : bool.
  Hypothesis HR : rel_ok R srt.

  Notation encm := (encm ce d k).
  Notation val_ok_m := (val_ok_m ce cd d k R).
  Notation item_sty_m := (item_sty_m ce cd d k R).

  Lemma any_codecs_m T' : base_of T' = TAny ->
    (exists fl, concrete_encoder ce T' = Ok (EcAny, fl) /\ ef_indef fl = true)
    /\ by_type cd T' = Some (DcAny, mkDecFlags true (Some KAny)).
  Proof.
    intros Hb. split.
    - rewrite concrete_encoder_base, Hb. destruct ce; eexists; (split; [vm_compute; reflexivity|reflexivity]).
    - rewrite by_type_base, Hb. apply any_by_type. exact Hcd.
  Qed.

  Lemma any_item_m v : stage3_val ce cd TAny v = true -> item_sty_m TAny v.
  Proof.
    intros Hv p Ep Hmax.
    assert (Hvo: exists bs, octets_of v = Some bs /\ abs TAny v = AAny bs /\ tlv_ok bs = true).
    { destruct v; try discriminate Hv; eexists; (split; [reflexivity|split; [reflexivity|exact Hv]]). }
    destruct Hvo as (bs & Hoct & Habs & Htlv).
    destruct (any_codecs_m TAny eq_refl) as [(fl & Hcenc & Hsi) Hby].
    destruct (RoundTripModesC.enc_with_inv_g ce _ d k _ p Hst Ep) as (ec & fl' & ts & content & cns & Hcenc' & Hts' & Hcont & Hfr).
    rewrite Hcenc in Hcenc'. inversion Hcenc'; subst ec fl'; clear Hcenc'.
    cbn [tagset_of] in Hts'. inversion Hts'; subst ts; clear Hts'.
    cbn [enc_content] in Hcont. rewrite Hoct in Hcont. inversion Hcont; subst content cns; clear Hcont.
    cbn [frame] in Hfr. inversion Hfr; subst p; clear Hfr.
    destruct (tlv_ok_facts bs Htlv) as [Hl2 Hhd].
    exists (VAny bs). split; [rewrite Habs; apply (r_refl _ _ HR)|].
    split; [exact Hl2|]. split; [exact Hhd|].
    intros f ae Hf. unfold fuel_ok in Hf. cbn [ty_depth] in Hf.
    exact (any_tlv_consumes cd bs false f Hcd Htlv Hmax ltac:(lia) ae).
  Qed.

  (* a tagged ANY: any octets when lengths are definite; a sequence of TLVs when they are not *)
  Lemma any_val_tagged_m T' : base_of T' = TAny -> is_wrapped T' = true -> stage3_ty srt ce T' = true ->
    forall v bs, octets_of v = Some bs -> abs TAny v = AAny bs -> (d = false -> any_payload_ok bs = true) -> val_ok_m T' v.
  Proof.
    intros Hb Hwr Hty v bs Hoct Habs Hpay.
    assert (Hub: untagged_base T' = true) by (unfold untagged_base; rewrite Hb; reflexivity).
    apply (val_ok_wrapped_m ce cd d k Hst R srt T' v Hub Hwr Hty). intros ec fl content cns Hcenc Hcont Hmax.
    destruct (any_codecs_m T' Hb) as [(fl0 & Hcenc0 & Hsi) Hby].
    rewrite Hcenc0 in Hcenc. inversion Hcenc; subst ec fl; clear Hcenc.
    rewrite Hb in Hcont. cbn [enc_content] in Hcont. rewrite Hoct in Hcont.
    inversion Hcont; subst content cns; clear Hcont.
    split; [exact Hsi|].
    exists (VAny bs). split; [rewrite Hb, Habs; apply (r_refl _ _ HR)|].
    exists DcAny, (mkDecFlags true (Some KAny)). split; [exact Hby|].
    intros f Hf. rewrite Hb in Hf. cbn [ty_depth] in Hf.
    unfold val_consumes. cbn [o_def mo]. destruct d; cbn [andb negb]; cbn [dec_value].
    - unfold dec_any. rewrite tagset_eqb_refl. cbn [negb pbind].
      apply consumes_ret; [split; lia|]. unfold create. rewrite Hb. reflexivity.
    - unfold dec_any_indef. rewrite tagset_eqb_refl. cbn [pbind].
      destruct (tlvs_ok_split _ _ (Hpay eq_refl)) as (pieces & Hcat & HFp).
      pose proof (tlv_pieces_count pieces HFp) as Hcnt. rewrite Hcat in Hcnt.
      destruct f as [|f']; [lia|].
      intros s tl Hav. rewrite <- app_assoc, <- Hcat in Hav.
      destruct (any_indef_run cd Hcd T' (tagset_of' T') Hb pieces HFp f' (S f') [] s tl) as (s' & Hrun & Hpos & Harr & Hcl).
      + lia.
      + rewrite Hcat. lia.
      + rewrite Hcat. lia.
      + exact Hav.
      + rewrite Hcat in *. exists s'. split; [exact Hrun|]. rewrite app_length. cbn [length]. repeat split; try assumption. lia.
  Qed.

End Modes3f.
