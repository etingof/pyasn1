(* Schedule independence for decoders that may ask "is the stream at its end" (AtEOS) but never
   "give me everything that is there" (ReadAll): the theorems of ProcSim.v at [tame true]; and the
   item loop of a streaming client. *)
From PV Require Import Model.Proc Proofs.ProcSim.

Inductive clean_sched {A} : proc A -> Prop :=
| cs_Ret a : clean_sched (Ret a)
| cs_Raise e : clean_sched (Raise e)
| cs_ReadN n k : (forall b, clean_sched (k b)) -> clean_sched (ReadN n k)
| cs_Tell k : (forall q, clean_sched (k q)) -> clean_sched (Tell k)
| cs_SeekBack d k : clean_sched k -> clean_sched (SeekBack d k)
| cs_Mark k : clean_sched k -> clean_sched (Mark k)
| cs_GetMark k : (forall q, clean_sched (k q)) -> clean_sched (GetMark k)
| cs_AtEOS k : (forall b, clean_sched (k b)) -> clean_sched (AtEOS k).

Lemma clean_clean_sched {A} (p: proc A) : clean p -> clean_sched p.
Proof. induction 1; constructor; auto. Qed.

Lemma clean_sched_tame {A} (p: proc A) : clean_sched p -> tame true p.
Proof. induction 1; cbn [tame]; auto. Qed.

Theorem underrun_only_when_missing_sched {A} (p: proc A) : clean_sched p -> forall s q s',
  resume p s = inl (q, s') ->
  (exists n k, q = ReadN n k /\ length (avail s') < n)
  \/ (exists k, q = AtEOS k /\ length (avail s') = 0 /\ closed s' = false).
Proof.
  intros Hc s q s' H.
  destruct (suspension true p (clean_sched_tame p Hc) s q s' H) as [Hcl [Hr|[_ [k [Hq He]]]]]; eauto.
Qed.

Theorem closed_no_suspend_sched {A} (p: proc A) : clean_sched p -> forall s,
  closed s = true -> exists r s', resume p s = inr (r, s').
Proof. intros Hc. exact (tame_closed_no_suspend true p (clean_sched_tame p Hc)). Qed.

Theorem sched_indep_sched {A} : forall sched (p: proc A) s r sF,
  clean_sched p -> wf_sched (closed s) sched ->
  resume p (complete s sched) = inr (r, sF) ->
  (exists j, drive sched p s = repeat OUnder j ++ [ODone r (pos sF)])
  \/ drive sched p s = repeat OUnder (S (length sched)).
Proof.
  intros sched p s r sF Hc Hw H.
  destruct (drive_complete true sched p s r sF (clean_sched_tame p Hc) Hw H) as [Hj|[Hj _]]; auto.
Qed.

Theorem sched_indep_closed_sched {A} : forall sched (p: proc A) s r sF,
  clean_sched p -> wf_sched (closed s) sched ->
  closed s || has_close sched = true ->
  resume p (complete s sched) = inr (r, sF) ->
  exists j, drive sched p s = repeat OUnder j ++ [ODone r (pos sF)].
Proof. intros sched p s r sF Hc. exact (tame_sched_indep_closed true sched p s r sF (clean_sched_tame p Hc)). Qed.

Theorem sched_indep_two_sched {A} (sched1 sched2: list envev) (p: proc A) s r sF :
  clean_sched p -> wf_sched (closed s) sched1 -> wf_sched (closed s) sched2 ->
  has_close sched1 = true -> has_close sched2 = true ->
  arrivals sched1 = arrivals sched2 ->
  resume p (complete s sched1) = inr (r, sF) ->
  exists j1 j2, drive sched1 p s = repeat OUnder j1 ++ [ODone r (pos sF)]
             /\ drive sched2 p s = repeat OUnder j2 ++ [ODone r (pos sF)].
Proof.
  intros Hc Hw1 Hw2 Hh1 Hh2 Harr H.
  assert (H2: resume p (complete s sched2) = inr (r, sF)).
  { unfold complete in *. rewrite <- Harr. exact H. }
  destruct (sched_indep_closed_sched sched1 p s r sF Hc Hw1) as [j1 Hj1]; auto.
  { rewrite Hh1. apply orb_true_r. }
  destruct (sched_indep_closed_sched sched2 p s r sF Hc Hw2) as [j2 Hj2]; auto.
  { rewrite Hh2. apply orb_true_r. }
  eauto.
Qed.

(* [guard] that leaves AtEOS in place: only ReadAll is replaced by [Raise u] *)
Fixpoint guard_ra {A} (u: err) (p: proc A) : proc A :=
  match p with
  | Ret a => Ret a
  | Raise e => Raise e
  | ReadN n k => ReadN n (fun b => guard_ra u (k b))
  | Tell k => Tell (fun q => guard_ra u (k q))
  | SeekBack d k => SeekBack d (guard_ra u k)
  | Mark k => Mark (guard_ra u k)
  | GetMark k => GetMark (fun q => guard_ra u (k q))
  | AtEOS k => AtEOS (fun b => guard_ra u (k b))
  | ReadAll _ => Raise u
  end.

Lemma guard_ra_clean_sched {A} (u: err) (p: proc A) : clean_sched (guard_ra u p).
Proof.
  induction p as [a0|e|n k IH|k IH|d k IH|k IH|k IH|k IH|k IH]; cbn [guard_ra]; constructor; auto.
Qed.

Lemma guard_ra_done {A} (u: err) (p: proc A) : forall s r s',
  resume (guard_ra u p) s = inr (r, s') -> r <> Err u -> resume p s = inr (r, s').
Proof.
  induction p as [a0|e|n k IH|k IH|d k IH|k IH|k IH|k IH|k IH]; intros s r s' H Hne;
    cbn [guard_ra resume] in *; auto.
  - destruct (attempt s n) as [[c| |] sm]; try discriminate; auto.
  - destruct (Nat.eqb (length (avail s)) 0); [|auto].
    destruct (closed s); [auto|discriminate].
  - inversion H; subst. congruence.
Qed.

Lemma guard_ra_susp {A} (u: err) (p: proc A) : forall s q s',
  resume (guard_ra u p) s = inl (q, s') -> exists p', q = guard_ra u p' /\ resume p s = inl (p', s').
Proof.
  induction p as [a0|e|n k IH|k IH|d k IH|k IH|k IH|k IH|k IH]; intros s q s' H;
    cbn [guard_ra resume] in *; try discriminate; auto.
  - destruct (attempt s n) as [[c| |] sm]; try discriminate; auto.
    inversion H; subst; clear H. exists (ReadN n k). split; reflexivity.
  - destruct (Nat.eqb (length (avail s)) 0); [|auto].
    destruct (closed s); [auto|].
    inversion H; subst; clear H. exists (AtEOS k). split; reflexivity.
Qed.

Theorem guard_ra_drive {A} (u: err) : forall sched (p: proc A) s r sF,
  wf_sched (closed s) sched ->
  resume (guard_ra u p) (complete s sched) = inr (r, sF) -> r <> Err u ->
  drive sched (guard_ra u p) s = drive sched p s.
Proof.
  apply (guarded_drive true u (guard_ra u)); [|apply guard_ra_done|apply guard_ra_susp].
  intros p. apply clean_sched_tame. apply guard_ra_clean_sched.
Qed.

Theorem sched_indep_run_sched {A} (u: err) (sched: list envev) (p: proc A) s r sF :
  wf_sched (closed s) sched ->
  resume (guard_ra u p) (complete s sched) = inr (r, sF) -> r <> Err u ->
  resume p (complete s sched) = inr (r, sF)
  /\ ((exists j, drive sched p s = repeat OUnder j ++ [ODone r (pos sF)])
      \/ drive sched p s = repeat OUnder (S (length sched))).
Proof.
  intros Hw H Hne. split; [apply (guard_ra_done u); assumption|].
  rewrite <- (guard_ra_drive u sched p s r sF Hw H Hne).
  apply sched_indep_sched; auto. apply guard_ra_clean_sched.
Qed.

Theorem sched_indep_close_run_sched {A} (u: err) (sched: list envev) (p: proc A) s r sF :
  wf_sched (closed s) sched -> closed s || has_close sched = true ->
  resume (guard_ra u p) (complete s sched) = inr (r, sF) -> r <> Err u ->
  exists j, drive sched p s = repeat OUnder j ++ [ODone r (pos sF)].
Proof.
  intros Hw Hcl H Hne.
  rewrite <- (guard_ra_drive u sched p s r sF Hw H Hne).
  apply sched_indep_closed_sched; auto. apply guard_ra_clean_sched.
Qed.

(* the loop of StreamingDecoder.__iter__ over any item decoder, with the body of Model/Dec.v [iter_loop]: for
   items that are [clean_sched] trees the theorems above apply directly, without the guard that DecStream.v
   needs for the model's item decoder *)
Fixpoint stream_loop {A} (n: nat) (item: proc A) : proc (list A) :=
  match n with
  | O => Ret []
  | S n' =>
      pbind item (fun d =>
        AtEOS (fun eos => if eos then Ret [d]
                          else pbind (stream_loop n' item) (fun ds => Ret (d :: ds))))
  end.

Lemma clean_sched_pbind {A B} (p: proc A) (f: A -> proc B) :
  clean_sched p -> (forall a, clean_sched (f a)) -> clean_sched (pbind p f).
Proof.
  intros Hp Hf. induction Hp; cbn [pbind]; try constructor; auto.
Qed.

Lemma stream_loop_clean_sched {A} (n: nat) (item: proc A) :
  clean_sched item -> clean_sched (stream_loop n item).
Proof.
  intros Hi. induction n as [|n IH]; cbn [stream_loop]; [constructor|].
  apply clean_sched_pbind; [exact Hi|]. intros d. constructor. intros [|]; [constructor|].
  apply clean_sched_pbind; [exact IH|]. intros ds. constructor.
Qed.

(* the list of objects yielded (in order) and the final position are those of the one-shot run,
   under every well-formed schedule that eventually closes the stream *)
Theorem stream_loop_sched_indep {A} (n: nat) (item: proc A) sched s r sF :
  clean_sched item -> wf_sched (closed s) sched ->
  closed s || has_close sched = true ->
  resume (stream_loop n item) (complete s sched) = inr (r, sF) ->
  exists j, drive sched (stream_loop n item) s = repeat OUnder j ++ [ODone r (pos sF)].
Proof.
  intros Hi Hw Hcl H. apply sched_indep_closed_sched; auto. apply stream_loop_clean_sched. exact Hi.
Qed.

Theorem stream_loop_sched_indep_two {A} (n: nat) (item: proc A) sched1 sched2 s r sF :
  clean_sched item -> wf_sched (closed s) sched1 -> wf_sched (closed s) sched2 ->
  has_close sched1 = true -> has_close sched2 = true ->
  arrivals sched1 = arrivals sched2 ->
  resume (stream_loop n item) (complete s sched1) = inr (r, sF) ->
  exists j1 j2, drive sched1 (stream_loop n item) s = repeat OUnder j1 ++ [ODone r (pos sF)]
             /\ drive sched2 (stream_loop n item) s = repeat OUnder j2 ++ [ODone r (pos sF)].
Proof.
  intros Hi. apply sched_indep_two_sched. apply stream_loop_clean_sched. exact Hi.
Qed.

Print Assumptions closed_no_suspend_sched.
Print Assumptions underrun_only_when_missing_sched.
Print Assumptions sched_indep_sched.
Print Assumptions sched_indep_closed_sched.
Print Assumptions sched_indep_two_sched.
Print Assumptions guard_ra_clean_sched.
Print Assumptions guard_ra_done.
Print Assumptions guard_ra_susp.
Print Assumptions guard_ra_drive.
Print Assumptions sched_indep_run_sched.
Print Assumptions sched_indep_close_run_sched.
Print Assumptions stream_loop_clean_sched.
Print Assumptions stream_loop_sched_indep.
Print Assumptions stream_loop_sched_indep_two.
