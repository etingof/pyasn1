(* CachingStreamWrapper refines the abstract seekable stream (C11).
   - the repaired wrapper (variant Fix, fixes/F06.diff): for every permitted history, no exclusion;
   - the wrapper as it is (variant Cur): for every permitted history in which no mark is set
     further than bufsize into the cache (the complement of finding F06's class);
   - the wrapper as it is, outside that class: refuted by a three-call history. *)
From Coq Require Import Lia Arith.
From PV Require Import Base.Bytes Model.Wrapper Proofs.Basics.

Lemma bio_write_end (c d: bytes) :
  bio_write d (mkBio c (length c)) = mkBio (c ++ d) (length c + length d).
Proof.
  unfold bio_write. destruct d as [|x d].
  - rewrite app_nil_r, Nat.add_0_r. reflexivity.
  - cbn [bpos bbuf]. rewrite firstn_all, Nat.sub_diag. cbn [repn app].
    rewrite skipn_all2 by (cbn [length]; lia). rewrite app_nil_r. reflexivity.
Qed.

(* read / read_all / peek under the invariant cpos <= |cache| *)

Definition winv (w: wstate) : Prop := bpos (wcache w) <= length (bbuf (wcache w)).
Definition wdata (w: wstate) : bytes := bbuf (wcache w) ++ raw_rest w.

(* what a read leaves behind: the same octets, cached or still to come, the same bookkeeping,
   the cache position [adv] further on *)
Definition moved (w w': wstate) (adv: nat) : Prop :=
  wdata w' = wdata w /\ bpos (wcache w') = bpos (wcache w) + adv /\ winv w'
  /\ woff w' = woff w /\ wmark w' = wmark w.

Lemma w_read_spec n w : winv w ->
  snd (w_read n w) = firstn n (skipn (bpos (wcache w)) (wdata w))
  /\ moved w (fst (w_read n w)) (length (snd (w_read n w))).
Proof.
  destruct w as [R [C cp] off mk]. unfold moved, winv, wdata. cbn [wcache bpos bbuf raw_rest woff wmark].
  intros Hcp. unfold w_read, bio_read. cbn [wcache bpos bbuf raw_rest woff wmark].
  rewrite (skipn_app_le C R cp Hcp).
  set (c := firstn n (skipn cp C)).
  assert (Hc: length c = Nat.min n (length C - cp)).
  { subst c. rewrite firstn_length, skipn_length. reflexivity. }
  destruct (n - length c) as [|k] eqn:En.
  - (* everything came from the cache *)
    cbn [fst snd with_cache wcache bpos bbuf raw_rest woff wmark].
    assert (Hn: n <= length (skipn cp C)) by (rewrite skipn_length; lia).
    rewrite (firstn_app_le _ R n Hn).
    repeat split; try reflexivity. lia.
  - (* the cache is exhausted, the rest comes from the raw stream *)
    assert (Hlen: length (skipn cp C) <= n) by (rewrite skipn_length; lia).
    assert (Ec: c = skipn cp C) by (subst c; apply firstn_all2; exact Hlen).
    assert (Epos: cp + length c = length C) by (rewrite Ec, skipn_length; lia).
    rewrite Epos, bio_write_end.
    cbn [fst snd wcache bpos bbuf raw_rest woff wmark].
    rewrite (firstn_app_ge _ R n Hlen).
    replace (n - length (skipn cp C)) with (S k) by (rewrite <- Ec; lia).
    repeat split.
    + rewrite Ec. reflexivity.
    + rewrite <- app_assoc. f_equal. apply firstn_skipn.
    + rewrite app_length. lia.
    + rewrite app_length. lia.
Qed.

Lemma w_read_all_spec w : winv w ->
  snd (w_read_all w) = skipn (bpos (wcache w)) (wdata w)
  /\ moved w (fst (w_read_all w)) (length (snd (w_read_all w))).
Proof.
  destruct w as [R [C cp] off mk]. unfold moved, winv, wdata. cbn [wcache bpos bbuf raw_rest woff wmark].
  intros Hcp. unfold w_read_all, bio_read_all. cbn [wcache bpos bbuf raw_rest woff wmark].
  rewrite (skipn_app_le C R cp Hcp).
  assert (Epos: cp + length (skipn cp C) = length C) by (rewrite skipn_length; lia).
  rewrite Epos, bio_write_end.
  cbn [fst snd wcache bpos bbuf raw_rest woff wmark].
  repeat split.
  - rewrite app_nil_r. reflexivity.
  - rewrite !app_length, skipn_length. lia.
  - rewrite app_length. lia.
Qed.

Lemma w_peek_spec n w : winv w ->
  snd (w_peek n w) = firstn n (skipn (bpos (wcache w)) (wdata w))
  /\ moved w (fst (w_peek n w)) 0.
Proof.
  intros Hinv. destruct (w_read_spec n w Hinv) as (Hr & Hd & Hp & Hi & Ho & Hm).
  unfold w_peek. destruct (w_read n w) as [[R1 [C1 cp1] off1 mk1] r]. unfold moved, winv, wdata in *.
  cbn [fst snd with_cache bio_seek_cur_back wcache bpos bbuf raw_rest woff wmark] in *.
  repeat split; try assumption; lia.
Qed.

Lemma related_data w s : related w s ->
  winv w /\ skipn (spos s) (sall s) = skipn (bpos (wcache w)) (wdata w).
Proof.
  intros (D & Hall & HD & Hpos & Hcp & _). split; [exact Hcp|].
  rewrite Hall, Hpos. unfold wdata. rewrite skipn_app_ge by lia. f_equal. lia.
Qed.

Lemma related_moved w w' s s' adv :
  related w s -> moved w w' adv ->
  sall s' = sall s -> spos s' = spos s + adv -> smark s' = smark s -> related w' s'.
Proof.
  intros (D & Hall & HD & Hpos & Hcp & Hmk & Hoff) (Hd & Hp & Hi & Ho & Hm) Ea Ep Em.
  exists D. unfold wdata, winv in *. rewrite Ea, Ep, Em, Hd, Ho, Hm. repeat split; try assumption; lia.
Qed.

(* a seek within the cache *)
Lemma related_seek w s cp p :
  related w s -> cp <= length (bbuf (wcache w)) -> p = woff w + cp ->
  related (with_cache w (mkBio (bbuf (wcache w)) cp)) (mkS (sall s) p (smark s)).
Proof.
  intros (D & Hall & HD & Hpos & Hcp & Hmk & Hoff) Hle ->. exists D. repeat split; assumption.
Qed.

Lemma step_refines bufsize w s o :
  related w s -> op_okb s o = true ->
  snd (wstep Fix bufsize w o) = snd (sstep s o)
  /\ related (fst (wstep Fix bufsize w o)) (fst (sstep s o)).
Proof.
  intros Hrel Hok. destruct (related_data w s Hrel) as [Hinv Hskip].
  pose proof Hrel as (D & Hall & HD & Hpos & Hcp & Hmk & Hoff).
  destruct o as [n| |n|p|d| |v| ]; cbn [wstep sstep].
  - (* read n *)
    destruct (w_read_spec n w Hinv) as [Hr Hmv]. destruct (w_read n w) as [w' r].
    cbn [fst snd] in *. rewrite Hskip, <- Hr. split; [reflexivity|].
    apply (related_moved w w' s _ _ Hrel Hmv); reflexivity.
  - (* read all *)
    destruct (w_read_all_spec w Hinv) as [Hr Hmv]. destruct (w_read_all w) as [w' r].
    cbn [fst snd] in *. rewrite Hskip, <- Hr. split; [reflexivity|].
    apply (related_moved w w' s _ _ Hrel Hmv); reflexivity.
  - (* peek n *)
    destruct (w_peek_spec n w Hinv) as [Hr Hmv]. destruct (w_peek n w) as [w' r].
    cbn [fst snd] in *. rewrite Hskip, <- Hr. split; [reflexivity|].
    apply (related_moved w w' s s 0 Hrel Hmv); auto.
  - (* seek(p, SEEK_SET), mark <= p <= pos *)
    cbn [op_okb] in Hok. apply andb_prop in Hok as [H1%Nat.leb_le H2%Nat.leb_le]. cbn [w_base].
    destruct (Nat.ltb_spec p (woff w)) as [Hlt|Hge]; [lia|].
    split; [reflexivity|]. apply related_seek; [exact Hrel|lia|lia].
  - (* seek(-d, SEEK_CUR), mark <= pos - d *)
    cbn [op_okb] in Hok. apply Nat.leb_le in Hok. cbn [w_base fst snd bio_seek_cur_back bpos].
    split; [f_equal; lia|]. apply related_seek; [exact Hrel|lia|lia].
  - (* tell *)
    cbn [w_base fst snd]. split; [f_equal; lia|exact Hrel].
  - (* markedPosition = v, v = pos *)
    cbn [op_okb] in Hok. apply Nat.eqb_eq in Hok. cbn [fst snd]. split; [reflexivity|].
    destruct w as [R [C cp] off mk]. unfold w_set_mark.
    cbn [wcache bpos bbuf raw_rest woff wmark bio_read_all fst] in *.
    destruct (Nat.ltb_spec bufsize cp) as [Hdrop|Hkeep].
    + (* the cache is dropped: what was before the position joins the dropped octets *)
      exists (D ++ firstn cp C). cbn [sall spos smark wcache bpos bbuf raw_rest woff wmark].
      rewrite app_length, firstn_length. repeat split; try lia.
      rewrite Hall, <- app_assoc, (app_assoc (firstn cp C)), firstn_skipn. reflexivity.
    + exists D. cbn [sall spos smark wcache bpos bbuf raw_rest woff wmark]. repeat split; try assumption; lia.
  - (* markedPosition *)
    cbn [fst snd]. split; [f_equal; congruence|exact Hrel].
Qed.

Lemma run_cons {S} (step: S -> op -> S * out) st o ops :
  outputs (run step st (o :: ops)) = snd (step st o) :: outputs (run step (fst (step st o)) ops).
Proof.
  unfold outputs. cbn [run]. destruct (step st o) as [st1 x]. cbn [fst snd].
  destruct (run step st1 ops). reflexivity.
Qed.

(* a step-by-step simulation, on the histories [perm] allows, gives equal answers *)
Lemma run_refines {S T} (stepS: S -> op -> S * out) (stepT: T -> op -> T * out)
    (Rel: S -> T -> Prop) (ok: T -> op -> bool) (perm: T -> list op -> bool) :
  (forall t o r, perm t (o :: r) = ok t o && perm (fst (stepT t o)) r) ->
  (forall s t o, Rel s t -> ok t o = true ->
     snd (stepS s o) = snd (stepT t o) /\ Rel (fst (stepS s o)) (fst (stepT t o))) ->
  forall ops s t, Rel s t -> perm t ops = true ->
  outputs (run stepS s ops) = outputs (run stepT t ops).
Proof.
  intros Hperm Hstep. induction ops as [|o ops IH]; intros s t Hrel Hp; [reflexivity|].
  rewrite Hperm in Hp. apply andb_prop in Hp as [Hok Hrest].
  destruct (Hstep s t o Hrel Hok) as [Hout Hrel'].
  rewrite !run_cons, Hout. f_equal. apply IH; assumption.
Qed.

Theorem wrapper_refines bufsize : forall ops w0 s0,
  related w0 s0 -> permitted s0 ops ->
  outputs (run (wstep Fix bufsize) w0 ops) = outputs (run sstep s0 ops).
Proof. exact (run_refines _ _ related op_okb permittedb (fun _ _ _ => eq_refl) (step_refines bufsize)). Qed.

Lemma related_init b : related (w_init b) (s_init b).
Proof. exists []. cbn. repeat split; lia. Qed.

Theorem wrapper_refines_init bufsize b ops :
  permitted (s_init b) ops ->
  outputs (run (wstep Fix bufsize) (w_init b) ops) = outputs (run sstep (s_init b) ops).
Proof. apply wrapper_refines, related_init. Qed.

(* the wrapper as it is, away from finding F06 *)

(* only a setter that drops the cache touches [_offset] *)
Lemma wstep_woff v bufsize w o :
  (match o with OSetMark _ => Nat.leb (bpos (wcache w)) bufsize | _ => true end) = true ->
  woff (fst (wstep v bufsize w o)) = woff w.
Proof.
  destruct o as [n| |n|p|d| |val| ]; cbn [wstep]; intros H; try reflexivity.
  - unfold w_read. destruct (bio_read n (wcache w)) as [c b1]. destruct (n - length c); reflexivity.
  - unfold w_peek, w_read. destruct (bio_read n (wcache w)) as [c b1]. destruct (n - length c); reflexivity.
  - destruct (Nat.ltb p (w_base v w)); reflexivity.
  - unfold w_set_mark. apply Nat.leb_le in H.
    destruct (Nat.ltb_spec bufsize (bpos (wcache w))); [lia|reflexivity].
Qed.

(* while nothing has been dropped the two variants are the same function *)
Lemma cur_is_fix w o bufsize :
  woff w = 0 ->
  (match o with OSetMark _ => Nat.leb (bpos (wcache w)) bufsize | _ => true end) = true ->
  wstep Cur bufsize w o = wstep Fix bufsize w o.
Proof.
  intros H0 H. destruct o as [n| |n|p|d| |val| ]; cbn [wstep w_base]; rewrite ?H0; try reflexivity.
  unfold w_set_mark. apply Nat.leb_le in H.
  destruct (Nat.ltb_spec bufsize (bpos (wcache w))); [lia|reflexivity].
Qed.

Theorem wrapper_cur_refines_nodrop bufsize : forall ops w0 s0,
  related w0 s0 -> woff w0 = 0 -> permitted s0 ops -> nodropb bufsize s0 ops = true ->
  outputs (run (wstep Cur bufsize) w0 ops) = outputs (run sstep s0 ops).
Proof.
  unfold permitted. induction ops as [|o ops IH]; intros w s Hrel H0 Hperm Hnd; [reflexivity|].
  cbn [permittedb] in Hperm. apply andb_prop in Hperm as [Hok Hrest].
  cbn [nodropb] in Hnd. apply andb_prop in Hnd as [Hnd1 Hnd2].
  assert (Hnd': (match o with OSetMark _ => Nat.leb (bpos (wcache w)) bufsize | _ => true end) = true).
  { destruct Hrel as (_ & _ & _ & Hpos & _). rewrite Hpos, H0 in Hnd1. exact Hnd1. }
  destruct (step_refines bufsize w s o Hrel Hok) as [Hout Hrel'].
  rewrite !run_cons, (cur_is_fix w o bufsize H0 Hnd'), Hout. f_equal.
  apply IH; try assumption. rewrite wstep_woff; assumption.
Qed.

(* the wrapper as it is, inside finding F06's class: refuted *)

(* read(BUF+1); markedPosition = tell(); tell()  --  a permitted history on which the
   wrapper answers 0 where every seekable stream answers BUF+1 *)
Definition f06_ops (bufsize: nat) : list op := [ORead (S bufsize); OSetMark (S bufsize); OTell].
Definition f06_data (bufsize: nat) : bytes := repn (S (S bufsize)) 7%N.

Theorem refuted_renumber_old :
  exists bufsize b ops,
    permitted (s_init b) ops
    /\ nodropb bufsize (s_init b) ops = false
    /\ outputs (run (wstep Cur bufsize) (w_init b) ops) <> outputs (run sstep (s_init b) ops)
    /\ outputs (run (wstep Cur bufsize) (w_init b) ops) = [OBytes (repn (S bufsize) 7%N); ONone; ONum 0]
    /\ outputs (run sstep (s_init b) ops) = [OBytes (repn (S bufsize) 7%N); ONone; ONum (S bufsize)].
Proof.
  exists 4, (f06_data 4), (f06_ops 4).
  split; [vm_compute; reflexivity|]. split; [vm_compute; reflexivity|].
  split; [vm_compute; discriminate|]. split; vm_compute; reflexivity.
Qed.

(* the same three calls at the real buffer size (8192 in CPython), for any size *)
Theorem refuted_renumber_old_any bufsize :
  permitted (s_init (f06_data bufsize)) (f06_ops bufsize)
  /\ nth 2 (outputs (run (wstep Cur bufsize) (w_init (f06_data bufsize)) (f06_ops bufsize))) ONone = ONum 0
  /\ nth 2 (outputs (run sstep (s_init (f06_data bufsize)) (f06_ops bufsize))) ONone = ONum (S bufsize)
  /\ nth 2 (outputs (run (wstep Fix bufsize) (w_init (f06_data bufsize)) (f06_ops bufsize))) ONone = ONum (S bufsize).
Proof.
  assert (Hlen: forall n x, length (repn n x) = n) by (induction n; intros; cbn; congruence).
  assert (Hf: length (firstn (S bufsize) (f06_data bufsize)) = S bufsize).
  { rewrite firstn_length. unfold f06_data. rewrite Hlen. lia. }
  assert (Hperm: permitted (s_init (f06_data bufsize)) (f06_ops bufsize)).
  { unfold permitted, f06_ops. cbn [permittedb op_okb sstep fst s_init spos sall smark skipn andb].
    rewrite Hf. cbn [Nat.add]. rewrite Nat.eqb_refl. reflexivity. }
  split; [exact Hperm|].
  assert (Hs: nth 2 (outputs (run sstep (s_init (f06_data bufsize)) (f06_ops bufsize))) ONone = ONum (S bufsize)).
  { unfold f06_ops. rewrite !run_cons. cbn [nth sstep fst snd s_init spos sall smark skipn].
    rewrite Hf. reflexivity. }
  split; [|split; [exact Hs|]].
  - (* Cur: the read leaves the cache position at BUF+1, so the setter drops the cache *)
    unfold f06_ops. rewrite !run_cons. cbn [nth wstep].
    destruct (w_read_spec (S bufsize) (w_init (f06_data bufsize))) as (Hr & _ & Hp & _);
      [unfold winv; cbn; lia|].
    destruct (w_read (S bufsize) (w_init (f06_data bufsize))) as [w1 r]. cbn [fst snd] in *.
    assert (Hp1: bpos (wcache w1) = S bufsize) by (rewrite Hp, Hr; exact Hf).
    unfold w_set_mark. rewrite Hp1.
    destruct (Nat.ltb_spec bufsize (S bufsize)) as [_|]; [|lia]. reflexivity.
  - rewrite (wrapper_refines_init bufsize _ _ Hperm). exact Hs.
Qed.

Lemma run_client_refines {S} (step: S -> op -> S * out) (Rel: S -> sstate -> Prop) (c: client) :
  (forall st s o, Rel st s -> op_okb s o = true ->
     snd (step st o) = snd (sstep s o) /\ Rel (fst (step st o)) (fst (sstep s o))) ->
  forall fuel st s hist, Rel st s -> client_permittedb c fuel s hist = true ->
  run_client step c fuel st hist = run_client sstep c fuel s hist.
Proof.
  intros Hstep. induction fuel as [|f IH]; intros st s hist Hrel Hperm; [reflexivity|].
  cbn [run_client client_permittedb] in *. destruct (c hist) as [o|]; [|reflexivity].
  apply andb_prop in Hperm as [Hok Hrest].
  destruct (Hstep st s o Hrel Hok) as [Hout Hrel'].
  destruct (step st o) as [st' x]. destruct (sstep s o) as [s' y].
  cbn [fst snd] in *. subst y. apply IH; assumption.
Qed.

Theorem client_refines bufsize (c: client) : forall fuel w s hist,
  related w s -> client_permittedb c fuel s hist = true ->
  run_client (wstep Fix bufsize) c fuel w hist = run_client sstep c fuel s hist.
Proof. exact (run_client_refines _ related c (step_refines bufsize)). Qed.

Theorem kinds_normalise b :
  as_seekable (SBytes b) = Ok (StSeek (s_init b))
  /\ as_seekable (SBytesIO b 0) = Ok (StSeek (s_init b))
  /\ as_seekable (SOctetString b) = Ok (StSeek (s_init b))
  /\ as_seekable (SSeekable b 0) = Ok (StSeek (s_init b))
  /\ as_seekable (SNonSeekable b) = Ok (StWrap (w_init b))
  /\ as_seekable SOther = Err EUnsupported.
Proof. repeat split. Qed.

Definition stream_related (st: stream) (s: sstate) : Prop :=
  match st with StSeek s' => s' = s | StWrap w => related w s end.

Lemma stream_step_refines bufsize st s o :
  stream_related st s -> op_okb s o = true ->
  snd (stream_step Fix bufsize st o) = snd (sstep s o)
  /\ stream_related (fst (stream_step Fix bufsize st o)) (fst (sstep s o)).
Proof.
  destruct st as [s'|w]; cbn [stream_related stream_step].
  - intros -> _. destruct (sstep s o). split; reflexivity.
  - intros Hrel Hok. destruct (step_refines bufsize w s o Hrel Hok) as [H1 H2].
    destruct (wstep Fix bufsize w o). cbn [fst snd] in *. split; assumption.
Qed.

(* what asSeekableStream makes of a substrate positioned at its start stands for the abstract
   stream over the same octets *)
Lemma as_seekable_related k b st :
  substrate_bytes k = Some b -> as_seekable k = Ok st -> stream_related st (s_init b).
Proof.
  destruct k as [x|x [|p]|x|x [|p]|x|]; cbn; intros Hb Hs; try discriminate;
    injection Hb as <-; injection Hs as <-; try reflexivity.
  apply related_init.
Qed.

(* every substrate kind that asSeekableStream accepts, positioned at its start, hands the
   client a stream that answers exactly as the abstract seekable stream over the same octets *)
Theorem kinds_agree bufsize (c: client) fuel (k1 k2: substrate) b st1 st2 :
  substrate_bytes k1 = Some b -> substrate_bytes k2 = Some b ->
  as_seekable k1 = Ok st1 -> as_seekable k2 = Ok st2 ->
  client_permittedb c fuel (s_init b) [] = true ->
  run_client (stream_step Fix bufsize) c fuel st1 [] = run_client (stream_step Fix bufsize) c fuel st2 [].
Proof.
  intros Hb1 Hb2 H1 H2 Hperm.
  pose proof (run_client_refines _ stream_related c (stream_step_refines bufsize) fuel) as Href.
  rewrite (Href st1 (s_init b) [] (as_seekable_related _ _ _ Hb1 H1) Hperm).
  rewrite (Href st2 (s_init b) [] (as_seekable_related _ _ _ Hb2 H2) Hperm).
  reflexivity.
Qed.
