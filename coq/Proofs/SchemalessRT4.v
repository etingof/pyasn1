(* C16 with untagged CHOICE members / elements and DEFAULT (and OPTIONAL) components.
   Without a schema the decoder sees the chosen alternative under its own tags and no trace of a
   component that is absent or (DEFAULT) equal to its default: what it reads is the encoding of the
   value PRUNED ([cprune]) to what is on the wire - the chosen alternative in place of the CHOICE,
   the components present each mandatory, a SEQUENCE OF as the SEQUENCE of its (pruned) elements
   (the elements of a SET OF are left as they are, and not looked into).
   The encoders (BER in every mode, CER, DER) write for the pruned value exactly what they write for
   the original ([cprune_enc]); the theorems of SchemalessRT2/3.v then apply to the pruned value. *)
From Coq Require Import Lia Sorting.Permutation.
From PV Require Import Base.Bytes Model.Tag Model.TableTypes Model.Types Model.Proc Model.Enc Model.Dec Gen.Tables
     Proofs.TagsetShape Proofs.Schemaless Proofs.RoundTrip1 Proofs.RoundTrip2
     Proofs.RoundTripModesC Proofs.RoundTripModes
     Proofs.SchemalessRT Proofs.SchemalessRT2 Proofs.SchemalessRT3.
Local Open Scope N_scope.

(* the encoders that leave out an empty OPTIONAL component (the same as RoundTripModes.sorts);
   CER sorts the components of a SET by a key fixed by the type; is the base type an untagged CHOICE *)
Definition omits_c (ce: codec) : bool := match ce with BER => false | _ => true end.
Definition static_set (ce: codec) : bool := match ce with CER => true | _ => false end.
Definition not_choiceb (T: ty) : bool := match T with TChoice _ => false | _ => true end.
Definition choice_base (T: ty) : bool := match base_of T with TChoice _ => true | _ => false end.

(* the encoder [ce] (options d, k) does not leave out this present OPTIONAL component: under CER /
   DER an OPTIONAL component whose contents are empty and constructed is dropped (finding F24) *)
Definition kept_opt (ce: codec) (d: bool) (k: N) (T: ty) (v: val) : bool :=
  negb (omits_c ce) || match enc_with ce (enc_content ce) T (mkOpts d k true) v with Ok [] => false | _ => true end.

Fixpoint cprunable (ce: codec) (d: bool) (k: N) (T: ty) (v: val) {struct T} : bool :=
  match T with
  | TImp _ x | TExp _ x => negb (choice_base x) && cprunable ce d k x v      (* a tagged CHOICE: not here *)
  | TSeq fs =>
      match v with
      | VRec vs =>
          (fix go (fs: list (presence * ty)) (vs: list (option val)) : bool :=
             match fs, vs with
             | [], [] => true
             | f :: fs', Some x :: vs' =>
                 (match fst f with
                  | Req => cprunable ce d k (snd f) x
                  | Opt => cprunable ce d k (snd f) x && kept_opt ce d k (snd f) x
                  | Def dv => match val_py_eq x dv with
                              | Some true => true
                              | Some false => cprunable ce d k (snd f) x
                              | None => false end
                  end) && go fs' vs'
             | f :: fs', None :: vs' => negb (is_req (fst f)) && go fs' vs'
             | _, _ => false
             end) fs vs
      | _ => false
      end
  | TSet fs =>
      match v with
      | VRec vs =>
          (fix go (fs: list (presence * ty)) (vs: list (option val)) : bool :=
             match fs, vs with
             | [], [] => true
             | f :: fs', Some x :: vs' =>
                 (match fst f with
                  | Req => cprunable ce d k (snd f) x
                  | Opt => cprunable ce d k (snd f) x && kept_opt ce d k (snd f) x
                  | Def dv => match val_py_eq x dv with
                              | Some true => true
                              | Some false => cprunable ce d k (snd f) x
                              | None => false end
                  end) && (negb (static_set ce) || not_choiceb (snd f)) && go fs' vs'
             | f :: fs', None :: vs' => negb (is_req (fst f)) && go fs' vs'
             | _, _ => false
             end) fs vs
      | _ => false
      end
  | TSeqOf t => match v with VList xs => forallb (cprunable ce d k t) xs | _ => false end
  | TChoice alts =>
      match v with
      | VChoice i x => (fix go (alts: list ty) (n: nat) : bool :=
                          match alts, n with
                          | a :: _, O => cprunable ce d k a x
                          | _ :: r, S n' => go r n'
                          | [], _ => false
                          end) alts i
      | _ => false
      end
  | _ => true
  end.

(* is the component on the wire *)
Definition on_wire (p: presence) (x: val) : bool :=
  match p with Def dv => match val_py_eq x dv with Some true => false | _ => true end | _ => true end.

Fixpoint cprune (T: ty) (v: val) {struct T} : ty * val :=
  match T with
  | TImp t x => (TImp t (fst (cprune x v)), snd (cprune x v))
  | TExp t x => (TExp t (fst (cprune x v)), snd (cprune x v))
  | TSeq fs =>
      match v with
      | VRec vs =>
          let ms := (fix go (fs: list (presence * ty)) (vs: list (option val)) : list (ty * val) :=
                       match fs, vs with
                       | f :: fs', Some x :: vs' => if on_wire (fst f) x then cprune (snd f) x :: go fs' vs' else go fs' vs'
                       | _ :: fs', None :: vs' => go fs' vs'
                       | _, _ => []
                       end) fs vs in
          (TSeq (rec_ty_of ms), VRec (rec_val_of ms))
      | _ => (T, v)
      end
  | TSet fs =>
      match v with
      | VRec vs =>
          let ms := (fix go (fs: list (presence * ty)) (vs: list (option val)) : list (ty * val) :=
                       match fs, vs with
                       | f :: fs', Some x :: vs' => if on_wire (fst f) x then cprune (snd f) x :: go fs' vs' else go fs' vs'
                       | _ :: fs', None :: vs' => go fs' vs'
                       | _, _ => []
                       end) fs vs in
          (TSet (rec_ty_of ms), VRec (rec_val_of ms))
      | _ => (T, v)
      end
  | TSeqOf t =>
      match v with
      | VList xs => let ms := map (cprune t) xs in (TSeq (rec_ty_of ms), VRec (rec_val_of ms))
      | _ => (T, v)
      end
  | TChoice alts =>
      match v with
      | VChoice i x => (fix go (alts: list ty) (n: nat) : ty * val :=
                          match alts, n with
                          | a :: _, O => cprune a x
                          | _ :: r, S n' => go r n'
                          | [], _ => (T, v)
                          end) alts i
      | _ => (T, v)
      end
  | _ => (T, v)
  end.

Definition cprune_fields : list (presence * ty) -> list (option val) -> list (ty * val) :=
  fix go (fs: list (presence * ty)) (vs: list (option val)) : list (ty * val) :=
    match fs, vs with
    | f :: fs', Some x :: vs' => if on_wire (fst f) x then cprune (snd f) x :: go fs' vs' else go fs' vs'
    | _ :: fs', None :: vs' => go fs' vs'
    | _, _ => []
    end.

Definition member_ok (ce: codec) (d: bool) (k: N) (p: presence) (ft: ty) (x: val) : bool :=
  match p with
  | Req => cprunable ce d k ft x
  | Opt => cprunable ce d k ft x && kept_opt ce d k ft x
  | Def dv => match val_py_eq x dv with
              | Some true => true
              | Some false => cprunable ce d k ft x
              | None => false end
  end.

Definition cprunable_fields (ce: codec) (d: bool) (k: N) (is_set: bool) : list (presence * ty) -> list (option val) -> bool :=
  fix go (fs: list (presence * ty)) (vs: list (option val)) : bool :=
    match fs, vs with
    | [], [] => true
    | f :: fs', Some x :: vs' =>
        member_ok ce d k (fst f) (snd f) x && (negb (is_set && static_set ce) || not_choiceb (snd f)) && go fs' vs'
    | f :: fs', None :: vs' => negb (is_req (fst f)) && go fs' vs'
    | _, _ => false
    end.

Lemma cprune_seq fs vs : cprune (TSeq fs) (VRec vs) = (TSeq (rec_ty_of (cprune_fields fs vs)), VRec (rec_val_of (cprune_fields fs vs))).
Proof. reflexivity. Qed.
Lemma cprune_set fs vs : cprune (TSet fs) (VRec vs) = (TSet (rec_ty_of (cprune_fields fs vs)), VRec (rec_val_of (cprune_fields fs vs))).
Proof. reflexivity. Qed.
Lemma cprune_seqof t xs : cprune (TSeqOf t) (VList xs) = (TSeq (rec_ty_of (map (cprune t) xs)), VRec (rec_val_of (map (cprune t) xs))).
Proof. reflexivity. Qed.
Lemma cprune_choice alts i x a : nth_error alts i = Some a -> cprune (TChoice alts) (VChoice i x) = cprune a x.
Proof. intros H. cbn [cprune]. rewrite (nth_loop (fun a => cprune a x)), H. reflexivity. Qed.

Lemma cprunable_choice ce d k alts i x :
  cprunable ce d k (TChoice alts) (VChoice i x)
  = match nth_error alts i with Some a => cprunable ce d k a x | None => false end.
Proof. cbn [cprunable]. apply (nth_loop (fun a => cprunable ce d k a x)). Qed.

Lemma cprunable_seq ce d k fs vs : cprunable ce d k (TSeq fs) (VRec vs) = cprunable_fields ce d k false fs vs.
Proof.
  cbn [cprunable]. revert vs. induction fs as [|f fs IH]; intros vs; destruct vs as [|[x|] vs]; try reflexivity.
  all: cbn [cprunable_fields andb negb orb]; rewrite <- IH; unfold member_ok; rewrite ?Bool.andb_true_r; reflexivity.
Qed.
Lemma cprunable_set ce d k fs vs : cprunable ce d k (TSet fs) (VRec vs) = cprunable_fields ce d k true fs vs.
Proof.
  cbn [cprunable]. revert vs. induction fs as [|f fs IH]; intros vs; destruct vs as [|[x|] vs]; try reflexivity.
  all: cbn [cprunable_fields andb]; rewrite <- IH; unfold member_ok; reflexivity.
Qed.

(* ifNotEmpty matters only when it makes the encoder leave the item out *)
Lemma ifne_irrelevant c T d k v :
  (match enc_with c (enc_content c) T (mkOpts d k true) v with Ok [] => false | _ => true end) = true ->
  enc_with c (enc_content c) T (mkOpts d k true) v = enc_with c (enc_content c) T (mkOpts d k false) v.
Proof.
  unfold enc_with, fix_opts. destruct (enc_fixed c) as [fd fc]. cbn [o_def o_chunk o_ifne].
  destruct (concrete_encoder c T) as [[cd fl]|e]; cbn [bind]; [|reflexivity].
  destruct (tagset_of T) as [ts|e]; cbn [bind]; [|reflexivity].
  destruct (enc_content c T cd fl _ v) as [[content ic]|e]; cbn [bind]; [|reflexivity].
  destruct ts as [|t0 r]; [reflexivity|]. cbn [frame o_ifne o_def].
  destruct ((match content with [] => true | _ => false end) && ic)%bool; cbn [andb]; [discriminate|reflexivity].
Qed.

Lemma chosen_outer_plain T v : not_choice T -> chosen_outer T v = last_tag (tagset_of' T).
Proof. intros H. destruct T; try reflexivity. destruct H. Qed.

Lemma choice_base_plain T : choice_base T = false -> not_choice T.
Proof. unfold choice_base. destruct T; try exact (fun _ => I). cbn [base_of]. discriminate. Qed.

Section Prune.
  Variable ce : codec.
  Variable d : bool.
  Variable k : N.
  Hypothesis Hst : stable ce d k.

  Definition encm (T: ty) (v: val) : res bytes := enc_with ce (enc_content ce) T (mo d k) v.

  (* for a type that is not an untagged CHOICE: same tags, and contents octets that go with them *)
  Definition content_kept (T: ty) (v: val) : Prop := content_same ce d k T v (fst (cprune T v)) (snd (cprune T v)).

  Definition prune_kept (T: ty) (v: val) : Prop :=
    encm (fst (cprune T v)) (snd (cprune T v)) = encm T v
    /\ chosen_outer (fst (cprune T v)) (snd (cprune T v)) = chosen_outer T v
    /\ not_choice (fst (cprune T v))
    /\ (choice_base T = false -> content_kept T v).

  Lemma kept_of_content T v : not_choice T -> not_choice (fst (cprune T v)) -> content_kept T v -> prune_kept T v.
  Proof.
    intros Hn Hn' HC. split; [exact (content_same_enc ce d k Hst _ _ _ _ HC)|]. split; [|split; [exact Hn'|intros _; exact HC]].
    rewrite (chosen_outer_plain _ _ Hn), (chosen_outer_plain _ _ Hn'). unfold tagset_of'. rewrite (proj1 HC). reflexivity.
  Qed.

  Lemma chosen_outer_alt x alts i a : nth_error alts i = Some a ->
    chosen_outer (TChoice alts) (VChoice i x) = chosen_outer a x.
  Proof. intros H. cbn [chosen_outer]. rewrite (nth_loop (fun a => chosen_outer a x)), H. reflexivity. Qed.

  (* the members of a SEQUENCE / SET: the encoder's loop on the pruned members and on the original *)
  Definition parts_rel (keys: bool) (r' r: res (list (tagset * bytes))) : Prop :=
    match r', r with
    | Ok p', Ok p => map snd p' = map snd p /\ (keys = true -> map fst p' = map fst p)
    | Err e', Err e => e' = e
    | _, _ => False
    end.

  Lemma parts_rel_finish cd r' r :
    parts_rel (match cd with EcSetCer | EcSetDer => true | _ => false end) r' r ->
    (do parts <- r'; record_finish cd parts) = (do parts <- r; record_finish cd parts).
  Proof.
    destruct r' as [p'|e']; destruct r as [p|e]; cbn [parts_rel bind]; try contradiction.
    - intros [Hs Hk].
      assert (Hall: (match cd with EcSetCer | EcSetDer => true | _ => false end) = true -> p' = p).
      { intros Hb. specialize (Hk Hb). clear - Hs Hk. revert p Hs Hk.
        induction p' as [|[k1 b1] p' IH]; intros [|[k2 b2] p] Hs Hk; try discriminate; [reflexivity|].
        cbn [map fst snd] in *. inversion Hs; inversion Hk; subst. f_equal. apply IH; assumption. }
      destruct cd; cbn [record_finish]; try reflexivity; try (rewrite Hs; reflexivity);
        rewrite (Hall eq_refl); reflexivity.
    - intros ->. reflexivity.
  Qed.

  Lemma fields_kept cd (is_set: bool) :
    (cd = EcSetCer -> is_set = true /\ static_set ce = true) ->
    forall fs vs,
    Forall (fun f => forall x, cprunable ce d k (snd f) x = true -> prune_kept (snd f) x) fs ->
    cprunable_fields ce d k is_set fs vs = true ->
    parts_rel (match cd with EcSetCer | EcSetDer => true | _ => false end)
      (enc_rec_fields_g ce cd (omits_c ce) (mo d k) (rec_ty_of (cprune_fields fs vs)) (rec_val_of (cprune_fields fs vs)))
      (enc_rec_fields_g ce cd (omits_c ce) (mo d k) fs vs).
  Proof.
    intros Hcer.
    induction fs as [|[p ft] fs IH]; intros vs HF Hp.
    - destruct vs; [|discriminate Hp]. cbn. split; [reflexivity|intros _; reflexivity].
    - inversion HF as [|? ? Hf HFr]; subst. cbn [snd] in Hf.
      destruct vs as [|[x|] vs]; try discriminate Hp.
      + change (cprunable_fields ce d k is_set ((p, ft) :: fs) (Some x :: vs))
          with (member_ok ce d k p ft x && (negb (is_set && static_set ce) || not_choiceb ft) && cprunable_fields ce d k is_set fs vs)%bool in Hp.
        apply Bool.andb_true_iff in Hp. destruct Hp as [Hp Hps]. apply Bool.andb_true_iff in Hp. destruct Hp as [Hm Hnc].
        specialize (IH vs HFr Hps).
        change (cprune_fields ((p, ft) :: fs) (Some x :: vs))
          with (if on_wire p x then cprune ft x :: cprune_fields fs vs else cprune_fields fs vs).
        destruct (on_wire p x) eqn:Ew.
        * assert (Hpx: cprunable ce d k ft x = true /\ (forall dv, p = Def dv -> val_py_eq x dv = Some false)
                       /\ enc_with ce (enc_content ce) ft (if omits_c ce then mkOpts d k (is_opt p) else mo d k) x = encm ft x).
          { unfold member_ok in Hm. destruct p as [| |dv].
            - split; [exact Hm|]. split; [intros dv H; discriminate H|]. destruct (omits_c ce); reflexivity.
            - apply Bool.andb_true_iff in Hm. destruct Hm as [Hm Hk]. split; [exact Hm|]. split; [intros dv H; discriminate H|].
              unfold kept_opt in Hk. destruct (omits_c ce); [|reflexivity]. cbn [negb orb is_opt] in *.
              exact (ifne_irrelevant ce ft d k x Hk).
            - unfold on_wire in Ew. destruct (val_py_eq x dv) as [[|]|] eqn:Epy; try discriminate.
              split; [exact Hm|]. split; [intros dv' H; inversion H; subst; exact Epy|]. destruct (omits_c ce); reflexivity. }
          destruct Hpx as (Hpx & Hdef & Henc).
          destruct (Hf x Hpx) as (HE & HK & HN & HC).
          rewrite (fields_emit ce cd (omits_c ce) (mo d k) p ft fs x vs Hdef).
          change (o_def (mo d k)) with d. change (o_chunk (mo d k)) with k.
          change (match p with Opt => true | _ => false end) with (is_opt p). rewrite Henc.
          change (rec_ty_of (cprune ft x :: cprune_fields fs vs)) with ((Req, fst (cprune ft x)) :: rec_ty_of (cprune_fields fs vs)).
          change (rec_val_of (cprune ft x :: cprune_fields fs vs)) with (Some (snd (cprune ft x)) :: rec_val_of (cprune_fields fs vs)).
          rewrite fields_emit_req. fold (encm (fst (cprune ft x)) (snd (cprune ft x))). rewrite HE.
          destruct (encm ft x) as [b|e]; cbn [bind]; [|reflexivity].
          destruct (enc_rec_fields_g ce cd (omits_c ce) (mo d k) (rec_ty_of (cprune_fields fs vs)) (rec_val_of (cprune_fields fs vs))) as [r1|e1];
            destruct (enc_rec_fields_g ce cd (omits_c ce) (mo d k) fs vs) as [r2|e2]; cbn [parts_rel bind] in *; try contradiction.
          -- destruct IH as [IHs IHk]. cbn [map fst snd]. split; [rewrite IHs; reflexivity|].
             intros Hkeys. rewrite (IHk Hkeys). f_equal.
             destruct cd; try discriminate Hkeys.
             ++ (* CER SET: static keys, no CHOICE among the components *)
                destruct (Hcer eq_refl) as [-> Hss]. rewrite Hss in Hnc. cbn [andb negb orb] in Hnc.
                assert (Hnc': not_choice ft) by (destruct ft; try exact I; discriminate Hnc).
                rewrite (sort_key_plain false _ _ HN), (sort_key_plain false _ _ Hnc').
                assert (Hcb: choice_base ft = false).
                { unfold choice_base. pose proof (base_of_plain ft).
                  destruct ft; try reflexivity; cbn [base_of] in *.
                  - destruct Hnc'.
                  - unfold cprunable in Hpx. fold cprunable in Hpx. apply Bool.andb_true_iff in Hpx. destruct Hpx as [Hcb _].
                    apply Bool.negb_true_iff in Hcb. exact Hcb.
                  - unfold cprunable in Hpx. fold cprunable in Hpx. apply Bool.andb_true_iff in Hpx. destruct Hpx as [Hcb _].
                    apply Bool.negb_true_iff in Hcb. exact Hcb. }
                destruct (HC Hcb) as [Hts _]. unfold tagset_of'. rewrite Hts. reflexivity.
             ++ (* DER SET: the key is the outermost tag of what was chosen *)
                unfold set_sort_key. exact HK.
          -- exact IH.
        * (* a DEFAULT component equal to its default: not on the wire *)
          unfold on_wire in Ew. destruct p as [| |dv]; try discriminate Ew.
          destruct (val_py_eq x dv) as [[|]|] eqn:Epy; try discriminate Ew.
          rewrite (fields_skip_def ce cd _ _ dv ft fs x vs Epy). exact IH.
      + change (cprunable_fields ce d k is_set ((p, ft) :: fs) (None :: vs))
          with (negb (is_req p) && cprunable_fields ce d k is_set fs vs)%bool in Hp.
        apply Bool.andb_true_iff in Hp. destruct Hp as [Hpo Hps]. apply Bool.negb_true_iff in Hpo.
        change (cprune_fields ((p, ft) :: fs) (None :: vs)) with (cprune_fields fs vs).
        rewrite (fields_skip_none ce cd _ _ p ft fs vs Hpo). exact (IH vs HFr Hps).
  Qed.

  (* SEQUENCE and SET alike *)
  Lemma record_kept (is_set: bool) fs vs :
    Forall (fun f => forall x, cprunable ce d k (snd f) x = true -> prune_kept (snd f) x) fs ->
    cprunable_fields ce d k is_set fs vs = true ->
    content_kept (if is_set then TSet fs else TSeq fs) (VRec vs).
  Proof.
    intros IH Hp. unfold content_kept.
    assert (Hpr: cprune (if is_set then TSet fs else TSeq fs) (VRec vs)
                 = (if is_set then TSet (rec_ty_of (cprune_fields fs vs)) else TSeq (rec_ty_of (cprune_fields fs vs)),
                    VRec (rec_val_of (cprune_fields fs vs))))
      by (destruct is_set; [apply cprune_set|apply cprune_seq]).
    rewrite Hpr.
    cbn [fst snd]. split; [destruct is_set; reflexivity|].
    intros cd fl Hc. exists cd, fl. split; [destruct is_set; exact Hc|]. split; [reflexivity|].
    rewrite !record_content.
    assert (Hcd: omit_empty cd fl = omits_c ce /\ (cd = EcSetCer -> is_set = true /\ static_set ce = true)).
    { destruct ce, is_set; vm_compute in Hc; inversion Hc; (split; [reflexivity|]);
        first [discriminate | intros _; split; reflexivity]. }
    destruct Hcd as [-> Hcer].
    exact (parts_rel_finish cd _ _ (fields_kept cd is_set Hcer fs vs IH Hp)).
  Qed.

  Lemma kept_id T v : cprune T v = (T, v) -> not_choice T -> prune_kept T v.
  Proof.
    intros Hid Hn. apply kept_of_content; [exact Hn|rewrite Hid; exact Hn|].
    unfold content_kept. rewrite Hid. apply content_same_refl.
  Qed.

  Theorem prune_kept_all : forall T v, cprunable ce d k T v = true -> prune_kept T v.
  Proof.
    induction T as [| | | | | | | | n|fs IH|fs IH|t IH|t IH|alts IH| |tg x IH|tg x IH] using ty_ind';
      intros v Hp; try (apply kept_id; [reflexivity|exact I]).
    - destruct v; try discriminate Hp. rewrite cprunable_seq in Hp.
      apply kept_of_content; [exact I|exact I|exact (record_kept false fs fs0 IH Hp)].
    - destruct v; try discriminate Hp. rewrite cprunable_set in Hp.
      apply kept_of_content; [exact I|exact I|exact (record_kept true fs fs0 IH Hp)].
    - (* SEQUENCE OF: the SEQUENCE of its pruned elements; as members, they encode like the elements *)
      destruct v; try discriminate Hp. cbn [cprunable] in Hp. rewrite forallb_forall in Hp.
      apply kept_of_content; [exact I|exact I|]. unfold content_kept. rewrite cprune_seqof. cbn [fst snd].
      split; [reflexivity|]. intros cd fl Hc.
      assert (Hcd: (cd = EcSeqOfBer \/ cd = EcSeqOfCer) /\ ef_indef fl = true) by (destruct ce; vm_compute in Hc; inversion Hc; split; auto).
      destruct Hcd as [Hcd Hsi].
      assert (Hc': exists fl', concrete_encoder ce (TSeq (rec_ty_of (map (cprune t) xs))) = Ok (EcSeq, fl') /\ ef_indef fl' = true)
        by (destruct ce; (eexists; split; [vm_compute; reflexivity|reflexivity])).
      destruct Hc' as (fl' & Hc' & Hsi').
      exists EcSeq, fl'. split; [exact Hc'|]. split; [congruence|].
      assert (Hnc: Forall (fun tv => not_choice (fst tv)) (map (cprune t) xs)).
      { apply Forall_map, Forall_forall. intros x Hx. exact (proj1 (proj2 (proj2 (IH x (Hp x Hx))))). }
      assert (Henc: Forall2 (fun m m' => encm (fst m) (snd m) = encm (fst m') (snd m')) (map (cprune t) xs) (map (pair t) xs)).
      { apply Forall2_map, Forall2_refl_in. intros x Hx. exact (proj1 (IH x (Hp x Hx))). }
      rewrite (record_content ce false), enc_content_seqof_g, elems_members.
      rewrite (fields_members ce EcSeq _ d k _ _ (rec_of_full _) (rec_of_not_choice _ Hnc)), rec_of_members.
      pose proof (enc_members_snd ce (mo d k) _ _ Henc) as Hrel.
      destruct (enc_members ce (mo d k) (map (cprune t) xs)) as [r1|e1];
        destruct (enc_members ce (mo d k) (map (pair t) xs)) as [r2|e2]; cbn [bind] in *; try contradiction.
      + destruct Hcd as [-> | ->]; cbn [record_finish listof_finish]; rewrite Hrel; reflexivity.
      + rewrite Hrel. reflexivity.
    - (* untagged CHOICE: the chosen alternative *)
      destruct v; try discriminate Hp. rewrite cprunable_choice in Hp.
      destruct (nth_error alts i) as [a|] eqn:Hn; [|discriminate Hp].
      rewrite Forall_forall in IH. destruct (IH a (nth_error_In _ _ Hn) v Hp) as (HE & HK & HN & _).
      unfold prune_kept. rewrite (cprune_choice _ _ _ _ Hn).
      split; [rewrite HE; symmetry; exact (choice_enc ce d k alts i a v Hst Hn)|].
      split; [rewrite HK; symmetry; exact (chosen_outer_alt v alts i a Hn)|].
      split; [exact HN|]. intros Hcb. discriminate Hcb.
    - cbn [cprunable] in Hp. apply Bool.andb_true_iff in Hp. destruct Hp as [Hcb Hp]. apply Bool.negb_true_iff in Hcb.
      destruct (IH v Hp) as (_ & _ & _ & HC).
      exact (kept_of_content (TImp tg x) v I I (content_same_tagged ce d k (TImp tg) tg _ _ _ _ (or_introl eq_refl) (HC Hcb))).
    - cbn [cprunable] in Hp. apply Bool.andb_true_iff in Hp. destruct Hp as [Hcb Hp]. apply Bool.negb_true_iff in Hcb.
      destruct (IH v Hp) as (_ & _ & _ & HC).
      exact (kept_of_content (TExp tg x) v I I (content_same_tagged ce d k (TExp tg) tg _ _ _ _ (or_intror eq_refl) (HC Hcb))).
  Qed.
End Prune.

(* the encoder writes for the pruned value what it writes for the original *)
Theorem cprune_enc ce d k T v : stable ce d k -> cprunable ce d k T v = true ->
  encode ce d k (fst (cprune T v)) (snd (cprune T v)) = encode ce d k T v.
Proof. intros Hst Hp. exact (proj1 (prune_kept_all ce d k Hst T v Hp)). Qed.

Theorem cprune_tagset ce d k T v : stable ce d k -> cprunable ce d k T v = true -> choice_base T = false ->
  tagset_of (fst (cprune T v)) = tagset_of T.
Proof. intros Hst Hp Hc. exact (proj1 (proj2 (proj2 (proj2 (prune_kept_all ce d k Hst T v Hp))) Hc)). Qed.

(* BER encoder, every mode; T may contain untagged CHOICE members / elements, DEFAULT and OPTIONAL
   components; (T', v') = cprune T v is what is on the wire.  The decoded object has the tags, the
   skeleton and the leaves of the pruned value, and its DER re-encoding is the DER encoding of the
   ORIGINAL value. *)
Theorem schemaless_roundtrip_choice_default : forall cd d chunk T v b tl,
  dec_ok cd -> cprunable BER d chunk T v = true -> cprunable DER true 0 T v = true ->
  sl_frag true (fst (cprune T v)) = true -> (d = false -> no_f01 (fst (cprune T v)) = true) ->
  sl_val BER cd (fst (cprune T v)) (snd (cprune T v)) = true ->
  encode BER d chunk T v = Ok b -> N.of_nat (length b) <= index_max ->
  exists T0 v0, decode cd None (b ++ tl) = Ok (DV T0 v0, tl)
    /\ tagset_of T0 = tagset_of (fst (cprune T v))
    /\ skel T0 v0 = skel (fst (cprune T v)) (snd (cprune T v))
    /\ leaves T0 v0 = leaves (fst (cprune T v)) (snd (cprune T v))
    /\ encode DER true 0 T0 v0 = encode DER true 0 T v.
Proof.
  intros cd d chunk T v b tl Hcd Hp Hpd Hfr Hno Hv He Hmax.
  rewrite <- (cprune_enc BER d chunk T v (stable_ber d chunk) Hp) in He.
  destruct (schemaless_roundtrip_ber_modes cd d chunk _ _ b tl Hcd Hfr Hno Hv He Hmax) as (T0 & v0 & Hd & Hts & Hsk & Hl & Hder).
  exists T0, v0. split; [exact Hd|]. split; [exact Hts|]. split; [exact Hsk|]. split; [exact Hl|].
  rewrite Hder. exact (cprune_enc DER true 0 T v stable_der Hpd).
Qed.

(* the CER encoder: it sorts SET OF / SET members, hence the order under such nodes *)
Theorem schemaless_roundtrip_choice_default_cer : forall cd d k T v b tl,
  dec_ok cd -> cprunable CER false 1000 T v = true -> cprunable DER true 0 T v = true ->
  sl_frag true (fst (cprune T v)) = true -> no_f01 (fst (cprune T v)) = true ->
  sl_val CER cd (fst (cprune T v)) (snd (cprune T v)) = true ->
  encode CER d k T v = Ok b -> N.of_nat (length b) <= index_max ->
  exists T0 v0, decode cd None (b ++ tl) = Ok (DV T0 v0, tl)
    /\ tagset_of T0 = tagset_of (fst (cprune T v))
    /\ sk_sim (skel (fst (cprune T v)) (snd (cprune T v))) (skel T0 v0)
    /\ Permutation (leaves (fst (cprune T v)) (snd (cprune T v))) (leaves T0 v0)
    /\ encode DER true 0 T0 v0 = encode DER true 0 T v.
Proof.
  intros cd d k T v b tl Hcd Hp Hpd Hfr Hno Hv He Hmax.
  rewrite encode_cer_fixed in He.
  rewrite <- (cprune_enc CER false 1000 T v stable_cer Hp) in He.
  destruct (schemaless_roundtrip_cer_encoder_sets cd false 1000 _ _ b tl Hcd Hfr Hno Hv He Hmax) as (T0 & v0 & Hd & Hts & Hsk & Hl & Hder).
  exists T0, v0. split; [exact Hd|]. split; [exact Hts|]. split; [exact Hsk|]. split; [exact Hl|].
  rewrite Hder. exact (cprune_enc DER true 0 T v stable_der Hpd).
Qed.

(* the DER encoding itself, read by any of the three decoders: re-encoding reproduces it *)
Theorem schemaless_der_reencode_choice_default : forall cd T v e tl,
  cprunable DER true 0 T v = true ->
  sl_frag true (fst (cprune T v)) = true -> sl_val DER cd (fst (cprune T v)) (snd (cprune T v)) = true ->
  encode DER true 0 T v = Ok e -> N.of_nat (length e) <= index_max ->
  exists T0 v0, decode cd None (e ++ tl) = Ok (DV T0 v0, tl)
    /\ encode DER true 0 T0 v0 = Ok e
    /\ tagset_of T0 = tagset_of (fst (cprune T v))
    /\ sk_sim (skel (fst (cprune T v)) (snd (cprune T v))) (skel T0 v0)
    /\ Permutation (leaves (fst (cprune T v)) (snd (cprune T v))) (leaves T0 v0).
Proof.
  intros cd T v e tl Hp Hfr Hv He Hmax.
  rewrite <- (cprune_enc DER true 0 T v stable_der Hp) in He.
  exact (schemaless_der_reencode_sets cd _ _ e tl Hfr Hv He Hmax).
Qed.

(* SEQUENCE { c CHOICE { INTEGER, OCTET STRING, [3] EXPLICIT OCTET STRING },
              n [0] EXPLICIT INTEGER DEFAULT 7, o OCTET STRING DEFAULT '01'H,
              l SEQUENCE OF CHOICE { NULL, SEQUENCE { INTEGER OPTIONAL, CHOICE { BOOLEAN, UTF8String } } },
              s SET { CHOICE { INTEGER, OCTET STRING }, REAL OPTIONAL, BOOLEAN } } *)
Definition ex4_ty : ty :=
  TSeq [ (Req, TChoice [TInt; TOcts; TExp (mkTag Ctx false 3) TOcts]);
         (Def (VInt 7), TExp (mkTag Ctx false 0) TInt);
         (Def (VOcts [1]), TOcts);
         (Req, TSeqOf (TChoice [TNull; TSeq [(Opt, TInt); (Req, TChoice [TBool; TStr 12])]]));
         (Req, TSet [(Req, TChoice [TInt; TOcts]); (Opt, TReal); (Req, TBool)]) ].
Definition ex4_val : val :=
  VRec [ Some (VChoice 2 (VOcts [5; 6; 7])); Some (VInt 7); Some (VOcts [2]);
         Some (VList [VChoice 0 VNull; VChoice 1 (VRec [None; Some (VChoice 1 (VOcts [104]))])]);
         Some (VRec [Some (VChoice 1 (VOcts [9])); None; Some (VBool false)]) ].

Example schemaless_roundtrip_choice_default_nonvacuous :
  cprunable BER false 2 ex4_ty ex4_val = true /\ cprunable DER true 0 ex4_ty ex4_val = true
  /\ cprune ex4_ty ex4_val
     = (TSeq [ (Req, TExp (mkTag Ctx false 3) TOcts); (Req, TOcts);
               (Req, TSeq [(Req, TNull); (Req, TSeq [(Req, TStr 12)])]);
               (Req, TSet [(Req, TOcts); (Req, TBool)]) ],
        VRec [ Some (VOcts [5; 6; 7]); Some (VOcts [2]);
               Some (VRec [Some VNull; Some (VRec [Some (VOcts [104])])]);
               Some (VRec [Some (VOcts [9]); Some (VBool false)]) ])
  /\ sl_frag true (fst (cprune ex4_ty ex4_val)) = true /\ no_f01 (fst (cprune ex4_ty ex4_val)) = true
  /\ sl_val BER CER (fst (cprune ex4_ty ex4_val)) (snd (cprune ex4_ty ex4_val)) = true
  /\ exists b, encode BER false 2 ex4_ty ex4_val = Ok b /\ N.of_nat (length b) <= index_max
       /\ exists T0 v0, decode CER None (b ++ [1]) = Ok (DV T0 v0, [1])
            /\ length (leaves T0 v0) = 6%nat
            /\ encode DER true 0 T0 v0 = encode DER true 0 ex4_ty ex4_val
            /\ encode DER true 0 ex4_ty ex4_val
               = Ok [48; 27; 163; 5; 4; 3; 5; 6; 7; 4; 1; 2; 48; 7; 5; 0; 48; 3; 12; 1; 104; 49; 6; 1; 1; 0; 4; 1; 9].
Proof.
  split; [vm_compute; reflexivity|]. split; [vm_compute; reflexivity|]. split; [vm_compute; reflexivity|].
  split; [vm_compute; reflexivity|]. split; [vm_compute; reflexivity|]. split; [vm_compute; reflexivity|].
  eexists. split; [vm_compute; reflexivity|]. split; [vm_compute; discriminate|].
  eexists; eexists. split; [vm_compute; reflexivity|]. split; [vm_compute; reflexivity|]. split; vm_compute; reflexivity.
Qed.

(* the DER encoding read back and reproduced; under CER the value is outside [cprunable] *)
Example schemaless_der_reencode_choice_default_nonvacuous :
  sl_val DER DER (fst (cprune ex4_ty ex4_val)) (snd (cprune ex4_ty ex4_val)) = true
  /\ cprunable CER false 1000 ex4_ty ex4_val = false     (* CER: a CHOICE directly in a SET is sorted by a static key *)
  /\ exists e, encode DER true 0 ex4_ty ex4_val = Ok e
       /\ exists T0 v0, decode DER None e = Ok (DV T0 v0, []) /\ encode DER true 0 T0 v0 = Ok e.
Proof.
  split; [vm_compute; reflexivity|]. split; [vm_compute; reflexivity|].
  eexists. split; [vm_compute; reflexivity|]. eexists; eexists. split; [vm_compute; reflexivity | vm_compute; reflexivity].
Qed.

(* why a CHOICE directly inside a SET is excluded under CER: CER orders the components of a SET by the
   smallest tag ANY alternative could have, not by the tag of the alternative chosen, so what it
   writes is not what it writes for the pruned value *)
Example cer_set_choice_differs :
  let T := TSet [(Req, TChoice [TInt; TStr 12]); (Req, TOcts)] in
  let v := VRec [Some (VChoice 1 (VOcts [104])); Some (VOcts [9])] in
  cprune T v = (TSet [(Req, TStr 12); (Req, TOcts)], VRec [Some (VOcts [104]); Some (VOcts [9])])
  /\ encode CER true 0 T v = Ok [49; 128; 12; 1; 104; 4; 1; 9; 0; 0]
  /\ encode CER true 0 (fst (cprune T v)) (snd (cprune T v)) = Ok [49; 128; 4; 1; 9; 12; 1; 104; 0; 0]
  /\ encode DER true 0 T v = Ok [49; 6; 4; 1; 9; 12; 1; 104].
Proof. cbv zeta. repeat split; vm_compute; reflexivity. Qed.

Print Assumptions schemaless_roundtrip_choice_default.
Print Assumptions schemaless_roundtrip_choice_default_cer.
Print Assumptions schemaless_der_reencode_choice_default.
Print Assumptions cprune_enc.
Print Assumptions schemaless_roundtrip_choice_default_nonvacuous.
