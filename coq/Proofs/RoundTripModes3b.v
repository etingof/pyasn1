(* Round trip under every encoder mode for the whole type universe (C01/C02), part (b): the invariant
   established by induction over the type, generic in the encoder codec and its options (BER with any
   defMode / maxChunkSize, CER, DER), in the decoder codec (BER, CER) and in the relation between abstract
   contents; the simple types; SEQUENCE OF / SET OF. *)
From Coq Require Import Lia Permutation.
From PV Require Import Base.Bytes Model.Tag Model.TableTypes Model.Types Model.Proc Model.Enc Model.Dec Gen.Tables
     Proofs.ProcBind Proofs.RunLemmas Proofs.TagOctets Proofs.TagAlgebra Proofs.DecHeader Proofs.DecFrame Proofs.DecPrim
     Proofs.TagsetShape Proofs.Schemaless Proofs.RoundTrip1 Proofs.RoundTrip2 Proofs.TagReject Proofs.ContainerCodecSort
     Proofs.RoundTripModesA Proofs.RoundTripModesB Proofs.RoundTripModesC Proofs.RoundTripModesBag Proofs.EncUnfold
     Proofs.RoundTrip3 Proofs.RoundTrip3a Proofs.RoundTrip3b Proofs.RoundTripModes3a.
Local Open Scope N_scope.

Lemma frame_modes_facts t0 r content cns d k si b : Forall explicit_like r -> (tcls t0 <> Univ \/ tnum t0 <> 0) ->
  frame (t0 :: r) content cns (mo d k) si = Ok b -> (length content + 2 <= length b)%nat /\ hd 0 b <> 0.
Proof.
  intros Hex Hnz He. cbn [frame] in He. unfold mo in He. rewrite Bool.andb_false_r in He. cbn [o_def] in He.
  destruct (frame_one t0 cns (if cns then d else true) si content) as [s0|e] eqn:E0; cbn [bind] in He; [|discriminate].
  destruct (frame_outer_facts _ _ _ _ _ _ He Hex) as (Hlen0 & Hhd & _).
  destruct (frame_one_facts _ _ _ _ _ _ E0 Hnz) as (F1 & F2 & F3).
  split; [lia|exact (Hhd F3)].
Qed.

Section Modes3b.
  Variables ce cd : codec.
  Variable d : bool.
  Variable k : N.
  Hypothesis Hst : stable ce d k.
  Hypothesis Hcd : dec_ok cd.
  Variable R : aval -> aval -> Prop.
  Variable srt : bool.
  Hypothesis HR : rel_ok R srt.

  Definition encm (T: ty) (v: val) : res bytes := enc_with ce (enc_content ce) T (mo d k) v.

  (* the invariant, at the level of the value decoder: the encoding is the framing of contents octets
     under the wire tags; the value decoder of the type takes the contents (to the closing 00 00 when
     they are constructed and lengths are indefinite) *)
  Definition val_ok_m (T: ty) (v: val) : Prop :=
    forall b, encm T v = Ok b -> N.of_nat (length b) <= index_max ->
    exists t0 r content cns si v',
      wire_tags T v = t0 :: r /\ Forall explicit_like r /\ (length r < ty_depth T)%nat /\
      (tcls t0 <> Univ \/ tnum t0 <> 0) /\
      (d = false -> (cns = true \/ r <> []) -> si = true) /\
      frame (t0 :: r) content cns (mo d k) si = Ok b /\
      wire_tags T v' = t0 :: r /\ R (abs T v') (abs T v) /\
      exists dcd dfl, by_type cd T = Some (dcd, dfl) /\
        forall f, (length b + ty_depth T <= S f + length r)%nat ->
          val_consumes cd f dcd dfl T (wire t0 cns :: r) d cns content v'.

  (* one complete item under a specification, wherever end-of-octets is or is not allowed *)
  Definition item_dec_m (sp: spec) (T: ty) (b: bytes) (v': val) : Prop :=
    (2 <= length b)%nat /\ hd 0 b <> 0 /\
    forall f ae, fuel_ok T b f -> consumes (dec_call cd f sp [] None ae false) b (DV T v').

  Lemma item_of_val_m T v b : val_ok_m T v -> encm T v = Ok b -> N.of_nat (length b) <= index_max ->
    exists v', R (abs T v') (abs T v) /\ wire_tags T v' = wire_tags T v /\ wire_tags T v <> [] /\
      forall sp, resolves sp T v -> item_dec_m sp T b v'.
  Proof.
    intros Hv He Hmax.
    destruct (Hv b He Hmax) as (t0 & r & content & cns & si & v' & Hw & Hex & Hrd & Hnz & Hmode & Hfr & Hw' & HRv & dcd & dfl & Hby & Hc).
    exists v'. split; [exact HRv|]. split; [congruence|]. split; [congruence|].
    intros sp [Hhit Hmiss]. rewrite Hw in Hhit, Hmiss. cbn [tl] in Hmiss.
    destruct (frame_modes_facts _ _ _ _ _ _ _ _ Hex Hnz Hfr) as [Hl Hh].
    split; [lia|]. split; [exact Hh|].
    intros f ae Hf. unfold fuel_ok in Hf.
    replace f with (S (f - 1 - length r) + length r)%nat by lia.
    refine (framed_modes_sp cd sp T t0 r cns si d k content b (f - 1 - length r) dcd dfl T v'
              (dec_ok_indef cd Hcd) Hnz Hex Hhit Hmiss Hby Hmode Hfr _ _ ae).
    - lia.
    - apply (Hc (f - 1 - length r)%nat). lia.
  Qed.

  Definition item_sty_m (T: ty) (v: val) : Prop :=
    forall p, encm T v = Ok p -> N.of_nat (length p) <= index_max ->
    exists v', R (abs T v') (abs T v) /\ item_dec_m (STy T) T p v'.

  Lemma item_sty_of_val_m T v : val_ok_m T v -> resolves (STy T) T v -> item_sty_m T v.
  Proof.
    intros Hv Hres p Ep Hmax. destruct (item_of_val_m T v p Hv Ep Hmax) as (v' & HRv & _ & _ & Hit).
    exists v'. split; [exact HRv|exact (Hit _ Hres)].
  Qed.

  Lemma prim_val_m T v : prim_base T = true -> wf_tags T = true ->
    (d = false -> six T = true -> forall t0 r, tagset_of T = Ok (t0 :: r) -> r = []) ->
    stage1_val ce cd T v = true -> val_ok_m T v.
  Proof.
    intros Hp Hw Hf01 Hs b He Hmax.
    destruct (prim_frame_m ce cd d k T v b Hst Hcd Hp Hw Hf01 Hs He)
      as (t0 & r & content & cns & si & dcd & dfl & vdec & Hts & Hex & Hd' & Hnz & Hmode & Hfr & Hby & Habs & Hval).
    pose proof (frame_modes_len _ _ _ _ _ _ _ _ Hex Hfr) as Hlen.
    assert (Hnc: match T with TChoice _ => False | _ => True end).
    { destruct T; try exact I. discriminate Hp. }
    exists t0, r, content, cns, si, vdec.
    split; [rewrite (wire_tags_plain T v Hnc); apply tagset_of'_ok; exact Hts|].
    split; [exact Hex|]. split; [exact Hd'|]. split; [exact Hnz|]. split; [exact Hmode|]. split; [exact Hfr|].
    split; [rewrite (wire_tags_plain T vdec Hnc); apply tagset_of'_ok; exact Hts|].
    split; [rewrite Habs; apply (r_refl _ _ HR)|].
    exists dcd, dfl. split; [exact Hby|]. intros f Hf.
    apply Hval; lia.
  Qed.

  Lemma elems_val_m t xs : Forall (item_sty_m t) xs ->
    forall parts, EncUnfold.enc_elems_g ce t (mo d k) xs = Ok parts ->
    N.of_nat (length (concat parts)) <= index_max ->
    exists xs', Forall2 (fun x' x => R (abs t x') (abs t x)) xs' xs /\
      forall f, (length (concat parts) + ty_depth t <= f)%nat -> Forall2 (elem_ok_ae (dec_call cd f) t) parts xs'.
  Proof.
    induction 1 as [|x xs Hix HF IH]; intros parts He Hmax.
    - inversion He; subst. exists []. split; [constructor|]. intros f _. constructor.
    - rewrite EncUnfold.enc_elems_g_cons in He.
      destruct (enc ce t (mo d k) x) as [p|e] eqn:Ep; cbn [bind] in He; [|discriminate].
      destruct (EncUnfold.enc_elems_g ce t (mo d k) xs) as [ps|e] eqn:Eps; cbn [bind] in He; [|discriminate].
      inversion He; subst parts; clear He.
      cbn [concat] in Hmax. rewrite app_length in Hmax.
      destruct (Hix p Ep ltac:(lia)) as (x' & Hax & Hpl & Hhd & Hcx).
      destruct (IH ps eq_refl ltac:(lia)) as (xs' & Haxs & Hcxs).
      exists (x' :: xs'). split; [constructor; assumption|].
      intros f Hf. cbn [concat] in Hf. rewrite app_length in Hf. constructor.
      + split; [|lia]. intros ae. apply Hcx. unfold fuel_ok. lia.
      + apply Hcxs. lia.
  Qed.

  Lemma listof_val_m T' t : (base_of T' = TSeqOf t \/ base_of T' = TSetOf t) -> wf_tags T' = true ->
    (base_of T' = TSetOf t -> sorts_setof ce = true -> srt = true) ->
    forall xs, Forall (item_sty_m t) xs -> val_ok_m T' (VList xs).
  Proof.
    intros Hb Hw Hsrt xs HFx b He Hmax.
    destruct (listof_frame_m ce cd d k T' t xs b Hst Hcd Hb Hw He)
      as (t0 & r & parts & wparts & dcd & dfl & Hts & Hex & Hd & Hnz & Eparts & Hperm & Hwhich & Hfr & Hby & Hdec).
    assert (Hnc: match T' with TChoice _ => False | _ => True end).
    { destruct T'; try exact I. destruct Hb; discriminate. }
    pose proof (frame_modes_len _ _ _ _ _ _ _ _ Hex Hfr) as Hlen.
    assert (Hcl: length (concat parts) = length (concat wparts)) by (apply concat_perm_length; exact Hperm).
    destruct (elems_val_m t xs HFx parts Eparts ltac:(lia)) as (xs' & Habs & Helems).
    (* the decoded list, in wire order *)
    assert (Hw': exists ws', R (abs T' (VList ws')) (abs T' (VList xs)) /\
                 forall f, (length (concat parts) + ty_depth t <= f)%nat -> Forall2 (elem_ok_ae (dec_call cd f) t) wparts ws').
    { destruct Hwhich as [-> | [Hset Hsorts]].
      - exists xs'. split; [|exact Helems].
        rewrite (abs_wrappers T' (VList xs')), (abs_wrappers T' (VList xs)).
        destruct Hb as [-> | ->]; cbn [abs]; [apply (r_list _ _ HR)|apply (r_bag _ _ HR)]; apply Forall2_map; exact Habs.
      - assert (Hs: srt = true) by (apply (Hsrt Hset); destruct ce; [congruence|reflexivity|reflexivity]).
        assert (Hlen': length xs' = length parts).
        { symmetry. eapply Forall2_length. apply (Helems (length (concat parts) + ty_depth t)%nat). lia. }
        destruct (perm_positional' parts wparts Hperm xs' Hlen') as (ws' & Hpw & HP).
        exists ws'. split; [|intros f Hf; apply HP; apply Helems; exact Hf].
        rewrite (abs_wrappers T' (VList ws')), (abs_wrappers T' (VList xs)), Hset. cbn [abs].
        apply (r_perm _ _ HR Hs _ _ (map (abs t) xs')); [apply Permutation_map, Permutation_sym; exact Hpw|].
        apply Forall2_map; exact Habs. }
    destruct Hw' as (ws' & HRw & Hwelems).
    exists t0, r, (concat wparts), true, true, (VList ws').
    split; [rewrite (wire_tags_plain T' _ Hnc); apply tagset_of'_ok; exact Hts|].
    split; [exact Hex|]. split; [lia|]. split; [exact Hnz|]. split; [reflexivity|]. split; [exact Hfr|].
    split; [rewrite (wire_tags_plain T' _ Hnc); apply tagset_of'_ok; exact Hts|].
    split; [exact HRw|].
    exists dcd, dfl. split; [exact Hby|]. intros f Hf.
    apply Hdec; [lia|]. apply Hwelems. lia.
  Qed.

End Modes3b.
