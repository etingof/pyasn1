(* C13, rejection half: an encoding of a simple type under any stack of IMPLICIT/EXPLICIT tags is
   refused (with a library error) by a decoder guided by a type whose tag set differs.

   What the decoder does: it reads identifier octets from the outside inwards, accumulating the tags
   (innermost first) and comparing the accumulated tags with the WHOLE tag set of the guiding type
   (Tag equality: class and number only, the primitive/constructed bit takes no part).  While they
   differ and the tag just read is constructed and not UNIVERSAL it takes that tag for an EXPLICIT
   wrapper and goes one level in; when they differ at a primitive tag it gives up.  So an encoding
   with tags [t0; r1..rk] (t0 innermost) is compared with the guiding tag set at the suffixes
   [rk], [r(k-1); rk], ..., [r1..rk], [t0; r1..rk]:

   - if none of those equals the guiding tag set, the input is rejected for every guiding type that
     is not an untagged CHOICE/ANY ([framed_mismatch_rejected], [tag_mismatch_rejected_stage1]);
   - if a PROPER suffix [rj..rk] (j >= 1) equals the guiding tag set, the guiding type's value
     decoder is entered on a constructed encoding whose contents are the inner TLVs.  The decoders
     of BOOLEAN, INTEGER, ENUMERATED, NULL, OBJECT IDENTIFIER and REAL refuse the constructed form
     ([tag_mismatch_rejected_scalar]); so do the DER decoders of the string types
     ([tag_mismatch_rejected_der]).  The BER and CER decoders of OCTET STRING, BIT STRING and the
     character strings take the inner TLVs for the segments of a constructed string and may ACCEPT:
     see the witnesses at the end of the file. *)
From Coq Require Import Lia.
From PV Require Import Base.Bytes Model.Tag Model.TableTypes Model.Types Model.Proc Model.Enc Model.Dec Gen.Tables
     Proofs.ProcBind Proofs.RunLemmas Proofs.TagOctets Proofs.DecHeader Proofs.DecFrame Proofs.DecPrim
     Proofs.TagsetShape Proofs.RoundTrip1 Proofs.RoundTrip2 Proofs.RoundTrip3 Proofs.DecShape.
Local Open Scope N_scope.

(* no non-empty suffix of [l] (that is: [l] with some inner tags removed, or [l] itself) equals [ts'] *)
Fixpoint suffix_free (l ts': tagset) : bool :=
  match l with
  | [] => true
  | _ :: l' => negb (tagset_eqb l ts') && suffix_free l' ts'
  end.

(* [ts] = tag set of the type that was encoded, [ts'] = tag set of the guiding type (both innermost
   first).  True when [ts'] is neither [ts] nor [ts] stripped of one or more of its inner tags. *)
Definition tags_differ (ts ts': tagset) : bool := suffix_free ts ts'.

Lemma suffix_free_spec : forall l ts', suffix_free l ts' = true ->
  forall p q, l = p ++ q -> q <> [] -> tagset_eqb q ts' = false.
Proof.
  induction l as [|x l IH]; intros ts' H p q Hpq Hq.
  - destruct p; destruct q; try discriminate. congruence.
  - cbn [suffix_free] in H. apply Bool.andb_true_iff in H. destruct H as [H0 H1].
    destruct p as [|y p].
    + cbn [app] in Hpq. subst q. destruct (tagset_eqb (x :: l) ts'); [discriminate|reflexivity].
    + cbn [app] in Hpq. inversion Hpq; subst. apply (IH ts' H1 p q eq_refl Hq).
Qed.

Lemma tagset_eqb_len_false : forall a b, length a <> length b -> tagset_eqb a b = false.
Proof.
  intros a b H. destruct (tagset_eqb a b) eqn:E; [|reflexivity].
  apply tagset_eqb_length in E. contradiction.
Qed.

(* how strong the condition is: it holds whenever the guiding tag set is longer ... *)
Lemma tags_differ_longer : forall ts ts', (length ts < length ts')%nat -> tags_differ ts ts' = true.
Proof.
  unfold tags_differ. induction ts as [|x ts IH]; intros ts' H; [reflexivity|].
  cbn [suffix_free]. rewrite tagset_eqb_len_false by (cbn [length] in *; lia).
  cbn [negb andb]. apply IH. cbn [length] in H. lia.
Qed.

(* ... and whenever the two have the same number of tags and differ in class or number somewhere *)
Lemma tags_differ_same_length : forall ts ts', length ts = length ts' ->
  tagset_eqb ts ts' = false -> tags_differ ts ts' = true.
Proof.
  unfold tags_differ. intros [|x ts] ts' Hl Hne; [reflexivity|].
  cbn [suffix_free]. rewrite Hne. cbn [negb andb]. apply tags_differ_longer. cbn [length] in Hl. lia.
Qed.

Lemma tags_differ_neq : forall ts ts', ts <> [] -> tags_differ ts ts' = true -> tagset_eqb ts ts' = false.
Proof.
  intros ts ts' Hne H. apply (suffix_free_spec ts ts' H [] ts eq_refl Hne).
Qed.

Definition cons_rejecting (cd: dec_codec) (fl: dec_flags) : bool :=
  match cd with
  | DcInt | DcBoolBer | DcBoolCer | DcNull | DcOid | DcReal => true
  | DcOcts | DcStr | DcBits => negb (df_constructed fl)
  | _ => false
  end.

Definition rejects_constructed (c: codec) (T': ty) : bool :=
  match by_type c T' with Some (cd, fl) => cons_rejecting cd fl | None => false end.

(* [n <> 1]: the CER BOOLEAN decoder refuses by the length of the contents, not by the form of the tag *)
Lemma dec_value_cons_rej : forall rec f cd fl T' ts n,
  tag0_simple ts = false -> cons_rejecting cd fl = true -> n <> 1 ->
  dec_value rec f cd fl (Some T') ts (Some n) false = Raise EMalformed.
Proof.
  intros rec f cd fl T' ts n Hts Hrej Hn.
  destruct cd; try discriminate Hrej; cbn [dec_value cons_rejecting] in *.
  - unfold dec_integer. rewrite Hts. reflexivity.
  - unfold dec_integer. rewrite Hts. reflexivity.
  - unfold dec_bool_cer. destruct (N.eqb_spec n 1) as [E|_]; [contradiction|]. reflexivity.
  - unfold dec_bits. rewrite Hts, Hrej. reflexivity.
  - unfold dec_octets. rewrite Hts, Hrej. reflexivity.
  - unfold dec_null. rewrite Hts. reflexivity.
  - unfold dec_oid_v. rewrite Hts. reflexivity.
  - unfold dec_real_v. rewrite Hts. reflexivity.
  - unfold dec_octets. rewrite Hts, Hrej. reflexivity.
Qed.

Definition scalar_base (T: ty) : bool :=
  match base_of T with TBool | TInt | TEnum | TNull | TOid | TReal => true | _ => false end.

Lemma scalar_rejects_constructed c T' : scalar_base T' = true -> rejects_constructed c T' = true.
Proof.
  unfold scalar_base, rejects_constructed. rewrite by_type_base.
  destruct (base_of T'); try discriminate; intros _; destruct c; vm_compute; reflexivity.
Qed.

Lemma der_str_rejects_constructed n : rejects_constructed DER (TStr n) = true.
Proof.
  unfold rejects_constructed, by_type, tag_fallback_key. cbn [key_of base_of].
  cbv [dec_type_map dec_tag_map der_dec_type_map der_dec_tag_map lookup3 assoc map fst snd tkey_eqb].
  repeat (match goal with |- context [N.eqb n ?k] => destruct (N.eqb n k); [reflexivity|] end).
  reflexivity.
Qed.

Lemma der_rejects_constructed T' : prim_base T' = true -> rejects_constructed DER T' = true.
Proof.
  intros Hp. unfold rejects_constructed. rewrite by_type_base. unfold prim_base in Hp.
  destruct (base_of T') eqn:Hb; try discriminate Hp; try (vm_compute; reflexivity).
  apply der_str_rejects_constructed.
Qed.

Lemma frame_one_len t c si sub b : frame_one t c true si sub = Ok b ->
  (length (enc_tag t c) + 1 + length sub <= length b)%nat.
Proof. intros H. destruct (frame_one_length _ _ _ _ _ H) as (l & -> & Hl). rewrite !app_length. lia. Qed.

Lemma frame_outer_len : forall r c si sub b, frame_outer r c true si sub = Ok b ->
  (length sub + 2 * length r <= length b)%nat /\ Forall (fun t => (length (enc_tag t c) <= length b)%nat) r.
Proof.
  intros r c si sub b H. split; [exact (frame_outer_len_r _ _ _ _ _ H)|exact (frame_outer_taglens _ _ _ _ _ _ H (le_n _))].
Qed.

(* running p on s ends in an error of which E holds *)
Definition rej (E: err -> Prop) (p: proc dval) (s: stream) : Prop :=
  exists e s', resume p s = inr (Err e, s') /\ E e.

(* ... on every closed stream that starts with bs and holds at most F octets more ([never_match] in
   TagReject2.v reads on into them, and its fuel has to cover them) *)
Definition rejects_k (E: err -> Prop) (F: nat) (p: proc dval) (bs: bytes) : Prop :=
  forall s tl, closed s = true -> avail s = bs ++ tl -> (length tl <= F)%nat -> rej E p s.

(* one header the encoder wrote, the tags read so far resolve to nothing: the decoder gives up on a
   primitive or UNIVERSAL tag, otherwise it takes the tag for an EXPLICIT wrapper and the verdict is the
   one of the next level *)
Lemma level_descend : forall (E: err -> Prop) c f T' acc0 t cns si body b s tl, E EMalformed ->
  frame_one t cns true si body = Ok b -> avail s = b ++ tl ->
  (length (enc_tag t cns) <= S f)%nat ->
  sp_miss (STy T') (wire t cns :: acc0) ->
  (tcon (wire t cns) && negb (cls_eqb (tcls (wire t cns)) Univ) = true ->
   forall s1, avail s1 = body ++ tl -> closed s1 = closed s ->
   rej E (dec_call c f (STy T') (wire t cns :: acc0) None false false) s1) ->
  rej E (dec_call c (S f) (STy T') acc0 None false false) s.
Proof.
  intros E c f T' acc0 t cns si body b s tl HE Hfr Hav Hlen Hmiss Hin. unfold rej.
  destruct (frame_one_header c f (STy T') acc0 false t cns si body b s tl Hfr Hav Hlen) as (s1 & -> & Hav1 & _ & _ & Hc1).
  rewrite (dispatch_miss _ _ _ _ _ _ _ Hmiss).
  destruct (tcon (wire t cns) && negb (cls_eqb (tcls (wire t cns)) Univ)).
  - destruct (Hin eq_refl s1 Hav1 Hc1) as (e & s' & He & Hlib).
    cbn [run_value]. rewrite resume_tell. exists e, s'. split; [apply (resume_pbind_err _ _ _ _ _ He)|exact Hlib].
  - exists EMalformed. eexists. split; [reflexivity|exact HE].
Qed.

(* the tags read so far ARE the guiding tag set, but the tag just read is constructed and the
   guiding type's value decoder does not take the constructed form *)
Lemma match_cons_rej : forall (E: err -> Prop) c f T' acc0 t si inner b s tl, E EMalformed ->
  frame_one t false true si inner = Ok b -> avail s = b ++ tl ->
  tcon t = true ->
  tagset_eqb (t :: acc0) (tagset_of' T') = true ->
  plain_map T' ->
  rejects_constructed c T' = true ->
  (2 <= length inner)%nat ->
  (length (enc_tag t false) <= S f)%nat ->
  rej E (dec_call c (S f) (STy T') acc0 None false false) s.
Proof.
  intros E c f T' acc0 t si inner b s tl HE Hfr Hav Hcon Heq Hpm Hrc Hin2 Hlen. unfold rej.
  destruct (frame_one_header c f (STy T') acc0 false t false si inner b s tl Hfr Hav Hlen) as (s1 & -> & _).
  unfold rejects_constructed in Hrc. destruct (by_type c T') as [[cd fl]|] eqn:Hby; [|discriminate].
  assert (Hhit: sp_hit (STy T') (t :: acc0) T') by (split; [reflexivity|]; rewrite Heq, Hpm; split; reflexivity).
  rewrite wire_false, (dispatch_hit _ _ _ _ _ _ _ _ _ Hhit Hby). cbn [run_value]. rewrite resume_tell.
  rewrite (dec_value_cons_rej (dec_call c f) f cd fl T' (t :: acc0) (N.of_nat (length inner))); [| |exact Hrc|lia].
  - exists EMalformed. eexists. split; [reflexivity|exact HE].
  - unfold tag0_simple. rewrite Hcon. reflexivity.
Qed.

(* all the EXPLICIT levels: each group of outer tags either resolves to nothing, or is the tag set of a
   guiding type whose value decoder refuses the constructed form *)
Lemma peel_all_rej : forall (E: err -> Prop), E EMalformed -> forall c T' F f si r acc0 sub b,
  frame_outer r false true si sub = Ok b ->
  Forall explicit_like r -> (2 <= length sub)%nat ->
  Forall (fun t => (length (enc_tag t false) <= S f)%nat) r ->
  (forall p q, r = p ++ q -> q <> [] ->
     sp_miss (STy T') (q ++ acc0)
     \/ (tagset_eqb (q ++ acc0) (tagset_of' T') = true /\ plain_map T' /\ rejects_constructed c T' = true)) ->
  rejects_k E F (dec_call c f (STy T') (r ++ acc0) None false false) sub ->
  rejects_k E F (dec_call c (f + length r) (STy T') acc0 None false false) b.
Proof.
  intros E HE c T' F f si r. induction r as [|tn r' IH] using rev_ind; intros acc0 sub b Hfr Hex Hsub Hlen Hcases Hin.
  - cbn [frame_outer] in Hfr. inversion Hfr; subst. cbn [length app] in *. rewrite Nat.add_0_r. exact Hin.
  - rewrite frame_outer_snoc in Hfr.
    destruct (frame_outer r' false true si sub) as [inner|e] eqn:Ein; cbn [bind] in Hfr; [|discriminate].
    apply Forall_app in Hex. destruct Hex as [Hex' Hexn]. inversion Hexn as [|? ? [Hcon _] _]; subst.
    apply Forall_app in Hlen. destruct Hlen as [Hlen' Hlenn]. inversion Hlenn as [|? ? Hl _]; subst.
    rewrite app_length. cbn [length].
    replace (f + (length r' + 1))%nat with (S (f + length r')) by lia.
    pose proof (frame_outer_length _ _ _ _ _ Ein) as Hinner.
    intros s tl Hc Hav HF.
    assert (Hn: [tn] <> []) by discriminate.
    destruct (Hcases r' [tn] eq_refl Hn) as [Hmiss|(Heq & Hpm & Hrc)].
    + apply (level_descend E c (f + length r') T' acc0 tn false si inner b s tl HE Hfr Hav); [lia| |]; rewrite wire_false; [exact Hmiss|].
      intros _ s1 Hav1 Hc1.
      apply (IH (tn :: acc0) sub inner Ein Hex' Hsub Hlen') with (tl := tl); [| |congruence|exact Hav1|exact HF].
      * intros p q Hpq Hq. replace (q ++ tn :: acc0) with ((q ++ [tn]) ++ acc0) by (rewrite <- app_assoc; reflexivity).
        apply (Hcases p (q ++ [tn])); [rewrite Hpq, app_assoc; reflexivity|destruct q; discriminate].
      * rewrite <- app_assoc in Hin. exact Hin.
    + apply (match_cons_rej E c (f + length r') T' acc0 tn si inner b s tl HE Hfr Hav Hcon Heq Hpm Hrc); lia.
Qed.

(* [b] = definite-length TLV with primitive tag t0 inside the constructed non-universal tags r
   (innermost first).  A guiding type (anything but an untagged CHOICE/ANY) whose tag set differs from
   t0 :: r is refused, provided no group of outer tags of r alone equals its tag set - or its value
   decoder refuses the constructed form anyway. *)
Theorem framed_mismatch_rejected : forall cd T' t0 r si content s0 b tl,
  frame_one t0 false true si content = Ok s0 ->
  frame_outer r false true si s0 = Ok b ->
  tcon t0 = false -> Forall explicit_like r ->
  plain_map T' ->
  tagset_eqb (t0 :: r) (tagset_of' T') = false ->
  suffix_free r (tagset_of' T') = true \/ rejects_constructed cd T' = true ->
  decode cd (Some T') (b ++ tl) = Err EMalformed.
Proof.
  intros cd T' t0 r si content s0 b tl H0 Hfr Hc0 Hex Hpm Hne Hsuf.
  destruct (frame_outer_len r false si s0 b Hfr) as [Hlb Htags].
  pose proof (frame_one_len _ _ _ _ _ H0) as Hl0. pose proof (enc_tag_nonempty t0 false) as Ht0.
  unfold decode. set (fuel := dec_fuel (Some T') (b ++ tl)).
  set (f0 := (fuel - 1 - length r)%nat).
  assert (Hfuel: fuel = (S f0 + length r)%nat).
  { subst f0 fuel. unfold dec_fuel. rewrite app_length. lia. }
  assert (Hbig: (length b <= S f0)%nat).
  { subst f0 fuel. unfold dec_fuel. rewrite app_length. lia. }
  assert (Hrej: rejects_k (eq EMalformed) (length tl) (dec_call cd (S f0 + length r) (STy T') [] None false false) b).
  { apply (peel_all_rej (eq EMalformed) eq_refl cd T' (length tl) (S f0) si r [] s0 b Hfr Hex); [lia| | |].
    - eapply Forall_impl; [|exact Htags]. cbv beta. intros a Ha. lia.
    - intros p q Hpq Hq. rewrite app_nil_r. destruct (tagset_eqb q (tagset_of' T')) eqn:Eq.
      + right. split; [reflexivity|]. split; [exact Hpm|]. destruct Hsuf as [Hsuf|Hrc]; [|exact Hrc].
        rewrite (suffix_free_spec r _ Hsuf p q Hpq Hq) in Eq. discriminate.
      + left. exact (conj Eq (plain_map_contains T' _ Hpm Eq)).
    - rewrite app_nil_r. intros s tl' Hc Hav HF.
      apply (level_descend (eq EMalformed) cd f0 T' r t0 false si content s0 s tl' eq_refl H0 Hav); [lia| |]; rewrite wire_false.
      + exact (conj Hne (plain_map_contains T' _ Hpm Hne)).
      + rewrite Hc0. discriminate. }
  unfold dec_item, run_complete. rewrite Hfuel.
  destruct (Hrej (mkStream (b ++ tl) 0 true 0) tl eq_refl eq_refl (le_n _)) as (e & s' & Hr & <-). rewrite Hr. reflexivity.
Qed.

Lemma time_guard_len fl b : time_guard fl b = Ok tt -> N.of_nat (length b) < ef_max_len fl.
Proof.
  unfold time_guard. destruct (existsb _ b); [discriminate|].
  destruct (rev b) as [|x r]; [discriminate|].
  destruct x as [|p]; [discriminate|].
  do 7 (destruct p; try discriminate).
  destruct (existsb (N.eqb 44) b); [discriminate|]. destruct (existsb (N.eqb 46) b); [discriminate|].
  destruct (N.ltb (ef_min_len fl) (N.of_nat (length b))); cbn [andb]; [|discriminate].
  destruct (N.ltb_spec (N.of_nat (length b)) (ef_max_len fl)); [auto|discriminate].
Qed.

(* the encoder of a character/useful string type, whatever its universal tag number: the OCTET
   STRING one, or a time encoder whose canonical strings are far shorter than its segment size *)
Lemma str_encoder ce n ec fl : enc_ok ce -> concrete_encoder ce (TStr n) = Ok (ec, fl) ->
  ec = EcOcts \/ ef_max_len fl <= 1000.
Proof.
  intros [-> | ->]; unfold concrete_encoder, tag_fallback_key; cbn [key_of base_of];
  cbv [enc_type_map enc_tag_map ber_enc_type_map ber_enc_tag_map der_enc_type_map der_enc_tag_map lookup3 assoc map fst snd tkey_eqb];
  repeat (match goal with |- context [N.eqb n ?k] => destruct (N.eqb n k); [intros H; inversion H; subst; (left; reflexivity) || (right; cbn; lia)|] end);
  intros H; inversion H; subst; left; reflexivity.
Qed.

Lemma octets_like_def v content ic : enc_octets_like def_opts v = Ok (content, ic) -> ic = false.
Proof.
  unfold enc_octets_like. destruct (octets_of v); [|discriminate].
  cbn [o_chunk def_opts N.eqb orb]. intros H. inversion H. reflexivity.
Qed.

Lemma bits_def bs content ic : enc_bits def_opts bs = Ok (content, ic) -> ic = false.
Proof. unfold enc_bits. cbn [o_chunk def_opts N.eqb orb]. intros H. inversion H. reflexivity. Qed.

(* unsegmented mode: the contents of every simple type are written in the primitive form *)
Lemma prim_content_primitive : forall ce T ec fl v content ic,
  enc_ok ce -> prim_base T = true -> concrete_encoder ce T = Ok (ec, fl) ->
  enc_content ce T ec fl def_opts v = Ok (content, ic) -> ic = false.
Proof.
  intros ce T ec fl v content ic Hce Hp Hcc Hc.
  rewrite enc_content_base in Hc. rewrite concrete_encoder_base in Hcc. unfold prim_base in Hp.
  destruct (base_of T) eqn:Hb; try discriminate Hp; cbn [enc_content] in Hc.
  - destruct v; try discriminate Hc; destruct ec; try discriminate Hc; inversion Hc; reflexivity.
  - destruct v; try discriminate Hc; destruct ec; try discriminate Hc; inversion Hc; reflexivity.
  - destruct v; try discriminate Hc; destruct ec; try discriminate Hc; inversion Hc; reflexivity.
  - destruct v; try discriminate Hc; destruct ec; try discriminate Hc.
    + exact (bits_def _ _ _ Hc).
    + cbn [o_chunk def_opts N.ltb N.compare] in Hc. exact (bits_def _ _ _ Hc).
  - destruct ec; try discriminate Hc. exact (octets_like_def _ _ _ Hc).
  - destruct v; try discriminate Hc; destruct ec; try discriminate Hc; inversion Hc; reflexivity.
  - destruct v; try discriminate Hc; destruct ec; try discriminate Hc.
    destruct (enc_oid arcs); cbn [bind] in Hc; [|discriminate]. inversion Hc; reflexivity.
  - destruct v; try discriminate Hc; destruct ec; try discriminate Hc;
      (destruct (enc_real r); cbn [bind] in Hc; [|discriminate]; inversion Hc; reflexivity).
  - destruct (str_encoder ce n ec fl Hce Hcc) as [-> | Hmax].
    + exact (octets_like_def _ _ _ Hc).
    + destruct ec; try discriminate Hc; try exact (octets_like_def _ _ _ Hc);
        (destruct (octets_of v) as [bo|] eqn:Eo; [|discriminate]);
        (destruct (time_guard fl bo) as [[]|] eqn:Etg; cbn [bind] in Hc; [|discriminate]);
        pose proof (time_guard_len _ _ Etg) as Hl;
        unfold enc_octets_like in Hc; rewrite Eo in Hc; cbn [o_chunk] in Hc;
        (destruct (Nat.leb_spec (length bo) (N.to_nat 1000)) as [_|Hbad]; [|lia]);
        rewrite Bool.orb_true_r in Hc; inversion Hc; reflexivity.
Qed.

(* EVERY value of a simple type that the BER/DER encoder accepts in definite, unsegmented mode comes
   out as one primitive TLV inside one constructed non-universal TLV per surviving EXPLICIT tag *)
Lemma prim_encoding_shape : forall ce T v b,
  enc_ok ce -> wf_tags T = true -> prim_base T = true -> encode ce true 0 T v = Ok b ->
  exists t0 r si content s0,
    tagset_of' T = t0 :: r /\ tcon t0 = false /\ Forall explicit_like r
    /\ frame_one t0 false true si content = Ok s0 /\ frame_outer r false true si s0 = Ok b.
Proof.
  intros ce T v b Hce Hw Hp He.
  assert (Hdef: def_codec ce) by (destruct Hce as [-> | ->]; reflexivity).
  destruct (tagset_prim_shape T Hp Hw) as (t0 & r & Hts & Hc0 & Hex & _).
  unfold def_codec in Hdef. unfold encode, enc, enc_with in He. change (mkOpts true 0 false) with def_opts in He. rewrite Hdef in He.
  destruct (concrete_encoder ce T) as [[ec fl]|] eqn:Hcc; cbn [bind] in He; [|discriminate].
  rewrite Hts in He. cbn [bind] in He. change (mkOpts (o_def def_opts) (o_chunk def_opts) false) with def_opts in He.
  destruct (enc_content ce T ec fl def_opts v) as [[content ic]|] eqn:Hcont; cbn [bind] in He; [|discriminate].
  pose proof (prim_content_primitive ce T ec fl v content ic Hce Hp Hcc Hcont) as ->.
  cbn [frame] in He. rewrite Bool.andb_false_r in He. cbn [andb o_def def_opts] in He.
  destruct (frame_one t0 false true (ef_indef fl) content) as [s0|e] eqn:E0; cbn [bind] in He; [|discriminate].
  exists t0, r, (ef_indef fl), content, s0.
  rewrite (tagset_of'_ok T _ Hts). repeat split; assumption.
Qed.

Lemma prim_plain_map T' : prim_base T' = true -> plain_map T'.
Proof. intros Hp. apply plain_map_tagged. destruct T'; try exact I; discriminate Hp. Qed.

(* General form: EVERY value of T the encoder accepts (no side condition on the value), and a guiding
   type T' that is ANY type but an untagged CHOICE/ANY (its own tags need not even be well-formed).
   Either no suffix of the encoded tag set equals the guiding one, or the two differ and the guiding
   type's value decoder refuses the constructed form. *)
Theorem tag_mismatch_rejected_general : forall ce cd T T' v b tl,
  enc_ok ce -> wf_tags T = true -> prim_base T = true ->
  encode ce true 0 T v = Ok b ->
  plain_map T' ->
  tagset_eqb (tagset_of' T) (tagset_of' T') = false ->
  tags_differ (tagset_of' T) (tagset_of' T') = true \/ rejects_constructed cd T' = true ->
  decode cd (Some T') (b ++ tl) = Err EMalformed.
Proof.
  intros ce cd T T' v b tl Hce Hw Hp He Hpm Hne Hcond.
  destruct (prim_encoding_shape ce T v b Hce Hw Hp He) as (t0 & r & si & content & s0 & Hts & Hc0 & Hex & H0 & Hfr).
  rewrite Hts in *.
  apply (framed_mismatch_rejected cd T' t0 r si content s0 b tl H0 Hfr Hc0 Hex Hpm Hne).
  destruct Hcond as [Hd|Hrc]; [left|right; exact Hrc].
  unfold tags_differ in Hd. cbn [suffix_free] in Hd. apply Bool.andb_true_iff in Hd. exact (proj2 Hd).
Qed.

(* The statement of the property: the encoding of a stage-1 value of T is refused, with an error of
   the library's own hierarchy, by every decoder guided by a simple type T' whose tag set differs. *)
Theorem tag_mismatch_rejected_stage1 : forall ce cd T T' v b tl,
  enc_ok ce -> wf_tags T = true -> wf_tags T' = true -> prim_base T = true -> prim_base T' = true ->
  stage1_val ce cd T v = true -> encode ce true 0 T v = Ok b -> N.of_nat (length b) <= index_max ->
  tags_differ (tagset_of' T) (tagset_of' T') = true ->
  exists e, decode cd (Some T') (b ++ tl) = Err e /\ is_library e = true.
Proof.
  intros ce cd T T' v b tl Hce Hw _ Hp Hp' Hs He _ Hd.
  exists EMalformed. split; [|reflexivity].
  apply (tag_mismatch_rejected_general ce cd T T' v b tl Hce Hw Hp He (prim_plain_map T' Hp')); [|left; exact Hd].
  apply tags_differ_neq; [|exact Hd].
  destruct (tagset_prim_shape T Hp Hw) as (t0 & r & Hts & _). rewrite (tagset_of'_ok T _ Hts). discriminate.
Qed.

(* Any difference at all between the tag sets is enough when the guiding type is BOOLEAN, INTEGER,
   ENUMERATED, NULL, OBJECT IDENTIFIER or REAL (tagged in any way) ... *)
Theorem tag_mismatch_rejected_scalar : forall ce cd T T' v b tl,
  enc_ok ce -> wf_tags T = true -> prim_base T = true -> scalar_base T' = true ->
  encode ce true 0 T v = Ok b ->
  tagset_eqb (tagset_of' T) (tagset_of' T') = false ->
  decode cd (Some T') (b ++ tl) = Err EMalformed.
Proof.
  intros ce cd T T' v b tl Hce Hw Hp Hsc He Hne.
  apply (tag_mismatch_rejected_general ce cd T T' v b tl Hce Hw Hp He); [|exact Hne|right; apply scalar_rejects_constructed; exact Hsc].
  apply plain_map_tagged. unfold scalar_base in Hsc. destruct T'; try exact I; discriminate Hsc.
Qed.

(* ... and for every simple guiding type when the decoder is DER's *)
Theorem tag_mismatch_rejected_der : forall ce T T' v b tl,
  enc_ok ce -> wf_tags T = true -> prim_base T = true -> prim_base T' = true ->
  encode ce true 0 T v = Ok b ->
  tagset_eqb (tagset_of' T) (tagset_of' T') = false ->
  decode DER (Some T') (b ++ tl) = Err EMalformed.
Proof.
  intros ce T T' v b tl Hce Hw Hp Hp' He Hne.
  apply (tag_mismatch_rejected_general ce DER T T' v b tl Hce Hw Hp He (prim_plain_map T' Hp') Hne).
  right. apply der_rejects_constructed. exact Hp'.
Qed.

Definition ex_T  : ty := TExp (mkTag Ctx false 0) (TImp (mkTag Appl false 3) TInt).
Definition ex_T1 : ty := TExp (mkTag Ctx false 0) (TImp (mkTag Appl false 4) TInt).   (* same depth, inner number differs *)
Definition ex_T2 : ty := TExp (mkTag Priv false 0) (TImp (mkTag Appl false 3) TInt).  (* same depth, outer class differs *)
Definition ex_T3 : ty := TImp (mkTag Ctx false 1) TOcts.                              (* fewer tags *)
Definition ex_T4 : ty := TExp (mkTag Ctx false 2) ex_T.                               (* more tags *)
Definition ex_b  : bytes := [160; 4; 67; 2; 1; 44].

(* the hypotheses of [tag_mismatch_rejected_stage1] hold together, for four kinds of difference *)
Example tag_mismatch_hypotheses_satisfiable :
  enc_ok BER /\ wf_tags ex_T = true /\ prim_base ex_T = true
  /\ stage1_val BER BER ex_T (VInt 300) = true /\ encode BER true 0 ex_T (VInt 300) = Ok ex_b
  /\ N.of_nat (length ex_b) <= index_max
  /\ Forall (fun T' => wf_tags T' = true /\ prim_base T' = true
                       /\ tags_differ (tagset_of' ex_T) (tagset_of' T') = true) [ex_T1; ex_T2; ex_T3; ex_T4].
Proof.
  split; [left; reflexivity|]. repeat (split; [vm_compute; reflexivity|]).
  split; [vm_compute; discriminate|].
  repeat (constructor; [vm_compute; repeat split; reflexivity|]). constructor.
Qed.

(* and its conclusion on them, obtained from the theorem *)
Example tag_mismatch_rejected_example :
  Forall (fun T' => forall cd, exists e, decode cd (Some T') (ex_b ++ [1; 2]) = Err e /\ is_library e = true)
         [ex_T1; ex_T2; ex_T3; ex_T4].
Proof.
  destruct tag_mismatch_hypotheses_satisfiable as (Hce & Hw & Hp & _ & He & Hmax & Hall).
  eapply Forall_impl; [|exact Hall]. cbv beta. intros T' (Hw' & Hp' & Hd) cd.
  apply (tag_mismatch_rejected_stage1 BER cd ex_T T' (VInt 300) ex_b [1; 2] Hce Hw Hw' Hp Hp'); assumption.
Qed.

(* the same by evaluation of the model, and the matching type is accepted *)
Example tag_mismatch_rejected_computed :
  decode BER (Some ex_T1) (ex_b ++ [1; 2]) = Err EMalformed
  /\ decode CER (Some ex_T3) (ex_b ++ [1; 2]) = Err EMalformed
  /\ decode BER (Some ex_T) (ex_b ++ [1; 2]) = Ok (DV ex_T (VInt 300), [1; 2]).
Proof. vm_compute. repeat split. Qed.

(* [0] EXPLICIT OCTET STRING written, [0] IMPLICIT OCTET STRING expected: the tag sets differ
   ([UNIVERSAL 4; CONTEXT 0] against [CONTEXT 0]) but the outer tag alone is the guiding tag set, and
   A0 04 04 02 07 08 is also the constructed form of the latter with one segment.  The BER and CER
   decoders accept; the DER decoder (no constructed strings) refuses. *)
Definition wit_T  : ty := TExp (mkTag Ctx false 0) TOcts.
Definition wit_T' : ty := TImp (mkTag Ctx false 0) TOcts.

Example premature_match_accepted :
  wf_tags wit_T = true /\ wf_tags wit_T' = true /\ prim_base wit_T = true /\ prim_base wit_T' = true
  /\ stage1_val BER BER wit_T (VOcts [7; 8]) = true
  /\ encode BER true 0 wit_T (VOcts [7; 8]) = Ok [160; 4; 4; 2; 7; 8]
  /\ tagset_eqb (tagset_of' wit_T) (tagset_of' wit_T') = false
  /\ tags_differ (tagset_of' wit_T) (tagset_of' wit_T') = false
  /\ decode BER (Some wit_T') [160; 4; 4; 2; 7; 8] = Ok (DV wit_T' (VOcts [7; 8]), [])
  /\ decode CER (Some wit_T') [160; 4; 4; 2; 7; 8] = Ok (DV wit_T' (VOcts [7; 8]), [])
  /\ decode DER (Some wit_T') [160; 4; 4; 2; 7; 8] = Err EMalformed.
Proof. vm_compute. repeat split. Qed.

(* two EXPLICIT tags written, the outer one expected as an IMPLICIT OCTET STRING tag: the inner TLV
   A1 04 04 02 07 08 is not an OCTET STRING segment, yet the segment collector takes the contents of
   its explicit-looking wrapper as they are: accepted with the value 04 02 07 08 *)
Definition wit_T2 : ty := TExp (mkTag Ctx false 0) (TExp (mkTag Ctx false 1) TOcts).

Example premature_match_accepted_nested :
  stage1_val BER BER wit_T2 (VOcts [7; 8]) = true
  /\ encode BER true 0 wit_T2 (VOcts [7; 8]) = Ok [160; 6; 161; 4; 4; 2; 7; 8]
  /\ tagset_eqb (tagset_of' wit_T2) (tagset_of' wit_T') = false
  /\ tags_differ (tagset_of' wit_T2) (tagset_of' wit_T') = false
  /\ decode BER (Some wit_T') [160; 6; 161; 4; 4; 2; 7; 8] = Ok (DV wit_T' (VOcts [4; 2; 7; 8]), [])
  /\ decode CER (Some wit_T') [160; 6; 161; 4; 4; 2; 7; 8] = Ok (DV wit_T' (VOcts [4; 2; 7; 8]), [])
  /\ decode DER (Some wit_T') [160; 6; 161; 4; 4; 2; 7; 8] = Err EMalformed.
Proof. vm_compute. repeat split. Qed.

(* the same with BIT STRING *)
Example premature_match_accepted_bits :
  encode BER true 0 (TExp (mkTag Ctx false 0) TBits) (VBits [true; false]) = Ok [160; 4; 3; 2; 6; 128]
  /\ tags_differ (tagset_of' (TExp (mkTag Ctx false 0) TBits)) (tagset_of' (TImp (mkTag Ctx false 0) TBits)) = false
  /\ decode BER (Some (TImp (mkTag Ctx false 0) TBits)) [160; 4; 3; 2; 6; 128]
     = Ok (DV (TImp (mkTag Ctx false 0) TBits) (VBits [true; false]), []).
Proof. vm_compute. repeat split. Qed.

(* with a scalar guiding type the same shape of difference is refused: [tag_mismatch_rejected_scalar]
   applies where [tags_differ] is false *)
Example scalar_premature_match_rejected :
  tags_differ (tagset_of' (TExp (mkTag Ctx false 0) TInt)) (tagset_of' (TImp (mkTag Ctx false 0) TInt)) = false
  /\ forall cd tl, decode cd (Some (TImp (mkTag Ctx false 0) TInt)) ([160; 3; 2; 1; 5] ++ tl) = Err EMalformed.
Proof.
  split; [vm_compute; reflexivity|]. intros cd tl.
  apply (tag_mismatch_rejected_scalar BER cd (TExp (mkTag Ctx false 0) TInt) (TImp (mkTag Ctx false 0) TInt) (VInt 5));
    try (vm_compute; reflexivity). left; reflexivity.
Qed.

Example der_premature_match_rejected :
  forall tl, decode DER (Some wit_T') ([160; 4; 4; 2; 7; 8] ++ tl) = Err EMalformed.
Proof.
  intros tl. apply (tag_mismatch_rejected_der BER wit_T wit_T' (VOcts [7; 8])); try (vm_compute; reflexivity).
  left; reflexivity.
Qed.

(* the general form needs no side condition on the value: BOOLEAN TRUE as BER writes it (01) is outside
   stage 1 for the DER decoder, and still refused under a different tag *)
Example rejected_outside_stage1 :
  stage1_val BER DER (TExp (mkTag Ctx false 0) TBool) (VBool true) = false
  /\ forall tl, decode DER (Some (TExp (mkTag Ctx false 1) TBool)) ([160; 3; 1; 1; 1] ++ tl) = Err EMalformed.
Proof.
  split; [vm_compute; reflexivity|]. intros tl.
  apply (tag_mismatch_rejected_general BER DER (TExp (mkTag Ctx false 0) TBool) (TExp (mkTag Ctx false 1) TBool) (VBool true));
    try (vm_compute; reflexivity); [left; reflexivity|left; vm_compute; reflexivity].
Qed.

Print Assumptions framed_mismatch_rejected.
Print Assumptions tag_mismatch_rejected_general.
Print Assumptions tag_mismatch_rejected_stage1.
Print Assumptions tag_mismatch_rejected_scalar.
Print Assumptions tag_mismatch_rejected_der.
Print Assumptions tag_mismatch_rejected_example.
Print Assumptions premature_match_accepted.
Print Assumptions premature_match_accepted_nested.
Print Assumptions scalar_premature_match_rejected.
Print Assumptions der_premature_match_rejected.
Print Assumptions rejected_outside_stage1.
